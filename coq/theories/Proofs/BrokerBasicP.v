(* What every proof about the broker model (Model/Broker.v) starts from: socket-keyed association lists,
   projections of the record setters, `run` as iterated `step` with its invariant principle, folds over
   (state, outputs); then the arithmetic of the forwarded Message Expiry Interval and the sized packet. *)
From Coq Require Import List NArith Bool Lia ZifyN ZifyBool.
Import ListNotations.
From GM Require Import Base.Topic Base.Msg Model.Queue Model.TopicMatch Model.Broker.
From GM Require Export Proofs.ListP.
Open Scope N_scope.

Lemma nget_nset {V} c' c (v : V) l : nget c' (nset c v l) = if c' =? c then Some v else nget c' l.
Proof.
  induction l as [|[k0 v0] r IH]; cbn [nset nget].
  - destruct (c' =? c); reflexivity.
  - destruct (N.eqb_spec c k0) as [E|E]; cbn [nget].
    + subst k0. destruct (c' =? c); reflexivity.
    + rewrite IH. destruct (N.eqb_spec c' k0) as [E1|E1]; [|reflexivity].
      subst k0. destruct (N.eqb_spec c' c) as [E2|E2]; [congruence|reflexivity].
Qed.

Lemma nget_nset_same {V} c (v : V) l : nget c (nset c v l) = Some v.
Proof. now rewrite nget_nset, N.eqb_refl. Qed.

Lemma nget_nset_other {V} c' c (v : V) l : c' <> c -> nget c' (nset c v l) = nget c' l.
Proof. intros H. rewrite nget_nset. apply N.eqb_neq in H. now rewrite H. Qed.

Lemma in_keys_nset {V} c' c (v : V) l : In c' (map fst (nset c v l)) -> c' = c \/ In c' (map fst l).
Proof.
  induction l as [|[k0 v0] r IH]; cbn [nset map fst In]; intros H.
  - destruct H as [H|[]]. now left.
  - destruct (c =? k0); cbn [map fst In] in H.
    + destruct H as [H|H]; [now left|right; now right].
    + destruct H as [H|H]; [right; now left|].
      apply IH in H as [H|H]; [now left|right; now right].
Qed.

Lemma NoDup_nset {V} c (v : V) l : NoDup (map fst l) -> NoDup (map fst (nset c v l)).
Proof.
  induction l as [|[k0 v0] r IH]; cbn [nset map fst]; intros Hnd.
  - constructor; [intros []|constructor].
  - inversion Hnd as [|x xs Hx Hnd']; subst.
    destruct (N.eqb_spec c k0) as [E|E]; cbn [map fst].
    + subst k0. now constructor.
    + constructor; [|now apply IH].
      intros Hin. apply in_keys_nset in Hin as [Hin|Hin]; [congruence|contradiction].
Qed.

Lemma nget_In {V} c (v : V) l : nget c l = Some v -> In (c, v) l.
Proof.
  induction l as [|[k0 v0] r IH]; cbn [nget In]; intros H; [discriminate|].
  destruct (N.eqb_spec c k0) as [E|E].
  - left. congruence.
  - right. now apply IH.
Qed.

Lemma nget_in_keys {V} c (v : V) l : nget c l = Some v -> In c (map fst l).
Proof. intros H. apply nget_In in H. apply in_map_iff. now exists (c, v). Qed.

Lemma In_nget {V} c (v : V) l : NoDup (map fst l) -> In (c, v) l -> nget c l = Some v.
Proof.
  induction l as [|[k0 v0] r IH]; cbn [nget map fst In]; intros Hnd Hin; [destruct Hin|].
  inversion Hnd as [|x xs Hx Hnd']; subst.
  destruct Hin as [E|Hin].
  - injection E as -> ->. now rewrite N.eqb_refl.
  - destruct (N.eqb_spec c k0) as [E|E].
    + subst k0. exfalso. apply Hx. apply in_map_iff. exists (c, v). now split.
    + now apply IH.
Qed.

Lemma nset_id {V} c (v : V) l : nget c l = Some v -> nset c v l = l.
Proof.
  induction l as [|[k0 v0] r IH]; cbn [nget nset]; [discriminate|].
  destruct (N.eqb_spec c k0) as [E|E].
  - subst k0. now intros [= ->].
  - intros H. now rewrite IH.
Qed.

Lemma nset_nset {V} c (v v' : V) l : nset c v (nset c v' l) = nset c v l.
Proof.
  induction l as [|[k0 v0] r IH]; cbn [nset].
  - now rewrite N.eqb_refl.
  - destruct (c =? k0) eqn:E; cbn [nset]; rewrite ?N.eqb_refl, ?E; [reflexivity|now rewrite IH].
Qed.

(* The fields of a state built by the record setters: `cbn` over exactly the projections and the setters,
   so that nothing else in the goal is unfolded. *)
Ltac proj :=
  cbn [b_cfg b_hooks b_now b_rt b_sessions b_online b_offline b_wills b_subs b_ret b_queues b_unacks b_conns
       b_picks b_tag b_auto b_npick upd_conn set_queues set_tables set_subs set_ret set_time set_picks_tag
       set_unacks count_pick set_auto remove_session].
Ltac proj_in H :=
  cbn [b_cfg b_hooks b_now b_rt b_sessions b_online b_offline b_wills b_subs b_ret b_queues b_unacks b_conns
       b_picks b_tag b_auto b_npick upd_conn set_queues set_tables set_subs set_ret set_time set_picks_tag
       set_unacks count_pick set_auto remove_session] in H.

Lemma upd_conn_id c k s : nget c (b_conns s) = Some k -> upd_conn c k s = s.
Proof. intros H. unfold upd_conn. rewrite (nset_id _ _ _ H). destruct s; reflexivity. Qed.

Lemma upd_conn_twice c k k' s : upd_conn c k (upd_conn c k' s) = upd_conn c k s.
Proof. unfold upd_conn. proj. now rewrite nset_nset. Qed.

Lemma run_cons s e r : fst (run s (e :: r)) = fst (run (fst (step s e)) r).
Proof. cbn [run]. destruct (step s e) as [s' o]. cbn [fst]. destruct (run s' r). reflexivity. Qed.

Lemma run_snd_cons s e r : snd (run s (e :: r)) = snd (step s e) :: snd (run (fst (step s e)) r).
Proof. cbn [run]. destruct (step s e) as [s' o]. cbn [fst snd]. destruct (run s' r). reflexivity. Qed.

Lemma run_app es es' : forall s, fst (run s (es ++ es')) = fst (run (fst (run s es)) es').
Proof. induction es as [|e r IH]; intros s; [reflexivity|]. cbn [app]. now rewrite !run_cons, IH. Qed.

Lemma run_snd_app es es' : forall s, snd (run s (es ++ es')) = snd (run s es) ++ snd (run (fst (run s es)) es').
Proof.
  induction es as [|e r IH]; intros s; [reflexivity|]. cbn [app]. now rewrite !run_snd_cons, run_cons, IH.
Qed.

(* G holds of every event of es, each at the state in which it arrives *)
Fixpoint run_all (G : st -> event -> Prop) (s : st) (es : list event) : Prop :=
  match es with [] => True | e :: r => G s e /\ run_all G (fst (step s e)) r end.

Lemma run_all_Forall (G : event -> Prop) es : forall s, Forall G es -> run_all (fun _ => G) s es.
Proof. induction es as [|e r IH]; intros s H; [exact I|]. inversion H; subst. split; [assumption|now apply IH]. Qed.

(* The induction over a run: while the events meet their side condition G, a property P of the state that every
   step keeps holds at the end, and what every step then says of its outputs (O) holds of all outputs. *)
Theorem run_guarded (G : st -> event -> Prop) (P : st -> Prop) (O : list out -> Prop) :
  (forall s e, P s -> G s e -> P (fst (step s e)) /\ O (snd (step s e))) ->
  forall es s, P s -> run_all G s es -> P (fst (run s es)) /\ Forall O (snd (run s es)).
Proof.
  intros Hstep. induction es as [|e r IH]; intros s HP HG.
  - split; [exact HP|constructor].
  - destruct HG as [He Hr]. destruct (Hstep s e HP He) as [HP1 HO]. rewrite run_cons, run_snd_cons.
    destruct (IH _ HP1 Hr) as [IH1 IH2]. split; [exact IH1|now constructor].
Qed.

Theorem run_invariant (P : st -> Prop) :
  (forall s e, P s -> P (fst (step s e))) -> forall es s, P s -> P (fst (run s es)).
Proof.
  intros Hstep es s HP.
  apply (run_guarded (fun _ _ => True) P (fun _ => True)); [split; auto|exact HP|].
  apply run_all_Forall, Forall_forall. trivial.
Qed.

(* a fold that threads a state and appends outputs keeps what every step keeps of the state *)
Lemma fold_inv {A B C} (P : B -> Prop) (f : B * C -> A -> B * C) (l : list A) :
  (forall s0 o0 x, P s0 -> P (fst (f (s0, o0) x))) ->
  forall s0 o0, P s0 -> P (fst (fold_left f l (s0, o0))).
Proof.
  intros Hf s0 o0. refine (fold_rel (fun a b => P (fst a) -> P (fst b)) f l _ _ _ (s0, o0)); auto.
  intros [s1 o1] x. apply Hf.
Qed.

Lemma remaining_bounds orig waited : 0 < orig -> 1 <= remaining orig waited <= orig.
Proof. unfold remaining. intros H. destruct (waited <? orig) eqn:E; lia. Qed.

Lemma remaining_exact orig waited : waited < orig -> remaining orig waited = orig - waited.
Proof. unfold remaining. intros H. destruct (waited <? orig) eqn:E; lia. Qed.

Lemma remaining_zero_wait orig : 0 < orig -> remaining orig 0 = orig.
Proof. intros H. rewrite remaining_exact by lia. lia. Qed.

(* what a v5 subscriber is given: never absent (0 means absent on the wire), never more than the original *)
Lemma aged_v5_bounds now e m :
  0 < m_expiry m -> 1 <= m_expiry (aged true now e m) <= m_expiry m.
Proof.
  intros H. unfold aged. cbn [andb].
  destruct (m_expiry m =? 0) eqn:E; [lia|]. cbn [negb with_expiry_val m_expiry].
  apply remaining_bounds; exact H.
Qed.

Lemma aged_v5_value now e m :
  0 < m_expiry m -> (now - e_at e) / 1000 < m_expiry m ->
  m_expiry (aged true now e m) = m_expiry m - (now - e_at e) / 1000.
Proof.
  intros H Hw. unfold aged. cbn [andb].
  destruct (m_expiry m =? 0) eqn:E; [lia|]. cbn [negb with_expiry_val m_expiry].
  apply remaining_exact; exact Hw.
Qed.

(* a message published without an interval carries none; nothing but the interval changes *)
Lemma aged_no_expiry v5 now e m : m_expiry m = 0 -> aged v5 now e m = m.
Proof. intros H. unfold aged. rewrite H. cbn. now rewrite andb_false_r. Qed.

Lemma aged_v3 now e m : aged false now e m = m.
Proof. reflexivity. Qed.

Lemma aged_payload v5 now e m : m_payload (aged v5 now e m) = m_payload m /\ m_topic (aged v5 now e m) = m_topic m /\ m_qos (aged v5 now e m) = m_qos m.
Proof. unfold aged. destruct (v5 && negb (m_expiry m =? 0)); cbn; auto. Qed.

(* not larger than the server's Maximum Packet Size (or a v3 client, or no maximum): the ordinary handler *)
Lemma handle_packet_sz_small c k p n s : too_big k n s = false -> handle_packet_sz c k p n s = handle_packet c k p s.
Proof. unfold handle_packet_sz. now intros ->. Qed.

Lemma set_quota_same k : set_quota (k_quota k) k = k.
Proof. destruct k; reflexivity. Qed.

(* the results of the too-big branch: the read loop's own errors, or 0x95 after at most a quota charge *)
Inductive sz_refused (c : N) (k : conn) (s : st) : hres -> Prop :=
| szr_read code : sz_refused c k s (HErrRead s code)
| szr_plain : sz_refused c k s (HErr s [] (Some 149))
| szr_quota q : sz_refused c k s (HErr (upd_conn c (set_quota q k) s) [] (Some 149)).

(* too big: nothing is handled.  The state is unchanged except, possibly, the sender's receive quota; no output;
   the result is an error *)
Lemma handle_packet_sz_big c k p n s : too_big k n s = true -> sz_refused c k s (handle_packet_sz c k p n s).
Proof.
  unfold handle_packet_sz. intros ->. destruct p; try apply szr_plain.
  - destruct (has_wild topic); [apply szr_read|].
    match goal with |- context [if ?b then HErrRead s (Some 148) else _] => destruct b end; [apply szr_read|].
    match goal with |- context [if ?b then HErrRead s (Some 130) else _] => destruct b end; [apply szr_read|].
    destruct ((0 <? qos) && (k_quota k =? 0)); [apply szr_read|]. cbv zeta.
    destruct (0 <? qos); [apply szr_quota|].
    replace (upd_conn c k s) with (upd_conn c (set_quota (k_quota k) k) s) by now rewrite set_quota_same.
    apply szr_quota.
  - match goal with |- context [if ?b then _ else _] => destruct b end; [apply szr_plain|apply szr_read].
Qed.

(* the step of a sized packet is the step of the packet, or the failure of a connected socket after a refusal *)
Lemma step_event_sz s c p n :
  step_event s (ESendSz c p n) = step_event s (ESend c p) \/
  exists k, nget c (b_conns s) = Some k /\ k_phase k = PhConnected /\ too_big k n s = true /\
    ((exists code, step_event s (ESendSz c p n) = fail_conn c code true s) \/
     step_event s (ESendSz c p n) = fail_conn c (Some 149) false s \/
     exists q, step_event s (ESendSz c p n) = fail_conn c (Some 149) false (upd_conn c (set_quota q k) s)).
Proof.
  cbn [step_event]. destruct (nget c (b_conns s)) as [k|] eqn:Hk; [|now left].
  destruct (k_phase k) eqn:Hp; try now left.
  destruct (too_big k n s) eqn:Hb; [|left; now rewrite handle_packet_sz_small].
  right. exists k. split; [reflexivity|]. split; [exact Hp|]. split; [exact Hb|].
  destruct (handle_packet_sz_big c k p n s Hb) as [code| |q].
  - left. now exists code.
  - right. left. now destruct (fail_conn c (Some 149) false s).
  - right. right. exists q. now destruct (fail_conn c (Some 149) false (upd_conn c (set_quota q k) s)).
Qed.

(* every statement about `ESend c p` applies to the sized packet when it is not too big for socket c *)
Lemma step_sz_small s c p n :
  (forall k, nget c (b_conns s) = Some k -> k_phase k = PhConnected -> too_big k n s = false) ->
  step_event s (ESendSz c p n) = step_event s (ESend c p) /\ step s (ESendSz c p n) = step s (ESend c p).
Proof.
  intros H.
  assert (E : step_event s (ESendSz c p n) = step_event s (ESend c p)).
  { destruct (step_event_sz s c p n) as [E|(k & Hk & Hp & Hb & _)]; [exact E|]. rewrite (H k Hk Hp) in Hb. discriminate. }
  split; [exact E|]. unfold step. now rewrite E.
Qed.
