(* What each Unpack establishes about the packet it returns (dec_inv), and ReadPacket on the bytes
   FixHeader.Pack and a packet's Pack wrote. *)
From Coq Require Import List NArith ZArith Bool Lia ZifyN ZifyNat ZifyBool Sorted.
Import ListNotations.
From GM Require Import Base.Topic Base.Msg Model.CodecBase Model.CodecProps Model.CodecPackets
  Proofs.CodecBaseP Proofs.CodecStrP Proofs.CodecTotalP Proofs.CodecSizeP Proofs.CodecPropsP Proofs.CodecPropsInvP
  Proofs.CodecRoundP.
Open Scope N_scope.

Lemma publish_flags_inv : forall f dup qos retain, publish_flags f = Ok (dup, qos, retain) ->
  qos <= 2 /\ negb ((qos =? 0) && dup) = true.
Proof.
  intros f dup qos retain H. unfold publish_flags in H. cbv zeta in H.
  destruct ((N.land (N.shiftr f 1) 3 =? 0) && bit f 3) eqn:E1; [discriminate|].
  destruct (2 <? N.land (N.shiftr f 1) 3) eqn:E2; [discriminate|].
  apply ok3_inj in H. destruct H as (<- & <- & <-). rewrite E1. split; [lia|reflexivity].
Qed.

Lemma oprops_dec : forall v ctx b,
  reads (if v =? 5 then do '(p, b') <- props_unpack ctx b; Ok (Some p, b') else Ok (None, b)) b (oprops_inv v ctx).
Proof.
  intros v ctx b pr b' H Hb. unfold oprops_inv. destruct (v =? 5).
  - apply (bind_reads (props_unpack_inv ctx b)) in H as (p & r & Hp & Hr & H); [|assumption].
    injection H as <- <-. eauto.
  - injection H as <- <-. auto.
Qed.

(* the packet identifier of a PUBLISH: present and non-zero exactly when QoS > 0 *)
Lemma publish_pid_dec : forall qos b,
  reads (if 0 <? qos then do '(i, b') <- read_uint16 b; if i =? 0 then Err PROTOCOL else Ok (i, b') else Ok (0, b)) b
        (fun pid => pid < 65536 /\ (qos = 0 -> pid = 0) /\ (qos <> 0 -> pid <> 0)).
Proof.
  intros qos b pid b' H Hb. destruct (N.ltb_spec 0 qos).
  - apply (bind_reads (read_uint16_inv b)) in H as (i & r & Hi & Hr & H); [|assumption].
    destruct (N.eqb_spec i 0); [discriminate|]. injection H as <- <-. repeat split; auto. lia.
  - injection H as <- <-. repeat split; auto; lia.
Qed.

Lemma parse_publish_inv : forall v dup qos retain b body,
  qos <= 2 -> negb ((qos =? 0) && dup) = true ->
  parse_publish v dup qos retain b = Ok body -> bytes_ok b -> dec_inv v body.
Proof.
  intros v dup qos retain b body Hq Hd H Hb. unfold parse_publish in H.
  apply (bind_reads (read_str_inv b)) in H as (topic & b1 & Ht & Hb1 & H); [|assumption].
  apply bind_ok_inv in H. destruct H as [[|] [En H]]; [|discriminate]. cbn [negb] in H.
  assert (Hname : topic = [] \/ impl_name topic = true).
  { destruct topic; [left; reflexivity|right]. apply ok_true_iff. exact En. }
  apply (bind_reads (publish_pid_dec qos b1)) in H as (pid & b2 & Hpid & Hb2 & H); [|assumption].
  apply (bind_reads (oprops_dec v PUBLISH b2)) in H as (pr & b3 & Hpr & Hb3 & H); [|assumption].
  destruct ((len topic =? 0) && _) eqn:Etok; [discriminate|]. injection H as <-.
  cbn [dec_inv]. unfold pub_topic_ok. rewrite Etok. tauto.
Qed.

Lemma ack_tail_dec : forall ctx b code pr,
  (do '(code, b) <- remap MALFORMED (read_byte b); do '(p, _) <- props_unpack ctx b; Ok (code, Some p)) = Ok (code, pr) ->
  bytes_ok b -> code < 256 /\ exists p, pr = Some p /\ props_inv ctx p.
Proof.
  intros ctx b code pr H Hb.
  apply (bind_reads (reads_remap (read_byte_inv b))) in H as (c & b1 & Hc & Hb1 & H); [|assumption].
  apply (bind_reads (props_unpack_inv ctx b1)) in H as (p & r & Hp & Hr & H); [|assumption].
  injection H as <- <-. eauto.
Qed.

Lemma parse_ack_inv : forall t v rl b body,
  (t = PUBACK \/ t = PUBREC \/ t = PUBCOMP) ->
  parse_ack t v rl b = Ok body -> bytes_ok b -> dec_inv v body.
Proof.
  intros t v rl b body Ht H Hb. unfold parse_ack in H.
  apply (bind_reads (read_uint16_inv b)) in H as (pid & b1 & Hp & Hb1 & H); [|assumption].
  destruct (rl =? 2); [injection H as <-; cbn [dec_inv]; unfold ack_inv; auto 8|].
  destruct (v =? 5) eqn:Ev.
  - apply bind_ok_inv in H. destruct H as [[[code pr] b4] [E H]].
    apply (bind_reads (reads_remap (read_byte_inv b1))) in E as (c & b2 & Hc & Hb2 & E); [|assumption].
    apply (bind_reads (props_unpack_inv t b2)) in E as (p & b3 & Hpi & Hb3 & E); [|assumption].
    injection E as <- <- <-. destruct (negb (is_empty b3)); [discriminate|]. injection H as <-.
    cbn [dec_inv]. rewrite Ev. unfold ack_inv. eauto 10.
  - cbn [bind] in H. destruct (negb (is_empty b1)); [discriminate|]. injection H as <-. cbn [dec_inv]. unfold ack_inv. auto 8.
Qed.

Lemma parse_pubrel_inv : forall v rl b body,
  parse_pubrel rl b = Ok body -> bytes_ok b -> dec_inv v body.
Proof.
  intros v rl b body H Hb. unfold parse_pubrel in H.
  apply (bind_reads (read_uint16_inv b)) in H as (pid & b1 & Hp & Hb1 & H); [|assumption].
  destruct (rl =? 2); [injection H as <-; cbn [dec_inv]; unfold ack_inv; auto|].
  apply (bind_reads (read_byte_inv b1)) in H as (c & b2 & Hc & Hb2 & H); [|assumption].
  apply (bind_reads (props_unpack_inv PUBREL b2)) in H as (p & b3 & Hpi & Hb3 & H); [|assumption].
  destruct (negb (is_empty b3)); [discriminate|]. injection H as <-. cbn [dec_inv]. unfold ack_inv. eauto 10.
Qed.

Lemma parse_connack_inv : forall v b body,
  parse_connack v b = Ok body -> bytes_ok b -> dec_inv v body.
Proof.
  intros v b body H Hb. unfold parse_connack in H.
  destruct (match b with [] => (0, []) | x :: r => (x, r) end) as [sp b1] eqn:E0.
  assert (Hb1 : bytes_ok b1).
  { destruct b; injection E0 as <- <-; [constructor|]. apply bytes_ok_cons in Hb. tauto. }
  destruct (0 <? _); [discriminate|].
  apply (bind_reads (reads_remap (read_byte_inv b1))) in H as (c & b2 & Hc & Hb2 & H); [|assumption].
  apply (bind_reads (oprops_dec v CONNACK b2)) in H as (pr & b3 & Hpr & Hb3 & H); [|assumption].
  destruct (negb (is_empty b3)); [discriminate|]. injection H as <-. cbn [dec_inv]. auto.
Qed.

Lemma parse_suback_inv : forall v b body,
  parse_suback v b = Ok body -> bytes_ok b -> dec_inv v body.
Proof.
  intros v b body H Hb. unfold parse_suback in H.
  apply (bind_reads (reads_remap (read_uint16_inv b))) in H as (pid & b1 & Hp & Hb1 & H); [|assumption].
  apply (bind_reads (oprops_dec v SUBACK b1)) in H as (pr & b3 & Hpr & Hb3 & H); [|assumption].
  destruct b3 as [|c cs]; [discriminate|]. injection H as <-. cbn [dec_inv]. repeat split; auto. discriminate.
Qed.

Lemma parse_unsuback_inv : forall v b body,
  parse_unsuback v b = Ok body -> bytes_ok b -> dec_inv v body.
Proof.
  intros v b body H Hb. unfold parse_unsuback in H.
  apply (bind_reads (read_uint16_inv b)) in H as (pid & b1 & Hp & Hb1 & H); [|assumption].
  destruct (is_v3x v) eqn:Ev.
  { destruct (negb (is_empty b1)); [discriminate|]. injection H as <-. cbn [dec_inv]. rewrite Ev. auto. }
  apply (bind_reads (props_unpack_inv UNSUBACK b1)) in H as (p & r & Hpi & Hr & H); [|assumption].
  destruct r as [|c cs]; [discriminate|]. injection H as <-. cbn [dec_inv]. rewrite Ev.
  repeat split; eauto. discriminate.
Qed.

Lemma parse_disconnect_inv : forall v rl b body,
  parse_disconnect v rl b = Ok body -> bytes_ok b -> dec_inv v body.
Proof.
  intros v rl b body H Hb. unfold parse_disconnect in H.
  destruct (v =? 5) eqn:Ev.
  - destruct (rl =? 0).
    { injection H as <-. cbn [dec_inv]. rewrite Ev. repeat split. eauto using props_inv_empty. }
    apply (bind_reads (reads_remap (read_byte_inv b))) in H as (c & b2 & Hc & Hb2 & H); [|assumption].
    apply (bind_reads (props_unpack_inv DISCONNECT b2)) in H as (p & r & Hpi & Hr & H); [|assumption].
    destruct (negb (is_empty r)); [discriminate|]. injection H as <-. cbn [dec_inv]. rewrite Ev. eauto.
  - destruct (negb (rl =? 0)); [discriminate|]. injection H as <-. cbn [dec_inv]. rewrite Ev. auto.
Qed.

Lemma parse_auth_inv : forall v b body,
  parse_auth b = Ok body -> bytes_ok b -> dec_inv v body.
Proof.
  intros v b body H Hb. unfold parse_auth in H.
  apply (bind_reads (reads_remap (read_byte_inv b))) in H as (c & b2 & Hc & Hb2 & H); [|assumption].
  apply (bind_reads (props_unpack_inv AUTH b2)) in H as (p & r & Hpi & Hr & H); [|assumption].
  destruct (negb (is_empty r)); [discriminate|]. injection H as <-. cbn [dec_inv]. unfold ack_inv. eauto 10.
Qed.

(* the packet types covered by dec_inv *)
Definition simple_body (b : body) : bool :=
  match b with BConnect _ | BSubscribe _ _ _ _ | BUnsubscribe _ _ _ _ => false | _ => true end.

Lemma eqb_cases : forall t, t < 16 ->
  t = 0 \/ t = CONNECT \/ t = CONNACK \/ t = PUBLISH \/ t = PUBACK \/ t = PUBREC \/ t = PUBREL \/ t = PUBCOMP
  \/ t = SUBSCRIBE \/ t = SUBACK \/ t = UNSUBSCRIBE \/ t = UNSUBACK \/ t = PINGREQ \/ t = PINGRESP
  \/ t = DISCONNECT \/ t = AUTH.
Proof. intros. unfold CONNECT, CONNACK, PUBLISH, PUBACK, PUBREC, PUBREL, PUBCOMP, SUBSCRIBE, SUBACK, UNSUBSCRIBE, UNSUBACK, PINGREQ, PINGRESP, DISCONNECT, AUTH. lia. Qed.

Lemma pack_fixhdr_len' : forall fh l, pack_fixhdr fh = Ok l -> fh_rl fh < BIG.
Proof. intros fh l H. exact (proj1 (pack_fixhdr_len fh l H)). Qed.

Lemma takeN_all : forall (l : list N), takeN (len l) l = l.
Proof. intros. rewrite <- (app_nil_r l) at 2. apply takeN_app_exact. Qed.
Lemma dropN_all : forall (l : list N), dropN (len l) l = [].
Proof. intros. rewrite <- (app_nil_r l) at 2. apply dropN_app_exact. Qed.

Lemma read_packet_packed : forall v t fl bytes body h,
  t < 16 -> fl < 16 -> len bytes < BIG ->
  let fh := {| fh_type := t; fh_flags := fl; fh_rl := len bytes |} in
  (precheck fh = Ok PreBody /\ parse_body v fh bytes = Ok body) \/ (precheck fh = Ok (PreNoBody body) /\ bytes = []) ->
  pack_fixhdr fh = Ok h ->
  exists p', read_packet v (h ++ bytes) = Ok (p', []) /\ p_body p' = body.
Proof.
  intros v t fl bytes body h Ht Hf Hlen fh Hcase Hh.
  unfold pack_fixhdr in Hh. cbn [fh_rl fh_type fh_flags fh] in Hh. unfold BIG in Hlen.
  rewrite encode_varint_bytes in Hh by assumption. cbn [bind] in Hh. injection Hh as <-.
  destruct (hdr_byte t fl Ht Hf) as [H1 H2].
  unfold read_packet, read_packet_full. cbn [app].
  rewrite varint_roundtrip by assumption. rewrite H1, H2. fold fh.
  destruct Hcase as [[Hp Hb]|[Hp ->]]; rewrite Hp.
  - rewrite shorter_spec. replace (len bytes <? len bytes) with false by lia.
    unfold buf_next. rewrite takeN_all, dropN_all. cbn [fst]. rewrite Hb. cbn [bind].
    eexists. split; reflexivity.
  - cbn [fst]. eexists. split; reflexivity.
Qed.

(* the body of an accepted packet comes from parse_body on well-formed bytes, or from no bytes at all *)
Lemma read_packet_body : forall v bs p rest,
  read_packet v bs = Ok (p, rest) -> bytes_ok bs ->
  (exists fh b, parse_body v fh b = Ok (p_body p) /\ bytes_ok b)
  \/ p_body p = BPingreq \/ p_body p = BPingresp \/ p_body p = BAuth 0 None.
Proof.
  intros v bs p rest H Hb. unfold read_packet, read_packet_full in H.
  destruct bs as [|first r]; [discriminate|]. apply bytes_ok_cons in Hb. destruct Hb as [_ Hb].
  destruct (read_varint r) as [[rl r1]| | |] eqn:Ev; try discriminate.
  destruct (read_varint_inv _ _ _ Ev Hb) as [_ Hr1].
  destruct (precheck _) as [[|b]| | |] eqn:Ep; try discriminate.
  - destruct (shorter r1 rl); [discriminate|]. unfold buf_next in H. cbn [fst] in H.
    apply bind_ok_inv in H. destruct H as [b [Eb H]]. injection H as <- <-.
    left. eexists. eexists. split; [exact Eb|]. auto with cbytes.
  - cbn [fst] in H. injection H as <- <-. right. apply (precheck_nobody _ _ Ep).
Qed.
