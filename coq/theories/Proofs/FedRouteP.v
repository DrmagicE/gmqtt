(* Proofs about the federation routing model (Model/FedRoute.v). *)
From Coq Require Import List NArith Bool Arith Lia ZifyN ZifyNat ZifyBool Permutation.
Import ListNotations.
From GM Require Import Base.Topic Base.Msg Model.SubTrie Model.SubSpec Model.RetTrie Model.FedQueue Model.FedRoute
  Oracle.C02O Proofs.TopicP Proofs.ListP Proofs.SubTrieP Proofs.RetTrieP.
Open Scope N_scope.

Lemma ents_some l : ents (IOk (some_ents l)) = l.
Proof.
  unfold ents, some_ents. induction l as [|[c s] r IH]; cbn [map flat_map snd fst app]; [reflexivity|].
  now rewrite IH.
Qed.

Lemma some_ents_app a b : some_ents (a ++ b) = some_ents a ++ some_ents b.
Proof. unfold some_ents. apply map_app. Qed.

(* a lookup that includes the shared type returns the shared entries, then what the lookup
   with the other types returns *)
Lemma db_iterate_all_split sys ns c t mt d l1 l2 :
  db_iterate {| io_sys := false; io_shared := true; io_nonshared := false; io_client := c; io_topic := t; io_mt := mt |} d = IOk l1 ->
  db_iterate {| io_sys := sys; io_shared := false; io_nonshared := ns; io_client := c; io_topic := t; io_mt := mt |} d = IOk l2 ->
  db_iterate {| io_sys := sys; io_shared := true; io_nonshared := ns; io_client := c; io_topic := t; io_mt := mt |} d = IOk (l1 ++ l2).
Proof.
  unfold db_iterate. cbn [io_sys io_shared io_nonshared io_topic andb]. intros H1 H2.
  set (sh := iterate_shared _ _ _) in H1. change (iterate_shared _ (sharedI d) (sharedT d)) with sh.
  destruct sh as [l|]; [|discriminate]. injection H1 as <-. injection H2 as <-. now rewrite !app_nil_r.
Qed.

(* TypeAll = shared part ++ plain part, each exactly the stored matching subscriptions *)
Lemma lookup_all_exact ops t :
  wf_ops ops = true -> t <> [] -> no_wild_levels (split t) = true ->
  exists lsh lpl,
    ents (db_iterate (q_match true true true t) (db_run ops)) = lsh ++ lpl /\
    ents (db_iterate (q_match false true false t) (db_run ops)) = lsh /\
    ents (db_iterate (q_match true false true t) (db_run ops)) = lpl /\
    NoDup lsh /\ NoDup lpl /\
    (forall c s, In (c, s) lsh <->
       (s_share s <> [] /\ sp_get (c, s_share s, s_filter s) (spec_run ops) = Some s /\
        topic_match t (s_filter s) = true)) /\
    (forall c s, In (c, s) lpl <->
       (s_share s = [] /\ sp_get (c, [], s_filter s) (spec_run ops) = Some s /\ topic_match t (s_filter s) = true)).
Proof.
  intros Hwf Ht Hnw.
  destruct (sh_lookup_topic_exact ops t [] Hwf Ht Hnw) as (lsh & Hsh & Hnd1 & Hin1).
  destruct (lookup_topic_exact ops t [] Hwf Ht Hnw) as (lpl & Hpl & Hnd2 & Hin2).
  exists lsh, lpl. unfold q_match. rewrite (db_iterate_all_split _ _ _ _ _ _ _ _ Hsh Hpl).
  fold (q_sh_topic t []) (q_topic t []). rewrite Hsh, Hpl, <- some_ents_app, !ents_some.
  split; [reflexivity|]. split; [reflexivity|]. split; [reflexivity|]. split; [exact Hnd1|]. split; [exact Hnd2|].
  split.
  - intros c s. rewrite Hin1. unfold want_client. tauto.
  - intros c s. rewrite Hin2. unfold want_client. split.
    + intros (Hg & Hm & _). split; [|now split].
      pose proof (inv_ok _ _ (Inv_run ops Hwf)) as Hok. now destruct (sp_get_good _ _ _ _ _ Hok Hg).
    + intros (_ & Hg & Hm). split; [exact Hg|]. split; [exact Hm|now left].
Qed.

Section Lookup.
  Variables (ops : list op) (t : str).
  Hypothesis Hwf : wf_ops ops = true.
  Hypothesis Ht : t <> [].
  Hypothesis Hnw : no_wild_levels (split t) = true.

  Lemma lookup_shared_in c s :
    In (c, s) (ents (db_iterate (q_match false true false t) (db_run ops))) <->
    s_share s <> [] /\ sp_get (c, s_share s, s_filter s) (spec_run ops) = Some s /\ topic_match t (s_filter s) = true.
  Proof. destruct (lookup_all_exact ops t Hwf Ht Hnw) as (lsh & lpl & _ & -> & _ & _ & _ & H & _). apply H. Qed.

  Lemma lookup_plain_in c s :
    In (c, s) (ents (db_iterate (q_match true false true t) (db_run ops))) <->
    s_share s = [] /\ sp_get (c, [], s_filter s) (spec_run ops) = Some s /\ topic_match t (s_filter s) = true.
  Proof. destruct (lookup_all_exact ops t Hwf Ht Hnw) as (lsh & lpl & _ & _ & -> & _ & _ & _ & H). apply H. Qed.

  Lemma lookup_all_in c s :
    In (c, s) (ents (db_iterate (q_match true true true t) (db_run ops))) <->
    sp_get (c, s_share s, s_filter s) (spec_run ops) = Some s /\ topic_match t (s_filter s) = true.
  Proof.
    destruct (lookup_all_exact ops t Hwf Ht Hnw) as (lsh & lpl & -> & _ & _ & _ & _ & Hsh & Hpl).
    rewrite in_app_iff, Hsh, Hpl. split.
    - intros [(_ & H)|(E & H)]; [exact H|now rewrite E].
    - intros H. destruct (s_share s) eqn:E; [right; now split|left]. split; [discriminate|exact H].
  Qed.
End Lookup.

Lemma ins_str_perm y l : Permutation (ins_str y l) (y :: l).
Proof.
  induction l as [|z r IH]; cbn [ins_str]; [reflexivity|]. destruct (str_leb y z); [reflexivity|].
  rewrite IH. apply perm_swap.
Qed.

Lemma sort_strs_perm l : Permutation (sort_strs l) l.
Proof. unfold sort_strs. induction l as [|y r IH]; cbn [fold_right]; [reflexivity|]. now rewrite ins_str_perm, IH. Qed.

Lemma nth_mod_in (l : list str) (c : N) : l <> [] -> In (nth (N.to_nat (c mod N.of_nat (length l))) l []) l.
Proof.
  intros Hne. apply nth_In. destruct l as [|x r]; [congruence|].
  assert (N.of_nat (length (x :: r)) <> 0) by (cbn [length]; lia).
  pose proof (N.mod_lt c _ H). lia.
Qed.

Lemma in_add_set x y l : In x (add_set y l) <-> y = x \/ In x l.
Proof.
  unfold add_set. destruct (mem_str y l) eqn:Hm.
  - apply mem_str_In in Hm. split; [now right|]. intros [<-|H]; assumption.
  - rewrite in_app_iff. cbn [In]. tauto.
Qed.

Lemma NoDup_add_set y l : NoDup l -> NoDup (add_set y l).
Proof.
  intros H. unfold add_set. destruct (mem_str y l) eqn:Hm; [exact H|].
  apply NoDup_snoc; [exact H|]. intros Hx. apply mem_str_In in Hx. congruence.
Qed.

Lemma fold_left_reach {A B} (P : A -> Prop) (f : A -> B -> A) l b :
  In b l -> (forall a, P (f a b)) -> (forall a b', P a -> P (f a b')) -> forall a, P (fold_left f l a).
Proof.
  intros Hb H1 H2. induction l as [|b' r IH]; intros a; [destruct Hb|]. cbn [fold_left].
  destruct Hb as [->|Hb]; [|now apply IH]. apply fold_left_inv; [exact H2|apply H1].
Qed.

Lemma aget_push n n' e ps :
  aget n (push_event n' e ps) =
  if str_eqb n n' then option_map (fun q => q ++ [e]) (aget n ps) else aget n ps.
Proof.
  unfold push_event. destruct (str_eqb_spec n n') as [->|Hne].
  - destruct (aget n' ps) as [q|] eqn:Hq; [|now rewrite Hq]. now rewrite aget_aset_same.
  - destruct (aget n' ps) as [q|]; [|reflexivity]. now apply aget_aset_other.
Qed.

(* the sources of sharedList: the local node once per matching local shared subscription,
   and the nodes that hold a matching shared entry in the federation tree *)
Definition LEs (st : rstate) (t : str) := ents (db_iterate (q_match false true false t) (r_local st)).
Definition FEs (st : rstate) (t : str) := ents (db_iterate (q_match true true true t) (r_fed st)).

Definition src_ok (st : rstate) (t k x : str) : Prop :=
  (x = r_node st /\ exists cl s, In (cl, s) (LEs st t) /\ sub_full s = k) \/
  (exists s, In (x, s) (FEs st t) /\ is_empty (s_share s) = false /\ sub_full s = k).

Definition list_ok (st : rstate) (t : str) (l : list (str * list str)) : Prop :=
  NoDup (map fst l) /\ forall k v, In (k, v) l -> v <> [] /\ forall x, In x v -> src_ok st t k x.

Lemma list_ok_append st t k x l : list_ok st t l -> src_ok st t k x -> list_ok st t (al_append k x l).
Proof.
  intros [Hnd Hok] Hx. split; [unfold al_append; now apply NoDup_aset|].
  intros k' v' Hin. unfold al_append in Hin. apply in_aset in Hin as [E|Hin]; [|now apply Hok].
  injection E as -> ->. split; [destruct (aget k l); intros H; now apply app_eq_nil in H as [_ H]|].
  intros y Hy. apply in_app_or in Hy as [Hy|[<-|[]]]; [|exact Hx].
  destruct (aget k l) as [vs|] eqn:Hg; [|destruct Hy]. apply aget_In in Hg. now apply (Hok k vs Hg).
Qed.

Lemma shared_list_spec st t : list_ok st t (fr_shared_list st t).
Proof.
  unfold fr_shared_list. fold (LEs st t) (FEs st t). apply fold_left_In_inv; [|apply fold_left_In_inv].
  - intros acc [n s] Hin Hacc. cbn [fst snd]. destruct (is_empty (s_share s)) eqn:He; [exact Hacc|].
    apply list_ok_append; [exact Hacc|]. right. now exists s.
  - intros acc [cl s] Hin Hacc. apply list_ok_append; [exact Hacc|]. left. split; [reflexivity|]. now exists cl, s.
  - split; [constructor|intros k v []].
Qed.

(* ... and every source is listed *)
Lemma shared_list_complete st t k x : src_ok st t k x -> exists v, aget k (fr_shared_list st t) = Some v /\ In x v.
Proof.
  set (P := fun l : list (str * list str) => exists v, aget k l = Some v /\ In x v).
  assert (Hadd : forall l, P (al_append k x l)).
  { intros l. unfold P, al_append. rewrite aget_aset_same. eexists. split; [reflexivity|]. apply in_or_app. right. now left. }
  assert (Hkeep : forall k' x' l, P l -> P (al_append k' x' l)).
  { intros k' x' l (v & Hg & Hx). unfold P, al_append. destruct (str_eqb_spec k k') as [<-|Hne]; [|rewrite aget_aset_other by exact Hne; now exists v].
    rewrite aget_aset_same, Hg. eexists. split; [reflexivity|]. apply in_or_app. now left. }
  assert (Hfed : forall a (b : cid * sub), P a -> P (if is_empty (s_share (snd b)) then a else al_append (sub_full (snd b)) (fst b) a)).
  { intros a b Ha. destruct (is_empty _); [exact Ha|now apply Hkeep]. }
  unfold fr_shared_list. fold (LEs st t) (FEs st t). intros [[-> (cl & s & Hin & <-)]|(s & Hin & He & <-)].
  - apply fold_left_inv; [exact Hfed|].
    apply (fold_left_reach P _ _ (cl, s) Hin); [intros a; apply Hadd|intros a b; apply Hkeep].
  - apply (fold_left_reach P _ _ (x, s) Hin); [|exact Hfed]. intros a. cbn [fst snd]. rewrite He. apply Hadd.
Qed.

(* sendSharedMsg picks the node by the topic's counter from the sorted node list *)
Definition turn (cs : list (str * N)) (k : str) (v : list str) : str :=
  nth (N.to_nat ((match aget k cs with Some c => c | None => 0 end) mod N.of_nat (length (sort_strs v)))) (sort_strs v) [].

Lemma turn_in cs k v : v <> [] -> In (turn cs k v) v.
Proof.
  intros Hne. apply (Permutation_in _ (sort_strs_perm v)), nth_mod_in. intros E. apply Hne.
  apply Permutation_nil. rewrite <- E. apply sort_strs_perm.
Qed.

Lemma shared_step_sent st m a k v :
  sa_sent (fr_shared_step st m a (k, v)) =
  if str_eqb (turn (sa_counters a) k v) (r_node st) || mem_str (turn (sa_counters a) k v) (sa_sent a)
  then sa_sent a else sa_sent a ++ [turn (sa_counters a) k v].
Proof.
  unfold fr_shared_step, turn. destruct (str_eqb _ (r_node st)); [reflexivity|]. destruct (mem_str _ (sa_sent a)); [reflexivity|].
  cbn [orb]. destruct (ahas _ _); [destruct (fr_local_plain _ _)|]; reflexivity.
Qed.

(* a chosen node without a queue is marked as sent and gets nothing: push_event ignores it too *)
Lemma shared_step_peers st m a k v :
  sa_peers (fr_shared_step st m a (k, v)) =
  if str_eqb (turn (sa_counters a) k v) (r_node st) || mem_str (turn (sa_counters a) k v) (sa_sent a)
  then sa_peers a else push_event (turn (sa_counters a) k v) (EMsg (msg_event_form m)) (sa_peers a).
Proof.
  unfold fr_shared_step, turn. destruct (str_eqb _ (r_node st)); [reflexivity|]. destruct (mem_str _ (sa_sent a)); [reflexivity|].
  cbn [orb]. unfold ahas, push_event. destruct (aget _ (sa_peers a)); [destruct (fr_local_plain _ _)|]; reflexivity.
Qed.

(* a node that is never chosen keeps its queue through the shared part *)
Lemma shared_step_other st m a k v n :
  v <> [] -> (forall x, In x v -> x = r_node st \/ x <> n) ->
  aget n (sa_peers (fr_shared_step st m a (k, v))) = aget n (sa_peers a).
Proof.
  intros Hne Hv. rewrite shared_step_peers. destruct (Hv _ (turn_in (sa_counters a) k v Hne)) as [->|Hn].
  - now rewrite str_eqb_refl.
  - destruct (_ || _); [reflexivity|]. rewrite aget_push. destruct (str_eqb_spec n (turn (sa_counters a) k v)) as [E|_]; [now destruct Hn|reflexivity].
Qed.

Lemma nonshared_in st t x :
  In x (fr_nonshared st t) <-> exists s, In (x, s) (FEs st t) /\ is_empty (s_share s) = true.
Proof.
  unfold fr_nonshared. fold (FEs st t).
  assert (G : forall l acc, In x (fold_left (fun acc cs => if is_empty (s_share (snd cs)) then add_set (fst cs) acc else acc) l acc) <->
                            In x acc \/ In x (map fst (filter (fun cs : str * sub => is_empty (s_share (snd cs))) l))).
  { induction l as [|cs r IH]; intros acc; cbn [fold_left filter]; [cbn [map In]; tauto|].
    rewrite IH. destruct (is_empty (s_share (snd cs))); cbn [map In]; rewrite ?in_add_set; tauto. }
  rewrite G, in_map_iff. split.
  - intros [[]|([x' s] & <- & H)]. apply filter_In in H as [H He]. now exists s.
  - intros (s & H & He). right. exists (x, s). split; [reflexivity|]. apply filter_In. now split.
Qed.

Lemma nonshared_nodup st t : NoDup (fr_nonshared st t).
Proof.
  unfold fr_nonshared. apply fold_left_inv; [|constructor]. intros acc cs H. destruct (is_empty _); [now apply NoDup_add_set|exact H].
Qed.

(* the last loop of sendMessage on one queue *)
Lemma nonshared_fold_queue e sent n : forall ns ps, NoDup ns ->
  aget n (fold_left (fun ps x => if mem_str x sent then ps else push_event x e ps) ns ps) =
  if mem_str n ns && negb (mem_str n sent) then option_map (fun q => q ++ [e]) (aget n ps) else aget n ps.
Proof.
  induction ns as [|x r IH]; intros ps Hnd; cbn [fold_left mem_str]; [reflexivity|].
  inversion Hnd as [|? ? Hx Hr]; subst. rewrite (IH _ Hr).
  destruct (str_eqb_spec n x) as [->|Hne]; cbn [orb].
  - assert (Hm : mem_str x r = false) by (destruct (mem_str x r) eqn:E; [apply mem_str_In in E; contradiction|reflexivity]).
    rewrite Hm. cbn [andb]. destruct (mem_str x sent); cbn [negb andb]; [reflexivity|].
    rewrite aget_push. destruct (str_eqb_spec x x); [reflexivity|congruence].
  - destruct (mem_str x sent); [reflexivity|]. rewrite aget_push.
    destruct (str_eqb_spec n x); [congruence|]. reflexivity.
Qed.

(* what the loop over the shared topics leaves; the result of sendMessage in its terms *)
Definition shared_acc (st : rstate) (m : msg) : sacc :=
  fold_left (fr_shared_step st m) (fr_shared_list st (m_topic m))
    {| sa_sent := []; sa_peers := r_peers st; sa_counters := r_sent st; sa_drop := false; sa_opts := None |}.

Lemma send_flags st m : m_retained m = false ->
  snd (fst (fr_send_message st m)) = sa_drop (shared_acc st m) /\ snd (fr_send_message st m) = sa_opts (shared_acc st m).
Proof. intros H. unfold fr_send_message. rewrite H. now split. Qed.

Lemma send_queue st m n : m_retained m = false ->
  aget n (r_peers (fst (fst (fr_send_message st m)))) =
  if mem_str n (fr_nonshared st (m_topic m)) && negb (mem_str n (sa_sent (shared_acc st m)))
  then option_map (fun q => q ++ [EMsg (msg_event_form m)]) (aget n (sa_peers (shared_acc st m)))
  else aget n (sa_peers (shared_acc st m)).
Proof. intros H. unfold fr_send_message. rewrite H. apply nonshared_fold_queue, nonshared_nodup. Qed.

(* node n holds (in the federation tree described by sp) a subscription matching topic t *)
Definition node_matches (sp : spec) (n t : str) : Prop :=
  exists g f s, sp_get (n, g, f) sp = Some s /\
                topic_match t f = true.
Definition node_plain_matches (sp : spec) (n t : str) : Prop :=
  exists f s, sp_get (n, [], f) sp = Some s /\ topic_match t f = true.

Lemma ents_node_matches ops t x s :
  wf_ops ops = true -> t <> [] -> no_wild_levels (split t) = true ->
  In (x, s) (ents (db_iterate (q_match true true true t) (db_run ops))) -> node_matches (spec_run ops) x t.
Proof. intros Hwf Ht Hnw Hin. apply lookup_all_in in Hin; [|assumption..]. now exists (s_share s), (s_filter s), s. Qed.

(* none unmatched: a node without a matching subscription in the federation tree gets nothing *)
Lemma fr_none_unmatched st fed_ops m n :
  r_fed st = db_run fed_ops -> wf_ops fed_ops = true ->
  m_retained m = false -> m_topic m <> [] -> no_wild_levels (split (m_topic m)) = true ->
  ~ node_matches (spec_run fed_ops) n (m_topic m) ->
  aget n (r_peers (fst (fst (fr_send_message st m)))) = aget n (r_peers st).
Proof.
  intros Hfed Hwf Hret Ht Hnw Hno.
  assert (Hnot : forall s, ~ In (n, s) (FEs st (m_topic m))).
  { intros s Hin. unfold FEs in Hin. rewrite Hfed in Hin. apply Hno. now apply (ents_node_matches fed_ops _ n s). }
  assert (Hm : mem_str n (fr_nonshared st (m_topic m)) = false).
  { destruct (mem_str n (fr_nonshared st (m_topic m))) eqn:E; [|reflexivity].
    apply mem_str_In, nonshared_in in E as (s & Hin & _). now destruct (Hnot s). }
  rewrite (send_queue st m n Hret), Hm. cbn [andb].
  apply (fold_left_In_inv (fun a => aget n (sa_peers a) = aget n (r_peers st))); [|reflexivity].
  intros a [k v] Hin <-. destruct (proj2 (shared_list_spec st (m_topic m)) k v Hin) as [Hne Hv].
  apply shared_step_other; [exact Hne|].
  intros x Hx. destruct (Hv x Hx) as [[-> _]|(s & Hs & _)]; [now left|right]. intros ->. exact (Hnot s Hs).
Qed.

(* plain routing: with no matching shared subscription anywhere, exactly the peers with a
   matching non-shared subscription get the message, once; nothing is dropped or rewritten *)
Lemma fr_plain_exact st local_ops fed_ops m :
  r_local st = db_run local_ops -> r_fed st = db_run fed_ops ->
  wf_ops local_ops = true -> wf_ops fed_ops = true ->
  m_retained m = false -> m_topic m <> [] -> no_wild_levels (split (m_topic m)) = true ->
  (forall c g f s, g <> [] -> sp_get (c, g, f) (spec_run local_ops) = Some s -> topic_match (m_topic m) f = false) ->
  (forall c g f s, g <> [] -> sp_get (c, g, f) (spec_run fed_ops) = Some s -> topic_match (m_topic m) f = false) ->
  snd (fst (fr_send_message st m)) = false /\ snd (fr_send_message st m) = None /\
  forall n q, aget n (r_peers st) = Some q ->
    (node_plain_matches (spec_run fed_ops) n (m_topic m) ->
       aget n (r_peers (fst (fst (fr_send_message st m)))) = Some (q ++ [EMsg (msg_event_form m)])) /\
    (~ node_plain_matches (spec_run fed_ops) n (m_topic m) ->
       aget n (r_peers (fst (fst (fr_send_message st m)))) = Some q).
Proof.
  intros Hloc Hfed Hwl Hwf Hret Ht Hnw Hnsl Hnsf.
  set (t := m_topic m) in *.
  (* no source for the shared list *)
  assert (Hacc : shared_acc st m =
                 {| sa_sent := []; sa_peers := r_peers st; sa_counters := r_sent st; sa_drop := false; sa_opts := None |}).
  { unfold shared_acc. fold t. destruct (shared_list_spec st t) as [_ Hok].
    destruct (fr_shared_list st t) as [|[k v] r]; [reflexivity|]. exfalso.
    destruct (Hok k v (or_introl eq_refl)) as [Hne Hv]. destruct v as [|x v]; [congruence|].
    destruct (Hv x (or_introl eq_refl)) as [(_ & cl & s & Hin & _)|(s & Hin & He & _)].
    - unfold LEs in Hin. rewrite Hloc in Hin. apply lookup_shared_in in Hin as (Hg & Hget & Hm); [|assumption..].
      rewrite (Hnsl _ _ _ _ Hg Hget) in Hm. discriminate.
    - unfold FEs in Hin. rewrite Hfed in Hin. apply lookup_all_in in Hin as (Hget & Hm); [|assumption..].
      apply is_empty_false in He. rewrite (Hnsf _ _ _ _ He Hget) in Hm. discriminate. }
  destruct (send_flags st m Hret) as [-> ->]. rewrite Hacc. split; [reflexivity|]. split; [reflexivity|].
  intros n q Hq. rewrite (send_queue st m n Hret), Hacc. fold t. cbn [sa_sent sa_peers mem_str negb]. rewrite andb_true_r, Hq. cbn [option_map].
  assert (Hiff : mem_str n (fr_nonshared st t) = true <-> node_plain_matches (spec_run fed_ops) n t).
  { rewrite mem_str_In, nonshared_in. unfold FEs. rewrite Hfed. split.
    - intros (s & Hin & He). apply lookup_all_in in Hin as (Hget & Hm); [|assumption..].
      destruct (s_share s); [|discriminate]. now exists (s_filter s), s.
    - intros (f & s & Hget & Hm).
      pose proof (inv_ok _ _ (Inv_run fed_ops Hwf)) as Hok. destruct (sp_get_good _ _ _ _ _ Hok Hget) as [Hg Hf].
      exists s. split; [|now rewrite Hg]. apply lookup_all_in; [assumption..|]. now rewrite Hg, Hf. }
  split.
  - intros Hm. apply Hiff in Hm. now rewrite Hm.
  - intros Hm. destruct (mem_str n (fr_nonshared st t)) eqn:E; [|reflexivity]. destruct Hm. now apply Hiff.
Qed.

(* retained: every peer gets the message (in event form), once; nothing is dropped or rewritten *)
Lemma fr_retained_broadcast st m :
  m_retained m = true ->
  snd (fst (fr_send_message st m)) = false /\ snd (fr_send_message st m) = None /\
  r_peers (fst (fst (fr_send_message st m))) = map (fun p => (fst p, snd p ++ [EMsg (msg_event_form m)])) (r_peers st).
Proof. intros H. unfold fr_send_message. rewrite H. now repeat split. Qed.

Definition fr_store_after (ms : list msg) : rdb :=
  fold_left (fun r m => snd (fr_receive (msg_event_form m) r)) ms rdb_init.

(* the operations the broker's own rule (publishHandler: RETAIN with an empty payload clears
   the topic, otherwise the message is kept) performs for the retained ones among `ms` *)
Definition recv_ops_spec (ms : list msg) : list rop :=
  flat_map (fun m => if m_retained m then [retain_op (msg_event_form m)] else []) ms.

Lemma fr_store_after_run ms : fr_store_after ms = rdb_run (recv_ops_spec ms).
Proof.
  unfold fr_store_after, rdb_run, recv_ops_spec. generalize rdb_init.
  induction ms as [|m r IH]; intros d; cbn [fold_left flat_map]; [reflexivity|].
  rewrite fold_left_app, IH. unfold fr_receive. cbn [snd m_retained msg_event_form].
  destruct (m_retained m); reflexivity.
Qed.

(* the receiver's retained store is, after any sequence of received messages, what the
   broker's own rule gives: per topic the last retained message with a non-empty payload,
   nothing after a retained message with an empty payload *)
Lemma fr_receiver_retained ms t :
  rdb_get t (fr_store_after ms) = aget t (rspec_run (recv_ops_spec ms)).
Proof. now rewrite fr_store_after_run, ret_get_exact. Qed.

Definition ex_clear : msg :=
  {| m_dup := false; m_qos := 0; m_retained := true; m_topic := [97]; m_payload := []; m_pid := 0;
     m_ctype := []; m_corr := []; m_expiry := 0; m_pfmt := 0; m_resp := []; m_subids := []; m_uprops := [] |}.
Definition ex_set : msg :=
  {| m_dup := false; m_qos := 0; m_retained := true; m_topic := [97]; m_payload := [49]; m_pid := 0;
     m_ctype := []; m_corr := []; m_expiry := 0; m_pfmt := 0; m_resp := []; m_subids := []; m_uprops := [] |}.

(* the witness of the repaired finding (stored instead of cleared): set, then clear *)
Lemma fr_receiver_clear_witness :
  rdb_get [97] (fr_store_after [ex_set]) = Some ex_set /\ rdb_get [97] (fr_store_after [ex_set; ex_clear]) = None /\
  rdb_all (fr_store_after [ex_set; ex_clear]) = [].
Proof. vm_compute. repeat split. Qed.

From GM Require Import Oracle.C17O.

Definition ex_pub : msg :=
  {| m_dup := false; m_qos := 1; m_retained := false; m_topic := [97]; m_payload := [49]; m_pid := 0;
     m_ctype := []; m_corr := []; m_expiry := 0; m_pfmt := 0; m_resp := []; m_subids := []; m_uprops := [] |}.

(* n1 holds a plain subscriber of "a" and a member of $share/g/a, n2 another member; when the
   group's turn is n2's, n1 still gets the message for its plain subscriber and serves its
   member as well: two deliveries *)
Definition ex_span_double : rcase :=
  {| rc_node := [110; 48];
     rc_nodes := [([110; 48], []);
                  ([110; 49], [([99], [], [97]); ([100], [103], [97])]);
                  ([110; 50], [([99], [103], [97])])];
     rc_peers := [[110; 49]; [110; 50]] |}.

(* two groups: the remote turn of g1 makes the origin skip its own shared subscribers, the
   local turn of g2 sends nothing: the origin's member of g2 is not served at all *)
Definition ex_span_zero : rcase :=
  {| rc_node := [110; 48];
     rc_nodes := [([110; 48], [([99], [103; 50], [97])]);
                  ([110; 49], [([99], [103; 49], [97])])];
     rc_peers := [[110; 49]] |}.

(* a share group spanning nodes: exactly-once is false of the code *)
Lemma fr_shared_one_refuted :
  (exists c counters m, kf_shared_span c m = true /\ plain_ok c m (case_obs c counters m) = true /\
     exists G, In G (groups (m_topic m) c) /\ group_deliveries c (m_topic m) G (case_obs c counters m) = 2) /\
  (exists c counters m, kf_shared_span c m = true /\ plain_ok c m (case_obs c counters m) = true /\
     exists G, In G (groups (m_topic m) c) /\ group_deliveries c (m_topic m) G (case_obs c counters m) = 0).
Proof.
  split.
  - exists ex_span_double, [([36; 115; 104; 97; 114; 101; 47; 103; 47; 97], 1)], ex_pub.
    split; [vm_compute; reflexivity|]. split; [vm_compute; reflexivity|].
    exists [36; 115; 104; 97; 114; 101; 47; 103; 47; 97]. split; [vm_compute; now left|vm_compute; reflexivity].
  - exists ex_span_zero, [], ex_pub.
    split; [vm_compute; reflexivity|]. split; [vm_compute; reflexivity|].
    exists [36; 115; 104; 97; 114; 101; 47; 103; 50; 47; 97]. split; [vm_compute; tauto|vm_compute; reflexivity].
Qed.
