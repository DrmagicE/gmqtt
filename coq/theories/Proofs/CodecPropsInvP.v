(* The invariant of decoded Properties.  Properties.Unpack and UnpackWillProperties on well-formed
   bytes (every byte < 256) return a value satisfying it, and on such a value Pack followed by Unpack
   is the identity. *)
From Coq Require Import List NArith ZArith Bool Lia ZifyN ZifyNat ZifyBool Sorted.
Import ListNotations.
From GM Require Import Base.Topic Base.Msg Model.CodecBase Model.CodecProps
  Proofs.ListP Proofs.CodecBaseP Proofs.CodecStrP Proofs.CodecTotalP Proofs.CodecPropsP.
Open Scope N_scope.

Definition bytes_ok (l : list N) : Prop := Forall (fun x => x < 256) l.

Lemma bytes_ok_nil : bytes_ok []. Proof. constructor. Qed.
Lemma bytes_ok_cons : forall x l, bytes_ok (x :: l) -> x < 256 /\ bytes_ok l.
Proof. intros x l H. inversion H; auto. Qed.
Lemma bytes_ok_app : forall a b, bytes_ok (a ++ b) <-> bytes_ok a /\ bytes_ok b.
Proof. intros. apply Forall_app. Qed.
Lemma bytes_ok_takeN : forall n l, bytes_ok l -> bytes_ok (takeN n l).
Proof. intros n l H. rewrite <- (take_drop _ l n) in H. apply bytes_ok_app in H. tauto. Qed.
Lemma bytes_ok_dropN : forall n l, bytes_ok l -> bytes_ok (dropN n l).
Proof. intros n l H. rewrite <- (take_drop _ l n) in H. apply bytes_ok_app in H. tauto. Qed.
#[export] Hint Resolve bytes_ok_nil bytes_ok_takeN bytes_ok_dropN : cbytes.

(* r is the result of reading from the well-formed bytes b: on success the value satisfies P and
   what is left is well-formed *)
Definition reads {A} (r : res (A * list N)) (b : list N) (P : A -> Prop) : Prop :=
  forall x b', r = Ok (x, b') -> bytes_ok b -> P x /\ bytes_ok b'.

(* one step along a decoder: H : (do '(x, b') <- r; k x b') = Ok y  becomes  k x b' = Ok y *)
Lemma bind_reads : forall A B (r : res (A * list N)) b P (k : A -> list N -> res B) y,
  reads r b P -> bind r (fun '(x, b') => k x b') = Ok y -> bytes_ok b ->
  exists x b', P x /\ bytes_ok b' /\ k x b' = Ok y.
Proof. intros A B r b P k y Hr H Hb. apply bind_ok_inv in H. destruct H as [[x b'] [E H]]. destruct (Hr x b' E Hb). eauto. Qed.
Arguments bind_reads {A B r b P k y} _ _ _.

Lemma reads_remap : forall A e (r : res (A * list N)) b P, reads r b P -> reads (remap e r) b P.
Proof. intros A e r b P H x b' E. apply remap_ok_inv in E. exact (H x b' E). Qed.
Arguments reads_remap {A e r b P} _.

Lemma read_byte_inv : forall b, reads (read_byte b) b (fun x => x < 256).
Proof. intros [|y l] x r H Hb; [discriminate|]. injection H as <- <-. apply bytes_ok_cons, Hb. Qed.

Lemma read_uint16_inv : forall b, reads (read_uint16 b) b (fun x => x < 65536).
Proof.
  intros b x r H Hb. unfold read_uint16 in H. destruct (shorter b 2); [discriminate|].
  destruct b as [|a [|c l]]; cbn in H; try discriminate.
  apply bytes_ok_cons in Hb. destruct Hb as [Ha Hb]. apply bytes_ok_cons in Hb. destruct Hb as [Hc Hb].
  rewrite dropN_0 in H. injection H as <- <-. split; [lia|assumption].
Qed.
Lemma read_uint32_inv : forall b, reads (read_uint32 b) b (fun x => x < 4294967296).
Proof.
  intros b x r H Hb. unfold read_uint32 in H. destruct (shorter b 4); [discriminate|].
  destruct b as [|a [|c [|d [|e l]]]]; cbn in H; try discriminate.
  apply bytes_ok_cons in Hb. destruct Hb as [Ha Hb]. apply bytes_ok_cons in Hb. destruct Hb as [Hc Hb].
  apply bytes_ok_cons in Hb. destruct Hb as [Hd Hb]. apply bytes_ok_cons in Hb. destruct Hb as [He Hb].
  rewrite dropN_0 in H. injection H as <- <-. split; [lia|assumption].
Qed.

Lemma read_varint_inv : forall b, reads (read_varint b) b (fun v => v <= 268435455).
Proof.
  intros b v r H Hb. split; [exact (read_varint_bound _ _ _ H)|].
  apply read_vbi_suffix in H. destruct H as [pre ->]. apply bytes_ok_app in Hb. tauto.
Qed.

Lemma read_utf8_string_inv : forall must b,
  reads (read_utf8_string must b) b (fun s => len s <= 65535 /\ (must = true -> impl_utf8 s = true)).
Proof.
  intros must b s r H Hb. unfold read_utf8_string in H. destruct (shorter b 2); [discriminate|].
  destruct b as [|a [|c l]]; cbn [buf_next takeN dropN N.eqb N.pred Pos.pred_N Pos.pred_double be16 bind] in H; try discriminate.
  rewrite !dropN_0 in H.
  apply bytes_ok_cons in Hb. destruct Hb as [Ha Hb]. apply bytes_ok_cons in Hb. destruct Hb as [Hc Hb].
  rewrite shorter_spec in H. destruct (N.ltb_spec (len l) (a * 256 + c)); [discriminate|].
  assert (Hlen : len (takeN (a * 256 + c) l) <= 65535) by (rewrite takeN_len; lia).
  destruct must.
  - apply bind_ok_inv in H. destruct H as [[|] [Eu H]]; [|discriminate].
    injection H as <- <-. repeat split; auto with cbytes. intros _. apply ok_true_iff, Eu.
  - injection H as <- <-. repeat split; auto with cbytes. discriminate.
Qed.

(* a string the decoder checked as UTF-8 *)
Lemma read_str_inv : forall b, reads (read_utf8_string true b) b (fun s => istr_ok s = true).
Proof.
  intros b s r H Hb. destruct (read_utf8_string_inv true b s r H Hb) as [[Hl Hu] Hr]. split; [|assumption].
  unfold istr_ok. rewrite Hu by reflexivity. lia.
Qed.

Lemma ps_set_in : forall id v l e, ps_get id l = None -> (In e (ps_set id v l) <-> e = (id, v) \/ In e l).
Proof.
  induction l as [|[k w] l IH]; intros e Hg; cbn [ps_set].
  - cbn. intuition.
  - cbn [ps_get] in Hg. destruct (N.eqb_spec k id); [discriminate|].
    destruct (id <? k); [cbn; intuition|].
    replace (id =? k) with false by lia. cbn [In]. rewrite IH by assumption. intuition.
Qed.
Lemma ps_set_sorted : forall id v l, StronglySorted id_lt l -> ps_get id l = None -> StronglySorted id_lt (ps_set id v l).
Proof.
  induction l as [|[k w] l IH]; intros Hs Hg; cbn [ps_set].
  - constructor; constructor.
  - cbn [ps_get] in Hg. destruct (N.eqb_spec k id); [discriminate|].
    inversion Hs as [|a l' Hs' Hall]; subst.
    destruct (N.ltb_spec id k).
    + constructor; [assumption|]. constructor; [unfold id_lt; cbn [fst]; lia|].
      rewrite Forall_forall in *. intros x Hx. specialize (Hall x Hx). unfold id_lt in *. cbn [fst] in *. lia.
    + replace (id =? k) with false by lia. constructor; [now apply IH|].
      rewrite Forall_forall in *. intros x Hx. apply ps_set_in in Hx; [|assumption].
      destruct Hx as [->|Hx]; [unfold id_lt; cbn [fst]; lia|now apply Hall].
Qed.
Lemma ps_get_set_other : forall id v l k, k <> id -> ps_get k (ps_set id v l) = ps_get k l.
Proof.
  induction l as [|[j w] l IH]; intros k Hk; cbn [ps_set ps_get].
  - replace (id =? k) with false by lia. reflexivity.
  - destruct (N.ltb_spec id j).
    + cbn [ps_get]. replace (id =? k) with false by lia. reflexivity.
    + destruct (N.eqb_spec id j).
      * subst. cbn [ps_get]. replace (j =? k) with false by lia. reflexivity.
      * cbn [ps_get]. destruct (j =? k); [reflexivity|]. now apply IH.
Qed.
Lemma ps_get_set_same : forall id v l, ps_get id (ps_set id v l) = Some v.
Proof.
  induction l as [|[j w] l IH]; cbn [ps_set ps_get].
  - rewrite N.eqb_refl. reflexivity.
  - destruct (N.ltb_spec id j).
    + cbn [ps_get]. rewrite N.eqb_refl. reflexivity.
    + destruct (N.eqb_spec id j).
      * cbn [ps_get]. rewrite N.eqb_refl. reflexivity.
      * cbn [ps_get]. replace (j =? id) with false by lia. assumption.
Qed.

(* the loop of UnpackWillProperties accepts will properties only; their ids need not be
   whitelisted for CONNECT by ValidateID, so the invariant is parameterised by the check *)
Definition props_invw (okid : N -> bool) (p : props) : Prop :=
  StronglySorted id_lt (pr_single p)
  /\ (forall e, In e (pr_single p) -> okid (fst e) = true /\ sval_ok (fst e) (snd e) = true)
  /\ match pr_subid p with
     | [] => True
     | [v] => okid 11 = true /\ 1 <= v < 268435456
     | _ => False
     end
  /\ (pr_user p <> [] -> okid 38 = true)
  /\ (forall kv, In kv (pr_user p) -> istr_ok (fst kv) = true /\ istr_ok (snd kv) = true).

(* props_inv is the same with ValidateID as the check, and no AuthData without AuthMethod *)
Lemma props_inv_w : forall pt p, props_inv pt p <-> props_invw (validate_id pt) p /\ auth_orphan p = false.
Proof.
  intros. unfold props_inv, props_invw, auth_orphan.
  destruct (is_some (ps_get 22 _)), (is_some (ps_get 21 _)); cbn [andb negb]; intuition congruence.
Qed.

Lemma props_invw_empty : forall okid, props_invw okid props_empty.
Proof.
  intros. unfold props_invw, props_empty. cbn [pr_single pr_subid pr_user].
  repeat split; try constructor; try contradiction; intros; try contradiction; congruence.
Qed.
Lemma props_inv_empty : forall pt, props_inv pt props_empty.
Proof. intros. apply props_inv_w. split; [apply props_invw_empty|reflexivity]. Qed.

Lemma read_single_inv : forall okid id k p b,
  prop_kind id = Some k -> okid id = true -> props_invw okid p ->
  reads (read_single id k p b) b (props_invw okid).
Proof.
  intros okid id k p b Ek Hid (Hs & Hok & Hsub & Hu & Huok) p' r H Hb.
  unfold read_single in H.
  destruct (ps_get id (pr_single p)) eqn:Eg; cbn [is_some] in H; [destruct k; discriminate|].
  assert (Hfin : forall v, sval_ok id v = true -> props_invw okid (set_single id v p)).
  { intros v Hv. unfold props_invw, set_single. cbn [pr_single pr_subid pr_user].
    split; [now apply ps_set_sorted|]. split; [|tauto].
    intros e He. apply ps_set_in in He; [|assumption]. destruct He as [->|He]; [cbn [fst snd]; tauto|now apply Hok]. }
  destruct k.
  - (* KBool *) destruct b as [|o l]; [discriminate|].
    destruct (negb (o =? 0) && negb (o =? 1)) eqn:Eo; [discriminate|]. injection H as <- <-.
    apply bytes_ok_cons in Hb. split; [|tauto]. apply Hfin. unfold sval_ok. rewrite Ek. lia.
  - (* KU16 *) apply (bind_reads (reads_remap (read_uint16_inv b))) in H as (o & l & Ho & Hl & H); [|assumption].
    destruct ((id =? 33) && (o =? 0)) eqn:E1; [discriminate|].
    destruct ((id =? 35) && (o =? 0)) eqn:E2; [discriminate|]. injection H as <- <-.
    split; [|assumption]. apply Hfin. unfold sval_ok. rewrite Ek. lia.
  - (* KU32 *) apply (bind_reads (reads_remap (read_uint32_inv b))) in H as (o & l & Ho & Hl & H); [|assumption].
    destruct ((id =? 39) && (o =? 0)) eqn:E1; [discriminate|]. injection H as <- <-.
    split; [|assumption]. apply Hfin. unfold sval_ok. rewrite Ek. lia.
  - (* KStr *) apply (bind_reads (read_str_inv b)) in H as (o & l & Histr & Hl & H); [|assumption].
    destruct (N.eqb_spec id 8).
    + apply bind_ok_inv in H. destruct H as [[|] [En H]]; [|discriminate].
      injection H as <- <-. split; [|assumption]. apply Hfin. unfold sval_ok. rewrite Ek, Histr.
      apply ok_true_iff in En. unfold impl_name. rewrite En. apply orb_true_r.
    + injection H as <- <-. split; [|assumption]. apply Hfin. unfold sval_ok. rewrite Ek, Histr.
      replace (id =? 8) with false by lia. reflexivity.
  - (* KBin *) apply (bind_reads (reads_remap (read_utf8_string_inv false b))) in H as (o & l & [Ho _] & Hl & H); [|assumption].
    injection H as <- <-. split; [|assumption]. apply Hfin. unfold sval_ok. rewrite Ek. lia.
Qed.

Lemma read_user_inv : forall okid p b,
  okid 38 = true -> props_invw okid p -> reads (read_user p b) b (props_invw okid).
Proof.
  intros okid p b Hid (Hs & Hok & Hsub & Hu & Huok) p' r H Hb. unfold read_user in H.
  apply (bind_reads (reads_remap (read_str_inv b))) in H as (k & l & Hk & Hl & H); [|assumption].
  apply (bind_reads (reads_remap (read_str_inv l))) in H as (v & l2 & Hv & Hl2 & H); [|assumption].
  injection H as <- <-. split; [|assumption].
  unfold props_invw. cbn [pr_single pr_subid pr_user].
  split; [exact Hs|]. split; [exact Hok|]. split; [exact Hsub|]. split; [intros _; exact Hid|].
  intros kv Hin. apply in_app_or in Hin. destruct Hin as [Hin|[<-|[]]]; [now apply Huok|]. auto.
Qed.

Lemma read_subid_inv : forall okid p b,
  okid 11 = true -> props_invw okid p -> reads (read_subid p b) b (props_invw okid).
Proof.
  intros okid p b Hid (Hs & Hok & Hsub & Hu & Huok) p' r H Hb. unfold read_subid in H.
  destruct (pr_subid p) eqn:Esub; [|discriminate].
  apply (bind_reads (reads_remap (read_varint_inv b))) in H as (si & l & Hbound & Hl & H); [|assumption].
  destruct (N.eqb_spec si 0); [discriminate|]. injection H as <- <-.
  split; [|assumption]. unfold props_invw. cbn [pr_single pr_subid pr_user app].
  split; [exact Hs|]. split; [exact Hok|]. split; [split; [exact Hid|lia]|]. split; [exact Hu|exact Huok].
Qed.

Lemma prop_reader_inv : forall okid id p b,
  okid id = true -> props_invw okid p -> reads (prop_reader id p b) b (props_invw okid).
Proof.
  intros okid id p b Hid Hinv. unfold prop_reader.
  destruct (N.eqb_spec id 11); [subst; now apply read_subid_inv|].
  destruct (N.eqb_spec id 38); [subst; now apply read_user_inv|].
  destruct (prop_kind id) eqn:Ek; [now apply read_single_inv|discriminate].
Qed.

Section GenInv.
  Variable rd : N -> props -> list N -> res (props * list N).
  Variable okid : N -> bool.
  Variable chk : props -> bool.
  (* rd is the reader of Properties.Unpack on the ids okid admits, and fails on the others *)
  Hypothesis rd_ok : forall id p r, okid id = true -> rd id p r = prop_reader id p r.
  Hypothesis rd_fails : forall id p r y, rd id p r = Ok y -> okid id = true.
  Hypothesis chk_empty : chk props_empty = false.

  Lemma gen_loop_inv : forall fuel p b p',
    gen_loop rd fuel p b = Ok p' -> bytes_ok b -> props_invw okid p -> props_invw okid p'.
  Proof.
    induction fuel; intros p b p' H Hb Hinv; [discriminate|].
    destruct b as [|id r]; [injection H as <-; assumption|]. cbn [gen_loop] in H.
    apply bytes_ok_cons in Hb. destruct Hb as [_ Hb].
    apply bind_ok_inv in H. destruct H as [[p1 r1] [Er H]].
    pose proof (rd_fails _ _ _ _ Er) as Hid. rewrite rd_ok in Er by assumption.
    destruct (prop_reader_inv okid id p r Hid Hinv p1 r1 Er Hb). eapply IHfuel; eauto.
  Qed.

  Lemma gen_unpack_inv : forall b, reads (gen_unpack rd chk b) b (fun p => props_invw okid p /\ chk p = false).
  Proof.
    intros b p r H Hb. unfold gen_unpack in H.
    apply (bind_reads (read_varint_inv b)) in H as (n & l & _ & Hl & H); [|assumption].
    destruct (n =? 0); [injection H as <- <-; auto using props_invw_empty|].
    destruct (shorter l n); [discriminate|].
    apply bind_ok_inv in H. destruct H as [p1 [El H]].
    apply gen_loop_inv in El; [|auto with cbytes|apply props_invw_empty].
    destruct (chk p1) eqn:Ec; [discriminate|]. injection H as <- <-. auto with cbytes.
  Qed.

End GenInv.

Section GenPack.
  Variable rd : N -> props -> list N -> res (props * list N).
  Variable okid : N -> bool.
  Hypothesis rd_safe : forall id p r, safe_rd r (rd id p r).
  Hypothesis rd_ok : forall id p r, okid id = true -> rd id p r = prop_reader id p r.

  Lemma gen_run_body : forall p, props_invw okid p -> gen_run rd props_empty (props_body p) = Ok p.
  Proof.
    intros p (Hs & Hok & Hsub & Hu & Huok). unfold props_body. fold f_lo. fold f_mid. fold f_hi.
    assert (Hn : forall e, In e (pr_single p) -> fst e <> 11 /\ fst e <> 38).
    { intros e He. apply (sval_ok_id _ (snd e)). apply Hok. assumption. }
    (* each of the three runs of single-valued properties extends what was read before it *)
    assert (Hseg : forall f q rest,
              (forall e e0, In e (filter f (pr_single p)) -> In e0 (pr_single q) -> fst e0 < fst e) ->
              gen_run rd q (pack_singles (filter f (pr_single p)) ++ rest)
              = gen_run rd (with_singles q (pr_single q ++ filter f (pr_single p))) rest).
    { intros f q rest Hlt. apply (run_singles rd okid); auto using filter_sorted.
      intros e He. apply Hok. apply filter_In in He. tauto. }
    rewrite Hseg by (intros e e0 _ []).
    rewrite (run_subids rd okid) by (assumption || reflexivity).
    rewrite Hseg.
    2:{ cbn [pr_single props_empty app]. intros e e0 He He0. apply filter_In in He. apply filter_In in He0.
        unfold f_lo, f_mid in *. lia. }
    rewrite (run_users rd okid) by assumption.
    rewrite <- (app_nil_r (pack_singles (filter f_hi (pr_single p)))), Hseg.
    2:{ cbn [pr_single props_empty with_singles app]. intros e e0 He He0. apply filter_In in He. apply in_app_or in He0.
        destruct He0 as [He0|He0]; apply filter_In in He0; unfold f_lo, f_mid, f_hi in *; lia. }
    cbn [with_singles pr_single pr_subid pr_user props_empty app].
    rewrite <- app_assoc, <- split3 by assumption. destruct p; reflexivity.
  Qed.

  Lemma gen_unpack_pack_body : forall chk p rest,
    props_invw okid p -> chk p = false -> len (props_body p) < 268435456 ->
    gen_unpack rd chk (encode_varint_or_nil (len (props_body p)) ++ props_body p ++ rest) = Ok (p, rest).
  Proof. intros. apply gen_unpack_pack; auto using gen_run_body. Qed.
End GenPack.

Lemma props_rd_fails : forall pt id p r y, props_rd pt id p r = Ok y -> validate_id pt id = true.
Proof. intros pt id p r y H. unfold props_rd in H. destruct (validate_id pt id); [reflexivity|discriminate]. Qed.
Lemma props_rd_ok : forall pt id p r, validate_id pt id = true -> props_rd pt id p r = prop_reader id p r.
Proof. intros pt id p r H. unfold props_rd. rewrite H. reflexivity. Qed.

Theorem props_unpack_inv : forall pt b, reads (props_unpack pt b) b (props_inv pt).
Proof.
  intros pt [|x b] p r H Hb; rewrite props_inv_w.
  - cbn in H. destruct (_ || _); [|discriminate]. injection H as <- <-. auto using props_invw_empty.
  - rewrite props_unpack_gen in H by discriminate.
    exact (gen_unpack_inv _ _ _ (props_rd_ok pt) (props_rd_fails pt) eq_refl _ p r H Hb).
Qed.

Theorem props_unpack_pack : forall pt p rest,
  props_inv pt p -> len (props_body p) < 268435456 ->
  props_unpack pt (props_pack (Some p) ++ rest) = Ok (p, rest).
Proof.
  intros pt p rest Hinv Hlen. apply props_inv_w in Hinv. destruct Hinv as [Hinv Hauth].
  unfold props_pack. rewrite <- app_assoc.
  rewrite props_unpack_gen by (rewrite encode_varint_or_nil_bytes by assumption; apply varint_app_nonnil).
  apply (gen_unpack_pack_body _ (validate_id pt)); auto using props_rd_safe, props_rd_ok.
Qed.

Definition will_okid (id : N) : bool := will_prop_known id || (id =? 38).

Lemma will_reader_fails : forall id p r y, will_reader id p r = Ok y -> will_okid id = true.
Proof.
  intros id p r y H. unfold will_reader in H. unfold will_okid.
  destruct (id =? 38); [apply orb_true_r|]. destruct (will_prop_known id); [reflexivity|discriminate].
Qed.
Lemma will_reader_ok : forall id p r, will_okid id = true -> will_reader id p r = prop_reader id p r.
Proof.
  intros id p r H. unfold will_okid in H. unfold will_reader, prop_reader.
  destruct (N.eqb_spec id 38); [subst; reflexivity|]. rewrite orb_false_r in H. rewrite H.
  destruct (N.eqb_spec id 11); [subst; discriminate|reflexivity].
Qed.

(* no will property is a Subscription Identifier *)
Lemma will_no_subid : forall p, props_invw will_okid p -> pr_subid p = [].
Proof.
  intros p (_ & _ & C & _). destruct (pr_subid p) as [|v [|w t]]; [reflexivity| |contradiction].
  destruct C as [C _]. discriminate.
Qed.

Theorem will_props_unpack_inv : forall b,
  reads (will_props_unpack b) b (fun p => props_invw will_okid p /\ pr_subid p = []).
Proof.
  intros b p r H Hb. rewrite will_props_unpack_gen in H.
  destruct (gen_unpack_inv _ _ _ will_reader_ok will_reader_fails eq_refl _ p r H Hb) as [[Hinv _] Hr].
  auto using will_no_subid.
Qed.
