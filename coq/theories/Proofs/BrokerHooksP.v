(* C14 (dynamic half): what a hook decides is what happens - proved of the broker model
   Model/Broker.v for all states, packets and hook verdicts.
     1. CONNECT refused by the authentication hook: one failing CONNACK, no table changes;
     2. SUBSCRIBE: the whole-packet verdict (h_sub_all) and the per-topic verdicts (h_sub) are what the
        SUBACK reports and what the subscription store (seen through the flat specification of
        Model/SubSpec.v) holds afterwards;
     3. PUBLISH: a rejected / dropped message reaches no queue and no retained message, a rewritten one is
        forwarded exactly as the rewritten message would be;
     4. the will: dropped -> nothing, rewritten -> deliver / retain_update of the rewritten will.
   Built on the stage equations of Proofs/BrokerInvP.v (CONNECT, SUBSCRIBE) and Proofs/BrokerQos2P.v
   (PUBLISH), and on the refinement of the subscription trie (Proofs/SubTrieP.v). *)
From Coq Require Import List NArith ZArith Bool Arith Lia ZifyN ZifyNat ZifyBool.
Import ListNotations.
From GM Require Import Base.Topic Base.Msg Model.SubTrie Model.SubSpec Model.RetTrie Model.Queue Model.Limiter
  Model.TopicMatch Model.Broker Proofs.TopicP Proofs.SubTrieP Proofs.LimiterP
  Proofs.BrokerQos2P Proofs.BrokerWillP Proofs.BrokerInvP.
From GM Require Proofs.DeliverP Proofs.BrokerPollP Proofs.BrokerRetainP.
Open Scope N_scope.

(* Names defined both in BrokerQos2P and in BrokerInvP (poll_all_frame, release_dropped_frame, ...) refer to
   the BrokerInvP version here; the BrokerQos2P / BrokerWillP ones are written qualified. *)

(* sessions, subscriptions, retained messages, pending wills, queues, unack sets, the online and the
   offline registrations *)
Definition tables (s : st) :=
  (b_sessions s, b_subs s, b_ret s, b_wills s, (b_queues s, b_unacks s, b_online s, b_offline s)).

Lemma tables_fields s s' :
  tables s' = tables s ->
  b_sessions s' = b_sessions s /\ b_subs s' = b_subs s /\ b_ret s' = b_ret s /\ b_wills s' = b_wills s /\
  b_queues s' = b_queues s /\ b_unacks s' = b_unacks s /\ b_online s' = b_online s /\ b_offline s' = b_offline s.
Proof. unfold tables. intros [= -> -> -> -> -> -> -> ->]. repeat split. Qed.

Lemma tables_upd_conn c k s : tables (upd_conn c k s) = tables s.
Proof. reflexivity. Qed.

(* the same without the queues: what is left of `tables` once the poll loops have run *)
Definition tables_nq (s : st) :=
  (b_sessions s, b_subs s, b_ret s, b_wills s, (b_unacks s, b_online s, b_offline s)).

Lemma tables_tables_nq s s' : tables s' = tables s -> tables_nq s' = tables_nq s.
Proof. unfold tables, tables_nq. congruence. Qed.

Lemma dframe_tables_nq s s' : dframe s s' -> tables_nq s' = tables_nq s.
Proof.
  intros F. unfold tables_nq.
  now rewrite (df_sessions _ _ F), (df_subs _ _ F), (df_ret _ _ F), (df_wills _ _ F), (df_unacks _ _ F),
              (df_online _ _ F), (df_offline _ _ F).
Qed.

(* the packets written to socket c, in order *)
Definition sent_to (c : N) (o : list out) : list pkt :=
  flat_map (fun x => match x with OSend c' p => if c' =? c then [p] else [] | _ => [] end) o.

Lemma sent_to_app c a b : sent_to c (a ++ b) = sent_to c a ++ sent_to c b.
Proof. unfold sent_to. apply flat_map_app. Qed.

Lemma sent_to_none c o : (forall p, ~ In (OSend c p) o) -> sent_to c o = [].
Proof.
  induction o as [|x r IH]; intros H; [reflexivity|]. cbn [sent_to flat_map].
  fold (sent_to c r). rewrite IH by (intros p Hin; apply (H p); now right). rewrite app_nil_r.
  destruct x as [c' p|c'|cid m rs]; try reflexivity.
  destruct (N.eqb_spec c' c) as [->|E]; [|reflexivity]. exfalso. apply (H p). now left.
Qed.

(* The verdict: hc_code (Proofs/BrokerInvP.v) is auth_code - the code the scripted OnBasicAuth hook
   returns for (user name, password) - except that a v5 CONNECT carrying an Authentication Method is
   refused with 128 whatever the hook says (enhanced authentication is not configured). *)
Lemma hc_code_is_auth_code cn s :
  (cn_ver cn =? 5) && match p_authmethod (cn_props cn) with Some _ => true | None => false end = false ->
  hc_code cn s = auth_code cn s.
Proof. unfold hc_code. now intros ->. Qed.

Lemma auth_code_hook cn s tbl dflt :
  h_auth (b_hooks s) = Some (tbl, dflt) ->
  auth_code cn s =
  match find (fun e => str_eqb (fst (fst e)) (opt_or (cn_user cn) []) && str_eqb (snd (fst e)) (opt_or (cn_pass cn) [])) tbl with
  | Some e => snd e
  | None => dflt
  end.
Proof. unfold auth_code. now intros ->. Qed.

Lemma auth_code_no_hook cn s : h_auth (b_hooks s) = None -> auth_code cn s = 0.
Proof. unfold auth_code. now intros ->. Qed.

(* The mapping of the hook's code to the CONNACK: a v5 client gets the code as it is; a v3 client gets
   the codes 1..5 as they are and 135 (0x87, the v5 "Not authorized") for every larger one. *)
Definition connack_code (v code : N) : N := if negb (v =? 5) && (5 <? code) then 135 else code.

Lemma connack_code_v5 code : connack_code 5 code = code.
Proof. reflexivity. Qed.
Lemma connack_code_v3_small v code : v <> 5 -> code <= 5 -> connack_code v code = code.
Proof. intros Hv Hc. unfold connack_code. destruct (5 <? code) eqn:E; [lia|]. now rewrite andb_false_r. Qed.
Lemma connack_code_v3_large v code : v <> 5 -> 5 < code -> connack_code v code = 135.
Proof.
  intros Hv Hc. unfold connack_code. apply N.eqb_neq in Hv. rewrite Hv.
  destruct (5 <? code) eqn:E; [reflexivity|lia].
Qed.
Lemma connack_code_fails v code : code <> 0 -> connack_code v code <> 0.
Proof. unfold connack_code. destruct (negb (v =? 5) && (5 <? code)); [discriminate|auto]. Qed.

(* the connection record left behind: never attached, ignored from now on *)
Definition dead_conn (cn : connect) : conn := set_phase PhDead (fresh_conn (cn_cid cn) (cn_ver cn)).

(* the client id passes the zero-length check (otherwise the CONNECT is refused with 133 before any hook) *)
Definition cid_allowed (cn : connect) (s : st) : bool :=
  negb (negb (c_allow_zero_len (b_cfg s)) && is_empty (cn_cid cn)).

Lemma connect_rejected_handler c cn s :
  cid_allowed cn s = true -> hc_code cn s <> 0 ->
  handle_connect c cn s =
  (upd_conn c (dead_conn cn) s, [OSend c (KConnack false (connack_code (cn_ver cn) (hc_code cn s)) [])]).
Proof.
  unfold cid_allowed. intros Hz Hc. rewrite handle_connect_eq.
  apply negb_true_iff in Hz. rewrite Hz. apply N.eqb_neq in Hc. rewrite Hc. reflexivity.
Qed.

(* socket c carries no registered client (it is new, fresh, dead or closed) *)
Definition unattached (s : st) (c : N) : Prop :=
  forall k, nget c (b_conns s) = Some k -> attached (k_phase k) = false.

Lemma unattached_not_att s c : unattached s c -> ~ att s c.
Proof. intros H (k & Hk & Ha). rewrite (H k Hk) in Ha. discriminate. Qed.

Lemma unattached_cv s c : unattached s c -> cv s c = None.
Proof.
  intros H. unfold cv, cvk. destruct (nget c (b_conns s)) as [k|] eqn:Hk; [|reflexivity]. now rewrite (H k Hk).
Qed.

(* the poll loops that follow an event leave every table but the queues alone, keep the phase of every socket,
   and write nothing to a socket that carries no client *)
Lemma step_tables_nq s e : tables_nq (fst (step s e)) = tables_nq (fst (step_event s e)).
Proof.
  unfold step. destruct (step_event s e) as [s1 o1]. cbn [fst].
  pose proof (BrokerQos2P.poll_all_frame s1) as [F _]. destruct (poll_all s1) as [s2 o2]. cbn [fst] in *.
  now apply dframe_tables_nq.
Qed.

Lemma step_phase s e c : phase_at (fst (step s e)) c = phase_at (fst (step_event s e)) c.
Proof.
  unfold step. destruct (step_event s e) as [s1 o1]. cbn [fst].
  pose proof (proj1 (poll_all_frame s1)) as F. destruct (poll_all s1) as [s2 o2]. apply phase_pv, (fr_pv _ _ F).
Qed.

Lemma step_sent_unattached s e c :
  unattached (fst (step_event s e)) c -> sent_to c (snd (step s e)) = sent_to c (snd (step_event s e)).
Proof.
  unfold step. destruct (step_event s e) as [s1 o1]. cbn [fst snd]. intros Hu.
  pose proof (fun p => poll_all_not_att s1 c p (unattached_not_att _ _ Hu)) as Hns.
  destruct (poll_all s1) as [s2 o2]. cbn [fst snd] in *. now rewrite sent_to_app, (sent_to_none c o2 Hns), app_nil_r.
Qed.

Lemma unattached_phase s s' c : phase_at s' c = phase_at s c -> unattached s c -> unattached s' c.
Proof.
  unfold phase_at. intros E H k' Hk'. rewrite Hk' in E. destruct (nget c (b_conns s)) as [k|] eqn:Hk; [|discriminate].
  injection E as ->. now apply H.
Qed.

(* s' is s, or s with the record of socket c replaced by one that is not attached: all that an event on a
   socket without a registered client does to the state *)
Definition idle_upd (c : N) (s s' : st) : Prop :=
  s' = s \/ exists k, attached (k_phase k) = false /\ s' = upd_conn c k s.

Lemma idle_upd_tables c s s' : idle_upd c s s' -> tables s' = tables s.
Proof. intros [->|(k & _ & ->)]; reflexivity. Qed.

Lemma idle_upd_cfg_hooks c s s' : idle_upd c s s' -> b_cfg s' = b_cfg s /\ b_hooks s' = b_hooks s.
Proof. intros [->|(k & _ & ->)]; split; reflexivity. Qed.

Lemma idle_upd_other c s s' c' : idle_upd c s s' -> c' <> c -> nget c' (b_conns s') = nget c' (b_conns s).
Proof. intros [->|(k & _ & ->)] Hne; [reflexivity|]. proj. now apply nget_nset_other. Qed.

Lemma idle_upd_unattached c s s' : idle_upd c s s' -> unattached s c -> unattached s' c.
Proof.
  intros [->|(k & Hk & ->)] Hu; [exact Hu|]. intros k' Hk'. proj_in Hk'. rewrite nget_nset_same in Hk'.
  now injection Hk' as <-.
Qed.

Lemma conn_gone_idle c s :
  unattached s c ->
  idle_upd c s (fst (conn_gone c s)) /\
  filter (fun x => match x with OClose c' => negb (c' =? c) | _ => true end) (snd (conn_gone c s)) = [].
Proof.
  intros H. destruct (conn_gone_unatt c s (unattached_cv _ _ H)) as [->|(k & _ & ->)]; cbn [fst snd filter].
  - split; [now left|reflexivity].
  - rewrite N.eqb_refl. split; [right; now exists (set_phase PhClosed k)|reflexivity].
Qed.

(* the event "a CONNECT arrives on socket c" when the hook refuses it *)
Lemma connect_rejected_event c cn s :
  unattached s c -> cid_allowed cn s = true -> hc_code cn s <> 0 ->
  exists s0, idle_upd c s s0 /\
    step_event s (EConnect c cn) =
    (upd_conn c (dead_conn cn) s0, [OSend c (KConnack false (connack_code (cn_ver cn) (hc_code cn s)) [])]).
Proof.
  intros Hu Hz Hc. cbn [step_event].
  destruct (conn_gone_idle c s Hu) as [Hi Ho]. destruct (conn_gone c s) as [s0 o0]. cbn [fst snd] in *.
  destruct (idle_upd_cfg_hooks _ _ _ Hi) as [Hcf Hh].
  assert (Hz0 : cid_allowed cn s0 = true) by (unfold cid_allowed in *; now rewrite Hcf).
  assert (Hc0 : hc_code cn s0 = hc_code cn s) by (apply hc_code_ext; exact Hh).
  rewrite (connect_rejected_handler c cn s0 Hz0) by (now rewrite Hc0).
  exists s0. now rewrite Ho, Hc0.
Qed.

(* the refused CONNECT at the level of the scenario event *)
Theorem connect_rejected_leaves_nothing c cn s :
  unattached s c -> cid_allowed cn s = true -> hc_code cn s <> 0 ->
  let s' := fst (step_event s (EConnect c cn)) in
  snd (step_event s (EConnect c cn)) = [OSend c (KConnack false (connack_code (cn_ver cn) (hc_code cn s)) [])] /\
  tables s' = tables s /\
  nget c (b_conns s') = Some (dead_conn cn) /\
  (forall c', c' <> c -> nget c' (b_conns s') = nget c' (b_conns s)).
Proof.
  intros Hu Hz Hc. destruct (connect_rejected_event c cn s Hu Hz Hc) as (s0 & Hi & ->). cbn [fst snd].
  split; [reflexivity|]. split; [rewrite tables_upd_conn; now apply (idle_upd_tables c)|].
  split; [proj; apply nget_nset_same|]. intros c' Hne. proj. rewrite nget_nset_other by exact Hne.
  now apply (idle_upd_other c).
Qed.

(* what the refused socket sends later.  The read loop still runs on it, so: nothing it sends has any effect,
   except that a QoS>0 PUBLISH of a v5 client ends the read loop (the receive quota of the connection was never
   set) and the socket is closed - one OClose, no packet, no table changes.  The same with the packet's size. *)
Definition closes_dead (k : conn) (p : pkt) : bool :=
  match p with KPublish _ qos _ _ _ _ _ => (k_v k =? 5) && (0 <? qos) | _ => false end.

Theorem dead_socket_send c k p s :
  nget c (b_conns s) = Some k -> k_phase k = PhDead ->
  step_event s (ESend c p) =
    (if closes_dead k p then (upd_conn c (set_phase PhClosed k) s, [OClose c]) else (s, [])) /\
  (forall n, step_event s (ESendSz c p n) = step_event s (ESend c p)) /\
  tables (fst (step_event s (ESend c p))) = tables s.
Proof.
  intros Hk Hp.
  assert (E : step_event s (ESend c p) =
              (if closes_dead k p then (upd_conn c (set_phase PhClosed k) s, [OClose c]) else (s, []))).
  { cbn [step_event]. rewrite Hk, Hp. unfold send_unconnected, closes_dead. rewrite Hp.
    destruct p; try reflexivity. destruct ((k_v k =? 5) && (0 <? qos)); [|reflexivity].
    unfold conn_gone. now rewrite Hk, Hp. }
  split; [exact E|]. split.
  - intros n. cbn [step_event]. now rewrite Hk, Hp.
  - rewrite E. destruct (closes_dead k p); cbn [fst]; [apply tables_upd_conn|reflexivity].
Qed.

(* ... and of the whole step (the poll loops of all connections have run): socket c has been sent the CONNACK
   and nothing else, every table but the queues is as before; the queues are those the poll loops leave when
   started from the old queues (see connect_rejected_leaves_nothing: the event itself does not touch them) *)
Theorem connect_rejected_step c cn s :
  unattached s c -> cid_allowed cn s = true -> hc_code cn s <> 0 ->
  sent_to c (snd (step s (EConnect c cn))) = [KConnack false (connack_code (cn_ver cn) (hc_code cn s)) []] /\
  tables_nq (fst (step s (EConnect c cn))) = tables_nq s /\
  exists k', nget c (b_conns (fst (step s (EConnect c cn)))) = Some k' /\ k_phase k' = PhDead.
Proof.
  intros Hu Hz Hc. destruct (connect_rejected_leaves_nothing c cn s Hu Hz Hc) as (Ho & Ht & Hk & _).
  split; [|split].
  - rewrite step_sent_unattached, Ho; [cbn [sent_to flat_map]; now rewrite N.eqb_refl|].
    intros k Hk'. rewrite Hk in Hk'. now injection Hk' as <-.
  - rewrite step_tables_nq. now apply tables_tables_nq.
  - pose proof (step_phase s (EConnect c cn) c) as E. unfold phase_at in E. rewrite Hk in E.
    destruct (nget c (b_conns (fst (step s (EConnect c cn))))) as [k'|]; [|discriminate].
    exists k'. split; [reflexivity|]. now injection E.
Qed.

(* OnSubscribe for one topic of the packet: the first entry of the script for (client id, full topic name) *)
Definition sub_verdict (h : hooks) (cid name : str) : sub_action :=
  opt_or (match find (fun e => str_eqb (fst (fst e)) cid && str_eqb (snd (fst e)) name) (h_sub h) with
          | Some e => Some (snd e)
          | None => None
          end) SAccept.

Lemma sub_verdict_no_hooks cid name : sub_verdict no_hooks cid name = SAccept.
Proof. reflexivity. Qed.

Definition with_sub_qos (q : N) (sb : sub) : sub :=
  {| s_share := s_share sb; s_filter := s_filter sb; s_id := s_id sb; s_qos := q;
     s_nl := s_nl sb; s_rap := s_rap sb; s_rh := s_rh sb |}.

(* the subscription the client asked for under the name of t (a name listed twice: the last entry's options) *)
Definition req_sub (subid : N) (topics : list topic_req) (t : topic_req) : sub :=
  sub_of_req (last_with_name (tq_name t) topics t) subid.

(* ... and what the hook made of it *)
Definition hs_sub (h : hooks) (k : conn) (subid : N) (topics : list topic_req) (t : topic_req) : sub :=
  match sub_verdict h (k_cid k) (tq_name t) with
  | SQos q => with_sub_qos q (req_sub subid topics t)
  | _ => req_sub subid topics t
  end.

(* the broker's own checks on a subscription: the granted QoS is the (possibly rewritten) requested one unless
   shared subscriptions / subscription identifiers / wildcards are not available to this v5 client *)
Definition cap_code (k : conn) (v5 : bool) (subid : N) (sb : sub) : N :=
  let code := s_qos sb in
  let code := if v5 && negb (is_empty (s_share sb)) && negb (k_shared k) then 158 else code in
  let code := if v5 && negb (k_subid k) && negb (subid =? 0) then 161 else code in
  if v5 && negb (k_wildcard k) && has_wildcard (s_filter sb) then 162 else code.

(* the SUBACK code of one topic *)
Definition hs_code (h : hooks) (k : conn) (v5 : bool) (subid : N) (topics : list topic_req) (t : topic_req) : N :=
  match sub_verdict h (k_cid k) (tq_name t) with
  | SReject cd => if v5 then cd else 128
  | _ => cap_code k v5 subid (hs_sub h k subid topics t)
  end.

Definition hs_replays (sb : sub) (existed : bool) (t : topic_req) : bool :=
  negb (negb (is_empty (s_share sb))) && ((negb existed && negb (tq_rh t =? 2)) || (tq_rh t =? 0)).

Lemma hs_body_eq c k v5 subid topics s0 o0 cs t :
  hs_body c k v5 subid topics (s0, o0, cs) t =
  let sb := hs_sub (b_hooks s0) k subid topics t in
  let code := hs_code (b_hooks s0) k v5 subid topics t in
  if code <? 128 then
    let '(d', existed) := db_subscribe (k_cid k) sb (b_subs s0) in
    let s1 := set_subs d' s0 in
    let '(s2, o2) := if hs_replays sb existed t then replay_retained c k sb s1 else (s1, []) in
    (s2, o0 ++ o2, cs ++ [code])
  else (s0, o0, cs ++ [code]).
Proof. reflexivity. Qed.

(* everything `dproj` lists except the subscription store *)
Definition sproj (s : st) :=
  (b_cfg s, b_hooks s, b_now s, b_rt s, (b_sessions s, b_online s, b_offline s, b_wills s), (b_ret s, b_unacks s, b_auto s)).

Lemma dframe_sproj s s' : dframe s s' -> sproj s' = sproj s.
Proof. intros [A _]. unfold dproj in A. unfold sproj. congruence. Qed.

Section SprojFields.
  Variables s s' : st.
  Hypothesis H : sproj s' = sproj s.
  Lemma sp_cfg : b_cfg s' = b_cfg s. Proof. unfold sproj in H. congruence. Qed.
  Lemma sp_hooks : b_hooks s' = b_hooks s. Proof. unfold sproj in H. congruence. Qed.
  Lemma sp_sessions : b_sessions s' = b_sessions s. Proof. unfold sproj in H. congruence. Qed.
  Lemma sp_online : b_online s' = b_online s. Proof. unfold sproj in H. congruence. Qed.
  Lemma sp_offline : b_offline s' = b_offline s. Proof. unfold sproj in H. congruence. Qed.
  Lemma sp_wills : b_wills s' = b_wills s. Proof. unfold sproj in H. congruence. Qed.
  Lemma sp_ret : b_ret s' = b_ret s. Proof. unfold sproj in H. congruence. Qed.
  Lemma sp_unacks : b_unacks s' = b_unacks s. Proof. unfold sproj in H. congruence. Qed.
End SprojFields.

Lemma replay_retained_dframe c k sb s : dframe s (fst (replay_retained c k sb s)).
Proof.
  rewrite BrokerRetainP.replay_retained_unfold. apply (fold_inv (dframe s)); [|apply dframe_refl].
  intros s0 o0 m H. rewrite BrokerRetainP.replay_step_offer.
  eapply dframe_trans; [exact H|apply BrokerRetainP.offer_dframe].
Qed.

(* the store after the topics of l have been processed, starting from d *)
Definition hs_store (h : hooks) (k : conn) (v5 : bool) (subid : N) (topics l : list topic_req) (d : db) : db :=
  fold_left (fun d t => if hs_code h k v5 subid topics t <? 128
                        then fst (db_subscribe (k_cid k) (hs_sub h k subid topics t) d) else d) l d.

Lemma hs_body_spec c k v5 subid topics s0 o0 cs t :
  let r := hs_body c k v5 subid topics (s0, o0, cs) t in
  sproj (fst (fst r)) = sproj s0 /\
  b_subs (fst (fst r)) = hs_store (b_hooks s0) k v5 subid topics [t] (b_subs s0) /\
  snd r = cs ++ [hs_code (b_hooks s0) k v5 subid topics t] /\
  (only_drops o0 -> only_drops (snd (fst r))).
Proof.
  cbv zeta. rewrite hs_body_eq. cbv zeta. unfold hs_store. cbn [fold_left].
  destruct (hs_code (b_hooks s0) k v5 subid topics t <? 128); [|now repeat split].
  set (sb := hs_sub (b_hooks s0) k subid topics t).
  destruct (db_subscribe (k_cid k) sb (b_subs s0)) as [d' existed]. cbn [fst].
  destruct (hs_replays sb existed t).
  - pose proof (replay_retained_dframe c k sb (set_subs d' s0)) as F.
    pose proof (proj2 (replay_retained_quiet c k sb (set_subs d' s0))) as D.
    destruct (replay_retained c k sb (set_subs d' s0)) as [s2 o2]. cbn [fst snd] in *.
    split; [now rewrite (dframe_sproj _ _ F)|]. split; [now rewrite (df_subs _ _ F)|]. split; [reflexivity|].
    intros D0. now apply only_drops_app.
  - cbn [fst snd]. rewrite app_nil_r. now repeat split.
Qed.

Lemma hs_fold_spec c k v5 subid topics : forall l s0 o0 cs,
  let r := fold_left (hs_body c k v5 subid topics) l (s0, o0, cs) in
  sproj (fst (fst r)) = sproj s0 /\
  b_subs (fst (fst r)) = hs_store (b_hooks s0) k v5 subid topics l (b_subs s0) /\
  snd r = cs ++ map (hs_code (b_hooks s0) k v5 subid topics) l /\
  (only_drops o0 -> only_drops (snd (fst r))).
Proof.
  induction l as [|t l IH]; intros s0 o0 cs; cbv zeta; cbn [fold_left map].
  - cbn [fst snd]. rewrite app_nil_r. now repeat split.
  - pose proof (hs_body_spec c k v5 subid topics s0 o0 cs t) as H. cbv zeta in H.
    destruct (hs_body c k v5 subid topics (s0, o0, cs) t) as [[s1 o1] cs1]. cbn [fst snd] in H.
    destruct H as (P1 & S1 & C1 & D1).
    specialize (IH s1 o1 cs1). cbv zeta in IH. destruct IH as (P2 & S2 & C2 & D2).
    rewrite (sp_hooks _ _ P1) in S2, C2.
    split; [congruence|]. split; [now rewrite S2, S1|]. split; [now rewrite C2, C1, <- app_assoc|auto].
Qed.

(* the Subscription Identifier the subscriptions of the packet carry *)
Definition sub_subid (k : conn) (props : list prop) : N :=
  if (k_v k =? 5) && k_subid k then match p_subids props with i :: _ => i | [] => 0 end else 0.

(* the packet is refused as a whole before any hook is asked: a v5 client sends a Subscription Identifier
   although the broker does not support them (DISCONNECT 161) *)
Definition sub_refused (k : conn) (props : list prop) (s : st) : bool :=
  (k_v k =? 5) && negb (c_subid (b_cfg s)) && negb (sub_subid k props =? 0).

Lemma subscribe_refused c k pid props topics s :
  sub_refused k props s = true -> handle_subscribe c k pid props topics s = HErr s [] (Some 161).
Proof. intros H. rewrite handle_subscribe_eq. cbv zeta. fold (sub_subid k props). unfold sub_refused in H. now rewrite H. Qed.

(* (a) OnSubscribe fails for the packet as a whole (h_sub_all = Some code): a SUBACK with that code for every
   topic (128 towards a v3 client), the connection goes on, and the state - in particular the subscription
   store - is exactly as before *)
Theorem subscribe_all_rejected c k pid props topics s code :
  sub_refused k props s = false -> h_sub_all (b_hooks s) = Some code ->
  handle_subscribe c k pid props topics s =
  HOk s [OSend c (KSuback pid (map (fun _ => if k_v k =? 5 then code else 128) topics) [])].
Proof.
  intros Hr Ha. rewrite handle_subscribe_eq. cbv zeta. fold (sub_subid k props).
  unfold sub_refused in Hr. now rewrite Hr, Ha.
Qed.

(* (b) the per-topic verdicts *)
Theorem subscribe_spec c k pid props topics s :
  sub_refused k props s = false -> h_sub_all (b_hooks s) = None ->
  let h := b_hooks s in
  let v5 := k_v k =? 5 in
  let subid := sub_subid k props in
  exists s' o,
    handle_subscribe c k pid props topics s =
      HOk s' (o ++ [OSend c (KSuback pid (map (hs_code h k v5 subid topics) topics) [])]) /\
    only_drops o /\
    sproj s' = sproj s /\
    b_subs s' = hs_store h k v5 subid topics topics (b_subs s).
Proof.
  intros Hr Ha. cbv zeta. rewrite handle_subscribe_eq. cbv zeta. fold (sub_subid k props).
  unfold sub_refused in Hr. rewrite Hr, Ha.
  pose proof (hs_fold_spec c k (k_v k =? 5) (sub_subid k props) topics topics s [] []) as H. cbv zeta in H.
  destruct (fold_left (hs_body c k (k_v k =? 5) (sub_subid k props) topics) topics (s, [], [])) as [[s' o] codes].
  cbn [fst snd] in H. destruct H as (P & S & C & D). cbn [app] in C. subst codes.
  exists s', o. repeat split; try assumption. apply D. constructor.
Qed.

Lemma hs_reject h k v5 subid topics t cd :
  sub_verdict h (k_cid k) (tq_name t) = SReject cd ->
  hs_code h k v5 subid topics t = (if v5 then cd else 128).
Proof. unfold hs_code. now intros ->. Qed.

Lemma hs_downgrade h k v5 subid topics t q :
  sub_verdict h (k_cid k) (tq_name t) = SQos q ->
  hs_sub h k subid topics t = with_sub_qos q (req_sub subid topics t) /\
  hs_code h k v5 subid topics t = cap_code k v5 subid (with_sub_qos q (req_sub subid topics t)).
Proof. unfold hs_code, hs_sub. now intros ->. Qed.

(* a topic the hook has no opinion on is treated exactly as it is without any hook *)
Lemma hs_untouched h k v5 subid topics t :
  sub_verdict h (k_cid k) (tq_name t) = SAccept ->
  hs_sub h k subid topics t = hs_sub no_hooks k subid topics t /\
  hs_sub h k subid topics t = req_sub subid topics t /\
  hs_code h k v5 subid topics t = hs_code no_hooks k v5 subid topics t.
Proof. unfold hs_code, hs_sub. rewrite !sub_verdict_no_hooks. now intros ->. Qed.

(* when nothing is switched off for the client the broker's own checks grant what is asked *)
Lemma cap_code_plain k v5 subid sb :
  v5 = false \/ (k_shared k = true /\ k_subid k = true /\ k_wildcard k = true) ->
  cap_code k v5 subid sb = s_qos sb.
Proof.
  unfold cap_code. intros [->|(-> & -> & ->)]; [reflexivity|]. cbn [negb]. now rewrite !andb_false_r.
Qed.

Lemma cap_code_cases k v5 subid sb :
  cap_code k v5 subid sb = s_qos sb \/ cap_code k v5 subid sb = 158 \/ cap_code k v5 subid sb = 161 \/
  cap_code k v5 subid sb = 162.
Proof.
  unfold cap_code.
  destruct (v5 && negb (k_wildcard k) && has_wildcard (s_filter sb)); [auto|].
  destruct (v5 && negb (k_subid k) && negb (subid =? 0)); [auto|].
  destruct (v5 && negb (is_empty (s_share sb)) && negb (k_shared k)); auto.
Qed.

(* the accepted subscriptions of the packet, in order *)
Definition hs_subs (h : hooks) (k : conn) (v5 : bool) (subid : N) (topics l : list topic_req) : list sub :=
  flat_map (fun t => if hs_code h k v5 subid topics t <? 128 then [hs_sub h k subid topics t] else []) l.

Definition hs_ops (h : hooks) (k : conn) (v5 : bool) (subid : N) (topics : list topic_req) : list op :=
  map (OSub (k_cid k)) (hs_subs h k v5 subid topics topics).

Lemma hs_store_ops h k v5 subid topics : forall l d,
  hs_store h k v5 subid topics l d = fold_left db_step (map (OSub (k_cid k)) (hs_subs h k v5 subid topics l)) d.
Proof.
  unfold hs_store, hs_subs. induction l as [|t l IH]; intros d; cbn [fold_left flat_map map]; [reflexivity|].
  rewrite map_app, fold_left_app, IH.
  destruct (hs_code h k v5 subid topics t <? 128); reflexivity.
Qed.

Lemma in_hs_subs h k v5 subid topics l sb :
  In sb (hs_subs h k v5 subid topics l) <->
  exists t, In t l /\ hs_code h k v5 subid topics t < 128 /\ sb = hs_sub h k subid topics t.
Proof.
  unfold hs_subs. rewrite in_flat_map. split.
  - intros (t & Hin & Hs). destruct (hs_code h k v5 subid topics t <? 128) eqn:E; [|destruct Hs].
    destruct Hs as [<-|[]]. exists t. repeat split; [exact Hin|lia].
  - intros (t & Hin & Hc & ->). exists t. split; [exact Hin|].
    destruct (hs_code h k v5 subid topics t <? 128) eqn:E; [now left|lia].
Qed.

Lemma last_with_name_name name : forall l d, tq_name d = name -> tq_name (last_with_name name l d) = name.
Proof.
  induction l as [|t l IH]; intros d Hd; cbn [last_with_name]; [exact Hd|]. apply IH.
  destruct (str_eqb_spec (tq_name t) name) as [E|E]; [exact E|exact Hd].
Qed.

Lemma last_with_name_default name : forall l d d',
  (exists t, In t l /\ tq_name t = name) -> last_with_name name l d = last_with_name name l d'.
Proof.
  induction l as [|t0 l IH]; intros d d' (t & Hin & Hn); [destruct Hin|]. cbn [last_with_name].
  destruct (str_eqb_spec (tq_name t0) name) as [E|E]; [reflexivity|].
  apply IH. exists t. split; [|exact Hn]. destruct Hin as [->|Hin]; [contradiction|exact Hin].
Qed.

(* the key under which the subscription of t is stored: its share name and filter *)
Definition tkey (cid : str) (t : topic_req) : skey := (cid, fst (split_topic (tq_name t)), snd (split_topic (tq_name t))).
Definition sub_key (c : str) (sb : sub) : skey := (c, s_share sb, s_filter sb).

Lemma sub_of_req_key t id :
  s_share (sub_of_req t id) = fst (split_topic (tq_name t)) /\ s_filter (sub_of_req t id) = snd (split_topic (tq_name t)).
Proof. unfold sub_of_req. destruct (split_topic (tq_name t)) as [g f]. split; reflexivity. Qed.

Lemma hs_sub_key h k subid topics t : sub_key (k_cid k) (hs_sub h k subid topics t) = tkey (k_cid k) t.
Proof.
  unfold sub_key, tkey, hs_sub, req_sub.
  destruct (sub_of_req_key (last_with_name (tq_name t) topics t) subid) as [E1 E2].
  rewrite (last_with_name_name (tq_name t) topics t eq_refl) in E1, E2.
  destruct (sub_verdict h (k_cid k) (tq_name t)); cbn [with_sub_qos s_share s_filter]; now rewrite E1, E2.
Qed.

(* two entries of the packet with the same name get the same subscription and the same code *)
Lemma hs_same_name h k v5 subid topics t t' :
  In t topics -> In t' topics -> tq_name t' = tq_name t ->
  hs_sub h k subid topics t' = hs_sub h k subid topics t /\
  hs_code h k v5 subid topics t' = hs_code h k v5 subid topics t.
Proof.
  intros Hin Hin' Hn.
  assert (E : hs_sub h k subid topics t' = hs_sub h k subid topics t).
  { unfold hs_sub, req_sub. rewrite Hn.
    rewrite (last_with_name_default (tq_name t) topics t' t) by (exists t; now split). reflexivity. }
  split; [exact E|]. unfold hs_code. now rewrite Hn, E.
Qed.

Lemma hs_ops_wf h k v5 subid topics : k_cid k <> [] -> wf_ops (hs_ops h k v5 subid topics) = true.
Proof.
  intros Hne. unfold wf_ops, hs_ops. apply forallb_forall. intros o Hin.
  apply in_map_iff in Hin as (sb & <- & Hin). apply in_hs_subs in Hin as (t & _ & _ & ->).
  cbn [wf_op]. apply andb_true_intro. split; [now apply negb_true_iff, is_empty_false|].
  pose proof (hs_sub_key h k subid topics t) as E. unfold sub_key, tkey in E. injection E as E _. rewrite E.
  apply split_topic_no_slash.
Qed.

(* the value of key K after the subscriptions of l have been written over a store in which it was acc *)
Fixpoint last_sub (K : skey) (c : str) (l : list sub) (acc : option sub) : option sub :=
  match l with
  | [] => acc
  | sb :: r => last_sub K c r (if skey_eqb K (sub_key c sb) then Some sb else acc)
  end.

Lemma sp_get_subs K c : forall l sp,
  sp_get K (fold_left spec_step (map (OSub c) l) sp) = last_sub K c l (sp_get K sp).
Proof.
  induction l as [|sb l IH]; intros sp; cbn [map fold_left last_sub]; [reflexivity|].
  rewrite IH. cbn [spec_step]. rewrite sp_get_set. reflexivity.
Qed.

Lemma last_sub_cases K c : forall l acc,
  (last_sub K c l acc = acc /\ forall sb, In sb l -> sub_key c sb <> K) \/
  (exists sb, In sb l /\ sub_key c sb = K /\ last_sub K c l acc = Some sb).
Proof.
  induction l as [|sb l IH]; intros acc; cbn [last_sub].
  - left. split; [reflexivity|]. intros sb [].
  - destruct (IH (if skey_eqb K (sub_key c sb) then Some sb else acc)) as [[E Hn]|(sb' & Hin & Hk & E)].
    + destruct (skey_eqb_spec K (sub_key c sb)) as [Ek|Ek].
      * right. exists sb. split; [now left|]. split; [now symmetry|exact E].
      * left. split; [exact E|]. intros sb' [<-|Hin]; [congruence|now apply Hn].
    + right. exists sb'. split; [now right|]. now split.
Qed.

(* in a packet, every entry stored under the key of t carries the name of t (always so when no two distinct
   names of the packet denote the same share name and filter, e.g. when none of them starts with "$share/") *)
Definition name_owns_key (topics : list topic_req) (t : topic_req) : Prop :=
  forall t', In t' topics -> split_topic (tq_name t') = split_topic (tq_name t) -> tq_name t' = tq_name t.

Lemma plain_names_own_keys topics t :
  (forall t', In t' topics -> has_prefix SHARE_PREFIX (tq_name t') = false) -> In t topics -> name_owns_key topics t.
Proof.
  intros Hp Hin t' Hin' E. rewrite (split_topic_plain _ (Hp t' Hin')), (split_topic_plain _ (Hp t Hin)) in E.
  now injection E.
Qed.

Lemma tkey_eq cid t t' : tkey cid t' = tkey cid t -> split_topic (tq_name t') = split_topic (tq_name t).
Proof.
  unfold tkey. destruct (split_topic (tq_name t')) as [g' f'], (split_topic (tq_name t)) as [g f]. cbn [fst snd].
  now intros [= -> ->].
Qed.

Theorem subscribe_store h k v5 subid topics ops :
  k_cid k <> [] -> wf_ops ops = true ->
  let cid := k_cid k in
  let ops' := ops ++ hs_ops h k v5 subid topics in
  wf_ops ops' = true /\
  hs_store h k v5 subid topics topics (db_run ops) = db_run ops' /\
  (* a key under which the packet installs nothing keeps its entry, or stays absent *)
  (forall K, (forall t, In t topics -> hs_code h k v5 subid topics t < 128 -> tkey cid t <> K) ->
             sp_get K (spec_run ops') = sp_get K (spec_run ops)) /\
  (* an accepted topic is stored as the hook left it *)
  (forall t, In t topics -> hs_code h k v5 subid topics t < 128 -> name_owns_key topics t ->
             sp_get (tkey cid t) (spec_run ops') = Some (hs_sub h k subid topics t)) /\
  (* a refused topic leaves no trace *)
  (forall t, In t topics -> 128 <= hs_code h k v5 subid topics t -> name_owns_key topics t ->
             sp_get (tkey cid t) (spec_run ops') = sp_get (tkey cid t) (spec_run ops)).
Proof.
  intros Hne Hwf. cbv zeta.
  assert (Hget : forall K, sp_get K (spec_run (ops ++ hs_ops h k v5 subid topics)) =
                           last_sub K (k_cid k) (hs_subs h k v5 subid topics topics) (sp_get K (spec_run ops))).
  { intros K. unfold spec_run, hs_ops. rewrite fold_left_app. apply sp_get_subs. }
  assert (Hno : forall K, (forall t, In t topics -> hs_code h k v5 subid topics t < 128 -> tkey (k_cid k) t <> K) ->
                sp_get K (spec_run (ops ++ hs_ops h k v5 subid topics)) = sp_get K (spec_run ops)).
  { intros K HK. rewrite Hget.
    destruct (last_sub_cases K (k_cid k) (hs_subs h k v5 subid topics topics) (sp_get K (spec_run ops)))
      as [[E _]|(sb & Hin & Hk & _)]; [exact E|].
    apply in_hs_subs in Hin as (t & Hin & Hc & ->). rewrite hs_sub_key in Hk. now elim (HK t Hin Hc). }
  split; [|split; [|split; [|split]]].
  - unfold wf_ops in *. rewrite forallb_app, Hwf. now apply hs_ops_wf.
  - rewrite hs_store_ops. unfold db_run, hs_ops. now rewrite fold_left_app.
  - exact Hno.
  - intros t Hin Hc Hown. rewrite Hget.
    destruct (last_sub_cases (tkey (k_cid k) t) (k_cid k) (hs_subs h k v5 subid topics topics)
                             (sp_get (tkey (k_cid k) t) (spec_run ops))) as [[_ Hn]|(sb & Hin' & Hk & ->)].
    + exfalso. apply (Hn (hs_sub h k subid topics t)); [|apply hs_sub_key].
      apply in_hs_subs. exists t. now repeat split.
    + apply in_hs_subs in Hin' as (t' & Hin' & _ & ->). rewrite hs_sub_key in Hk.
      apply tkey_eq in Hk. apply (Hown t' Hin') in Hk.
      now rewrite (proj1 (hs_same_name h k v5 subid topics t t' Hin Hin' Hk)).
  - intros t Hin Hc Hown. apply Hno. intros t' Hin' Hc' Hk.
    apply tkey_eq in Hk. apply (Hown t' Hin') in Hk.
    rewrite (proj2 (hs_same_name h k v5 subid topics t t' Hin Hin' Hk)) in Hc'. lia.
Qed.

(* among the entries under one share name and filter that a lookup for client cid returns, the one of cid *)
Lemma only_entry sp (cid g f : str) sb (c' : str) s' :
  cid <> [] -> sp_get (cid, g, f) sp = Some sb ->
  (sp_get (c', g, f) sp = Some s' /\ want_client cid c') <-> (c' = cid /\ s' = sb).
Proof.
  intros Hc Hget. unfold want_client. split.
  - intros [Hg [Hw| ->]]; [contradiction|]. split; [reflexivity|congruence].
  - intros [-> ->]. split; [exact Hget|now right].
Qed.

(* "the store holds it" said of the trie: the lookup by exact filter name (the query the broker's
   subscription API and `deliver` are built from) returns the entry of the specification *)
Lemma installed_lookup ops cid f sb :
  wf_ops ops = true -> cid <> [] -> f <> [] ->
  sp_get (cid, [], f) (spec_run ops) = Some sb ->
  exists l, db_iterate (q_name f cid) (db_run ops) = IOk (some_ents l) /\
            forall c' s', In (c', s') l <-> (c' = cid /\ s' = sb).
Proof.
  intros Hwf Hc Hf Hget. destruct (lookup_name_exact ops f cid Hwf Hf) as (l & E & _ & Hl).
  exists l. split; [exact E|]. intros c' s'. rewrite Hl. now apply only_entry.
Qed.

Lemma not_installed_lookup ops cid f :
  wf_ops ops = true -> cid <> [] -> f <> [] ->
  sp_get (cid, [], f) (spec_run ops) = None ->
  db_iterate (q_name f cid) (db_run ops) = IOk [].
Proof.
  intros Hwf Hc Hf Hget. destruct (lookup_name_exact ops f cid Hwf Hf) as (l & E & _ & Hl).
  rewrite E. destruct l as [|[c' s'] r]; [reflexivity|]. exfalso.
  destruct (proj1 (Hl c' s') (or_introl eq_refl)) as [Hg [Hw|Hw]]; [contradiction|]. subst c'.
  pose proof (eq_trans (eq_sym Hg) Hget) as X. discriminate X.
Qed.

Lemma installed_lookup_shared ops cid g f sb :
  wf_ops ops = true -> cid <> [] -> g <> [] -> no_slash g = true -> f <> [] ->
  sp_get (cid, g, f) (spec_run ops) = Some sb ->
  exists l, db_iterate (q_sh_name (SHARE_PREFIX ++ g ++ SLASH :: f) cid) (db_run ops) = IOk (some_ents l) /\
            forall c' s', In (c', s') l <-> (c' = cid /\ s' = sb).
Proof.
  intros Hwf Hc Hg Hns Hf Hget. destruct (sh_lookup_name_exact ops g f cid Hwf Hg Hns Hf) as (l & E & _ & Hl).
  exists l. split; [exact E|]. intros c' s'. rewrite Hl. now apply only_entry.
Qed.

Lemma suback_nth (f : topic_req -> N) topics i t :
  nth_error topics i = Some t -> nth_error (map f topics) i = Some (f t).
Proof. intros H. now apply map_nth_error. Qed.

(* SUBSCRIBE: (a) the verdict on the whole packet, (b) the verdicts per topic, as the SUBACK reports them and as the
   flat specification of the store shows them *)
Theorem subscribe_hook_enforced c k pid props topics s ops :
  k_cid k <> [] -> wf_ops ops = true -> b_subs s = db_run ops ->
  sub_refused k props s = false ->
  let h := b_hooks s in
  let cid := k_cid k in
  let v5 := k_v k =? 5 in
  let subid := sub_subid k props in
  match h_sub_all h with
  | Some code =>
      (* (a) *)
      handle_subscribe c k pid props topics s =
      HOk s [OSend c (KSuback pid (map (fun _ => if v5 then code else 128) topics) [])]
  | None =>
      (* (b) *)
      exists s' o,
        let ops' := ops ++ hs_ops h k v5 subid topics in
        handle_subscribe c k pid props topics s =
          HOk s' (o ++ [OSend c (KSuback pid (map (hs_code h k v5 subid topics) topics) [])]) /\
        only_drops o /\ sproj s' = sproj s /\
        b_subs s' = db_run ops' /\ wf_ops ops' = true /\
        (forall t, In t topics ->
           match sub_verdict h cid (tq_name t) with
           | SReject cd =>
               hs_code h k v5 subid topics t = (if v5 then cd else 128) /\
               (128 <= (if v5 then cd else 128) -> name_owns_key topics t ->
                sp_get (tkey cid t) (spec_run ops') = sp_get (tkey cid t) (spec_run ops))
           | SQos q =>
               let sb := with_sub_qos q (req_sub subid topics t) in
               hs_code h k v5 subid topics t = cap_code k v5 subid sb /\
               (cap_code k v5 subid sb < 128 -> name_owns_key topics t ->
                sp_get (tkey cid t) (spec_run ops') = Some sb) /\
               (128 <= cap_code k v5 subid sb -> name_owns_key topics t ->
                sp_get (tkey cid t) (spec_run ops') = sp_get (tkey cid t) (spec_run ops))
           | SAccept =>
               let sb := req_sub subid topics t in
               hs_code h k v5 subid topics t = hs_code no_hooks k v5 subid topics t /\
               hs_code h k v5 subid topics t = cap_code k v5 subid sb /\
               (cap_code k v5 subid sb < 128 -> name_owns_key topics t ->
                sp_get (tkey cid t) (spec_run ops') = Some sb) /\
               (128 <= cap_code k v5 subid sb -> name_owns_key topics t ->
                sp_get (tkey cid t) (spec_run ops') = sp_get (tkey cid t) (spec_run ops))
           end) /\
        (forall K, (forall t, In t topics -> tkey cid t <> K) -> sp_get K (spec_run ops') = sp_get K (spec_run ops))
  end.
Proof.
  intros Hne Hwf Hd Hr. cbv zeta.
  destruct (h_sub_all (b_hooks s)) as [code|] eqn:Ha; [now apply subscribe_all_rejected|].
  destruct (subscribe_spec c k pid props topics s Hr Ha) as (s' & o & E & D & P & S). cbv zeta in E, S.
  set (h := b_hooks s) in *. set (v5 := k_v k =? 5) in *. set (subid := sub_subid k props) in *.
  destruct (subscribe_store h k v5 subid topics ops Hne Hwf) as (W & R & Hno & Hacc & Hrej). cbv zeta in *.
  exists s', o. split; [exact E|]. split; [exact D|]. split; [exact P|].
  split; [now rewrite S, Hd|]. split; [exact W|]. split.
  - (* hs_code and hs_sub are defined by cases on the verdict *)
    intros t Hin. specialize (Hacc t Hin). specialize (Hrej t Hin). unfold hs_code, hs_sub in Hacc, Hrej |- *.
    rewrite sub_verdict_no_hooks. destruct (sub_verdict h (k_cid k) (tq_name t)) as [|cd|q]; auto.
  - intros K HK. apply Hno. intros t Hin _. now apply HK.
Qed.

(* the same for the scenario event: a SUBSCRIBE with valid filters arriving on a connected socket *)
Lemma subscribe_event c k pid props topics s :
  nget c (b_conns s) = Some k -> k_phase k = PhConnected ->
  forallb (fun t => let '(g, f) := split_topic (tq_name t) in valid_filter_spec f) topics = true ->
  forall s' o, handle_subscribe c k pid props topics s = HOk s' o ->
  step_event s (ESend c (KSubscribe pid props topics)) = (s', o).
Proof.
  intros Hk Hp Hv s' o E. cbn [step_event]. rewrite Hk, Hp. cbn [handle_packet]. now rewrite Hv, E.
Qed.

(* a packet that its handler accepts, as a scenario event on a connected socket *)
Lemma send_event_ok c k p s s' o :
  nget c (b_conns s) = Some k -> k_phase k = PhConnected ->
  handle_packet c k p s = HOk s' o -> step_event s (ESend c p) = (s', o).
Proof. intros Hk Hp E. cbn [step_event]. now rewrite Hk, Hp, E. Qed.

(* OnMsgArrived for a message on topic t (pub_action of Proofs/BrokerQos2P.v reads it for the message the
   topic-alias stage produced) *)
Definition msg_verdict (h : hooks) (t : str) : msg_action :=
  if h_msg_on h then opt_or (aget t (h_msg h)) MAccept else MAccept.

Lemma pub_action_verdict m s : pub_action m s = msg_verdict (b_hooks s) (m_topic m).
Proof. reflexivity. Qed.

(* a refusing verdict and the error it hands to the acknowledgement: reject = Some code, drop = none *)
Definition refusal (a : msg_action) : option (option N) :=
  match a with MReject cd => Some (Some cd) | MDrop => Some None | _ => None end.

(* the reason code of the PUBACK / PUBREC after a refusal: towards a v5 publisher the hook's code, or 16
   ("no matching subscribers") when the hook dropped the message silently; always 0 towards a v3 publisher *)
Lemma pub_code_refused v5 err :
  pub_code v5 false err = if v5 then match err with Some cd => cd | None => 16 end else 0.
Proof. reflexivity. Qed.

(* what forwarding a message means when no hook interferes *)
Definition fwd_plain (k : conn) (m : msg) (s : st) : st * list out * bool * option N :=
  let '(s', o, mt) := deliver (k_cid k) m (retain_update m s) in (s', o, mt, None).

Lemma pub_fwd_refused k m s err :
  refusal (msg_verdict (b_hooks s) (m_topic m)) = Some err -> pub_fwd k m false s = (s, [], false, err).
Proof.
  unfold pub_fwd. rewrite pub_action_verdict.
  destruct (msg_verdict (b_hooks s) (m_topic m)); cbn [refusal]; intros [= <-]; reflexivity.
Qed.

Lemma pub_fwd_accepted k m s :
  msg_verdict (b_hooks s) (m_topic m) = MAccept -> pub_fwd k m false s = fwd_plain k m s.
Proof. unfold pub_fwd. rewrite pub_action_verdict. now intros ->. Qed.

Lemma pub_fwd_rewritten k m s t p q :
  msg_verdict (b_hooks s) (m_topic m) = MRewrite t p q ->
  pub_fwd k m false s = fwd_plain k (rewrite_msg t p q m) s.
Proof. unfold pub_fwd. rewrite pub_action_verdict. now intros ->. Qed.

Lemma pub_fwd_no_hook k m s : h_msg_on (b_hooks s) = false -> pub_fwd k m false s = fwd_plain k m s.
Proof. intros H. apply pub_fwd_accepted. unfold msg_verdict. now rewrite H. Qed.

(* the bookkeeping before and after the forwarding stage touches only the unack sets and the publisher's
   connection record *)
Lemma pub_mark_fresh c k v5 qos pid s :
  (qos = 2 -> ~ In pid (Uof (k_cid k) s)) ->
  exists s1, pub_mark c k v5 qos pid s = (s1, false) /\ qproj s1 = qproj s.
Proof.
  intros Hn. destruct (qos =? 2) eqn:E.
  - apply N.eqb_eq in E. subst qos. rewrite pub_mark_qos2. cbv zeta.
    rewrite (memN_false _ _ (Hn eq_refl)). eexists. split; reflexivity.
  - rewrite (pub_mark_not2 _ _ _ _ _ _ E). eexists. split; reflexivity.
Qed.

Lemma pub_finish_qproj c k v5 qos pid s o mt err :
  exists s', pub_finish c k v5 qos pid (s, o, mt, err) = HOk s' (o ++ pub_ack c qos pid (pub_code v5 mt err)) /\
             qproj s' = qproj s.
Proof.
  unfold pub_finish, pub_ack.
  match goal with |- context [nget c (b_conns ?X)] =>
    assert (Q : qproj X = qproj s) by (destruct ((qos =? 2) && (128 <=? pub_code v5 mt err)); reflexivity);
    destruct (nget c (b_conns X)) as [k1|] end.
  - match goal with |- context [if ?b then upd_conn _ _ _ else _] => destruct b end;
      eexists; (split; [reflexivity|exact Q]).
  - eexists. split; [reflexivity|exact Q].
Qed.

(* handle_packet for a PUBLISH that passes the protocol checks and is not a QoS 2 retransmission: the three
   stages with the duplicate flag resolved *)
Lemma handle_packet_publish_fresh c k dup qos retain topic payload pid props s :
  let v5 := k_v k =? 5 in
  pub_accepts k qos retain topic props = true ->
  (qos = 2 -> ~ In pid (Uof (k_cid k) s)) ->
  exists k' m s1,
    pub_alias v5 (charge k qos) topic props (msg_of_publish v5 dup qos retain topic payload pid props) = inl (Some (k', m)) /\
    k_cid k' = k_cid k /\ qproj s1 = qproj s /\
    handle_packet c k (KPublish dup qos retain topic payload pid props) s = pub_finish c k' v5 qos pid (pub_fwd k' m false s1).
Proof.
  intros v5 Hacc Hn.
  destruct (handle_packet_publish c k dup qos retain topic payload pid props s Hacc) as (k' & m & Hal & E).
  fold v5 in Hal, E. pose proof (pub_alias_cid _ _ _ _ _ _ _ Hal) as (Ec & _).
  destruct (charge_fields k qos) as (Ec2 & _). rewrite Ec2 in Ec.
  destruct (pub_mark_fresh c k' v5 qos pid (upd_conn c k' (upd_conn c (charge k qos) s))) as (s1 & Em & Q).
  { rewrite Ec. exact Hn. }
  exists k', m, s1. split; [exact Hal|]. split; [exact Ec|]. split; [exact Q|].
  rewrite E. cbv zeta. now rewrite Em.
Qed.

(* The hook rejects or drops the PUBLISH: the publisher gets the acknowledgement of its QoS with
   the code above and nothing else is written; every table except the unack sets and the connection records -
   queues, retained store, subscriptions, sessions, wills, even the tag and pick counters - is as before:
   `deliver` and `retain_update` have not been applied. *)
Theorem publish_refused_by_hook c k s dup qos retain topic payload pid props k' m err :
  let v5 := k_v k =? 5 in
  pub_accepts k qos retain topic props = true ->
  (qos = 2 -> ~ In pid (Uof (k_cid k) s)) ->
  pub_alias v5 (charge k qos) topic props (msg_of_publish v5 dup qos retain topic payload pid props) = inl (Some (k', m)) ->
  refusal (msg_verdict (b_hooks s) (m_topic m)) = Some err ->
  exists s',
    handle_packet c k (KPublish dup qos retain topic payload pid props) s =
      HOk s' (pub_ack c qos pid (if v5 then match err with Some cd => cd | None => 16 end else 0)) /\
    qproj s' = qproj s.
Proof.
  intros v5 Hacc Hn Hal Hv.
  destruct (handle_packet_publish_fresh c k dup qos retain topic payload pid props s Hacc Hn)
    as (k'' & m'' & s1 & Hal' & _ & Q1 & E).
  fold v5 in Hal', E. rewrite Hal in Hal'. injection Hal' as <- <-.
  rewrite E, (pub_fwd_refused k' m s1 err) by (now rewrite (qp_hooks _ _ Q1)).
  destruct (pub_finish_qproj c k' v5 qos pid s1 [] false err) as (s' & E' & Q').
  exists s'. split; [rewrite E'; reflexivity|congruence].
Qed.

(* the usual case: no topic alias in the packet, so the message is the packet's and the hook is asked about
   the packet's topic *)
Corollary publish_refused_by_hook_plain c k s dup qos retain topic payload pid props err :
  let v5 := k_v k =? 5 in
  pub_accepts k qos retain topic props = true ->
  (qos = 2 -> ~ In pid (Uof (k_cid k) s)) ->
  (if v5 then p_alias props else None) = None ->
  refusal (msg_verdict (b_hooks s) topic) = Some err ->
  exists s',
    handle_packet c k (KPublish dup qos retain topic payload pid props) s =
      HOk s' (pub_ack c qos pid (if v5 then match err with Some cd => cd | None => 16 end else 0)) /\
    qproj s' = qproj s.
Proof.
  intros v5 Hacc Hn Hna Hv.
  eapply publish_refused_by_hook; [exact Hacc|exact Hn|apply pub_alias_none; exact Hna|exact Hv].
Qed.

(* The hook rewrites the message to m' = rewrite_msg t p q m: the handler is the explicit
   composition  bookkeeping ; retain_update m' ; deliver m' ; acknowledgement  - the forwarding stage is
   fwd_plain, the one an un-hooked broker applies (pub_fwd_no_hook), applied to m'. *)
Theorem publish_rewritten_is_what_is_seen c k s dup qos retain topic payload pid props k' m t p q :
  let v5 := k_v k =? 5 in
  pub_accepts k qos retain topic props = true ->
  (qos = 2 -> ~ In pid (Uof (k_cid k) s)) ->
  pub_alias v5 (charge k qos) topic props (msg_of_publish v5 dup qos retain topic payload pid props) = inl (Some (k', m)) ->
  msg_verdict (b_hooks s) (m_topic m) = MRewrite t p q ->
  let m' := rewrite_msg t p q m in
  exists s1,
    qproj s1 = qproj s /\
    handle_packet c k (KPublish dup qos retain topic payload pid props) s =
      (let '(s2, o, mt) := deliver (k_cid k) m' (retain_update m' s1) in
       pub_finish c k' v5 qos pid (s2, o, mt, None)).
Proof.
  intros v5 Hacc Hn Hal Hv m'.
  destruct (handle_packet_publish_fresh c k dup qos retain topic payload pid props s Hacc Hn)
    as (k'' & m'' & s1 & Hal' & Ec & Q1 & E).
  fold v5 in Hal', E. rewrite Hal in Hal'. injection Hal' as <- <-.
  exists s1. split; [exact Q1|].
  rewrite E, (pub_fwd_rewritten k' m s1 t p q) by (now rewrite (qp_hooks _ _ Q1)).
  unfold fwd_plain. rewrite Ec. fold m'.
  destruct (deliver (k_cid k) m' (retain_update m' s1)) as [[s2 o] mt]. reflexivity.
Qed.

(* the same seen from outside: outputs and tables *)
Corollary publish_rewritten_outputs c k s dup qos retain topic payload pid props k' m t p q :
  let v5 := k_v k =? 5 in
  pub_accepts k qos retain topic props = true ->
  (qos = 2 -> ~ In pid (Uof (k_cid k) s)) ->
  pub_alias v5 (charge k qos) topic props (msg_of_publish v5 dup qos retain topic payload pid props) = inl (Some (k', m)) ->
  msg_verdict (b_hooks s) (m_topic m) = MRewrite t p q ->
  let m' := rewrite_msg t p q m in
  exists s1 s2 s3 o mt,
    qproj s1 = qproj s /\ deliver (k_cid k) m' (retain_update m' s1) = (s2, o, mt) /\
    handle_packet c k (KPublish dup qos retain topic payload pid props) s =
      HOk s3 (o ++ pub_ack c qos pid (if v5 then if mt then 0 else 16 else 0)) /\
    qproj s3 = qproj s2 /\
    b_ret s3 = b_ret (retain_update m' s).
Proof.
  intros v5 Hacc Hn Hal Hv m'.
  destruct (publish_rewritten_is_what_is_seen c k s dup qos retain topic payload pid props k' m t p q Hacc Hn Hal Hv)
    as (s1 & Q1 & E). fold v5 m' in E.
  pose proof (deliver_frame (k_cid k) m' (retain_update m' s1)) as [F _].
  destruct (deliver (k_cid k) m' (retain_update m' s1)) as [[s2 o] mt] eqn:Ed. cbn [fst] in F.
  destruct (pub_finish_qproj c k' v5 qos pid s2 o mt None) as (s3 & E3 & Q3).
  exists s1, s2, s3, o, mt. split; [exact Q1|]. split; [exact Ed|]. split; [rewrite E, E3; reflexivity|].
  split; [exact Q3|].
  rewrite (qp_ret _ _ Q3), (df_ret _ _ F). unfold retain_update.
  destruct (m_retained m'); [|apply (qp_ret _ _ Q1)]. cbn [b_ret set_ret]. now rewrite (qp_ret _ _ Q1).
Qed.

(* OnWillPublish for the will of client cid *)
Definition will_verdict (h : hooks) (cid : str) : msg_action :=
  if h_will_on h then opt_or (aget cid (h_will h)) MAccept else MAccept.

Lemma will_action_verdict cid s : will_action cid s = will_verdict (b_hooks s) cid.
Proof. reflexivity. Qed.

(* dropped (or refused): send_will is the identity - no queue, no retained message, nothing at all changes and
   nothing is written *)
Theorem will_dropped cid m s err :
  refusal (will_verdict (b_hooks s) cid) = Some err -> send_will cid m s = (s, []).
Proof.
  unfold send_will. rewrite will_action_verdict.
  destruct (will_verdict (b_hooks s) cid); cbn [refusal]; intros [= <-]; reflexivity.
Qed.

(* rewritten: exactly retain_update and deliver of the rewritten will *)
Theorem will_rewritten cid m s t p q :
  will_verdict (b_hooks s) cid = MRewrite t p q ->
  let m' := with_topic_payload_qos t p q m in
  send_will cid m s = (let '(s', o, _) := deliver cid m' (retain_update m' s) in (s', o)).
Proof. unfold send_will. rewrite will_action_verdict. now intros ->. Qed.

(* untouched: the registered will *)
Theorem will_untouched cid m s :
  will_verdict (b_hooks s) cid = MAccept ->
  send_will cid m s = (let '(s', o, _) := deliver cid m (retain_update m s) in (s', o)).
Proof. unfold send_will. rewrite will_action_verdict. now intros ->. Qed.

(* the edit touches topic, payload, QoS and the RETAIN flag only (the last argument packs QoS and RETAIN: rw_qos, rw_retain) *)
Lemma will_rewrite_fields t p q m :
  let m' := with_topic_payload_qos t p q m in
  m_topic m' = t /\ m_payload m' = p /\ m_qos m' = rw_qos q /\ m_retained m' = rw_retain q (m_retained m) /\ m_dup m' = m_dup m /\
  m_ctype m' = m_ctype m /\ m_corr m' = m_corr m /\ m_expiry m' = m_expiry m /\ m_pfmt m' = m_pfmt m /\
  m_resp m' = m_resp m /\ m_uprops m' = m_uprops m.
Proof. repeat split. Qed.

(* rewrite_msg, the edit of the publish handler, is the same function *)
Lemma pub_rewrite_fields t p q m :
  let m' := rewrite_msg t p q m in
  m_topic m' = t /\ m_payload m' = p /\ m_qos m' = rw_qos q /\ m_retained m' = rw_retain q (m_retained m) /\ m_dup m' = m_dup m /\
  m_ctype m' = m_ctype m /\ m_corr m' = m_corr m /\ m_expiry m' = m_expiry m /\ m_pfmt m' = m_pfmt m /\
  m_resp m' = m_resp m /\ m_uprops m' = m_uprops m.
Proof. exact (will_rewrite_fields t p q m). Qed.

(* the will in one statement (will_message_fields of Proofs/BrokerWillP.v, read through the verdict) *)
Theorem will_hook_enforced cid m s :
  match will_verdict (b_hooks s) cid with
  | MDrop | MReject _ => send_will cid m s = (s, [])
  | MRewrite t p q =>
      let m' := with_topic_payload_qos t p q m in
      send_will cid m s = (let '(s', o, _) := deliver cid m' (retain_update m' s) in (s', o)) /\
      b_ret (fst (send_will cid m s)) = b_ret (retain_update m' s)
  | MAccept =>
      send_will cid m s = (let '(s', o, _) := deliver cid m (retain_update m s) in (s', o)) /\
      b_ret (fst (send_will cid m s)) = b_ret (retain_update m s)
  end.
Proof.
  pose proof (will_message_fields cid m s) as H. unfold will_effective in H. rewrite will_action_verdict in H.
  destruct (will_verdict (b_hooks s) cid); try exact H; destruct H as (H1 & H2 & _); now split.
Qed.

(* the call site that matters most - the connection of a client with an armed, undelayed will goes away
   (will_immediate of Proofs/BrokerWillP.v) - under a dropping hook: unregister writes nothing and is the
   plain end of a session (ur_finish) on the untouched state *)
Theorem will_dropped_at_unregister c k s se w err :
  aget (k_cid k) (b_sessions s) = Some se -> se_will se = Some w -> k_clean_will k = false ->
  ur_delay k se s = 0 \/ ur_store k se s = false ->
  refusal (will_verdict (b_hooks s) (k_cid k)) = Some err ->
  unregister c k s = ur_finish (k_cid k) se (BrokerWillP.ur_expiry k se s) (ur_store k se s) s [] /\
  snd (unregister c k s) = [] /\
  b_ret (fst (unregister c k s)) = b_ret s.
Proof.
  intros Hse Hw Hcw Hnow Hv.
  destruct (will_immediate c k s se w Hse Hw Hcw Hnow) as [E _].
  rewrite (will_dropped (k_cid k) w s err Hv) in E. rewrite E. split; [reflexivity|].
  unfold ur_finish. destruct (ur_store k se s); split; reflexivity.
Qed.

(* non-vacuity, and the statements that are false as first written *)

Definition ex_A : str := [97].  Definition ex_B : str := [98].  Definition ex_D : str := [100].
Definition ex_Q : str := [113]. Definition ex_U : str := [117]. Definition ex_V : str := [118].
Definition ex_X : str := [120]. Definition ex_Y : str := [121]. Definition ex_Z : str := [122].
(* ex_T "t", ex_S "s", ex_P "p" (Proofs/BrokerQos2P.v), ex_W "w" (Proofs/BrokerWillP.v) *)

(* a hooks record with every kind of verdict:
   - authentication: user "u" / password "p" is let in, user "v" / password "p" gets code 4, everybody else 134;
   - OnSubscribe for client "s": "a" refused with 135, "b" down-graded to QoS 0, "d" "refused" with the
     non-failure code 1;
   - OnMsgArrived: "x" refused with 135, "q" "refused" with code 1, "y" dropped, "z" rewritten to topic "t",
     payload [9], QoS 0;
   - OnWillPublish: the will of "w" is dropped, that of "v" rewritten to topic "t", payload [7], QoS 0 *)
Definition ex_hooks : hooks :=
  {| h_auth := Some ([(ex_U, ex_P, 0); (ex_V, ex_P, 4)], 134);
     h_sub_all := None;
     h_sub := [(ex_S, ex_A, SReject 135); (ex_S, ex_B, SQos 0); (ex_S, ex_D, SReject 1)];
     h_msg := [(ex_X, MReject 135); (ex_Q, MReject 1); (ex_Y, MDrop); (ex_Z, MRewrite ex_T [9] 0)]; h_msg_on := true;
     h_will := [(ex_W, MDrop); (ex_V, MRewrite ex_T [7] 0)]; h_will_on := true |}.

Definition ex_hooks_all : hooks :=
  {| h_auth := None; h_sub_all := Some 135; h_sub := []; h_msg := []; h_msg_on := false; h_will := []; h_will_on := false |}.

Definition ex_cn (v : N) (cid user pass : str) (will : option willspec) : connect :=
  {| cn_ver := v; cn_cid := cid; cn_clean := true; cn_keepalive := 0; cn_user := Some user; cn_pass := Some pass;
     cn_will := will; cn_props := [] |}.
Definition ex_tr (n : str) (q : N) : topic_req := {| tq_name := n; tq_qos := q; tq_nl := false; tq_rap := false; tq_rh := 0 |}.
Definition ex_wl (t : str) : willspec := {| w_topic := t; w_payload := [5]; w_qos := 1; w_retain := false; w_props := [] |}.

(* the v5 subscriber "s" is connected on socket 1 *)
Definition ex_h0 : st := fst (run (st_init BrokerQos2P.ex_cfg ex_hooks []) [EConnect 1 (ex_cn 5 ex_S ex_U ex_P None)]).
Definition ex_sub1 : pkt := KSubscribe 5 [] [ex_tr ex_A 1; ex_tr ex_B 1; ex_tr ex_T 1; ex_tr ex_D 2].
(* ... has sent ex_sub1 *)
Definition ex_h1 : st := fst (run ex_h0 [ESend 1 ex_sub1]).
(* ... has subscribed to the hooked topics too, and the v5 publisher "p" is connected on socket 2 *)
Definition ex_h2 : st :=
  fst (run ex_h1 [ESend 1 (KSubscribe 6 [] [ex_tr ex_X 1; ex_tr ex_Q 1; ex_tr ex_Y 1; ex_tr ex_Z 1]);
                  EConnect 2 (ex_cn 5 ex_P ex_U ex_P None)]).

Definition ex_bad5 : connect := ex_cn 5 ex_P ex_U ex_X None.     (* wrong password, v5 *)
Definition ex_bad3 : connect := ex_cn 4 ex_P ex_U ex_X None.     (* wrong password, v3.1.1 *)
Definition ex_bad3_4 : connect := ex_cn 4 ex_P ex_V ex_P None.   (* the hook says 4, v3.1.1 *)

Example ex_connect_rejected_hyps :
  unattached ex_h0 2 /\ cid_allowed ex_bad5 ex_h0 = true /\ hc_code ex_bad5 ex_h0 = 134 /\
  hc_code ex_bad3 ex_h0 = 134 /\ hc_code ex_bad3_4 ex_h0 = 4.
Proof.
  vm_compute. split; [intros k H; discriminate|repeat split].
Qed.

(* what the clients see: v5 134 as it is; v3.1.1 135 for 134 (not a CONNACK return code of MQTT 3.1.1, where
   5 is "not authorized": server/client.go sendErrConnack overrides with codes.NotAuthorized = 0x87), 4 as it is *)
Example ex_connect_rejected_run :
  snd (run ex_h0 [EConnect 2 ex_bad5]) = [[OSend 2 (KConnack false 134 [])]] /\
  snd (run ex_h0 [EConnect 2 ex_bad3]) = [[OSend 2 (KConnack false 135 [])]] /\
  snd (run ex_h0 [EConnect 2 ex_bad3_4]) = [[OSend 2 (KConnack false 4 [])]] /\
  tables (fst (run ex_h0 [EConnect 2 ex_bad5])) = tables ex_h0 /\
  aget ex_P (b_sessions (fst (run ex_h0 [EConnect 2 ex_bad5]))) = None.
Proof. vm_compute. repeat split. Qed.

(* the hypothesis `unattached`: a CONNECT event on a socket that still carries a client first ends that
   client's connection (the model's way of re-using a socket number), which of course changes the tables *)
Example ex_connect_on_attached_socket :
  hc_code ex_bad5 ex_h0 <> 0 /\ ~ unattached ex_h0 1 /\
  aget ex_S (b_sessions ex_h0) <> None /\
  aget ex_S (b_sessions (fst (step_event ex_h0 (EConnect 1 ex_bad5)))) = None.
Proof.
  vm_compute. repeat split; try discriminate. intros H. discriminate (H _ eq_refl).
Qed.

Example ex_subscribe_hyps :
  exists k, nget 1 (b_conns ex_h0) = Some k /\ k_phase k = PhConnected /\ k_cid k = ex_S /\ k_cid k <> [] /\
            wf_ops [] = true /\ b_subs ex_h0 = db_run [] /\ sub_refused k [] ex_h0 = false /\
            h_sub_all (b_hooks ex_h0) = None /\
            sub_verdict (b_hooks ex_h0) (k_cid k) ex_A = SReject 135 /\
            sub_verdict (b_hooks ex_h0) (k_cid k) ex_B = SQos 0 /\
            sub_verdict (b_hooks ex_h0) (k_cid k) ex_T = SAccept /\
            name_owns_key [ex_tr ex_A 1; ex_tr ex_B 1; ex_tr ex_T 1; ex_tr ex_D 2] (ex_tr ex_B 1).
Proof.
  assert (Hown : name_owns_key [ex_tr ex_A 1; ex_tr ex_B 1; ex_tr ex_T 1; ex_tr ex_D 2] (ex_tr ex_B 1)).
  { apply plain_names_own_keys; [|now right; left]. intros t' [<-|[<-|[<-|[<-|[]]]]]; reflexivity. }
  (* the other facts by one evaluation of the state *)
  revert Hown. generalize (name_owns_key [ex_tr ex_A 1; ex_tr ex_B 1; ex_tr ex_T 1; ex_tr ex_D 2] (ex_tr ex_B 1)).
  intros P HP. eexists. vm_compute. repeat split; try discriminate. exact HP.
Qed.

(* the SUBACK reports the verdicts; the refused filter "a" is not in the store, "b" is there with QoS 0, the
   untouched "t" as asked *)
Example ex_subscribe_run :
  snd (run ex_h0 [ESend 1 ex_sub1]) = [[OSend 1 (KSuback 5 [135; 0; 1; 1] [])]] /\
  db_iterate (q_name ex_A ex_S) (b_subs ex_h1) = IOk [] /\
  db_iterate (q_name ex_B ex_S) (b_subs ex_h1) = IOk (some_ents [(ex_S, with_sub_qos 0 (sub_of_req (ex_tr ex_B 1) 0))]) /\
  db_iterate (q_name ex_T ex_S) (b_subs ex_h1) = IOk (some_ents [(ex_S, sub_of_req (ex_tr ex_T 1) 0)]).
Proof. vm_compute. repeat split. Qed.

(* FALSE as first written ("if the hook rejects topic i with code c ... the store has no new entry"): a v5
   client whose topic the hook refuses with a code below 128 gets that code in the SUBACK - and the
   subscription is installed, with the QoS the client asked for.  Hence the hypothesis 128 <= code in
   subscribe_hook_enforced. *)
Example ex_subscribe_reject_below_128_installs :
  sub_verdict ex_hooks ex_S ex_D = SReject 1 /\
  nth 3 (match snd (run ex_h0 [ESend 1 ex_sub1]) with [[OSend _ (KSuback _ codes _)]] => codes | _ => [] end) 0 = 1 /\
  db_iterate (q_name ex_D ex_S) (b_subs ex_h0) = IOk [] /\
  db_iterate (q_name ex_D ex_S) (b_subs ex_h1) = IOk (some_ents [(ex_S, sub_of_req (ex_tr ex_D 2) 0)]).
Proof. vm_compute. repeat split. Qed.

(* (a): the whole packet fails *)
Definition ex_ha0 : st := fst (run (st_init BrokerQos2P.ex_cfg ex_hooks_all []) [EConnect 1 (ex_cn 5 ex_S ex_U ex_P None)]).
Example ex_subscribe_all_rejected_run :
  h_sub_all (b_hooks ex_ha0) = Some 135 /\
  snd (run ex_ha0 [ESend 1 ex_sub1]) = [[OSend 1 (KSuback 5 [135; 135; 135; 135] [])]] /\
  b_subs (fst (run ex_ha0 [ESend 1 ex_sub1])) = b_subs ex_ha0 /\
  (exists k, nget 1 (b_conns ex_ha0) = Some k /\ sub_refused k [] ex_ha0 = false).
Proof. vm_compute. repeat split. eexists. split; reflexivity. Qed.

Definition ex_pub (qos : N) (topic : str) (pid : N) : pkt := KPublish false qos true topic [1] pid [].

Example ex_publish_hyps :
  exists k, nget 2 (b_conns ex_h2) = Some k /\ k_phase k = PhConnected /\ k_v k = 5 /\
            pub_accepts k 1 true ex_X [] = true /\ Uof (k_cid k) ex_h2 = [] /\
            msg_verdict (b_hooks ex_h2) ex_X = MReject 135 /\ msg_verdict (b_hooks ex_h2) ex_Y = MDrop /\
            msg_verdict (b_hooks ex_h2) ex_Z = MRewrite ex_T [9] 0.
Proof. eexists. split; [vm_compute; reflexivity|]. vm_compute. repeat split. Qed.

(* the subscriber on socket 1 is subscribed to "x", "y", "z" and "t"; it sees nothing of the refused and the
   dropped message, and the rewritten one as the hook wrote it *)
Example ex_publish_run :
  snd (run ex_h2 [ESend 2 (ex_pub 1 ex_X 7); ESend 2 (ex_pub 1 ex_Y 8); ESend 2 (ex_pub 1 ex_Z 9)]) =
    [[OSend 2 (KPuback 7 135 [])]; [OSend 2 (KPuback 8 16 [])];
     [OSend 2 (KPuback 9 0 []); OSend 1 (KPublish false 0 false ex_T [9] 0 [])]] /\
  b_ret (fst (run ex_h2 [ESend 2 (ex_pub 1 ex_X 7); ESend 2 (ex_pub 1 ex_Y 8)])) = b_ret ex_h2 /\
  b_queues (fst (run ex_h2 [ESend 2 (ex_pub 1 ex_X 7); ESend 2 (ex_pub 1 ex_Y 8)])) = b_queues ex_h2.
Proof. vm_compute. repeat split. Qed.

(* the retained store holds the rewritten message (under "t"), nothing under "z" *)
Example ex_publish_rewritten_retained :
  let s := fst (run ex_h2 [ESend 2 (ex_pub 1 ex_Z 9)]) in
  map (fun m => (m_topic m, m_payload m, m_qos m)) (rdb_matched ex_T (b_ret s)) = [(ex_T, [9], 0)] /\
  rdb_matched ex_Z (b_ret s) = [] /\ rdb_matched ex_T (b_ret ex_h2) = [].
Proof. vm_compute. repeat split. Qed.

(* FALSE as first written ("the publisher gets the ack with the hook's code") for a retransmitted QoS 2
   PUBLISH: the hook "refuses" topic "q" with code 1, below 128, so the packet id stays recorded; the
   retransmission is recognised as a duplicate before the hook is asked and is answered with 16.  Hence the
   hypothesis qos = 2 -> ~ In pid (Uof cid s). *)
Example ex_publish_qos2_retransmission :
  msg_verdict ex_hooks ex_Q = MReject 1 /\
  snd (run ex_h2 [ESend 2 (KPublish false 2 false ex_Q [1] 8 []); ESend 2 (KPublish true 2 false ex_Q [1] 8 [])]) =
    [[OSend 2 (KPubrec 8 1 [])]; [OSend 2 (KPubrec 8 16 [])]].
Proof. vm_compute. repeat split. Qed.

Example ex_will_hyps :
  refusal (will_verdict (b_hooks ex_h2) ex_W) = Some None /\
  will_verdict (b_hooks ex_h2) ex_V = MRewrite ex_T [7] 0 /\ will_verdict (b_hooks ex_h2) ex_A = MAccept.
Proof. vm_compute. repeat split. Qed.

(* three v3 clients with a will lose their connection: the will of "w" (on "t") is dropped; that of "v" (on "b",
   where "s" subscribes with QoS 0 only) is published as the hook rewrote it, on "t" with payload [7]; that of
   "a" is published as registered *)
Example ex_will_run :
  snd (run ex_h2 [EConnect 3 (ex_cn 4 ex_W ex_U ex_P (Some (ex_wl ex_T))); EClose 3;
                  EConnect 4 (ex_cn 4 ex_V ex_U ex_P (Some (ex_wl ex_B))); EClose 4;
                  EConnect 5 (ex_cn 4 ex_A ex_U ex_P (Some (ex_wl ex_T))); EClose 5]) =
    [[OSend 3 (KConnack false 0 [])]; [];
     [OSend 4 (KConnack false 0 [])]; [OSend 1 (KPublish false 0 false ex_T [7] 0 [])];
     [OSend 5 (KConnack false 0 [])]; [OSend 1 (KPublish false 1 false ex_T [5] 101 [])]].
Proof. vm_compute. reflexivity. Qed.

Example ex_will_dropped_at_unregister_hyps :
  let s := fst (run ex_h2 [EConnect 3 (ex_cn 4 ex_W ex_U ex_P (Some (ex_wl ex_T)))]) in
  exists k se, nget 3 (b_conns s) = Some k /\ aget (k_cid k) (b_sessions s) = Some se /\
               se_will se = Some (will_msg (ex_wl ex_T)) /\ k_clean_will k = false /\ ur_store k se s = false /\
               refusal (will_verdict (b_hooks s) (k_cid k)) = Some None.
Proof. eexists _, _. split; [vm_compute; reflexivity|]. split; [vm_compute; reflexivity|]. vm_compute. repeat split. Qed.

(* the statements of Props/C14.v, tables spelled out *)

Theorem connect_rejected_explicit c cn s s' o :
  unattached s c -> cid_allowed cn s = true -> hc_code cn s <> 0 ->
  step_event s (EConnect c cn) = (s', o) ->
  o = [OSend c (KConnack false (connack_code (cn_ver cn) (hc_code cn s)) [])] /\
  b_sessions s' = b_sessions s /\ b_subs s' = b_subs s /\ b_ret s' = b_ret s /\ b_wills s' = b_wills s /\
  b_queues s' = b_queues s /\ b_unacks s' = b_unacks s /\ b_online s' = b_online s /\ b_offline s' = b_offline s /\
  (exists k, nget c (b_conns s') = Some k /\ k_phase k = PhDead) /\
  (forall c', c' <> c -> nget c' (b_conns s') = nget c' (b_conns s)).
Proof.
  intros Hu Hz Hc E. destruct (connect_rejected_leaves_nothing c cn s Hu Hz Hc) as (Ho & Ht & Hk & Hn).
  rewrite E in Ho, Ht, Hk, Hn. cbn [fst snd] in *.
  split; [exact Ho|]. unfold tables in Ht. injection Ht as -> -> -> -> -> -> -> ->.
  repeat (split; [reflexivity|]). split; [|exact Hn]. eexists. split; [exact Hk|reflexivity].
Qed.

Theorem publish_rejected_explicit c k s dup qos retain topic payload pid props k' m err :
  let v5 := k_v k =? 5 in
  nget c (b_conns s) = Some k -> k_phase k = PhConnected ->
  pub_accepts k qos retain topic props = true ->
  (qos = 2 -> ~ In pid (Uof (k_cid k) s)) ->
  pub_alias v5 (charge k qos) topic props (msg_of_publish v5 dup qos retain topic payload pid props) = inl (Some (k', m)) ->
  refusal (msg_verdict (b_hooks s) (m_topic m)) = Some err ->
  exists s',
    step_event s (ESend c (KPublish dup qos retain topic payload pid props)) =
      (s', pub_ack c qos pid (if v5 then match err with Some cd => cd | None => 16 end else 0)) /\
    b_queues s' = b_queues s /\ b_ret s' = b_ret s /\ b_subs s' = b_subs s /\ b_sessions s' = b_sessions s /\
    b_wills s' = b_wills s /\ b_online s' = b_online s /\ b_offline s' = b_offline s /\
    b_tag s' = b_tag s /\ b_npick s' = b_npick s.
Proof.
  intros v5 Hk Hp Hacc Hn Hal Hv.
  destruct (publish_refused_by_hook c k s dup qos retain topic payload pid props k' m err Hacc Hn Hal Hv) as (s' & E & Q).
  exists s'. split; [now apply (send_event_ok c k)|]. unfold qproj in Q. injection Q as Q1 Q2 Q3 Q4 Q5 Q6 Q7 Q8 Q9 Q10 Q11 Q12 Q13 Q14 Q15.
  repeat split; assumption.
Qed.

(* every poll loop is parked: nothing is left to be written (the state the harness observes) *)
Definition quiescent (s : st) : bool :=
  forallb (fun ck => match poll_once (fst ck) s with None => true | Some _ => false end) (b_conns s).

Lemma poll_once_unattached c s : ~ att s c -> poll_once c s = None.
Proof.
  intros H. unfold poll_once. destruct (nget c (b_conns s)) as [k|] eqn:Hk; [|reflexivity].
  destruct (k_phase k) eqn:Hp; try reflexivity; exfalso; apply H; exists k; rewrite Hp; now split.
Qed.

Lemma quiescent_parked s c : quiescent s = true -> poll_once c s = None.
Proof.
  intros H. destruct (nget c (b_conns s)) as [k|] eqn:Hk.
  - unfold quiescent in H. rewrite forallb_forall in H. specialize (H (c, k) (nget_In _ _ _ Hk)). cbn [fst] in H.
    destruct (poll_once c s); [discriminate|reflexivity].
  - apply poll_once_unattached. intros (k & Hk' & _). congruence.
Qed.

Lemma poll_all_quiescent s : quiescent s = true -> poll_all s = (s, []).
Proof.
  intros H. destruct (BrokerPollP.poll_all_walk (fun _ => True) (eq s) (fun _ _ => True) (fun _ _ => False)) with (s := s) as (E & _ & F); auto.
  - intros c s0 s' o _ <- Hp. now rewrite (quiescent_parked s c H) in Hp.
  - destruct (poll_all s) as [s' [|x o]]; cbn [fst snd] in *; [now subst|now inversion F].
Qed.

(* whether a poll loop is parked depends on its own connection record, the queues and the clock only *)
Lemma poll_once_none_ext c s s' :
  nget c (b_conns s') = nget c (b_conns s) -> b_queues s' = b_queues s -> b_now s' = b_now s ->
  poll_once c s = None -> poll_once c s' = None.
Proof.
  unfold poll_once. intros -> -> ->. destruct (nget c (b_conns s)) as [k|]; [|auto].
  (* the two polling phases share one body *)
  match goal with |- match k_phase k with PhConnected => ?A | _ => _ end = None -> match k_phase k with PhConnected => ?B | _ => _ end = None =>
    cut (A = None -> B = None); [destruct (k_phase k); auto|] end.
  destruct (aget (k_cid k) (b_queues s)) as [q|]; [|auto].
  destruct (negb (k_drained k)).
  - destruct (q_read_inflight (b_now s) (N.to_nat (k_max_inflight k)) q) as [q' [|r rs]]; [discriminate|].
    rewrite DeliverP.let_pair. discriminate.
  - destruct (k_held k) as [ids|].
    + destruct (q_read (b_now s) ids q) as [[[q' rs] evs]| | |]; auto. rewrite DeliverP.let_pair. discriminate.
    + destruct (lim_poll _ (k_lim k)) as [l' [| | |ids]]; auto; discriminate.
Qed.

Lemma idle_upd_quiescent c s s' : idle_upd c s s' -> quiescent s = true -> quiescent s' = true.
Proof.
  intros [->|(k & Ha & ->)] Hq; [exact Hq|]. apply forallb_forall. intros [c' k'] _. cbn [fst].
  destruct (N.eq_dec c' c) as [->|Hne].
  - rewrite poll_once_unattached; [reflexivity|].
    intros (k0 & Hk0 & Ha0). proj_in Hk0. rewrite nget_nset_same in Hk0. injection Hk0 as <-. congruence.
  - rewrite (poll_once_none_ext c' s (upd_conn c k s)); [reflexivity| | | |now apply quiescent_parked]; proj;
      try reflexivity. now apply nget_nset_other.
Qed.

(* the refused CONNECT for the whole step of a quiescent broker: the poll loops have nothing to do, the step is the event -
   exactly one CONNACK, all tables including every queue as before *)
Theorem connect_rejected_step_quiescent c cn s :
  quiescent s = true -> unattached s c -> cid_allowed cn s = true -> hc_code cn s <> 0 ->
  step s (EConnect c cn) = step_event s (EConnect c cn) /\
  snd (step s (EConnect c cn)) = [OSend c (KConnack false (connack_code (cn_ver cn) (hc_code cn s)) [])] /\
  tables (fst (step s (EConnect c cn))) = tables s /\
  quiescent (fst (step s (EConnect c cn))) = true.
Proof.
  intros Hq Hu Hz Hc.
  assert (Hq1 : quiescent (fst (step_event s (EConnect c cn))) = true).
  { destruct (connect_rejected_event c cn s Hu Hz Hc) as (s0 & Hi & ->). cbn [fst].
    apply (idle_upd_quiescent c s0); [right; now exists (dead_conn cn)|now apply (idle_upd_quiescent c s)]. }
  destruct (connect_rejected_leaves_nothing c cn s Hu Hz Hc) as (Ho & Ht & _).
  assert (E : step s (EConnect c cn) = step_event s (EConnect c cn)).
  { unfold step. destruct (step_event s (EConnect c cn)) as [s1 o1]. cbn [fst] in Hq1.
    rewrite (poll_all_quiescent s1 Hq1). now rewrite app_nil_r. }
  rewrite E. repeat split; assumption.
Qed.

Example ex_quiescent : quiescent ex_h0 = true /\ quiescent ex_h2 = true.
Proof. vm_compute. split; reflexivity. Qed.

(* the same broker state with another hooks record *)
Definition set_hooks (h : hooks) (s : st) : st :=
  {| b_cfg := b_cfg s; b_hooks := h; b_now := b_now s; b_rt := b_rt s; b_sessions := b_sessions s;
     b_online := b_online s; b_offline := b_offline s; b_wills := b_wills s; b_subs := b_subs s; b_ret := b_ret s;
     b_queues := b_queues s; b_unacks := b_unacks s; b_conns := b_conns s; b_picks := b_picks s; b_tag := b_tag s;
     b_auto := b_auto s; b_npick := b_npick s |}.

Lemma set_hooks_id s : set_hooks (b_hooks s) s = s.
Proof. destruct s; reflexivity. Qed.
Lemma set_hooks_set_hooks h h' s : set_hooks h (set_hooks h' s) = set_hooks h s.
Proof. reflexivity. Qed.
Lemma set_hooks_restore h s s' : b_hooks s' = b_hooks s -> set_hooks (b_hooks s) (set_hooks h s') = s'.
Proof. intros <-. rewrite set_hooks_set_hooks. apply set_hooks_id. Qed.

Definition lift_hooks (h : hooks) (r : st * list out) : st * list out := (set_hooks h (fst r), snd r).

Lemma release_dropped_hooks h cid evs s : release_dropped cid evs (set_hooks h s) = set_hooks h (release_dropped cid evs s).
Proof.
  unfold release_dropped. cbn [b_online b_conns set_hooks].
  destruct (aget cid (b_online s)) as [c|]; [|reflexivity]. destruct (nget c (b_conns s)); reflexivity.
Qed.

Lemma add_to_queue_hooks h cid m sb ids s :
  add_to_queue cid m sb ids (set_hooks h s) = lift_hooks h (add_to_queue cid m sb ids s).
Proof.
  unfold add_to_queue. cbn [b_queues b_online b_cfg b_now b_tag b_picks set_hooks].
  destruct (aget cid (b_queues s)) as [q0|]; [|reflexivity].
  destruct (negb (c_queue_qos0 (b_cfg s)) && negb (ahas cid (b_online s)) && (m_qos m =? 0)); [reflexivity|].
  match goal with |- context [q_add ?a ?b ?d] => destruct (q_add a b d) as [[q' evs]| | |] end; try reflexivity.
  unfold lift_hooks. cbn [fst snd]. rewrite <- release_dropped_hooks. reflexivity.
Qed.

Lemma take_pick_hooks h n s : take_pick n (set_hooks h s) = (fst (take_pick n s), set_hooks h (snd (take_pick n s))).
Proof. unfold take_pick. cbn [b_picks set_hooks]. destruct (b_picks s); reflexivity. Qed.

Lemma pick_hooks {A} h (l : list A) s :
  match l with [_] => (0%nat, set_hooks h s) | _ => take_pick (length l) (set_hooks h s) end =
  (fst (match l with [_] => (0%nat, s) | _ => take_pick (length l) s end),
   set_hooks h (snd (match l with [_] => (0%nat, s) | _ => take_pick (length l) s end))).
Proof. destruct l as [|x [|y r]]; try apply take_pick_hooks. reflexivity. Qed.

Lemma plain_step_hooks h m b e : DeliverP.plain_step m (lift_hooks h b) e = lift_hooks h (DeliverP.plain_step m b e).
Proof.
  destruct b as [s o]. unfold DeliverP.plain_step, lift_hooks at 1. cbn [fst snd]. rewrite add_to_queue_hooks.
  destruct (add_to_queue (fst e) m (snd e) [s_id (snd e)] s); reflexivity.
Qed.

Lemma shared_step_hooks h m b g : DeliverP.shared_step m (lift_hooks h b) g = lift_hooks h (DeliverP.shared_step m b g).
Proof.
  destruct b as [s o]. unfold DeliverP.shared_step, lift_hooks at 1. cbn [fst snd]. cbv zeta. rewrite pick_hooks.
  destruct (match snd g with [_] => (0%nat, s) | _ => take_pick (length (snd g)) s end) as [i s']. cbn [fst snd].
  destruct (nth_error (snd g) i) as [[c sb]|]; [|reflexivity].
  rewrite add_to_queue_hooks. destruct (add_to_queue c m sb [s_id sb] s'); reflexivity.
Qed.

Lemma once_step_hooks h m b g : DeliverP.once_step m (lift_hooks h b) g = lift_hooks h (DeliverP.once_step m b g).
Proof.
  destruct b as [s o]. unfold DeliverP.once_step, lift_hooks at 1. cbn [fst snd]. cbv zeta. rewrite pick_hooks.
  set (best := DeliverP.best_of (snd g)).
  destruct (match best with [_] => (0%nat, s) | _ => take_pick (length best) s end) as [i s']. cbn [fst snd].
  destruct (nth_error best i) as [sb|]; [|reflexivity].
  rewrite add_to_queue_hooks. destruct (add_to_queue (fst g) m sb (map s_id (snd g)) s'); reflexivity.
Qed.

(* `deliver` never looks at the hooks *)
Lemma deliver_hooks h src m s :
  deliver src m (set_hooks h s) =
  (set_hooks h (fst (fst (deliver src m s))), snd (fst (deliver src m s)), snd (deliver src m s)).
Proof.
  rewrite !DeliverP.deliver_unfold. cbv zeta. cbn [fst snd].
  unfold DeliverP.d_plain, DeliverP.d_shared, DeliverP.d_ents, DeliverP.d_found. cbn [b_subs b_cfg set_hooks].
  change (set_hooks h s, @nil out) with (lift_hooks h (s, [])).
  destruct (c_onlyonce (b_cfg s));
    rewrite !(fold_left_commute (lift_hooks h)) by auto using plain_step_hooks, shared_step_hooks, once_step_hooks;
    reflexivity.
Qed.

Lemma retain_update_hooks h m s : retain_update m (set_hooks h s) = set_hooks h (retain_update m s).
Proof. unfold retain_update. destruct (m_retained m); reflexivity. Qed.

(* storing and delivering m under the hooks of s IS storing and delivering it in the broker without any hook *)
Lemma forward_unhooked cid m s :
  deliver cid m (retain_update m s) =
  (let '(s', o, mt) := deliver cid m (retain_update m (set_hooks no_hooks s)) in (set_hooks (b_hooks s) s', o, mt)).
Proof.
  rewrite retain_update_hooks, deliver_hooks.
  pose proof (deliver_frame cid m (retain_update m s)) as [F _].
  destruct (deliver cid m (retain_update m s)) as [[s' o] mt]. cbn [fst snd] in *.
  rewrite set_hooks_restore; [reflexivity|].
  rewrite (df_hooks _ _ F). unfold retain_update. destruct (m_retained m); reflexivity.
Qed.

(* forwarding m under a hook that rewrites it to m' IS forwarding m' in the broker without any hook *)
Theorem publish_rewritten_as_unhooked k m s t p q :
  msg_verdict (b_hooks s) (m_topic m) = MRewrite t p q ->
  pub_fwd k m false s =
  (let '(s', o, mt, e) := pub_fwd k (rewrite_msg t p q m) false (set_hooks no_hooks s) in (set_hooks (b_hooks s) s', o, mt, e)).
Proof.
  intros Hv. rewrite (pub_fwd_rewritten k m s t p q Hv), (pub_fwd_no_hook k _ (set_hooks no_hooks s)) by reflexivity.
  unfold fwd_plain. rewrite (forward_unhooked (k_cid k) _ s).
  destruct (deliver (k_cid k) _ (retain_update _ (set_hooks no_hooks s))) as [[s' o] mt]. reflexivity.
Qed.

(* ... and an accepted message is forwarded as without hooks *)
Theorem publish_accepted_as_unhooked k m s :
  msg_verdict (b_hooks s) (m_topic m) = MAccept ->
  pub_fwd k m false s =
  (let '(s', o, mt, e) := pub_fwd k m false (set_hooks no_hooks s) in (set_hooks (b_hooks s) s', o, mt, e)).
Proof.
  intros Hv. rewrite (pub_fwd_accepted k m s Hv), (pub_fwd_no_hook k _ (set_hooks no_hooks s)) by reflexivity.
  unfold fwd_plain. rewrite (forward_unhooked (k_cid k) m s).
  destruct (deliver (k_cid k) m (retain_update m (set_hooks no_hooks s))) as [[s' o] mt]. reflexivity.
Qed.

(* the will: published under the rewriting hook = the rewritten will published by the broker without hooks *)
Theorem will_rewritten_as_unhooked cid m s t p q :
  will_verdict (b_hooks s) cid = MRewrite t p q ->
  send_will cid m s = lift_hooks (b_hooks s) (send_will cid (with_topic_payload_qos t p q m) (set_hooks no_hooks s)).
Proof.
  intros Hv. rewrite (will_rewritten cid m s t p q Hv). cbv zeta. set (m' := with_topic_payload_qos t p q m).
  rewrite (will_untouched cid m' (set_hooks no_hooks s)) by reflexivity. rewrite (forward_unhooked cid m' s).
  destruct (deliver cid m' (retain_update m' (set_hooks no_hooks s))) as [[s' o] mt]. reflexivity.
Qed.

(* the hypotheses of subscribe_hook_enforced hold in every reachable state *)
Theorem subscribe_hyps_reachable cfg h picks es c k :
  let s := fst (run (st_init cfg h picks) es) in
  nget c (b_conns s) = Some k -> k_phase k = PhConnected ->
  k_cid k <> [] /\ exists ops, wf_ops ops = true /\ b_subs s = db_run ops.
Proof.
  intros s Hk Hp. pose proof (reachable_inv cfg h picks es) as HI. fold s in HI.
  destruct (reachable_subsinv cfg h picks es) as (ops & Hwf & Hd & _). fold s in Hd.
  split; [|exists ops; now split].
  assert (Ha : attached (k_phase k) = true) by now rewrite Hp.
  pose proof (BInv_attached_online s c k HI Hk Ha) as Hon.
  apply (bi_ne _ _ HI). apply (bi_has _ _ HI). now rewrite (ahas_some _ _ _ Hon).
Qed.
