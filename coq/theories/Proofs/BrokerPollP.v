(* The poll loop of one connection of the broker model (Model/Broker.v): poll_once / poll_conn,
   write_publish, the window installed by handle_connect and the acknowledgement handlers.
   Properties C03 (outbound QoS 1/2: replay first, unique ids, bounded window) and the
   outbound half of C13 (maximum packet size, topic aliases), for ALL states. *)
From Coq Require Import List NArith ZArith Bool Arith Lia.
Import ListNotations.
From GM Require Import Base.Topic Base.Msg Model.SubTrie Model.RetTrie Model.Queue Model.Limiter
                       Model.TopicMatch Model.Broker Oracle.C03O Proofs.ListP Proofs.AssocP Proofs.TopicP Proofs.LimiterP Proofs.QueueP
                       Proofs.BrokerBasicP.
From GM Require Proofs.DeliverP.
From GM Require Model.CodecBase Model.CodecProps Model.CodecPackets.     (* the wire size of a packet *)
From GM Require Proofs.CodecBaseP Proofs.CodecStrP Proofs.CodecSizeP Proofs.CodecMsgP.   (* ... and the size lemmas of the codec slice *)
Open Scope N_scope.

(* the setters used by the poll loop, the ack handlers and add_to_queue *)
Lemma upd_conn_now c k s : b_now (upd_conn c k s) = b_now s. Proof. reflexivity. Qed.
Lemma set_queues_now q s : b_now (set_queues q s) = b_now s. Proof. reflexivity. Qed.
Lemma set_queues_cfg q s : b_cfg (set_queues q s) = b_cfg s. Proof. reflexivity. Qed.
Lemma set_picks_tag_now p t s : b_now (set_picks_tag p t s) = b_now s. Proof. reflexivity. Qed.
Lemma set_picks_tag_cfg p t s : b_cfg (set_picks_tag p t s) = b_cfg s. Proof. reflexivity. Qed.

Lemma nget_upd_eq c k s : nget c (b_conns (upd_conn c k s)) = Some k.
Proof. apply nget_nset_same. Qed.
Lemma nget_upd_ne c c' k s : c' <> c -> nget c' (b_conns (upd_conn c k s)) = nget c' (b_conns s).
Proof. apply nget_nset_other. Qed.

(* set_lim_held changes the limiter, the held ids and the drained flag only *)
Lemma slh_lim l h d k : k_lim (set_lim_held l h d k) = l. Proof. reflexivity. Qed.
Lemma slh_held l h d k : k_held (set_lim_held l h d k) = h. Proof. reflexivity. Qed.
Lemma slh_drained l h d k : k_drained (set_lim_held l h d k) = d. Proof. reflexivity. Qed.
Lemma slh_v l h d k : k_v (set_lim_held l h d k) = k_v k. Proof. reflexivity. Qed.
Lemma slh_phase l h d k : k_phase (set_lim_held l h d k) = k_phase k. Proof. reflexivity. Qed.
Lemma slh_maxinf l h d k : k_max_inflight (set_lim_held l h d k) = k_max_inflight k. Proof. reflexivity. Qed.
Lemma slh_maxpkt l h d k : k_client_max_packet (set_lim_held l h d k) = k_client_max_packet k. Proof. reflexivity. Qed.
Lemma slh_amax l h d k : k_client_alias_max (set_lim_held l h d k) = k_client_alias_max k. Proof. reflexivity. Qed.
Lemma slh_alias l h d k : k_alias_out (set_lim_held l h d k) = k_alias_out k. Proof. reflexivity. Qed.

(* the fields of a connection that the poll loop never changes *)
Definition same_static (k k' : conn) : Prop :=
  k_cid k' = k_cid k /\ k_v k' = k_v k /\ k_phase k' = k_phase k /\ k_max_inflight k' = k_max_inflight k /\
  k_client_max_packet k' = k_client_max_packet k /\ k_client_alias_max k' = k_client_alias_max k.

Lemma same_static_refl k : same_static k k.
Proof. unfold same_static; auto 10. Qed.
Lemma same_static_trans a b c : same_static a b -> same_static b c -> same_static a c.
Proof. unfold same_static. intros (?&?&?&?&?&?) (?&?&?&?&?&?). repeat split; congruence. Qed.
Lemma same_static_slh l h d k : same_static k (set_lim_held l h d k).
Proof. unfold same_static; auto 10. Qed.

(* an in-flight entry carries a packet id; a queued one is a PUBLISH without id and DUP=0 *)
Definition idok (e : elem) : Prop := 1 <= e_id e <= MAXPID.
Definition quedok (e : elem) : Prop :=
  match e_body e with QPub m => m_pid m = 0 /\ m_dup m = false | QRel _ => False end.

(* ghost tags: PUBLISH entries carry distinct non-zero tags below the broker's counter, PUBREL entries tag 0 *)
Definition tag_ok (b : N) (e : elem) : Prop :=
  if is_pub e then e_tag e <> 0 /\ e_tag e < b else e_tag e = 0.

Record QInv (q : queue) (b : N) (inf que : list elem) : Prop := {
  qi_l : q_l q = inf ++ que;
  qi_inf : Forall idok inf;
  qi_que : Forall quedok que;
  qi_cur : (q_cur q <= length inf)%nat;
  qi_dr : q_drained q = true -> q_cur q = length inf;
  qi_nd : NoDup (map e_id inf);
  qi_tags : Forall (tag_ok b) (inf ++ que);
  qi_tnd : NoDup (pub_tags (inf ++ que)) }.

Lemma quedok_pub0 e : quedok e -> is_pub0 e = true.
Proof. unfold quedok, is_pub0. destruct (e_body e); [intros [H _]; now apply N.eqb_eq|tauto]. Qed.
Lemma quedok_id e : quedok e -> e_id e = 0.
Proof. intros H. apply is_pub0_id. now apply quedok_pub0. Qed.
Lemma quedok_is_pub e : quedok e -> is_pub e = true.
Proof. unfold quedok, is_pub. destruct (e_body e); tauto. Qed.
Lemma idok_nz e : idok e -> e_id e <> 0.
Proof. unfold idok. lia. Qed.

Lemma Forall_quedok_pub0 que : Forall quedok que -> Forall (fun e => is_pub0 e = true) que.
Proof. intros H. eapply Forall_impl; [|exact H]. apply quedok_pub0. Qed.
Lemma Forall_idok_nz inf : Forall idok inf -> Forall (fun e => e_id e <> 0) inf.
Proof. intros H. eapply Forall_impl; [|exact H]. apply idok_nz. Qed.

(* where an element of inf ++ que sits is decided by its id *)
Lemma nth_split_id inf que i d : Forall idok inf -> Forall quedok que ->
  nth_error (inf ++ que) i = Some d ->
  (e_id d <> 0 -> (i < length inf)%nat /\ nth_error inf i = Some d) /\
  (e_id d = 0 -> (length inf <= i)%nat /\ nth_error que (i - length inf) = Some d).
Proof.
  intros Hi Hq Hn. destruct (Nat.ltb_spec i (length inf)) as [Hlt|Hge].
  - rewrite nth_error_app1 in Hn by exact Hlt. split; [auto|].
    intros H0. apply nth_error_In in Hn. rewrite Forall_forall in Hi. apply Hi, idok_nz in Hn. contradiction.
  - rewrite nth_error_app2 in Hn by exact Hge. split; [|auto].
    intros Hnz. apply nth_error_In in Hn. rewrite Forall_forall in Hq. apply Hq, quedok_id in Hn. contradiction.
Qed.

Lemma pub_tags_app a b : pub_tags (a ++ b) = pub_tags a ++ pub_tags b.
Proof. unfold pub_tags. now rewrite filter_app, map_app. Qed.

Lemma pub_tags_remove_nth l : forall i, subseq (pub_tags (remove_nth i l)) (pub_tags l).
Proof.
  unfold pub_tags. induction l as [|x r IH]; intros [|i]; cbn [remove_nth filter map]; try constructor.
  - destruct (is_pub x); cbn [map]; [constructor|]; apply subseq_refl.
  - destruct (is_pub x); cbn [map]; [constructor|]; apply IH.
Qed.

Lemma tag_ok_mono b b' e : b <= b' -> tag_ok b e -> tag_ok b' e.
Proof. unfold tag_ok. destruct (is_pub e); [|auto]. intros H [H1 H2]. split; [auto|lia]. Qed.

(* in-place changes of bodies that keep tag and kind *)
Definition same_tag (e e' : elem) : Prop := e_tag e' = e_tag e /\ is_pub e' = is_pub e.

Lemma same_tag_refl e : same_tag e e. Proof. split; reflexivity. Qed.

Lemma pub_tags_same l l' : Forall2 same_tag l l' -> pub_tags l' = pub_tags l.
Proof.
  unfold pub_tags. intros H. induction H as [|e e' l l' [Ht Hp] H IH]; [reflexivity|].
  cbn [filter]. rewrite Hp. destruct (is_pub e); cbn [map]; [rewrite Ht|]; now rewrite IH.
Qed.

Lemma tag_ok_same b l l' : Forall2 same_tag l l' -> Forall (tag_ok b) l -> Forall (tag_ok b) l'.
Proof.
  intros H. induction H as [|e e' l l' [Ht Hp] H IH]; intros Hf; [constructor|].
  inversion Hf as [|? ? He Hl]; subst. constructor; [|auto].
  unfold tag_ok in *. rewrite Hp, Ht. exact He.
Qed.

Lemma Forall2_same_tag_refl l : Forall2 same_tag l l.
Proof. induction l; constructor; auto using same_tag_refl. Qed.

Lemma Forall2_map_r {A} (P : A -> A -> Prop) (f : A -> A) l : (forall x, In x l -> P x (f x)) -> Forall2 P l (map f l).
Proof. induction l as [|x r IH]; intros H; cbn [map]; constructor; [apply H; now left|apply IH; intros y Hy; apply H; now right]. Qed.

Lemma Forall2_app_inv_same {A} (P : A -> A -> Prop) a b a' b' :
  Forall2 P a a' -> Forall2 P b b' -> Forall2 P (a ++ b) (a' ++ b').
Proof. intros H1 H2. now apply Forall2_app. Qed.

Lemma nth_error_skipn' {A} (l : list A) : forall n k, nth_error (skipn n l) k = nth_error l (n + k).
Proof. induction l as [|x r IH]; intros [|n] k; cbn [skipn nth_error Nat.add]; auto. now destruct k. Qed.

Lemma fei_some now : forall l i j, first_expired_inflight now l i = Some j ->
  exists k d, j = (i + k)%nat /\ nth_error l k = Some d /\ e_id d <> 0 /\ expired now d = true.
Proof.
  induction l as [|e r IH]; intros i j H; cbn [first_expired_inflight] in H; [discriminate|].
  destruct (e_id e =? 0) eqn:E0; [discriminate|].
  destruct (expired now e) eqn:Ex.
  - inversion H; subst. exists 0%nat, e. split; [lia|]. split; [reflexivity|]. split; [lia|exact Ex].
  - destruct (IH _ _ H) as (k & d & -> & Hn & Hd). exists (S k), d. split; [lia|]. split; auto.
Qed.

Lemma add_scan_some now (P : nat -> Prop) : forall l i q0 j r,
  add_scan now l i q0 = SVictim j r ->
  (forall j0, q0 = Some j0 -> P j0) ->
  (forall k e, nth_error l k = Some e -> e_id e = 0 -> P (i + k)%nat) ->
  P j /\ (r = DExpired \/ r = DFull).
Proof.
  induction l as [|e l IH]; intros i q0 j r H Hq Hl; cbn [add_scan] in H.
  - destruct q0 as [j0|]; [|discriminate]. inversion H; subst. split; [now apply Hq|now right].
  - assert (Hl' : forall k e0, nth_error l k = Some e0 -> e_id e0 = 0 -> P (S i + k)%nat).
    { intros k e0 Hn H0. replace (S i + k)%nat with (i + S k)%nat by lia. apply (Hl (S k) e0); auto. }
    destruct (e_body e) as [m|p] eqn:Eb.
    + destruct ((m_pid m =? 0) && expired now e) eqn:E1.
      * inversion H; subst. split; [|now left]. replace j with (j + 0)%nat by lia. apply (Hl 0%nat e); [reflexivity|].
        unfold e_id. rewrite Eb. lia.
      * destruct ((m_pid m =? 0) && (m_qos m =? 0) && match q0 with None => true | Some _ => false end) eqn:E2.
        -- eapply IH; [exact H| |exact Hl']. intros j0 Hj0. inversion Hj0; subst.
           replace j0 with (j0 + 0)%nat by lia. apply (Hl 0%nat e); [reflexivity|]. unfold e_id. rewrite Eb. lia.
        -- eapply IH; [exact H|exact Hq|exact Hl'].
    + eapply IH; [exact H|exact Hq|exact Hl'].
Qed.

Lemma first_queued_some : forall l i j, first_queued l i = Some j ->
  exists k d, j = (i + k)%nat /\ nth_error l k = Some d /\ e_id d = 0.
Proof.
  induction l as [|e r IH]; intros i j H; cbn [first_queued] in H; [discriminate|].
  destruct (e_id e =? 0) eqn:E0.
  - inversion H; subst. exists 0%nat, e. split; [lia|]. split; [reflexivity|]. lia.
  - destruct (IH _ _ H) as (k & d & -> & Hn & Hd). exists (S k), d. split; [lia|]. split; auto.
Qed.

(* the victim of a full queue: either an in-flight entry (only for reason DExpiredInflight, and only an
   expired one: inflight_expiry) or a queued one *)
Lemma add_victim_old now e q i r :
  add_victim now e q = VOld i r ->
  (r = DExpiredInflight /\ exists d, nth_error (q_l q) i = Some d /\ e_id d <> 0 /\ expired now d = true) \/
  (r <> DExpiredInflight /\ (q_cur q <= i)%nat /\ forall d, nth_error (q_l q) i = Some d -> e_id d = 0).
Proof.
  unfold add_victim. intros H.
  destruct (first_expired_inflight now (q_l q) 0) as [j|] eqn:Ef.
  - inversion H; subst. left. split; [reflexivity|].
    destruct (fei_some _ _ _ _ Ef) as (k & d & -> & Hn & Hd). exists d. split; auto.
  - right. destruct (q_drained q && (q_cur q =? length (q_l q))%nat); [discriminate|].
    set (P := fun j => (q_cur q <= j)%nat /\ forall d, nth_error (q_l q) j = Some d -> e_id d = 0).
    destruct (add_scan now (skipn (q_cur q) (q_l q)) (q_cur q) None) as [|j r0] eqn:Es.
    + destruct (e_body e) as [m|p]; [|discriminate].
      destruct (m_qos m =? 0); [discriminate|].
      destruct (first_queued (skipn (q_cur q) (q_l q)) (q_cur q)) as [j|] eqn:Eq; [|discriminate].
      inversion H; subst. split; [discriminate|].
      destruct (first_queued_some _ _ _ Eq) as (k & d & -> & Hn & Hd).
      rewrite nth_error_skipn' in Hn. split; [lia|]. intros d' Hd'. congruence.
    + inversion H; subst.
      destruct (add_scan_some now P _ _ _ _ _ Es) as [[Hp1 Hp2] Hr].
      * intros j0 Hj0; discriminate.
      * intros k e0 Hn H0. rewrite nth_error_skipn' in Hn. split; [lia|]. intros d' Hd'. congruence.
      * split; [destruct Hr; subst; discriminate|]. split; assumption.
Qed.

Lemma add_victim_spec now e q i r :
  add_victim now e q = VOld i r ->
  (r = DExpiredInflight /\ exists d, nth_error (q_l q) i = Some d /\ e_id d <> 0) \/
  (r <> DExpiredInflight /\ (q_cur q <= i)%nat /\ forall d, nth_error (q_l q) i = Some d -> e_id d = 0).
Proof.
  intros H. destruct (add_victim_old _ _ _ _ _ H) as [(Hr & d & Hn & Hd & _)|Hq]; [left; eauto|now right].
Qed.

Lemma pub_tags_lt b l t : Forall (tag_ok b) l -> In t (pub_tags l) -> t <> 0 /\ t < b.
Proof.
  unfold pub_tags. intros Hf Hin. apply in_map_iff in Hin. destruct Hin as (e & <- & He).
  apply filter_In in He. destruct He as [He Hp]. rewrite Forall_forall in Hf. apply Hf in He.
  unfold tag_ok in He. now rewrite Hp in He.
Qed.

Lemma tags_snoc b L e : Forall (tag_ok b) L -> NoDup (pub_tags L) -> quedok e -> e_tag e = b -> b <> 0 ->
  Forall (tag_ok (b + 1)) (L ++ [e]) /\ NoDup (pub_tags (L ++ [e])).
Proof.
  intros Hf Hn He Ht Hb. split.
  - apply Forall_app. split.
    + eapply Forall_impl; [|exact Hf]. intros x. apply tag_ok_mono. lia.
    + constructor; [|constructor]. unfold tag_ok. rewrite (quedok_is_pub _ He). lia.
  - rewrite pub_tags_app. unfold pub_tags at 2. cbn [filter]. rewrite (quedok_is_pub _ He). cbn [map].
    apply NoDup_snoc; [exact Hn|]. intros Hin. apply (pub_tags_lt b) in Hin; [lia|exact Hf].
Qed.

Lemma tags_remove b L i : Forall (tag_ok b) L -> NoDup (pub_tags L) ->
  Forall (tag_ok b) (remove_nth i L) /\ NoDup (pub_tags (remove_nth i L)).
Proof.
  intros Hf Hn. split; [now apply Forall_remove_nth|].
  eapply subseq_NoDup; [apply pub_tags_remove_nth|exact Hn].
Qed.

Lemma add_victim_new now e q r : add_victim now e q = VNew r -> r = DFull.
Proof.
  unfold add_victim. intros H.
  destruct (first_expired_inflight now (q_l q) 0); [discriminate|].
  destruct (q_drained q && (q_cur q =? length (q_l q))%nat); [now inversion H|].
  destruct (add_scan now (skipn (q_cur q) (q_l q)) (q_cur q) None); [|discriminate].
  destruct (e_body e); [|discriminate]. destruct (m_qos m =? 0); [now inversion H|].
  destruct (first_queued (skipn (q_cur q) (q_l q)) (q_cur q)); [discriminate|now inversion H].
Qed.

Definition qstat (q q' : queue) : Prop :=
  q_limit q' = q_limit q /\ q_v5 q' = q_v5 q /\ q_ifexp q' = q_ifexp q /\ q_closed q' = q_closed q.
Lemma qstat_refl q : qstat q q. Proof. unfold qstat; auto. Qed.
Lemma qstat_q_set l c d q : qstat q (q_set l c d q). Proof. unfold qstat; auto. Qed.
Lemma qstat_trans a b c : qstat a b -> qstat b c -> qstat a c.
Proof. unfold qstat. intros (?&?&?&?) (?&?&?&?). repeat split; congruence. Qed.

Definition no_inflight_drop (pool : list elem) (ev : qev) : Prop :=
  match ev with EvDropped d DExpiredInflight => False | EvDropped d _ => In d pool | _ => True end.

Lemma QInv_mono q b b' inf que : b <= b' -> QInv q b inf que -> QInv q b' inf que.
Proof.
  intros Hb [H1 H2 H3 H4 H5 H6 H7 H8]. constructor; auto.
  eapply Forall_impl; [|exact H7]. intros x. now apply tag_ok_mono.
Qed.

(* the three ways a list inf ++ que changes under Add and Remove *)
Lemma QInv_push q b inf que e : QInv q b inf que -> quedok e -> e_tag e = b -> b <> 0 ->
  QInv (q_set (q_l q ++ [e]) (q_cur q) (q_drained q) q) (b + 1) inf (que ++ [e]).
Proof.
  intros [Hl Hinf Hque Hcur Hdr Hnd Htags Htnd] He Ht Hb.
  destruct (tags_snoc b _ e Htags Htnd He Ht Hb) as [Hts Hts']. rewrite <- app_assoc in Hts, Hts'.
  constructor; cbn [q_l q_cur q_drained q_set]; auto.
  - rewrite Hl. now rewrite <- app_assoc.
  - apply Forall_app. split; [exact Hque|constructor; [exact He|constructor]].
Qed.

Lemma QInv_remove_inf q b inf que i : QInv q b inf que -> (i < length inf)%nat ->
  QInv (q_set (remove_nth i (q_l q)) (if (i <? q_cur q)%nat then (q_cur q - 1)%nat else q_cur q) (q_drained q) q)
       b (remove_nth i inf) que.
Proof.
  intros [Hl Hinf Hque Hcur Hdr Hnd Htags Htnd] Hlt.
  destruct (tags_remove b (inf ++ que) i Htags Htnd) as [Htr Htr'].
  rewrite Hl. rewrite remove_nth_app1 in * by exact Hlt.
  constructor; cbn [q_l q_cur q_drained q_set]; auto.
  - now apply Forall_remove_nth.
  - rewrite remove_nth_length by exact Hlt. destruct (Nat.ltb_spec i (q_cur q)); lia.
  - intros Hd. specialize (Hdr Hd). rewrite remove_nth_length by exact Hlt. destruct (Nat.ltb_spec i (q_cur q)); lia.
  - rewrite map_remove_nth. eapply subseq_NoDup; [apply subseq_remove_nth|exact Hnd].
Qed.

Lemma QInv_remove_que q b inf que j : QInv q b inf que ->
  QInv (q_set (remove_nth (length inf + j) (q_l q)) (q_cur q) (q_drained q) q) b inf (remove_nth j que).
Proof.
  intros [Hl Hinf Hque Hcur Hdr Hnd Htags Htnd].
  destruct (tags_remove b (inf ++ que) (length inf + j) Htags Htnd) as [Htr Htr'].
  rewrite Hl. rewrite remove_nth_app2 in *.
  constructor; cbn [q_l q_cur q_drained q_set]; auto. now apply Forall_remove_nth.
Qed.

Lemma q_add_inv now e q b inf que q' evs :
  QInv q b inf que -> quedok e -> e_tag e = b -> b <> 0 ->
  q_add now e q = QOk (q', evs) ->
  qstat q q' /\ q_drained q' = q_drained q /\
  ((exists que', QInv q' (b + 1) inf que' /\ q_cur q' = q_cur q /\ Forall (no_inflight_drop (e :: que)) evs) \/
   (exists i d que', nth_error inf i = Some d /\ QInv q' (b + 1) (remove_nth i inf) que' /\
       q_cur q' = (if (i <? q_cur q)%nat then (q_cur q - 1)%nat else q_cur q) /\
       evs = [EvInflight (-1); EvDropped d DExpiredInflight])).
Proof.
  intros HI He Ht Hb Hadd. pose proof HI as [Hl Hinf Hque Hcur _ _ _ _].
  unfold q_add in Hadd.
  destruct (q_max q <=? length (q_l q))%nat eqn:Efull.
  - destruct (add_victim now e q) as [|r|i r] eqn:Ev; [discriminate| |].
    + injection Hadd as <- <-. split; [apply qstat_refl|]. split; [reflexivity|]. left. exists que.
      split; [apply QInv_mono with (b := b); [lia|exact HI]|]. split; [reflexivity|].
      apply add_victim_new in Ev. subst r. constructor; [|constructor]. cbn. now left.
    + destruct (nth_error (q_l q) i) as [d|] eqn:En; [|discriminate].
      injection Hadd as <- <-. split; [apply qstat_q_set|]. split; [reflexivity|].
      rewrite Hl in En. pose proof (nth_split_id inf que i d Hinf Hque En) as [Hin Hout].
      destruct (add_victim_spec _ _ _ _ _ Ev) as [[-> (d' & Hd' & Hnz)]|(Hr & Hci & H0)].
      * (* an expired in-flight entry *)
        rewrite Hl, En in Hd'. injection Hd' as <-. destruct (Hin Hnz) as [Hlt Hni].
        right. exists i, d, (que ++ [e]). split; [exact Hni|]. split; [|split; reflexivity].
        exact (QInv_push _ b _ _ e (QInv_remove_inf q b inf que i HI Hlt) He Ht Hb).
      * (* a queued entry *)
        rewrite Hl in H0. destruct (Hout (H0 d En)) as [Hge Hnq].
        left. exists (remove_nth (i - length inf) que ++ [e]).
        replace (i <? q_cur q)%nat with false by (symmetry; apply Nat.ltb_ge; lia).
        split; [|split; [reflexivity|]].
        -- replace i with (length inf + (i - length inf))%nat at 1 by lia.
           exact (QInv_push _ b _ _ e (QInv_remove_que q b inf que _ HI) He Ht Hb).
        -- assert (Hdin : In d (e :: que)) by (right; eapply nth_error_In; exact Hnq).
           destruct r; cbn; try (constructor; [exact Hdin|constructor]). congruence.
  - injection Hadd as <- <-. split; [apply qstat_q_set|]. split; [reflexivity|]. left. exists (que ++ [e]).
    split; [now apply QInv_push|]. split; [reflexivity|constructor; [exact I|constructor]].
Qed.

Lemma find_id_none pid : forall l n i, find_id pid l n i = None -> ~ In pid (map e_id (firstn n l)).
Proof.
  induction l as [|e r IH]; intros [|n] i H; cbn [find_id firstn map] in *; auto.
  destruct (e_id e =? pid) eqn:E; [discriminate|]. apply N.eqb_neq in E.
  intros [Hin|Hin]; [contradiction|]. eapply IH; eauto.
Qed.

Lemma Forall_replace_nth {A} (P : A -> Prop) y (l : list A) : Forall P l -> P y -> forall i, Forall P (replace_nth i y l).
Proof.
  intros H Hy. induction H as [|x r Hx H IH]; intros [|i]; cbn [replace_nth]; constructor; auto.
Qed.

Lemma pub_tags_replace_rel l e : is_pub e = false -> forall i, subseq (pub_tags (replace_nth i e l)) (pub_tags l).
Proof.
  unfold pub_tags. intros He. induction l as [|x r IH]; intros [|i]; cbn [replace_nth filter map]; try constructor.
  - rewrite He. destruct (is_pub x); cbn [map]; [constructor|]; apply subseq_refl.
  - destruct (is_pub x); cbn [map]; [constructor|]; apply IH.
Qed.

Lemma map_replace_nth_id (l : list elem) e : forall i d, nth_error l i = Some d -> e_id e = e_id d ->
  map e_id (replace_nth i e l) = map e_id l.
Proof.
  induction l as [|x r IH]; intros [|i] d Hn He; cbn [replace_nth map nth_error] in *; try discriminate.
  - inversion Hn; subst. now rewrite He.
  - f_equal. eapply IH; eauto.
Qed.

Lemma firstn_app_le {A} (a b : list A) n : (n <= length a)%nat -> firstn n (a ++ b) = firstn n a.
Proof. intros H. rewrite firstn_app. replace (n - length a)%nat with 0%nat by lia. cbn [firstn]. apply app_nil_r. Qed.

Lemma q_remove_inv pid q b inf que : QInv q b inf que ->
  qstat q (fst (q_remove pid q)) /\ q_drained (fst (q_remove pid q)) = q_drained q /\
  ((exists i d, (i < q_cur q)%nat /\ nth_error inf i = Some d /\ e_id d = pid /\
                QInv (fst (q_remove pid q)) b (remove_nth i inf) que /\
                q_cur (fst (q_remove pid q)) = (q_cur q - 1)%nat) \/
   (fst (q_remove pid q) = q /\ ~ In pid (map e_id (firstn (q_cur q) inf)))).
Proof.
  intros HI. pose proof HI as [Hl _ _ Hcur _ _ _ _]. unfold q_remove.
  destruct (find_id pid (q_l q) (q_cur q) 0) as [i|] eqn:Ef; cbn [fst].
  - split; [apply qstat_q_set|]. split; [reflexivity|]. left.
    destruct (find_id_some _ _ _ _ _ Ef) as (k & d & -> & Hk & Hn & Hd). cbn [Nat.add].
    assert (Hlt : (k < length inf)%nat) by lia.
    rewrite Hl in Hn. rewrite nth_error_app1 in Hn by exact Hlt.
    exists k, d. split; [exact Hk|]. split; [exact Hn|]. split; [exact Hd|]. split; [|reflexivity].
    pose proof (QInv_remove_inf q b inf que k HI Hlt) as HQ'.
    now replace (k <? q_cur q)%nat with true in HQ' by (symmetry; now apply Nat.ltb_lt).
  - split; [apply qstat_refl|]. split; [reflexivity|]. right. split; [reflexivity|].
    apply find_id_none in Ef. rewrite Hl in Ef. now rewrite firstn_app_le in Ef by exact Hcur.
Qed.

Lemma q_replace_inv e pid q b inf que : QInv q b inf que -> e_body e = QRel pid -> e_tag e = 0 ->
  qstat q (fst (q_replace e q)) /\ q_drained (fst (q_replace e q)) = q_drained q /\
  q_cur (fst (q_replace e q)) = q_cur q /\
  ((exists i d, (i < q_cur q)%nat /\ nth_error inf i = Some d /\ e_id d = pid /\
                QInv (fst (q_replace e q)) b (replace_nth i e inf) que /\
                map e_id (replace_nth i e inf) = map e_id inf) \/
   (fst (q_replace e q) = q /\ ~ In pid (map e_id (firstn (q_cur q) inf)))).
Proof.
  intros [Hl Hinf Hque Hcur Hdr Hnd Htags Htnd] Hb Ht. unfold q_replace.
  assert (Hid : e_id e = pid) by (unfold e_id; now rewrite Hb).
  assert (Hp : is_pub e = false) by (unfold is_pub; now rewrite Hb).
  rewrite Hid.
  destruct (find_id pid (q_l q) (q_cur q) 0) as [i|] eqn:Ef; cbn [fst].
  - split; [apply qstat_q_set|]. split; [reflexivity|]. split; [reflexivity|]. left.
    destruct (find_id_some _ _ _ _ _ Ef) as (k & d & -> & Hk & Hn & Hd). cbn [Nat.add].
    assert (Hlt : (k < length inf)%nat) by lia.
    rewrite Hl in Hn. rewrite nth_error_app1 in Hn by exact Hlt.
    assert (Hmap : map e_id (replace_nth k e inf) = map e_id inf)
      by (eapply map_replace_nth_id; [exact Hn|congruence]).
    exists k, d. split; [exact Hk|]. split; [exact Hn|]. split; [exact Hd|]. split; [|exact Hmap].
    assert (Hde : idok e).
    { unfold idok. rewrite Hid, <- Hd. rewrite Forall_forall in Hinf. apply Hinf. eapply nth_error_In; eauto. }
    rewrite Hl. rewrite replace_nth_app1 by exact Hlt.
    constructor; cbn [q_l q_cur q_drained q_set]; auto.
    + now apply Forall_replace_nth.
    + rewrite replace_nth_length. exact Hcur.
    + rewrite replace_nth_length. exact Hdr.
    + now rewrite Hmap.
    + rewrite <- replace_nth_app1 by exact Hlt. apply Forall_replace_nth; [exact Htags|].
      unfold tag_ok. now rewrite Hp.
    + rewrite <- replace_nth_app1 by exact Hlt.
      eapply subseq_NoDup; [apply pub_tags_replace_rel; exact Hp|exact Htnd].
  - split; [apply qstat_refl|]. split; [reflexivity|]. split; [reflexivity|]. right. split; [reflexivity|].
    apply find_id_none in Ef. rewrite Hl in Ef. now rewrite firstn_app_le in Ef by exact Hcur.
Qed.

Definition dupmark (rs : list elem) (e : elem) : elem :=
  match e_body e with
  | QPub m => if existsb (fun r => e_tag r =? e_tag e) rs then with_body (QPub (as_dup m)) e else e
  | QRel _ => e
  end.

Lemma etouch_id now ifexp e : e_id (etouch now ifexp e) = e_id e.
Proof. unfold etouch. destruct (ifexp =? 0); reflexivity. Qed.
Lemma etouch_body now ifexp e : e_body (etouch now ifexp e) = e_body e.
Proof. unfold etouch. destruct (ifexp =? 0); reflexivity. Qed.
Lemma etouch_tag now ifexp e : e_tag (etouch now ifexp e) = e_tag e.
Proof. unfold etouch. destruct (ifexp =? 0); reflexivity. Qed.
Lemma etouch_at now ifexp e : e_at (etouch now ifexp e) = e_at e.
Proof. unfold etouch. destruct (ifexp =? 0); reflexivity. Qed.
Lemma etouch_same_tag now ifexp e : same_tag e (etouch now ifexp e).
Proof. unfold same_tag, is_pub. now rewrite etouch_tag, etouch_body. Qed.

Lemma dupmark_id rs e : e_id (dupmark rs e) = e_id e.
Proof.
  unfold dupmark, e_id. destruct (e_body e) as [m|p] eqn:Eb; [|now rewrite Eb].
  destruct (existsb _ rs); cbn [e_body with_body as_dup m_pid]; [reflexivity|now rewrite Eb].
Qed.
Lemma dupmark_same_tag rs e : same_tag e (dupmark rs e).
Proof.
  unfold dupmark, same_tag, is_pub. destruct (e_body e) as [m|p] eqn:Eb; [|now rewrite Eb].
  destruct (existsb _ rs); cbn [e_body e_tag with_body]; [auto|now rewrite Eb].
Qed.

Lemma map_id_map (f : elem -> elem) l : (forall e, e_id (f e) = e_id e) -> map e_id (map f l) = map e_id l.
Proof. intros H. rewrite map_map. apply map_ext. exact H. Qed.

Lemma pub_tags_In l e : In e l -> is_pub e = true -> In (e_tag e) (pub_tags l).
Proof. intros Hin Hp. unfold pub_tags. apply in_map. apply filter_In. auto. Qed.

Lemma NoDup_app_disj {A} (a b : list A) x : NoDup (a ++ b) -> In x a -> In x b -> False.
Proof.
  induction a as [|y a IH]; cbn [app In]; intros Hn Ha Hb; [contradiction|].
  inversion Hn as [|? ? Hy Hn']; subst. destruct Ha as [->|Ha]; [|eauto].
  apply Hy. apply in_or_app. now right.
Qed.

(* the queued entries are not touched by the marking: their tags differ from those of the in-flight ones *)
Lemma dupmark_que b inf que rs e :
  Forall (tag_ok b) (inf ++ que) -> NoDup (pub_tags (inf ++ que)) -> Forall quedok que ->
  (forall r, In r rs -> exists x, In x inf /\ e_tag r = e_tag x /\ is_pub r = is_pub x) ->
  In e que -> dupmark rs e = e.
Proof.
  intros Htags Htnd Hque Hrs Hin. unfold dupmark.
  destruct (e_body e) as [m|p] eqn:Eb; [|reflexivity].
  destruct (existsb (fun r => e_tag r =? e_tag e) rs) eqn:Ex; [|reflexivity].
  exfalso. apply existsb_exists in Ex. destruct Ex as (r & Hr & Ht). apply N.eqb_eq in Ht.
  destruct (Hrs r Hr) as (x & Hx & Htx & Hpx).
  rewrite Forall_forall in Hque. pose proof (quedok_is_pub _ (Hque e Hin)) as Hpe.
  rewrite Forall_forall in Htags.
  destruct (is_pub x) eqn:Epx.
  - rewrite pub_tags_app in Htnd. eapply (NoDup_app_disj _ _ (e_tag e) Htnd).
    + rewrite <- Ht, Htx. now apply pub_tags_In.
    + now apply pub_tags_In.
  - assert (Hx0 : tag_ok b x) by (apply Htags; apply in_or_app; now left).
    assert (He0 : tag_ok b e) by (apply Htags; apply in_or_app; now right).
    unfold tag_ok in Hx0, He0. rewrite Epx in Hx0. rewrite Hpe in He0. destruct He0. congruence.
Qed.

Lemma map_id_eq {A} (f : A -> A) l : (forall x, In x l -> f x = x) -> map f l = l.
Proof. induction l as [|x r IH]; intros H; cbn [map]; [reflexivity|]. rewrite H by now left. f_equal. apply IH. intros y Hy. apply H. now right. Qed.

(* what a retransmission shows of an entry *)
Definition rkey (e : elem) : (N * bool * str * str * N) + N :=
  match e_body e with
  | QPub m => inl (m_qos m, m_retained m, m_topic m, m_payload m, m_pid m)
  | QRel p => inr p
  end.

Lemma rkey_etouch now ifexp e : rkey (etouch now ifexp e) = rkey e.
Proof. unfold rkey. now rewrite etouch_body. Qed.

Lemma rkey_dupmark rs e : rkey (dupmark rs e) = rkey e.
Proof.
  unfold rkey, dupmark. destruct (e_body e) as [m|p] eqn:Eb; [|now rewrite Eb].
  destruct (existsb _ rs); [reflexivity|now rewrite Eb].
Qed.

Lemma firstn_length_firstn {A} (l : list A) m : firstn (length (firstn m l)) l = firstn m l.
Proof.
  rewrite firstn_length. destruct (Nat.le_ge_cases m (length l)) as [H|H].
  - now rewrite Nat.min_l.
  - rewrite Nat.min_r by exact H. now rewrite !firstn_all2 by lia.
Qed.

(* the in-flight entries are rewritten in place, keeping ids, tags and kinds; the cursor moves inside them *)
Lemma QInv_relabel q b inf que inf' cur' dr' :
  QInv q b inf que -> Forall2 same_tag inf inf' -> map e_id inf' = map e_id inf ->
  (cur' <= length inf)%nat -> (dr' = true -> cur' = length inf) ->
  QInv (q_set (inf' ++ que) cur' dr' q) b inf' que.
Proof.
  intros [Hl Hinf Hque Hcur Hdr Hnd Htags Htnd] Hst Hids Hc Hd.
  assert (Hlen : length inf' = length inf) by (rewrite <- (map_length e_id), Hids; apply map_length).
  assert (Hst' : Forall2 same_tag (inf ++ que) (inf' ++ que)) by (apply Forall2_app; [exact Hst|apply Forall2_same_tag_refl]).
  constructor; cbn [q_l q_cur q_drained q_set]; rewrite ?Hlen, ?Hids; auto.
  - unfold idok in *. rewrite <- (Forall_map e_id (fun i => 1 <= i <= MAXPID)) in *. now rewrite Hids.
  - eapply tag_ok_same; eauto.
  - now rewrite (pub_tags_same _ _ Hst').
Qed.

Lemma q_replay_inv now n q b inf que q' rs :
  QInv q b inf que -> q_read_inflight now n q = (q', rs) ->
  exists inf',
    QInv q' b inf' que /\
    QInv (q_set (map (dupmark rs) (q_l q')) (q_cur q') (q_drained q') q') b (map (dupmark rs) inf') que /\
    map rkey inf' = map rkey inf /\ (rs = [] -> inf' = inf) /\ (forall r, In r rs -> In r inf') /\
    map rkey rs = firstn (length rs) (skipn (q_cur q) (map rkey inf)) /\
    q_cur q' = (q_cur q + length rs)%nat /\
    ((1 <= n)%nat -> rs = [] -> q_cur q = length inf) /\
    qstat q q'.
Proof.
  intros HI Hr. pose proof HI as [Hl Hinf Hque Hcur Hdr Hnd Htags Htnd].
  rewrite (q_read_inflight_eq now n q inf que Hl (Forall_idok_nz _ Hinf) (Forall_quedok_pub0 _ Hque) Hcur) in Hr.
  cbv zeta in Hr. injection Hr as <- <-.
  set (pre := firstn (q_cur q) inf). set (mid := skipn (q_cur q) inf).
  set (tm := map (etouch now (q_ifexp q)) (firstn n mid)).
  assert (Hsplit : inf = pre ++ mid) by (symmetry; apply firstn_skipn).
  assert (Hlentm : length tm = length (firstn n mid)) by apply map_length.
  assert (Hrk : map rkey tm = map rkey (firstn n mid)).
  { unfold tm. rewrite map_map. apply map_ext. intros. apply rkey_etouch. }
  assert (Hlm : (q_cur q + length mid = length inf)%nat) by (unfold mid; rewrite skipn_length; lia).
  assert (Hlf : (length (firstn n mid) <= length mid)%nat) by (rewrite firstn_length; lia).
  match goal with |- context [q_set _ _ ?d q] => set (dr' := d) end.
  assert (HQ' : QInv (q_set (pre ++ tm ++ skipn n mid ++ que) (q_cur q + length (firstn n mid)) dr' q) b (pre ++ tm ++ skipn n mid) que).
  { replace (pre ++ tm ++ skipn n mid ++ que) with ((pre ++ tm ++ skipn n mid) ++ que) by now rewrite <- !app_assoc.
    apply (QInv_relabel q b inf que); auto.
    - rewrite Hsplit at 1. apply Forall2_app; [apply Forall2_same_tag_refl|]. rewrite <- (firstn_skipn n mid) at 1.
      apply Forall2_app; [|apply Forall2_same_tag_refl]. apply Forall2_map_r. intros x _. apply etouch_same_tag.
    - rewrite Hsplit at 1. rewrite !map_app. f_equal. unfold tm.
      rewrite map_id_map by apply etouch_id. rewrite <- map_app. now rewrite firstn_skipn.
    - lia.
    - (* drained: nothing was left, or the batch reached the end of the in-flight part *)
      unfold dr'. intros Hd. apply orb_true_iff in Hd. destruct Hd as [Hd|Hd]; [apply orb_true_iff in Hd; destruct Hd as [Hd|Hd]|].
      + specialize (Hdr Hd). lia.
      + apply andb_true_iff in Hd. destruct Hd as [Hd _]. destruct mid; [cbn [length] in *; lia|discriminate].
      + apply andb_true_iff in Hd. destruct Hd as [Hd _]. apply Nat.ltb_lt in Hd. rewrite firstn_all2 by lia. lia. }
  exists (pre ++ tm ++ skipn n mid). split; [exact HQ'|]. split.
  { (* the DUP marking does not reach the queued entries: their tags differ from those of rs *)
    pose proof HQ' as [Hl1 _ _ Hc1 Hd1 _ Ht1 Htn1]. cbn [q_l q_cur q_drained q_set] in *.
    rewrite Hl1, map_app, (map_id_eq (dupmark tm) que).
    - apply (QInv_relabel _ b _ que _ _ _ HQ'); auto.
      + apply Forall2_map_r. intros x _. apply dupmark_same_tag.
      + apply map_id_map, dupmark_id.
    - intros e He. apply (dupmark_que b _ que tm e Ht1 Htn1 Hque); [|exact He].
      intros r Hr'. exists r. split; [apply in_or_app; right; apply in_or_app; now left|auto]. }
  cbn [q_cur q_set]. rewrite Hlentm.
  split. { transitivity (map rkey (pre ++ firstn n mid ++ skipn n mid)); [now rewrite !map_app, Hrk|now rewrite firstn_skipn, <- Hsplit]. }
  assert (Hnil : tm = [] -> firstn n mid = []) by (unfold tm; apply map_eq_nil).
  split. { intros E. apply Hnil in E. assert (Hm : mid = skipn n mid) by (rewrite <- (firstn_skipn n mid) at 1; now rewrite E).
           unfold tm. rewrite E, <- Hm. now symmetry. }
  split; [intros r Hr'; apply in_or_app; right; apply in_or_app; now left|].
  split. { rewrite Hrk, skipn_map, firstn_map. fold mid. f_equal. symmetry. apply firstn_length_firstn. }
  split; [reflexivity|]. split; [|apply qstat_q_set].
  intros Hn1 E. apply Hnil in E. destruct mid; [cbn [length] in Hlm; lia|]. destruct n; [lia|discriminate].
Qed.

Definition sent12 (e : elem) : bool := match e_body e with QPub m => negb (m_qos m =? 0) | QRel _ => false end.

(* what Read hands to the poll loop: a queued PUBLISH within the size limit, unchanged (QoS 0) or with one of
   the offered packet ids *)
Definition read_from (limit : N) (v5 : bool) (que : list elem) (pids : list N) (r : elem) : Prop :=
  exists v m, In v que /\ e_body v = QPub m /\ msg_total_bytes v5 m <= limit /\ e_at r = e_at v /\ e_tag r = e_tag v /\
    ((m_qos m = 0 /\ r = v) \/ (m_qos m <> 0 /\ exists p, In p pids /\ e_body r = QPub (set_pid p m))).

Definition read_drop (que : list elem) (ev : qev) : Prop :=
  exists d, In d que /\ (ev = EvDropped d DExpired \/ ev = EvDropped d DExceedsMax).

Lemma subseq_pub_tags a b : subseq a b -> subseq (pub_tags a) (pub_tags b).
Proof.
  unfold pub_tags. intros H. induction H as [|x l m H IH|x l m H IH]; cbn [filter map]; [constructor| |].
  - destruct (is_pub x); cbn [map]; [constructor|]; exact IH.
  - destruct (is_pub x); cbn [map]; [constructor|]; exact IH.
Qed.

Lemma hand_same_tag now ifexp p m v : e_body v = QPub m -> same_tag v (hand now ifexp p m v).
Proof. intros Hb. unfold same_tag, hand, is_pub. rewrite Hb. destruct (ifexp =? 0); cbn; auto. Qed.
Lemma hand_body now ifexp p m v : e_body (hand now ifexp p m v) = QPub (set_pid p m).
Proof. unfold hand. destruct (ifexp =? 0); reflexivity. Qed.
Lemma hand_at now ifexp p m v : e_at (hand now ifexp p m v) = e_at v.
Proof. unfold hand. destruct (ifexp =? 0); reflexivity. Qed.
Lemma hand_tag now ifexp p m v : e_tag (hand now ifexp p m v) = e_tag v.
Proof. unfold hand. destruct (ifexp =? 0); reflexivity. Qed.
Lemma hand_id now ifexp p m v : e_id (hand now ifexp p m v) = p.
Proof. unfold e_id. now rewrite hand_body. Qed.

Lemma read_from_weaken limit v5 que que' pids pids' r :
  (forall x, In x que -> In x que') -> (forall x, In x pids -> In x pids') ->
  read_from limit v5 que pids r -> read_from limit v5 que' pids' r.
Proof.
  intros Hq Hp (v & m & Hv & Hb & Hs & Ha & Ht & Hc). exists v, m. repeat split; auto.
  destruct Hc as [Hc|(Hc & p & Hp' & Hb')]; [now left|right]. split; [exact Hc|]. exists p. auto.
Qed.

(* what one walk of Read over queued entries yields: sub are the entries that took an id *)
Lemma reads_spec now limit v5 ifexp pids pre inf2 drops rs2 :
  reads now limit v5 ifexp pids pre inf2 drops rs2 -> Forall quedok pre ->
  exists sub, subseq sub pre /\ Forall2 same_tag sub inf2 /\
    map e_id inf2 = firstn (length inf2) pids /\ inf2 = filter sent12 rs2 /\
    Forall (read_from limit v5 pre pids) rs2 /\ Forall (read_drop pre) (map ev_dropped drops).
Proof.
  assert (Hrf : forall v que pp pids rs, Forall (read_from limit v5 que pp) rs -> (forall x, In x pp -> In x pids) ->
                                   Forall (read_from limit v5 (v :: que) pids) rs).
  { intros v que pp pids0 rs0 Hf Hpp. eapply Forall_impl; [|exact Hf]. intros a. apply read_from_weaken; auto. intros x Hx; now right. }
  assert (Hdr : forall v que evs2, Forall (read_drop que) evs2 -> Forall (read_drop (v :: que)) evs2).
  { intros v que evs2 Hf. eapply Forall_impl; [|exact Hf]. intros a (d & Hd & Ha). exists d. split; [now right|exact Ha]. }
  induction 1 as [pids|pids v pre inf drops rs Hx _ IH|pids v m pre inf drops rs Hx Hb Hsz _ IH
                  |pids v m pre inf drops rs Hx Hb Hsz Hq _ IH|p pids v m pre inf drops rs Hx Hb Hsz Hq _ IH];
    intros Hque; [|inversion Hque as [|? ? Hv Hque']; subst; destruct (IH Hque') as (sub & Hs & Hst & Hids & Hf & Hrs & Hev)..].
  - exists []. repeat split; constructor.
  - exists sub. cbn [map]. repeat split; eauto using ss_keep, ss_skip. constructor; [|now apply Hdr]. exists v. split; [now left|now left].
  - exists sub. cbn [map]. repeat split; eauto using ss_keep, ss_skip. constructor; [|now apply Hdr]. exists v. split; [now left|now right].
  - exists sub. repeat split; eauto using ss_keep, ss_skip.
    + cbn [filter]. unfold sent12 at 1. now rewrite Hb, Hq.
    + constructor; [|eauto]. unfold quedok in Hv. rewrite Hb in Hv. exists v, m. apply N.ltb_ge in Hsz. apply N.eqb_eq in Hq.
      split; [now left|]. repeat split; auto.
  - exists (v :: sub). repeat split; eauto using ss_keep, ss_skip.
    + constructor; [now apply hand_same_tag|exact Hst].
    + cbn [map length firstn]. now rewrite Hids, hand_id.
    + cbn [filter]. unfold sent12 at 1. rewrite hand_body. cbn [m_qos set_pid]. rewrite Hq. cbn [negb]. now f_equal.
    + constructor; [|apply (Hrf v pre pids); [exact Hrs|intros x Hx'; now right]].
      exists v, m. rewrite hand_at, hand_tag, hand_body. apply N.ltb_ge in Hsz. apply N.eqb_neq in Hq.
      split; [now left|]. repeat split; auto. right. split; [exact Hq|]. exists p. split; [now left|reflexivity].
Qed.

Lemma read_loop_inv now limit v5 ifexp : forall n que inf pids dq di evs rs l' cur' dq' di' evs' rs',
  Forall quedok que ->
  read_loop now n pids (inf ++ que) (length inf) limit v5 ifexp dq di evs rs = Some (l', cur', dq', di', evs', rs') ->
  exists inf2 que2 rs2 evs2 sub,
    l' = (inf ++ inf2) ++ que2 /\ cur' = length (inf ++ inf2) /\ rs' = rs ++ rs2 /\ evs' = evs ++ evs2 /\
    subseq que2 que /\ subseq sub que /\ Forall2 same_tag sub (inf2 ++ que2) /\
    map e_id inf2 = firstn (length inf2) pids /\
    inf2 = filter sent12 rs2 /\
    Forall (read_from limit v5 que pids) rs2 /\
    Forall (read_drop que) evs2.
Proof.
  intros n que inf pids dq di evs rs l' cur' dq' di' evs' rs' Hque H.
  destruct (read_loop_reads _ _ _ _ _ _ _ _ _ _ _ _ _ _ _ _ _ _ H) as (inf2 & drops & rs2 & Hrd & -> & -> & _ & _ & _ & -> & ->).
  rewrite skipn_app_len, firstn_app_len in *.
  destruct (reads_spec _ _ _ _ _ _ _ _ _ Hrd (Forall_firstn _ n que Hque)) as (sub & Hs & Hst & Hids & Hf & Hrs & Hev).
  assert (Hin : forall x, In x (firstn n que) -> In x que) by (intros x; apply In_firstn).
  exists inf2, (skipn n que), rs2, (map ev_dropped drops), (sub ++ skipn n que).
  assert (Hsub : subseq (sub ++ skipn n que) que).
  { rewrite <- (firstn_skipn n que) at 2. apply subseq_app; [exact Hs|apply subseq_refl]. }
  rewrite app_length, <- app_assoc. repeat split; auto.
  - rewrite <- (firstn_skipn n que) at 2. apply subseq_app_r.
  - apply Forall2_app; [exact Hst|apply Forall2_same_tag_refl].
  - eapply Forall_impl; [|exact Hrs]. intros a. apply read_from_weaken; auto.
  - eapply Forall_impl; [|exact Hev]. intros a (d & Hd & Ha). exists d. auto.
Qed.

Lemma q_read_inv now pids q b inf que q' rs evs :
  QInv q b inf que -> q_read now pids q = QOk (q', rs, evs) ->
  Forall (fun p => 1 <= p <= MAXPID) pids -> NoDup pids -> (forall p, In p pids -> ~ In p (map e_id inf)) ->
  exists inf2 que2,
    QInv q' b (inf ++ inf2) que2 /\ qstat q q' /\ q_drained q' = true /\
    q_cur q = length inf /\ q_cur q' = length (inf ++ inf2) /\
    map e_id inf2 = firstn (length inf2) pids /\ inf2 = filter sent12 rs /\
    Forall (read_from (q_limit q) (q_v5 q) que pids) rs /\
    subseq que2 que /\
    exists evs2 dq di, evs = evs2 ++ [EvQueue dq; EvInflight di] /\ Forall (read_drop que) evs2.
Proof.
  intros [Hl Hinf Hque Hcur Hdr Hnd Htags Htnd] Hr Hrange Hndp Hdisj. unfold q_read in Hr.
  destruct (q_drained q) eqn:Ed; cbn [negb] in Hr; [|discriminate]. specialize (Hdr eq_refl).
  destruct (q_closed q); [discriminate|].
  destruct (q_cur q =? length (q_l q))%nat; [discriminate|].
  rewrite Hl, Hdr in Hr.
  destruct (read_loop now (Nat.min (length (inf ++ que)) (length pids)) pids (inf ++ que) (length inf) (q_limit q)
                      (q_v5 q) (q_ifexp q) 0 0 [] []) as [[[[[[l' cur'] dq'] di'] evs'] rs']|] eqn:Erl; [|discriminate].
  inversion Hr; subst q' rs evs. clear Hr.
  destruct (read_loop_inv _ _ _ _ _ _ _ _ _ _ _ _ _ _ _ _ _ _ Hque Erl)
    as (inf2 & que2 & rs2 & evs2 & sub & -> & -> & -> & -> & Hs1 & Hs2 & Hst & Hids & Hf & Hrs & Hev).
  cbn [app] in *. exists inf2, que2.
  assert (Hst' : Forall2 same_tag (inf ++ sub) ((inf ++ inf2) ++ que2)).
  { rewrite <- app_assoc. apply Forall2_app; [apply Forall2_same_tag_refl|exact Hst]. }
  assert (Hss : subseq (inf ++ sub) (inf ++ que)) by (apply subseq_app; [apply subseq_refl|exact Hs2]).
  split.
  { constructor; cbn [q_l q_cur q_drained q_set]; auto.
    - apply Forall_app. split; [exact Hinf|]. apply Forall_forall. intros x Hx. unfold idok.
      assert (Hin : In (e_id x) (firstn (length inf2) pids)) by (rewrite <- Hids; now apply in_map).
      apply In_firstn in Hin. rewrite Forall_forall in Hrange. now apply Hrange.
    - eapply Forall_subseq; eauto.
    - rewrite map_app. apply NoDup_app_disjoint; [exact Hnd|rewrite Hids; now apply NoDup_firstn|].
      intros x Hx1 Hx2. rewrite Hids in Hx2. apply In_firstn in Hx2. eapply Hdisj; eauto.
    - eapply tag_ok_same; [exact Hst'|]. eapply Forall_subseq; eauto.
    - rewrite (pub_tags_same _ _ Hst'). eapply subseq_NoDup; [apply subseq_pub_tags; exact Hss|exact Htnd]. }
  split; [apply qstat_q_set|]. split; [reflexivity|]. split; [exact Hdr|]. split; [reflexivity|].
  split; [exact Hids|]. split; [exact Hf|]. split; [exact Hrs|]. split; [exact Hs1|].
  exists evs2, dq', di'. split; [reflexivity|exact Hev].
Qed.

Lemma lim_release_locked id l : LimInv l ->
  forall i, In i (l_locked (lim_release id l)) <-> In i (l_locked l) /\ i <> id.
Proof.
  intros Hinv i. destruct (release_inv id l Hinv) as (_ & _ & _ & _ & _ & Hl). rewrite Hl. apply In_delN.
Qed.

Lemma lim_release_noop id l : ~ In id (l_locked l) -> lim_release id l = l.
Proof. intros H. unfold lim_release. apply memN_notIn in H. now rewrite H. Qed.

Lemma lim_batch_locked ids : forall l, LimInv l ->
  LimInv (lim_batch_release ids l) /\ l_limit (lim_batch_release ids l) = l_limit l /\
  l_used (lim_batch_release ids l) <= l_used l /\
  forall i, In i (l_locked (lim_batch_release ids l)) <-> In i (l_locked l) /\ ~ In i ids.
Proof.
  induction ids as [|id ids IH]; intros l Hinv; cbn [lim_batch_release fold_left].
  - split; [exact Hinv|]. split; [reflexivity|]. split; [lia|]. intros i. cbn [In]. tauto.
  - destruct (release_inv id l Hinv) as (Hi & Hlim & _ & Hu & _ & _).
    destruct (IH _ Hi) as (Hi' & Hlim' & Hu' & Hl'). fold (lim_batch_release ids (lim_release id l)).
    split; [exact Hi'|]. split; [congruence|]. split; [lia|].
    intros i. rewrite Hl'. rewrite (lim_release_locked id l Hinv). cbn [In]. split.
    + intros [[H1 H2] H3]. split; [exact H1|]. intros [H|H]; [congruence|contradiction].
    + intros [H1 H2]. split; [split; [exact H1|]|]; intros H; apply H2; [now left|now right].
Qed.

(* a successful poll: the new ids are fresh and are exactly what is added to the locked set *)
Lemma lim_poll_ids l max l' ids : LimInv l -> l_limit l <= MAXPID -> lim_poll max l = (l', PIds ids) ->
  LimInv l' /\ l_limit l' = l_limit l /\ NoDup ids /\
  (forall i, In i ids -> 1 <= i <= MAXPID /\ ~ In i (l_locked l)) /\
  (forall i, In i (l_locked l') <-> In i ids \/ In i (l_locked l)) /\
  l_used l' <= l_limit l /\ l_used l < l_limit l.
Proof.
  intros Hinv Hlim Hp.
  destruct (lim_poll_cases l max Hinv Hlim) as [(_ & _ & H)|[(_ & H)|[(_ & _ & _ & H)|(Hu & He & Hm & l2 & ids2 & H & Hn)]]];
    try (rewrite H in Hp; discriminate).
  rewrite H in Hp. inversion Hp; subst l2 ids2. clear Hp H.
  assert (Hpre : l_used l + N.of_nat (N.to_nat (N.min max (l_limit l - l_used l))) <= l_limit l) by lia.
  destruct (poll_n_spec _ _ _ _ _ Hinv Hpre Hlim Hn) as (Hi' & Hl' & _ & Hu' & new & Hids & Hlen & Hnd & Hfresh & Hlocked).
  cbn [app] in Hids. subst new.
  split; [exact Hi'|]. split; [exact Hl'|]. split; [exact Hnd|]. split; [exact Hfresh|].
  split; [exact Hlocked|]. split; lia.
Qed.

Lemma NoDup_same_length {A} (a b : list A) : NoDup a -> NoDup b -> (forall x, In x a <-> In x b) -> length a = length b.
Proof.
  intros Ha Hb H. apply Nat.le_antisymm; apply NoDup_incl_length; auto; intros x Hx; now apply H.
Qed.

Lemma LimInv_used l (ids : list N) : LimInv l -> NoDup ids -> (forall i, In i (l_locked l) <-> In i ids) ->
  l_used l = N.of_nat (length ids).
Proof.
  intros (Hnd & _ & _ & Hu & _) Hn H. rewrite Hu. f_equal. now apply NoDup_same_length.
Qed.

(* the part of a connection the invariant speaks about *)
Definition cq_eq (k k' : conn) : Prop :=
  k_lim k' = k_lim k /\ k_held k' = k_held k /\ k_drained k' = k_drained k /\ same_static k k' /\
  am_max (k_alias_out k') = am_max (k_alias_out k).

Lemma cq_eq_refl k : cq_eq k k.
Proof. unfold cq_eq. auto using same_static_refl. Qed.
Lemma cq_eq_trans a b c : cq_eq a b -> cq_eq b c -> cq_eq a c.
Proof.
  unfold cq_eq. intros (?&?&?&?&?) (?&?&?&?&?). repeat split; try congruence.
  all: eapply same_static_trans; eauto.
Qed.

Lemma wp_frame c k m : cq_eq k (fst (write_publish c k m)).
Proof.
  unfold write_publish.
  destruct ((k_v k =? 5) && (0 <? k_client_alias_max k) && (msg_total_bytes true m + 5 <=? k_client_max_packet k)); [|apply cq_eq_refl].
  pose proof (am_check_max (m_topic m) (k_alias_out k)) as Hmx.
  destruct (am_check (m_topic m) (k_alias_out k)) as [am' [a ex|]]; cbn [fst snd] in *; [|apply cq_eq_refl].
  unfold cq_eq, same_static; cbn. auto 10.
Qed.

(* the packet written for message m, up to the alias rewriting (the topic is left out when the
   alias is already known to the client: C13_out_alias_conn shows that it then resolves to m_topic m) *)
Definition is_pub_of (c : N) (m : msg) (o : out) : Prop :=
  exists topic props,
    o = OSend c (KPublish (m_dup m) (m_qos m) (m_retained m) topic (m_payload m) (m_pid m) props) /\
    (topic = m_topic m \/ topic = []).

Lemma p_alias_app a b : p_alias (a ++ b) = match p_alias a with Some x => Some x | None => p_alias b end.
Proof. induction a as [|x a IH]; cbn [app p_alias]; [reflexivity|]. destruct x; auto. Qed.

Lemma p_alias_map_none {A} (f : A -> prop) l : (forall x, match f x with PAlias _ => False | _ => True end) -> p_alias (map f l) = None.
Proof. intros H. induction l as [|x r IH]; cbn [map p_alias]; [reflexivity|]. specialize (H x). destruct (f x); auto; contradiction. Qed.

Lemma msg_props_no_alias v5 m : p_alias (msg_props v5 m) = None.
Proof.
  unfold msg_props. destruct v5; [|reflexivity].
  rewrite !p_alias_app.
  destruct (m_pfmt m =? 1); cbn [p_alias];
  destruct (m_expiry m =? 0); cbn [p_alias];
  destruct (m_ctype m); cbn [p_alias];
  destruct (m_resp m); cbn [p_alias];
  destruct (m_corr m); cbn [p_alias];
  rewrite p_alias_map_none by (intros; exact I); rewrite p_alias_map_none by (intros; exact I); reflexivity.
Qed.

Definition out_alias (o : out) : option N :=
  match o with OSend _ (KPublish _ _ _ _ _ _ props) => p_alias props | _ => None end.

(* a packet that carries a Topic Alias was checked against the client's Maximum Packet Size with the margin of
   the property (5 bytes) *)
Definition alias_fits (L : N) (m : msg) (o : out) : Prop :=
  out_alias o = None \/ (exists a, out_alias o = Some a) /\ msg_total_bytes true m + 5 <= L.

Lemma wp_out_fits c k m : Forall (alias_fits (k_client_max_packet k) m) (snd (write_publish c k m)).
Proof.
  unfold write_publish.
  destruct ((k_v k =? 5) && (0 <? k_client_alias_max k) && (msg_total_bytes true m + 5 <=? k_client_max_packet k)) eqn:Ea.
  - apply andb_true_iff in Ea as [_ Ea]. apply N.leb_le in Ea.
    destruct (am_check (m_topic m) (k_alias_out k)) as [am' [a ex|]]; cbn [snd]; [|constructor].
    constructor; [|constructor]. unfold alias_fits. cbn [out_alias].
    rewrite p_alias_app, msg_props_no_alias. destruct (a =? 0); cbn [p_alias]; [now left|right; eauto].
  - cbn [snd]. constructor; [|constructor]. left. cbn [out_alias]. apply msg_props_no_alias.
Qed.

(* x is what write_publish writes for m on the connection, at some point of a turn (the alias table moves on) *)
Definition written_by (c : N) (k : conn) (m : msg) (x : out) : Prop :=
  exists k0, same_static k k0 /\ In x (snd (write_publish c k0 m)).

(* with the alias manager sized as the client asked, exactly one PUBLISH is written *)
Lemma wp_out c k m : am_max (k_alias_out k) = k_client_alias_max k ->
  exists o, snd (write_publish c k m) = [o] /\ is_pub_of c m o.
Proof.
  intros Ham. unfold write_publish.
  destruct ((k_v k =? 5) && (0 <? k_client_alias_max k) && (msg_total_bytes true m + 5 <=? k_client_max_packet k)) eqn:Ea.
  - pose proof (am_check_no_panic (m_topic m) (k_alias_out k)) as Hnp.
    destruct (am_check (m_topic m) (k_alias_out k)) as [am' [a ex|]] eqn:Ec; cbn [fst snd] in *.
    + eexists. split; [reflexivity|]. unfold is_pub_of. do 2 eexists. split; [reflexivity|].
      destruct ex; [now right|now left].
    + exfalso. apply Hnp; [lia|reflexivity].
  - eexists. split; [reflexivity|]. unfold is_pub_of. do 2 eexists. split; [reflexivity|]. now left.
Qed.

Definition held_ids (k : conn) : list N := match k_held k with Some ids => ids | None => [] end.

(* the ids of the in-flight entries: the entries before the cursor *)
Definition inflight_ids (q : queue) : list N := map e_id (firstn (q_cur q) (q_l q)).

(* w = true adds the window clause; it holds on connections whose replay fits the window *)
Record CQ (w : bool) (k : conn) (q : queue) (b : N) (inf que : list elem) : Prop := {
  cq_q : QInv q b inf que;
  cq_lim : LimInv (k_lim k);
  cq_limit : l_limit (k_lim k) = k_max_inflight k;
  cq_max : k_max_inflight k <= MAXPID;
  cq_nd : NoDup (map e_id inf ++ held_ids k);
  cq_locked : forall i, In i (l_locked (k_lim k)) <-> In i (map e_id (firstn (q_cur q) inf) ++ held_ids k);
  cq_replay : k_drained k = false -> k_held k = None;
  cq_size : q_limit q = k_client_max_packet k;
  cq_v5 : q_v5 q = (k_v k =? 5);
  cq_am : am_max (k_alias_out k) = k_client_alias_max k;
  cq_done : k_drained k = true -> 1 <= k_max_inflight k -> q_cur q = length inf;
  cq_win : w = true -> if k_drained k then l_used (k_lim k) <= l_limit (k_lim k)
                       else N.of_nat (length inf) <= l_limit (k_lim k) }.

Lemma held_ids_eq k k' : k_held k' = k_held k -> held_ids k' = held_ids k.
Proof. unfold held_ids. now intros ->. Qed.

(* CQ reads these fields of the connection record and no others *)
Lemma CQ_fields w k k' q b inf que :
  k_lim k' = k_lim k -> k_held k' = k_held k -> k_drained k' = k_drained k -> k_max_inflight k' = k_max_inflight k ->
  k_client_max_packet k' = k_client_max_packet k -> k_v k' = k_v k -> k_client_alias_max k' = k_client_alias_max k ->
  am_max (k_alias_out k') = am_max (k_alias_out k) -> CQ w k q b inf que -> CQ w k' q b inf que.
Proof.
  intros Hl Hh Hd Hmi Hmp Hv Ham Hamx [H1 H2 H3 H4 H5 H6 H7 H8 H9 H10 H11 H12].
  pose proof (held_ids_eq _ _ Hh) as Hh'.
  constructor; rewrite ?Hl, ?Hh', ?Hh, ?Hd, ?Hmi, ?Hmp, ?Hv, ?Ham, ?Hamx; auto.
Qed.

Lemma CQ_ext w k k' q b inf que : cq_eq k k' -> CQ w k q b inf que -> CQ w k' q b inf que.
Proof. intros (Hl & Hh & Hd & (_ & Hv & _ & Hmi & Hmp & Ham) & Hamx). now apply CQ_fields. Qed.

Lemma inflight_ids_inf q b inf que : QInv q b inf que -> inflight_ids q = map e_id (firstn (q_cur q) inf).
Proof. intros H. unfold inflight_ids. rewrite (qi_l _ _ _ _ H). rewrite firstn_app_le by apply (qi_cur _ _ _ _ H). reflexivity. Qed.

Lemma NoDup_app_l {A} (a b : list A) : NoDup (a ++ b) -> NoDup a.
Proof. apply subseq_NoDup, subseq_app_l. Qed.
Lemma NoDup_app_r {A} (a b : list A) : NoDup (a ++ b) -> NoDup b.
Proof. apply subseq_NoDup, subseq_app_r. Qed.

(* the in-flight prefix and the held ids are duplicate-free together *)
Lemma NoDup_prefix_held (ids held : list N) n : NoDup (ids ++ held) -> NoDup (firstn n ids ++ held).
Proof.
  intros Hn. rewrite <- (firstn_skipn n ids), <- app_assoc in Hn.
  apply NoDup_app_disjoint.
  - now apply NoDup_app_l in Hn.
  - apply NoDup_app_r in Hn. now apply NoDup_app_r in Hn.
  - intros x Hx1 Hx2. eapply (NoDup_app_disj _ _ x Hn); [exact Hx1|]. apply in_or_app. now right.
Qed.

(* the limiter counts exactly the in-flight entries and the held ids *)
Lemma CQ_used w k q b inf que : CQ w k q b inf que ->
  l_used (k_lim k) = N.of_nat (q_cur q + length (held_ids k)).
Proof.
  intros H. pose proof (cq_q _ _ _ _ _ _ H) as HQ.
  assert (Hnd : NoDup (map e_id (firstn (q_cur q) inf) ++ held_ids k)).
  { rewrite <- firstn_map. apply NoDup_prefix_held. apply (cq_nd _ _ _ _ _ _ H). }
  rewrite (LimInv_used _ _ (cq_lim _ _ _ _ _ _ H) Hnd (cq_locked _ _ _ _ _ _ H)).
  rewrite app_length, map_length, firstn_length. pose proof (qi_cur _ _ _ _ HQ). f_equal. lia.
Qed.

(* pollInflights: one retransmission *)
Definition replay_step (c now : N) (acc : conn * list out) (e : elem) : conn * list out :=
  let '(k0, o0) := acc in
  match e_body e with
  | QPub m =>
      let k1 := set_lim_held (lim_mark (m_pid m) (k_lim k0)) (k_held k0) (k_drained k0) k0 in
      let '(k2, o2) := write_publish c k1 (aged (k_v k0 =? 5) now e (as_dup m)) in (k2, o0 ++ o2)
  | QRel p => (set_lim_held (lim_mark p (k_lim k0)) (k_held k0) (k_drained k0) k0, o0 ++ [OSend c (KPubrel p 0 [])])
  end.

(* a first transmission *)
Definition send_step (c : N) (acc : conn * list out) (e : elem) : conn * list out :=
  let '(k0, o0) := acc in
  match e_body e with
  | QPub m => let '(k1, o1) := write_publish c k0 m in (k1, o0 ++ o1)
  | QRel _ => (k0, o0)
  end.

Definition age_elem (v5 : bool) (now : N) (e : elem) : elem :=
  match e_body e with QPub m => with_body (QPub (aged v5 now e m)) e | QRel _ => e end.

(* the retransmission of an in-flight entry: DUP=1, same id, QoS, payload, RETAIN and topic (or the
   topic replaced by its alias); a PUBREL for an entry whose PUBREC was received *)
Definition is_retrans (c : N) (e : elem) (o : out) : Prop :=
  match e_body e with
  | QPub m => exists topic props,
                o = OSend c (KPublish true (m_qos m) (m_retained m) topic (m_payload m) (m_pid m) props) /\
                (topic = m_topic m \/ topic = [])
  | QRel p => o = OSend c (KPubrel p 0 [])
  end.

Lemma aged_fields v5 now e m :
  m_dup (aged v5 now e m) = m_dup m /\ m_qos (aged v5 now e m) = m_qos m /\ m_retained (aged v5 now e m) = m_retained m /\
  m_topic (aged v5 now e m) = m_topic m /\ m_payload (aged v5 now e m) = m_payload m /\ m_pid (aged v5 now e m) = m_pid m.
Proof. unfold aged. destruct (v5 && negb (m_expiry m =? 0)); cbn; auto 10. Qed.

Lemma replay_fold_spec c now : forall rs k o,
  LimInv (k_lim k) -> Forall idok rs -> NoDup (map e_id rs) ->
  (forall i, In i (map e_id rs) -> ~ In i (l_locked (k_lim k))) ->
  am_max (k_alias_out k) = k_client_alias_max k ->
  exists k' o2, fold_left (replay_step c now) rs (k, o) = (k', o ++ o2) /\
    LimInv (k_lim k') /\ l_limit (k_lim k') = l_limit (k_lim k) /\
    l_used (k_lim k') = l_used (k_lim k) + N.of_nat (length rs) /\
    (forall i, In i (l_locked (k_lim k')) <-> In i (map e_id rs) \/ In i (l_locked (k_lim k))) /\
    k_held k' = k_held k /\ k_drained k' = k_drained k /\ same_static k k' /\
    am_max (k_alias_out k') = am_max (k_alias_out k) /\
    Forall2 (is_retrans c) rs o2.
Proof.
  induction rs as [|e rs IH]; intros k o Hinv Hok Hnd Hfresh Ham; cbn [fold_left].
  - exists k, []. rewrite app_nil_r. cbn [length map In].
    split; [reflexivity|]. split; [exact Hinv|]. split; [reflexivity|]. split; [lia|]. split; [tauto|].
    split; [reflexivity|]. split; [reflexivity|]. split; [apply same_static_refl|]. split; [reflexivity|constructor].
  - inversion Hok as [|? ? He Hok']; subst. cbn [map] in Hnd. inversion Hnd as [|? ? Hnin Hnd']; subst.
    assert (Hfe : ~ In (e_id e) (l_locked (k_lim k))) by (apply Hfresh; now left).
    destruct (mark_inv (e_id e) (k_lim k) Hinv He Hfe) as (Hinv1 & Hu1 & Hl1).
    (* the connection after the step *)
    assert (Hstep : exists k1 o1, replay_step c now (k, o) e = (k1, o ++ [o1]) /\ is_retrans c e o1 /\
              k_lim k1 = lim_mark (e_id e) (k_lim k) /\ k_held k1 = k_held k /\ k_drained k1 = k_drained k /\
              same_static k k1 /\ am_max (k_alias_out k1) = am_max (k_alias_out k)).
    { unfold replay_step, is_retrans, e_id. destruct (e_body e) as [m|p] eqn:Eb.
      - set (k1 := set_lim_held (lim_mark (m_pid m) (k_lim k)) (k_held k) (k_drained k) k).
        set (m' := aged (k_v k =? 5) now e (as_dup m)).
        pose proof (wp_frame c k1 m') as (F1 & F2 & F3 & F4 & F5).
        destruct (wp_out c k1 m' Ham) as (o1 & Ho1 & topic & props & -> & Htp).
        destruct (write_publish c k1 m') as [k2 o2]. cbn [fst snd] in *. subst o2.
        exists k2. eexists. split; [reflexivity|].
        destruct (aged_fields (k_v k =? 5) now e (as_dup m)) as (A1 & A2 & A3 & A4 & A5 & A6). fold m' in A1, A2, A3, A4, A5, A6.
        split.
        + exists topic, props. rewrite A1, A2, A3, A5, A6. cbn [as_dup m_dup m_qos m_retained m_payload m_pid].
          split; [reflexivity|]. rewrite A4 in Htp. exact Htp.
        + repeat split; try (rewrite ?F1, ?F2, ?F3, ?F5; reflexivity).
          all: destruct F4 as (?&?&?&?&?&?); auto.
      - eexists. eexists. split; [reflexivity|]. split; [reflexivity|]. repeat split. }
    destruct Hstep as (k1 & o1 & Hs & Hr1 & Hk1 & Hh1 & Hd1 & Hss1 & Ha1).
    rewrite Hs.
    assert (Hfresh1 : forall i, In i (map e_id rs) -> ~ In i (l_locked (k_lim k1))).
    { intros i Hi. rewrite Hk1, Hl1. intros [Hx|Hx]; [subst i; contradiction|]. eapply Hfresh; [right; exact Hi|exact Hx]. }
    assert (Ham1 : am_max (k_alias_out k1) = k_client_alias_max k1).
    { destruct Hss1 as (_&_&_&_&_&Hc). now rewrite Ha1, Hc. }
    rewrite <- Hk1 in Hinv1.
    destruct (IH k1 (o ++ [o1]) Hinv1 Hok' Hnd' Hfresh1 Ham1) as (k' & o2 & Hf & Hi' & Hlim' & Hu' & Hl' & Hh' & Hd' & Hss' & Ha' & Hr').
    exists k', (o1 :: o2). rewrite Hf, <- app_assoc. cbn [app]. split; [reflexivity|].
    split; [exact Hi'|]. split; [rewrite Hlim', Hk1; reflexivity|].
    split; [rewrite Hu', Hk1, Hu1; cbn [length]; lia|].
    split.
    { intros i. rewrite Hl', Hk1, Hl1. cbn [map In]. intuition. }
    split; [congruence|]. split; [congruence|]. split; [eapply same_static_trans; eauto|].
    split; [congruence|]. constructor; auto.
Qed.

Lemma send_fold_spec c kb : forall rs k o, same_static kb k -> am_max (k_alias_out k) = k_client_alias_max k ->
  exists k' o2, fold_left (send_step c) rs (k, o) = (k', o ++ o2) /\ cq_eq k k' /\
    Forall2 (fun e x => match e_body e with
                        | QPub m => is_pub_of c m x /\ alias_fits (k_client_max_packet kb) m x /\ written_by c kb m x
                        | QRel _ => False
                        end) (filter is_pub rs) o2.
Proof.
  induction rs as [|e rs IH]; intros k o Hkb Ham; cbn [fold_left filter].
  - exists k, []. rewrite app_nil_r. split; [reflexivity|]. split; [apply cq_eq_refl|constructor].
  - unfold send_step at 2. unfold is_pub at 1. destruct (e_body e) as [m|p] eqn:Eb.
    + pose proof (wp_frame c k m) as Hf. destruct (wp_out c k m Ham) as (o1 & Ho1 & Hp1).
      pose proof (wp_out_fits c k m) as Hfit.
      destruct (write_publish c k m) as [k1 o1'] eqn:Ew. cbn [fst snd] in *. subst o1'.
      inversion Hfit as [|? ? Hfit1 _]; subst.
      assert (Ham1 : am_max (k_alias_out k1) = k_client_alias_max k1).
      { destruct Hf as (_ & _ & _ & (_&_&_&_&_&Hc) & Ha). now rewrite Ha, Hc. }
      assert (HL : k_client_max_packet k = k_client_max_packet kb) by (destruct Hkb as (_&_&_&_&HL&_); exact HL).
      assert (Hkb1 : same_static kb k1) by (destruct Hf as (_ & _ & _ & Hss & _); eapply same_static_trans; eauto).
      destruct (IH k1 (o ++ [o1]) Hkb1 Ham1) as (k' & o2 & Hfold & Hcq & Hall).
      exists k', (o1 :: o2). rewrite Hfold, <- app_assoc. split; [reflexivity|].
      split; [eapply cq_eq_trans; eauto|]. constructor; [|exact Hall].
      rewrite Eb. split; [exact Hp1|]. split; [now rewrite <- HL|].
      exists k. split; [exact Hkb|]. rewrite Ew. now left.
    + apply IH; assumption.
Qed.

Lemma ids_remove {A} (f : A -> N) l : NoDup (map f l) -> forall i d, nth_error l i = Some d ->
  forall x, In x (map f (remove_nth i l)) <-> In x (map f l) /\ x <> f d.
Proof.
  induction l as [|y r IH]; intros Hn [|i] d Hd x; cbn [nth_error remove_nth map In] in *; try discriminate.
  - inversion Hd; subst. inversion Hn as [|? ? Hy Hn']; subst. split.
    + intros H. split; [now right|]. intros ->. contradiction.
    + intros [[H|H] Hne]; [congruence|exact H].
  - inversion Hn as [|? ? Hy Hn']; subst. rewrite (IH Hn' i d Hd x). split.
    + intros [H|[H1 H2]]; [|tauto]. split; [now left|]. intros Hx. apply Hy. rewrite H, Hx. apply in_map. eapply nth_error_In; exact Hd.
    + tauto.
Qed.

Lemma firstn_remove_nth_lt {A} (l : list A) : forall i n, (i < n)%nat ->
  firstn (n - 1) (remove_nth i l) = remove_nth i (firstn n l).
Proof.
  induction l as [|y r IH]; intros i n H.
  - destruct i, n; cbn [firstn remove_nth]; try lia; now rewrite ?firstn_nil.
  - destruct n as [|n]; [lia|]. replace (S n - 1)%nat with n by lia. destruct i as [|i]; cbn [firstn remove_nth].
    + reflexivity.
    + destruct n as [|n]; [lia|]. change (firstn (S n) (y :: remove_nth i r)) with (y :: firstn n (remove_nth i r)).
      f_equal. rewrite <- (IH i (S n)) by lia. now replace (S n - 1)%nat with n by lia.
Qed.

Lemma firstn_remove_nth_ge {A} (l : list A) : forall i n, (n <= i)%nat -> firstn n (remove_nth i l) = firstn n l.
Proof.
  induction l as [|y r IH]; intros [|i] [|n] H; cbn [firstn remove_nth]; try lia; try reflexivity.
  f_equal. apply IH. lia.
Qed.

Lemma nth_error_firstn {A} (l : list A) : forall i n, (i < n)%nat -> nth_error (firstn n l) i = nth_error l i.
Proof. induction l as [|y r IH]; intros [|i] [|n] H; cbn [firstn nth_error]; try lia; try reflexivity. apply IH. lia. Qed.

Lemma not_in_prefix {A} (f : A -> N) l : NoDup (map f l) -> forall i n d, nth_error l i = Some d -> (n <= i)%nat ->
  ~ In (f d) (map f (firstn n l)).
Proof.
  induction l as [|y r IH]; intros Hn [|i] [|n] d Hd Hle; cbn [nth_error firstn map In] in *; try discriminate; try lia; try tauto.
  inversion Hn as [|? ? Hy Hn']; subst. intros [H|H].
  - apply Hy. rewrite H. apply in_map. eapply nth_error_In; exact Hd.
  - eapply (IH Hn' i n d Hd); [lia|exact H].
Qed.

Lemma in_prefix {A} (f : A -> N) (l : list A) i n d : nth_error l i = Some d -> (i < n)%nat -> In (f d) (map f (firstn n l)).
Proof. intros Hd Hlt. apply in_map. eapply nth_error_In. rewrite nth_error_firstn by exact Hlt. exact Hd. Qed.

Ltac slh := cbn [set_lim_held k_lim k_held k_drained k_max_inflight k_client_max_packet k_v k_alias_out
                 k_client_alias_max k_cid k_phase] in *.

Lemma held_ids_slh l h d k : held_ids (set_lim_held l h d k) = match h with Some ids => ids | None => [] end.
Proof. reflexivity. Qed.

(* an in-flight entry leaves the queue (acknowledged, or expired and evicted) and its id is released *)
Lemma CQ_drop w k q b inf que q' b' que' i d :
  CQ w k q b inf que -> nth_error inf i = Some d -> QInv q' b' (remove_nth i inf) que' -> qstat q q' ->
  q_cur q' = (if (i <? q_cur q)%nat then (q_cur q - 1)%nat else q_cur q) ->
  CQ w (set_lim_held (lim_release (e_id d) (k_lim k)) (k_held k) (k_drained k) k) q' b' (remove_nth i inf) que'.
Proof.
  intros H Hn HQ' (Hq1 & Hq2 & _ & _) Hc'. pose proof H as [HQ Hlim Hlimit Hmax Hnd Hlocked Hrep Hsize Hv5 Ham Hdone Hwin].
  destruct (release_inv (e_id d) (k_lim k) Hlim) as (Hi' & Hl' & _ & Hu' & _ & _).
  pose proof (qi_cur _ _ _ _ HQ) as Hcur.
  assert (Hlt : (i < length inf)%nat) by (eapply nth_error_lt; eauto).
  assert (Hndi : NoDup (map e_id inf)) by (now apply NoDup_app_l in Hnd).
  assert (Hndp : NoDup (map e_id (firstn (q_cur q) inf))) by (rewrite <- firstn_map; now apply NoDup_firstn).
  assert (Hnh : ~ In (e_id d) (held_ids k)).
  { intros Hin. eapply (NoDup_app_disj _ _ (e_id d) Hnd); [|exact Hin]. apply in_map. eapply nth_error_In; eauto. }
  constructor; slh; rewrite ?held_ids_slh; fold (held_ids k); auto; try congruence.
  + rewrite map_remove_nth. eapply subseq_NoDup; [|exact Hnd].
    apply subseq_app; [apply subseq_remove_nth|apply subseq_refl].
  + intros x. rewrite (lim_release_locked _ _ Hlim), Hlocked, Hc', !in_app_iff.
    destruct (i <? q_cur q)%nat eqn:Ei; [apply Nat.ltb_lt in Ei|apply Nat.ltb_ge in Ei].
    * rewrite firstn_remove_nth_lt by exact Ei.
      assert (Hnp : nth_error (firstn (q_cur q) inf) i = Some d) by (now rewrite nth_error_firstn).
      rewrite (ids_remove e_id _ Hndp i d Hnp x). split.
      -- intros [[Hx|Hx] Hne]; [left; auto|right; exact Hx].
      -- intros [[Hx Hne]|Hx]; [split; [now left|exact Hne]|]. split; [now right|]. intros ->. contradiction.
    * rewrite firstn_remove_nth_ge by exact Ei.
      pose proof (not_in_prefix e_id inf Hndi i (q_cur q) d Hn Ei) as Hnp. split; [tauto|].
      intros Hx. split; [exact Hx|]. intros ->. tauto.
  + intros Hd1 Hm1. specialize (Hdone Hd1 Hm1). rewrite Hc', remove_nth_length by exact Hlt.
    assert (Ei : (i <? q_cur q)%nat = true) by (apply Nat.ltb_lt; lia). rewrite Ei. lia.
  + intros Hw. specialize (Hwin Hw). destruct (k_drained k); [lia|].
    rewrite remove_nth_length by exact Hlt. lia.
Qed.

(* PUBACK / PUBCOMP / PUBREC with an error code: Remove + release *)
Lemma CQ_remove w k q b inf que pid :
  CQ w k q b inf que -> ~ In pid (held_ids k) ->
  exists inf',
    CQ w (set_lim_held (lim_release pid (k_lim k)) (k_held k) (k_drained k) k) (fst (q_remove pid q)) b inf' que /\
    (inf' = inf /\ fst (q_remove pid q) = q /\ ~ In pid (inflight_ids q) \/
     exists i d, (i < q_cur q)%nat /\ nth_error inf i = Some d /\ e_id d = pid /\ inf' = remove_nth i inf).
Proof.
  intros H Hnh. pose proof H as [HQ Hlim Hlimit Hmax Hnd Hlocked Hrep Hsize Hv5 Ham Hdone Hwin].
  destruct (q_remove_inv pid q b inf que HQ) as (Hqs & Hqd & [(i & d & Hi & Hn & Hd & HQ' & Hc')|(Hq' & Hnin)]).
  - exists (remove_nth i inf). split; [|right; exists i, d; auto]. subst pid.
    apply (CQ_drop w k q b inf que _ b que i d H Hn HQ' Hqs). rewrite Hc'.
    now replace (i <? q_cur q)%nat with true by (symmetry; now apply Nat.ltb_lt).
  - exists inf. split; [|left; split; [reflexivity|]; split; [exact Hq'|]].
    + rewrite Hq'. eapply CQ_ext; [|exact H].
      assert (Hnl : ~ In pid (l_locked (k_lim k))).
      { rewrite Hlocked, in_app_iff. tauto. }
      rewrite (lim_release_noop _ _ Hnl). unfold cq_eq, same_static. slh. auto 10.
    + now rewrite (inflight_ids_inf _ _ _ _ HQ).
Qed.

(* PUBREC without error: Replace by a PUBREL entry with the same id *)
Lemma CQ_replace w k q b inf que e pid :
  CQ w k q b inf que -> e_body e = QRel pid -> e_tag e = 0 ->
  exists inf', CQ w k (fst (q_replace e q)) b inf' que /\ map e_id inf' = map e_id inf /\
    (inf' = inf /\ fst (q_replace e q) = q \/
     exists i d, (i < q_cur q)%nat /\ nth_error inf i = Some d /\ e_id d = pid /\ inf' = replace_nth i e inf).
Proof.
  intros H Hb Ht. pose proof H as [HQ Hlim Hlimit Hmax Hnd Hlocked Hrep Hsize Hv5 Ham Hdone Hwin].
  destruct (q_replace_inv e pid q b inf que HQ Hb Ht) as (Hqs & Hqd & Hc' & [(i & d & Hi & Hn & Hd & HQ' & Hmap)|(Hq' & Hnin)]).
  - exists (replace_nth i e inf). split; [|split; [exact Hmap|right; exists i, d; auto]].
    destruct Hqs as (Hq1 & Hq2 & _ & _).
    constructor; auto; try congruence.
    + intros x. rewrite Hlocked, Hc'. rewrite <- !firstn_map. rewrite Hmap. reflexivity.
    + intros Hd1 Hm1. rewrite Hc', replace_nth_length. auto.
    + intros Hw. specialize (Hwin Hw). destruct (k_drained k); [exact Hwin|]. now rewrite replace_nth_length.
  - exists inf. rewrite Hq'. auto.
Qed.

(* Add, with the release of the ids of expired in-flight entries (queueNotifier) *)
Definition rel_fold (evs : list qev) (l : lim) : lim :=
  fold_left (fun l e => match e with EvDropped el DExpiredInflight => lim_release (e_id el) l | _ => l end) evs l.

Lemma rel_fold_noop pool evs : Forall (no_inflight_drop pool) evs -> forall l, rel_fold evs l = l.
Proof.
  unfold rel_fold. intros H. induction H as [|ev evs Hev H IH]; intros l; cbn [fold_left]; [reflexivity|].
  destruct ev as [d r| |]; try apply IH. destruct r; try apply IH. contradiction.
Qed.

Lemma CQ_add w k q b inf que now e q' evs :
  CQ w k q b inf que -> quedok e -> e_tag e = b -> b <> 0 -> q_add now e q = QOk (q', evs) ->
  exists inf' que',
    CQ w (set_lim_held (rel_fold evs (k_lim k)) (k_held k) (k_drained k) k) q' (b + 1) inf' que' /\
    (inf' = inf /\ q_cur q' = q_cur q /\ Forall (no_inflight_drop (e :: que)) evs \/
     exists i d, nth_error inf i = Some d /\ inf' = remove_nth i inf /\ evs = [EvInflight (-1); EvDropped d DExpiredInflight]).
Proof.
  intros H He Ht Hb Hadd. pose proof H as [HQ Hlim Hlimit Hmax Hnd Hlocked Hrep Hsize Hv5 Ham Hdone Hwin].
  destruct (q_add_inv now e q b inf que q' evs HQ He Ht Hb Hadd)
    as (Hqs & Hqd & [(que' & HQ' & Hc' & Hev)|(i & d & que' & Hn & HQ' & Hc' & Hev)]).
  - exists inf, que'. split; [|left; auto]. destruct Hqs as (Hq1 & Hq2 & _ & _).
    rewrite (rel_fold_noop _ _ Hev).
    constructor; slh; rewrite ?held_ids_slh; fold (held_ids k); auto; try congruence.
    + intros x. rewrite Hc'. apply Hlocked.
    + rewrite Hc'. exact Hdone.
  - exists (remove_nth i inf), que'. split; [|right; exists i, d; auto].
    subst evs. exact (CQ_drop w k q b inf que q' (b + 1) que' i d H Hn HQ' Hqs Hc').
Qed.

(* the poll loop takes packet ids from the limiter *)
Lemma CQ_pollids w k q b inf que max l' ids :
  CQ w k q b inf que -> k_drained k = true -> k_held k = None ->
  lim_poll max (k_lim k) = (l', PIds ids) ->
  CQ w (set_lim_held l' (Some ids) true k) q b inf que /\
  NoDup ids /\ (forall i, In i ids -> 1 <= i <= MAXPID /\ ~ In i (inflight_ids q)).
Proof.
  intros H Hd Hh Hp. pose proof H as [HQ Hlim Hlimit Hmax Hnd Hlocked Hrep Hsize Hv5 Ham Hdone Hwin].
  assert (Hlm : l_limit (k_lim k) <= MAXPID) by lia.
  destruct (lim_poll_ids _ _ _ _ Hlim Hlm Hp) as (Hi' & Hl' & Hndi & Hfresh & Hlk & Hu' & Hroom).
  assert (Hm1 : 1 <= k_max_inflight k) by lia.
  specialize (Hdone Hd Hm1).
  assert (Hhe : held_ids k = []) by (unfold held_ids; now rewrite Hh).
  rewrite Hhe, app_nil_r in *.
  assert (Hpre : firstn (q_cur q) inf = inf) by (apply firstn_all2; lia).
  rewrite Hpre in *.
  split; [|split; [exact Hndi|]].
  - constructor; slh; rewrite ?held_ids_slh; auto; try congruence.
    + apply NoDup_app_disjoint; auto. intros x Hx1 Hx2. apply Hfresh in Hx2. destruct Hx2 as [_ Hx2]. apply Hx2. now apply Hlocked.
    + intros x. rewrite Hlk, in_app_iff, Hpre, Hlocked. tauto.
  - intros i Hi. destruct (Hfresh i Hi) as [Hr Hn]. split; [exact Hr|].
    rewrite (inflight_ids_inf _ _ _ _ HQ), Hpre. intros Hin. apply Hn. now apply Hlocked.
Qed.

Lemma firstn_skipn_in {A} (l : list A) n x : In x l <-> In x (firstn n l) \/ In x (skipn n l).
Proof. rewrite <- in_app_iff. now rewrite firstn_skipn. Qed.

(* Read with the held ids: first transmissions *)
Lemma CQ_read w k q b inf que now ids q' rs evs :
  CQ w k q b inf que -> k_drained k = true -> k_held k = Some ids ->
  q_read now ids q = QOk (q', rs, evs) ->
  let used := length (filter sent12 rs) in
  exists inf2 que2,
    CQ w (set_lim_held (lim_batch_release (skipn used ids) (k_lim k)) None true k) q' b (inf ++ inf2) que2 /\
    q_cur q = length inf /\ q_cur q' = length (inf ++ inf2) /\
    map e_id inf2 = firstn used ids /\ inf2 = filter sent12 rs /\
    Forall (read_from (k_client_max_packet k) (k_v k =? 5) que ids) rs /\
    subseq que2 que /\
    exists evs2 dq di, evs = evs2 ++ [EvQueue dq; EvInflight di] /\ Forall (read_drop que) evs2.
Proof.
  intros H Hd Hh Hr used. pose proof H as [HQ Hlim Hlimit Hmax Hnd Hlocked Hrep Hsize Hv5 Ham Hdone Hwin].
  assert (Hhe : held_ids k = ids) by (unfold held_ids; now rewrite Hh).
  rewrite Hhe in *.
  assert (Hrange : Forall (fun p => 1 <= p <= MAXPID) ids).
  { apply Forall_forall. intros p Hp. destruct Hlim as (_ & _ & Hr' & _). apply Hr'. apply Hlocked. apply in_or_app. now right. }
  assert (Hndi : NoDup ids) by (now apply NoDup_app_r in Hnd).
  assert (Hdisj : forall p, In p ids -> ~ In p (map e_id inf)).
  { intros p Hp Hin. eapply (NoDup_app_disj _ _ p Hnd); eauto. }
  destruct (q_read_inv now ids q b inf que q' rs evs HQ Hr Hrange Hndi Hdisj)
    as (inf2 & que2 & HQ' & (Hq1 & Hq2 & _ & _) & Hqd & Hc & Hc' & Hids & Hf & Hrs & Hsub & Hevs).
  exists inf2, que2.
  assert (Hused : used = length inf2) by (unfold used; now rewrite Hf).
  rewrite <- Hused in Hids.
  destruct (lim_batch_locked (skipn used ids) (k_lim k) Hlim) as (Hi' & Hl' & Hu' & Hlk').
  assert (Hpre : firstn (q_cur q) inf = inf) by (apply firstn_all2; lia).
  rewrite Hpre in *.
  split; [|repeat split; auto; try (rewrite <- Hsize, <- Hv5; exact Hrs)].
  constructor; slh; rewrite ?held_ids_slh, ?app_nil_r; auto; try congruence.
  - apply (qi_nd _ _ _ _ HQ').
  - intros x. rewrite Hlk', Hlocked, Hc'. rewrite firstn_all2 by lia. rewrite map_app, Hids, !in_app_iff.
    rewrite (firstn_skipn_in ids used x). split.
    + intros [[Hx|[Hx|Hx]] Hn]; [now left|now right|contradiction].
    + intros [Hx|Hx]; (split; [tauto|]); intros Hs.
      * eapply Hdisj; [|exact Hx]. eapply In_skipn; exact Hs.
      * assert (Hnd' : NoDup (firstn used ids ++ skipn used ids)) by (now rewrite firstn_skipn).
        eapply (NoDup_app_disj _ _ x Hnd'); eauto.
  - intros Hw. specialize (Hwin Hw). rewrite Hd in Hwin. lia.
Qed.

Lemma is_retrans_rkey c e e' o : rkey e = rkey e' -> is_retrans c e o -> is_retrans c e' o.
Proof.
  unfold rkey, is_retrans. destruct (e_body e) as [m|p], (e_body e') as [m'|p']; intros Hk; inversion Hk; subst; auto.
Qed.

Lemma rkey_id e e' : rkey e = rkey e' -> e_id e = e_id e'.
Proof. unfold rkey, e_id. destruct (e_body e), (e_body e'); intros H; inversion H; auto. Qed.

Lemma map_rkey_ids l l' : map rkey l' = map rkey l -> map e_id l' = map e_id l.
Proof.
  revert l'. induction l as [|x l IH]; intros [|y l'] H; cbn [map] in *; try discriminate; [reflexivity|].
  inversion H. f_equal; [now apply rkey_id|now apply IH].
Qed.

Lemma firstn_add {A} (l : list A) : forall a b, firstn (a + b) l = firstn a l ++ firstn b (skipn a l).
Proof.
  induction l as [|x r IH]; intros a b.
  - now rewrite skipn_nil, !firstn_nil.
  - destruct a as [|a]; cbn [Nat.add firstn skipn app]; [reflexivity|]. f_equal. apply IH.
Qed.

(* pollInflights: the retransmissions after a reconnect *)
Lemma CQ_replay w k q b inf que c now q' rs :
  CQ w k q b inf que -> k_drained k = false ->
  q_read_inflight now (N.to_nat (k_max_inflight k)) q = (q', rs) ->
  map rkey rs = firstn (length rs) (skipn (q_cur q) (map rkey inf)) /\
  q_cur q' = (q_cur q + length rs)%nat /\
  ((rs = [] /\ (1 <= k_max_inflight k -> q_cur q = length inf) /\
    CQ w (set_lim_held (k_lim k) (k_held k) true k) q' b inf que) \/
   (rs <> [] /\ exists k' o inf',
      fold_left (replay_step c now) rs (k, []) = (k', o) /\ Forall2 (is_retrans c) rs o /\
      map rkey inf' = map rkey inf /\ k_drained k' = false /\ same_static k k' /\
      CQ w k' (q_set (map (dupmark rs) (q_l q')) (q_cur q') (q_drained q') q') b inf' que)).
Proof.
  intros H Hd Hr. pose proof H as [HQ Hlim Hlimit Hmax Hnd Hlocked Hrep Hsize Hv5 Ham Hdone Hwin].
  destruct (q_replay_inv now _ q b inf que q' rs HQ Hr) as (inf1 & HQ' & HQ'' & Hrk1 & Hnil & Hin & Hrk & Hc' & Hall & (Hq1 & Hq2 & _ & _)).
  pose proof (qi_cur _ _ _ _ HQ) as Hcur.
  assert (Hhe : held_ids k = []) by (unfold held_ids; now rewrite (Hrep Hd)).
  split; [exact Hrk|]. split; [exact Hc'|].
  destruct rs as [|r0 rs0] eqn:Ers.
  - left. split; [reflexivity|]. rewrite (Hnil eq_refl) in *. cbn [length] in Hc'. rewrite Nat.add_0_r in Hc'.
    assert (Hall' : 1 <= k_max_inflight k -> q_cur q = length inf) by (intros Hk1; apply Hall; [lia|reflexivity]).
    split; [exact Hall'|].
    constructor; slh; rewrite ?held_ids_slh; fold (held_ids k); auto; try congruence.
    + intros x. rewrite Hc'. apply Hlocked.
    + intros _ Hk1. rewrite Hc'. now apply Hall'.
    + intros Hw. specialize (Hwin Hw). rewrite Hd in Hwin.
      rewrite (CQ_used _ _ _ _ _ _ H), Hhe. cbn [length]. lia.
  - right. split; [discriminate|]. rewrite <- Ers in *. clear Ers r0 rs0 Hnil Hall.
    (* in terms of packet ids *)
    set (ids := map e_id inf) in *.
    assert (Hids1 : map e_id inf1 = ids) by (now apply map_rkey_ids).
    assert (Hids_rs : map e_id rs = firstn (length rs) (skipn (q_cur q) ids)).
    { unfold ids. rewrite skipn_map, firstn_map in Hrk |- *. now apply map_rkey_ids. }
    (* the in-flight ids up to the new cursor: those up to the old one, then those of the batch *)
    assert (Hpre : firstn (q_cur q + length rs) ids = firstn (q_cur q) ids ++ map e_id rs) by (now rewrite firstn_add, Hids_rs).
    assert (Hndp : NoDup (firstn (q_cur q) ids ++ map e_id rs)) by (rewrite <- Hpre; apply NoDup_firstn; now apply NoDup_app_l in Hnd).
    assert (Hok : Forall idok rs).
    { apply Forall_forall. intros x Hx. pose proof (qi_inf _ _ _ _ HQ') as Hi. rewrite Forall_forall in Hi. auto. }
    assert (Hnd_rs : NoDup (map e_id rs)) by (now apply NoDup_app_r in Hndp).
    assert (Hfresh : forall i, In i (map e_id rs) -> ~ In i (l_locked (k_lim k))).
    { intros i Hi Hl. rewrite Hlocked, Hhe, app_nil_r, <- firstn_map in Hl. exact (NoDup_app_disj _ _ i Hndp Hl Hi). }
    destruct (replay_fold_spec c now rs k [] Hlim Hok Hnd_rs Hfresh Ham)
      as (k' & o & Hfold & Hi' & Hl' & Hu' & Hlk' & Hh' & Hd' & Hss' & Ha' & Hret).
    cbn [app] in Hfold.
    exists k', o, (map (dupmark rs) inf1).
    assert (Hrk' : map rkey (map (dupmark rs) inf1) = map rkey inf).
    { rewrite map_map, (map_ext _ rkey) by (intros; apply rkey_dupmark). exact Hrk1. }
    pose proof (map_rkey_ids _ _ Hrk') as Hids'. fold ids in Hids'.
    split; [exact Hfold|]. split; [exact Hret|]. split; [exact Hrk'|]. split; [congruence|]. split; [exact Hss'|].
    destruct Hss' as (_ & Hsv & _ & Hsm & Hsp & Hsa).
    assert (Hhe' : held_ids k' = []) by (unfold held_ids; now rewrite Hh', (Hrep Hd)).
    constructor; cbn [q_l q_cur q_drained q_limit q_v5 q_set]; rewrite ?Hhe', ?app_nil_r; auto; try congruence.
    + rewrite Hids'. now apply NoDup_app_l in Hnd.
    + intros x. rewrite Hlk', Hlocked, Hhe, app_nil_r, Hc', <- !firstn_map, Hids'. fold ids.
      rewrite Hpre, in_app_iff. tauto.
    + intros _. rewrite Hh'. now apply Hrep.
    + intros Hw. specialize (Hwin Hw). rewrite Hd in Hwin. rewrite Hd', Hd, Hl'.
      rewrite <- (map_length e_id), Hids'. unfold ids. rewrite map_length. exact Hwin.
Qed.

(* poll_once written with the named branch functions *)
Lemma poll_once_eq c s :
  poll_once c s =
  match nget c (b_conns s) with
  | None => None
  | Some k =>
      match k_phase k with
      | PhConnected | PhZombie =>
          match aget (k_cid k) (b_queues s) with
          | None => None
          | Some q =>
              if negb (k_drained k) then
                let '(q', rs) := q_read_inflight (b_now s) (N.to_nat (k_max_inflight k)) q in
                let s1 := set_queues (aset (k_cid k) q' (b_queues s)) s in
                match rs with
                | [] => Some (upd_conn c (set_lim_held (k_lim k) (k_held k) true k) s1, [])
                | _ =>
                    let '(k', o) := fold_left (replay_step c (b_now s)) rs (k, []) in
                    Some (upd_conn c k' (set_queues (aset (k_cid k)
                            (q_set (map (dupmark rs) (q_l q')) (q_cur q') (q_drained q') q') (b_queues s1)) s1), o)
                end
              else
                match k_held k with
                | None =>
                    match lim_poll (if k_max_inflight k <? 100 then k_max_inflight k else 100) (k_lim k) with
                    | (l', PIds ids) => Some (upd_conn c (set_lim_held l' (Some ids) true k) s, [])
                    | _ => None
                    end
                | Some ids =>
                    match q_read (b_now s) ids q with
                    | QOk (q', rs, evs) =>
                        let used := length (filter sent12 rs) in
                        let l' := lim_batch_release (skipn used ids) (k_lim k) in
                        let '(k', o) := fold_left (send_step c) (map (age_elem (k_v k =? 5) (b_now s)) rs)
                                                  (set_lim_held l' None true k, []) in
                        Some (upd_conn c k' (set_queues (aset (k_cid k) q' (b_queues s)) s), drops_of (k_cid k) evs ++ o)
                    | _ => None
                    end
                end
          end
      | _ => None
      end
  end.
Proof. reflexivity. Qed.

Definition attached (k : conn) : Prop := k_phase k = PhConnected \/ k_phase k = PhZombie.

(* a turn of the poll loop of socket c, whose connection is k and whose session queue is q: the four branches *)
Inductive poll_turn (c : N) (s : st) (k : conn) (q : queue) : st -> list out -> Prop :=
| PT_replay_done q' :
    k_drained k = false -> q_read_inflight (b_now s) (N.to_nat (k_max_inflight k)) q = (q', []) ->
    poll_turn c s k q (upd_conn c (set_lim_held (k_lim k) (k_held k) true k) (set_queues (aset (k_cid k) q' (b_queues s)) s)) []
| PT_replay_batch q' rs k' o :
    k_drained k = false -> rs <> [] -> q_read_inflight (b_now s) (N.to_nat (k_max_inflight k)) q = (q', rs) ->
    fold_left (replay_step c (b_now s)) rs (k, []) = (k', o) ->
    poll_turn c s k q
      (upd_conn c k' (set_queues (aset (k_cid k) (q_set (map (dupmark rs) (q_l q')) (q_cur q') (q_drained q') q')
                                       (aset (k_cid k) q' (b_queues s))) s)) o
| PT_ids l' ids :
    k_drained k = true -> k_held k = None ->
    lim_poll (if k_max_inflight k <? 100 then k_max_inflight k else 100) (k_lim k) = (l', PIds ids) ->
    poll_turn c s k q (upd_conn c (set_lim_held l' (Some ids) true k) s) []
| PT_send ids q' rs evs k' o :
    k_drained k = true -> k_held k = Some ids -> q_read (b_now s) ids q = QOk (q', rs, evs) ->
    fold_left (send_step c) (map (age_elem (k_v k =? 5) (b_now s)) rs)
              (set_lim_held (lim_batch_release (skipn (length (filter sent12 rs)) ids) (k_lim k)) None true k, []) = (k', o) ->
    poll_turn c s k q (upd_conn c k' (set_queues (aset (k_cid k) q' (b_queues s)) s)) (drops_of (k_cid k) evs ++ o).

Lemma poll_once_turn c s s' o : poll_once c s = Some (s', o) ->
  exists k q, nget c (b_conns s) = Some k /\ attached k /\ aget (k_cid k) (b_queues s) = Some q /\ poll_turn c s k q s' o.
Proof.
  rewrite poll_once_eq. destruct (nget c (b_conns s)) as [k|]; [|discriminate]. intros H. exists k.
  assert (Hat : attached k) by (unfold attached; destruct (k_phase k); try discriminate; auto).
  (* Connected and Zombie run the same code *)
  match type of H with match k_phase k with PhConnected => ?X | _ => _ end = _ =>
    assert (H' : X = Some (s', o)) by (destruct (k_phase k); try discriminate; exact H) end.
  clear H. destruct (aget (k_cid k) (b_queues s)) as [q|]; [|discriminate].
  exists q. split; [reflexivity|]. split; [exact Hat|]. split; [reflexivity|].
  destruct (k_drained k) eqn:Hd; cbn [negb] in H'.
  - destruct (k_held k) as [ids|] eqn:Hh.
    + destruct (q_read (b_now s) ids q) as [[[q' rs] evs]| | |] eqn:Hr; try discriminate. cbv zeta in H'.
      match type of H' with context [fold_left ?f ?l ?a] => destruct (fold_left f l a) as [k' o'] eqn:Hf end.
      injection H' as <- <-. eapply PT_send; eauto.
    + match type of H' with context [lim_poll ?m ?l] => destruct (lim_poll m l) as [l' [| | |ids]] eqn:Hl end; try discriminate.
      injection H' as <- <-. now apply PT_ids.
  - destruct (q_read_inflight (b_now s) (N.to_nat (k_max_inflight k)) q) as [q' rs] eqn:Hr. cbv zeta in H'.
    destruct rs as [|r rs].
    + injection H' as <- <-. now apply PT_replay_done.
    + destruct (fold_left (replay_step c (b_now s)) (r :: rs) (k, [])) as [k' o'] eqn:Hf.
      injection H' as <- <-. exact (PT_replay_batch c s k q q' (r :: rs) k' o' Hd ltac:(discriminate) Hr Hf).
Qed.

(* From one turn to the loop of a connection and to the loops of all connections: what every turn keeps of
   the state (Iv), a preorder in which every turn moves it (R), and what every turn says of its outputs (Q,
   relative to the state before the turn; it must survive a move of that state back along R) - for the turns of
   the sockets in C.  A zombie's loop discards part of its output, which keeps any such Q. *)
Section PollWalk.
  Variables (C : N -> Prop) (Iv : st -> Prop) (R : st -> st -> Prop) (Q : st -> out -> Prop).
  Hypothesis R_refl : forall s, R s s.
  Hypothesis R_trans : forall a b c, R a b -> R b c -> R a c.
  Hypothesis Q_back : forall s s' x, R s s' -> Q s' x -> Q s x.
  Hypothesis once : forall c s s' o, C c -> Iv s -> poll_once c s = Some (s', o) -> Iv s' /\ R s s' /\ Forall (Q s) o.

  Lemma poll_conn_walk c : C c -> forall fuel s, Iv s ->
    Iv (fst (poll_conn fuel c s)) /\ R s (fst (poll_conn fuel c s)) /\ Forall (Q s) (snd (poll_conn fuel c s)).
  Proof.
    intros Hc.
    assert (Hstay : forall s, Iv s -> Iv s /\ R s s /\ Forall (Q s) []) by (intros s Hs; split; [exact Hs|split; [apply R_refl|constructor]]).
    induction fuel as [|f IH]; intros s Hs; cbn [poll_conn]; [now apply Hstay|].
    destruct (poll_once c s) as [[s' o]|] eqn:Hp; [|now apply Hstay].
    destruct (once c s s' o Hc Hs Hp) as (Hs' & H1 & Ho). destruct (IH s' Hs') as (Hs'' & H2 & Ho').
    destruct (poll_conn f c s') as [s'' o']. cbn [fst snd] in *.
    split; [exact Hs''|]. split; [eapply R_trans; eauto|]. apply Forall_app. split.
    - destruct (nget c (b_conns s)) as [k|]; [|exact Ho]. destruct (k_phase k); try exact Ho. now apply Forall_filter.
    - eapply Forall_impl; [|exact Ho']. intros x. now apply Q_back.
  Qed.

  (* the loops of the connections in l, one after the other, as poll_all runs them *)
  Lemma poll_list_walk fuel (l : list (N * conn)) : (forall ck, In ck l -> C (fst ck)) ->
    forall s s0 o0, Iv s0 -> R s s0 -> Forall (Q s) o0 ->
    let r := fold_left (fun acc ck => let '(s0, o0) := acc in
                                      let '(s', o') := poll_conn fuel (fst ck) s0 in (s', o0 ++ o')) l (s0, o0) in
    Iv (fst r) /\ R s (fst r) /\ Forall (Q s) (snd r).
  Proof.
    induction l as [|ck l IH]; intros Hl s s0 o0 H0 H1 Ho; cbn [fold_left]; [now split|].
    destruct (poll_conn_walk (fst ck) (Hl ck (or_introl eq_refl)) fuel s0 H0) as (H0' & H1' & Ho').
    destruct (poll_conn fuel (fst ck) s0) as [s1 o1]. cbn [fst snd] in *.
    apply IH; [intros ck' Hin; apply Hl; now right|exact H0'|eapply R_trans; eauto|].
    apply Forall_app. split; [exact Ho|]. eapply Forall_impl; [|exact Ho']. intros x. now apply Q_back.
  Qed.

  Lemma poll_all_walk s : (forall ck, In ck (b_conns s) -> C (fst ck)) -> Iv s ->
    Iv (fst (poll_all s)) /\ R s (fst (poll_all s)) /\ Forall (Q s) (snd (poll_all s)).
  Proof. intros Hl Hs. apply (poll_list_walk 400 (b_conns s)); auto. Qed.
End PollWalk.

(* the three uses on their own, for all sockets *)
Section PollInvariant.
  Variable Iv : st -> Prop.
  Hypothesis once : forall c s s' o, Iv s -> poll_once c s = Some (s', o) -> Iv s'.

  Let once' c s s' o : True -> Iv s -> poll_once c s = Some (s', o) -> Iv s' /\ True /\ Forall (fun _ => True) o.
  Proof. intros _ H0 Hp. split; [eauto|]. split; [exact I|]. apply Forall_forall. trivial. Qed.

  Lemma poll_conn_inv c fuel s : Iv s -> Iv (fst (poll_conn fuel c s)).
  Proof. intros Hs. apply (poll_conn_walk (fun _ => True) Iv (fun _ _ => True) (fun _ _ => True)); auto. Qed.

  Lemma poll_all_inv s : Iv s -> Iv (fst (poll_all s)).
  Proof. intros Hs. apply (poll_all_walk (fun _ => True) Iv (fun _ _ => True) (fun _ _ => True)); auto. Qed.
End PollInvariant.

Lemma poll_all_inv_rel (Iv : st -> Prop) (R : st -> st -> Prop) :
  (forall s, R s s) -> (forall a b c, R a b -> R b c -> R a c) ->
  (forall c s s' o, Iv s -> poll_once c s = Some (s', o) -> Iv s' /\ R s s') ->
  forall s, Iv s -> Iv (fst (poll_all s)) /\ R s (fst (poll_all s)).
Proof.
  intros Hr Ht H s Hs. destruct (poll_all_walk (fun _ => True) Iv R (fun _ _ => True) Hr Ht) with (s := s) as (H1 & H2 & _); auto.
  intros c s0 s' o _ H0 Hp. destruct (H c s0 s' o H0 Hp). repeat split; auto. apply Forall_forall. trivial.
Qed.

Lemma poll_all_rel (R : st -> st -> Prop) :
  (forall s, R s s) -> (forall a b c, R a b -> R b c -> R a c) ->
  (forall c s s' o, poll_once c s = Some (s', o) -> R s s') -> forall s, R s (fst (poll_all s)).
Proof. intros Hr Ht H s. apply (poll_all_inv_rel (fun _ => True) R); auto. intros c s0 s' o _ Hp. split; [exact I|eauto]. Qed.

Lemma poll_all_out (P : out -> Prop) :
  (forall c s s' o, poll_once c s = Some (s', o) -> Forall P o) -> forall s, Forall P (snd (poll_all s)).
Proof.
  intros H s. apply (poll_all_walk (fun _ => True) (fun _ => True) (fun _ _ => True) (fun _ => P)); auto.
  intros c s0 s' o _ _ Hp. split; [exact I|]. split; [exact I|eauto].
Qed.

(* the invariant of the connection on socket c: it is the registered connection of its client id,
   its limiter and the session queue are related by CQ *)
Definition PollInv (w : bool) (s : st) (c : N) : Prop :=
  exists k q inf que,
    nget c (b_conns s) = Some k /\ aget (k_cid k) (b_queues s) = Some q /\
    aget (k_cid k) (b_online s) = Some c /\
    (forall cid', aget cid' (b_online s) = Some c -> cid' = k_cid k) /\
    b_tag s <> 0 /\ CQ w k q (b_tag s) inf que.

(* the invariant, read at the connection record (and the queue) one already has in hand *)
Lemma PollInv_at w s c k : PollInv w s c -> nget c (b_conns s) = Some k ->
  exists q inf que, aget (k_cid k) (b_queues s) = Some q /\ aget (k_cid k) (b_online s) = Some c /\
    (forall cid', aget cid' (b_online s) = Some c -> cid' = k_cid k) /\ b_tag s <> 0 /\ CQ w k q (b_tag s) inf que.
Proof. intros (k0 & q & inf & que & Hk0 & H) Hk. rewrite Hk in Hk0. injection Hk0 as <-. eauto. Qed.

Lemma PollInv_CQ w s c k q : PollInv w s c -> nget c (b_conns s) = Some k -> aget (k_cid k) (b_queues s) = Some q ->
  exists inf que, CQ w k q (b_tag s) inf que.
Proof.
  intros HP Hk Hq. destruct (PollInv_at w s c k HP Hk) as (q0 & inf & que & Hq0 & _ & _ & _ & HCQ).
  rewrite Hq in Hq0. injection Hq0 as <-. eauto.
Qed.

Definition sent_as (c : N) (k : conn) (now : N) (r : elem) (x : out) : Prop :=
  exists m, e_body r = QPub m /\ is_pub_of c (aged (k_v k =? 5) now r m) x /\
            alias_fits (k_client_max_packet k) (aged (k_v k =? 5) now r m) x /\
            written_by c k (aged (k_v k =? 5) now r m) x.

Lemma read_from_body L v5 que ids r : read_from L v5 que ids r -> exists m, e_body r = QPub m.
Proof. intros (v & m & _ & Hb & _ & _ & _ & [[_ ->]|(_ & p & _ & Hb')]); eauto. Qed.

Lemma Forall2_map_l {A B C} (P : B -> C -> Prop) (f : A -> B) l m : Forall2 (fun x y => P (f x) y) l m -> Forall2 P (map f l) m.
Proof. intros H. induction H; cbn [map]; constructor; auto. Qed.
Lemma Forall2_map_l_inv {A B C} (P : B -> C -> Prop) (f : A -> B) l : forall m, Forall2 P (map f l) m -> Forall2 (fun x y => P (f x) y) l m.
Proof. induction l as [|x l IH]; intros m H; cbn [map] in H; inversion H; subst; constructor; auto. Qed.

(* the four ways a turn of the poll loop can go, with what it writes *)
Inductive poll_case (w : bool) (c : N) (s : st) (k : conn) (q : queue) (inf que : list elem) (s' : st) (o : list out) : Prop :=
| PC_replay_done :
    k_drained k = false -> o = [] ->
    (1 <= k_max_inflight k -> q_cur q = length inf) ->
    (exists k' q', nget c (b_conns s') = Some k' /\ k_drained k' = true /\ same_static k k' /\
                   aget (k_cid k) (b_queues s') = Some q' /\ q_cur q' = q_cur q /\ CQ w k' q' (b_tag s') inf que) ->
    poll_case w c s k q inf que s' o
| PC_replay_batch rs :
    k_drained k = false -> rs <> [] -> Forall2 (is_retrans c) rs o ->
    map rkey rs = firstn (length rs) (skipn (q_cur q) (map rkey inf)) ->
    (exists k' q' inf', nget c (b_conns s') = Some k' /\ k_drained k' = false /\ same_static k k' /\
                        aget (k_cid k) (b_queues s') = Some q' /\ q_cur q' = (q_cur q + length rs)%nat /\
                        map rkey inf' = map rkey inf /\ CQ w k' q' (b_tag s') inf' que) ->
    poll_case w c s k q inf que s' o
| PC_ids ids :
    k_drained k = true -> k_held k = None -> o = [] ->
    NoDup ids -> (forall i, In i ids -> 1 <= i <= MAXPID /\ ~ In i (inflight_ids q)) ->
    (exists k', nget c (b_conns s') = Some k' /\ k_held k' = Some ids /\ k_drained k' = true /\ same_static k k' /\
                CQ w k' q (b_tag s') inf que) ->
    aget (k_cid k) (b_queues s') = Some q ->
    poll_case w c s k q inf que s' o
| PC_send ids rs evs pubs q' :
    k_drained k = true -> k_held k = Some ids -> q_read (b_now s) ids q = QOk (q', rs, evs) ->
    o = drops_of (k_cid k) evs ++ pubs ->
    Forall (read_from (k_client_max_packet k) (k_v k =? 5) que ids) rs ->
    Forall2 (sent_as c k (b_now s)) rs pubs ->
    (exists evs2 dq di, evs = evs2 ++ [EvQueue dq; EvInflight di] /\ Forall (read_drop que) evs2) ->
    q_cur q = length inf ->
    (exists k' inf2 que2, nget c (b_conns s') = Some k' /\ k_held k' = None /\ k_drained k' = true /\ same_static k k' /\
                          aget (k_cid k) (b_queues s') = Some q' /\ q_cur q' = length (inf ++ inf2) /\
                          inf2 = filter sent12 rs /\ map e_id inf2 = firstn (length inf2) ids /\
                          CQ w k' q' (b_tag s') (inf ++ inf2) que2) ->
    poll_case w c s k q inf que s' o.

Lemma age_elem_body v5 now r m : e_body r = QPub m -> e_body (age_elem v5 now r) = QPub (aged v5 now r m).
Proof. intros H. unfold age_elem. now rewrite H. Qed.

Theorem poll_once_cases w c s s' o k q inf que :
  nget c (b_conns s) = Some k -> aget (k_cid k) (b_queues s) = Some q -> CQ w k q (b_tag s) inf que ->
  poll_once c s = Some (s', o) ->
  b_online s' = b_online s /\ b_tag s' = b_tag s /\ b_now s' = b_now s /\
  (forall c2, c2 <> c -> nget c2 (b_conns s') = nget c2 (b_conns s)) /\
  (forall cid2, cid2 <> k_cid k -> aget cid2 (b_queues s') = aget cid2 (b_queues s)) /\
  poll_case w c s k q inf que s' o.
Proof.
  intros Hk Hq H Hp.
  destruct (poll_once_turn c s s' o Hp) as (k0 & q0 & Hk0 & _ & Hq0 & Ht).
  rewrite Hk in Hk0. injection Hk0 as <-. rewrite Hq in Hq0. injection Hq0 as <-.
  destruct Ht as [q' Hd Hr|q' rs k' o' Hd Hne Hr Hfold|l' ids Hd Hh Hpoll|ids q' rs evs k' o' Hd Hh Hr Hfold].
  (* every branch rewrites the connection record of c and at most the queue of its session *)
  all: (split; [reflexivity|]); (split; [reflexivity|]); (split; [reflexivity|]);
       (split; [intros c2 Hc2; proj; now apply nget_nset_other|]);
       (split; [intros cid2 Hc2; proj; now rewrite ?aget_aset_other by exact Hc2|]).
  - (* the replay is over *)
    destruct (CQ_replay w k q (b_tag s) inf que c (b_now s) q' [] H Hd Hr) as (_ & Hc' & [(_ & Hall & HCQ)|(Hne & _)]); [|congruence].
    apply PC_replay_done; auto.
    exists (set_lim_held (k_lim k) (k_held k) true k), q'. proj. rewrite nget_nset_same, aget_aset_same.
    split; [reflexivity|]. split; [reflexivity|]. split; [apply same_static_slh|]. split; [reflexivity|].
    split; [cbn [length] in Hc'; lia|exact HCQ].
  - (* retransmissions *)
    destruct (CQ_replay w k q (b_tag s) inf que c (b_now s) q' rs H Hd Hr)
      as (Hrk & Hc' & [(E & _)|(_ & k1 & o1 & inf' & Hfold1 & Hret & Hrk' & Hd' & Hss' & HCQ)]); [congruence|].
    rewrite Hfold in Hfold1. injection Hfold1 as <- <-.
    apply (PC_replay_batch w c s k q inf que _ _ rs); auto.
    exists k', (q_set (map (dupmark rs) (q_l q')) (q_cur q') (q_drained q') q'), inf'. proj.
    rewrite nget_nset_same, aget_aset_same. auto 10.
  - (* taking ids *)
    destruct (CQ_pollids w k q (b_tag s) inf que _ l' ids H Hd Hh Hpoll) as (HCQ & Hnd & Hfresh).
    apply (PC_ids w c s k q inf que _ _ ids); auto.
    exists (set_lim_held l' (Some ids) true k). rewrite nget_upd_eq.
    split; [reflexivity|]. split; [reflexivity|]. split; [reflexivity|]. split; [apply same_static_slh|exact HCQ].
  - (* first transmissions *)
    destruct (CQ_read w k q (b_tag s) inf que (b_now s) ids q' rs evs H Hd Hh Hr)
      as (inf2 & que2 & HCQ & Hc & Hc' & Hids & Hf & Hrs & Hsub & Hevs).
    set (used := length (filter sent12 rs)) in *.
    set (k1 := set_lim_held (lim_batch_release (skipn used ids) (k_lim k)) None true k) in *.
    assert (Ham1 : am_max (k_alias_out k1) = k_client_alias_max k1) by apply (cq_am _ _ _ _ _ _ HCQ).
    destruct (send_fold_spec c k (map (age_elem (k_v k =? 5) (b_now s)) rs) k1 [] (same_static_slh _ _ _ k) Ham1)
      as (k2 & pubs & Hfold2 & Hcq & Hall).
    rewrite Hfold in Hfold2. injection Hfold2 as -> ->.
    pose proof Hcq as (Hl' & Hh' & Hd' & Hss' & Ha').
    apply (PC_send w c s k q inf que _ _ ids rs evs pubs q'); auto.
    + (* the PUBLISH packets *)
      assert (Hfil : filter is_pub (map (age_elem (k_v k =? 5) (b_now s)) rs) = map (age_elem (k_v k =? 5) (b_now s)) rs).
      { apply filter_all. intros x Hx. apply in_map_iff in Hx. destruct Hx as (r & <- & Hr').
        rewrite Forall_forall in Hrs. destruct (read_from_body _ _ _ _ _ (Hrs r Hr')) as (m & Hm).
        unfold is_pub. now rewrite (age_elem_body _ _ _ _ Hm). }
      rewrite Hfil in Hall. apply Forall2_map_l_inv in Hall.
      eapply Forall2_impl_in; [|exact Hall]. intros r x Hr' Hx. cbn beta in Hx.
      rewrite Forall_forall in Hrs. destruct (read_from_body _ _ _ _ _ (Hrs r Hr')) as (m & Hm).
      rewrite (age_elem_body _ _ _ _ Hm) in Hx. exists m. auto.
    + exists k2, inf2, que2. proj. rewrite nget_nset_same, aget_aset_same.
      split; [reflexivity|]. split; [now rewrite Hh'|]. split; [now rewrite Hd'|].
      split; [eapply same_static_trans; [apply same_static_slh|exact Hss']|].
      split; [reflexivity|]. split; [exact Hc'|]. split; [exact Hf|].
      split; [rewrite Hids; unfold used; now rewrite <- Hf|].
      eapply CQ_ext; [exact Hcq|exact HCQ].
Qed.

Lemma poll_case_next w c s k q inf que s' o : poll_case w c s k q inf que s' o ->
  exists k' q' inf' que', nget c (b_conns s') = Some k' /\ same_static k k' /\
    aget (k_cid k) (b_queues s') = Some q' /\ CQ w k' q' (b_tag s') inf' que'.
Proof.
  intros [Hd Ho Hall (k' & q' & H1 & H2 & H3 & H4 & H5 & H6)
         |rs Hd Hne Hret Hrk (k' & q' & inf' & H1 & H2 & H3 & H4 & H5 & H6 & H7)
         |ids Hd Hh Ho Hnd Hfr (k' & H1 & H2 & H3 & H4 & H5) Hq
         |ids rs evs pubs q' Hd Hh Hr Ho Hrs Hpubs Hevs Hc (k' & inf2 & que2 & H1 & H2 & H3 & H4 & H5 & H6 & H7 & H8 & H9)].
  - exists k', q', inf, que. auto.
  - exists k', q', inf', que. auto.
  - exists k', q, inf, que. auto.
  - exists k', q', (inf ++ inf2), que2. auto.
Qed.

(* the invariant is preserved by every turn of the poll loop, in the replay
   phase (k_drained = false) and afterwards *)
Theorem poll_once_inv w c s s' o : PollInv w s c -> poll_once c s = Some (s', o) -> PollInv w s' c.
Proof.
  intros (k & q & inf & que & Hk & Hq & Hon & Huniq & Htag & HCQ) Hp.
  destruct (poll_once_cases w c s s' o k q inf que Hk Hq HCQ Hp) as (Ho & Ht & _ & _ & _ & Hcase).
  destruct (poll_case_next _ _ _ _ _ _ _ _ _ Hcase) as (k' & q' & inf' & que' & Hk' & (Hcid & _) & Hq' & HCQ').
  exists k', q', inf', que'. rewrite Hcid, Ho, Ht in *. auto 10.
Qed.

(* the other attached connections are not disturbed *)
Theorem poll_once_frame w w2 c c2 s s' o :
  PollInv w s c -> PollInv w2 s c2 -> c2 <> c -> poll_once c s = Some (s', o) -> PollInv w2 s' c2.
Proof.
  intros (k & q & inf & que & Hk & Hq & Hon & Huniq & Htag & HCQ) (k2 & q2 & inf2 & que2 & Hk2 & Hq2 & Hon2 & Huniq2 & _ & HCQ2) Hne Hp.
  destruct (poll_once_cases w c s s' o k q inf que Hk Hq HCQ Hp) as (Ho & Ht & _ & Hconns & Hqueues & _).
  exists k2, q2, inf2, que2. rewrite Ho, Ht, (Hconns c2 Hne).
  assert (Hcid : k_cid k2 <> k_cid k).
  { intros E. rewrite E in Hon2. congruence. }
  rewrite (Hqueues _ Hcid). auto 10.
Qed.

Lemma CQ_mono w k q b b' inf que : b <= b' -> CQ w k q b inf que -> CQ w k q b' inf que.
Proof. intros Hb [H1 H2 H3 H4 H5 H6 H7 H8 H9 H10 H11 H12]. constructor; auto. eapply QInv_mono; eauto. Qed.

Lemma queue_op_some cid f s q : aget cid (b_queues s) = Some q ->
  queue_op cid f s = set_queues (aset cid (f q) (b_queues s)) s.
Proof. intros H. unfold queue_op. now rewrite H. Qed.

(* PUBACK, PUBCOMP, PUBREC with an error code (v5) *)
Theorem ack_remove_inv w c s k pid :
  PollInv w s c -> nget c (b_conns s) = Some k -> ~ In pid (held_ids k) ->
  PollInv w (release_id c pid (queue_op (k_cid k) (fun q => fst (q_remove pid q)) s)) c.
Proof.
  intros HP Hk Hnh. destruct (PollInv_at w s c k HP Hk) as (q & inf & que & Hq & Hon & Huniq & Htag & HCQ).
  rewrite (queue_op_some _ _ _ _ Hq). unfold release_id. proj. rewrite Hk.
  destruct (CQ_remove w k q (b_tag s) inf que pid HCQ Hnh) as (inf' & HCQ' & _).
  exists (set_lim_held (lim_release pid (k_lim k)) (k_held k) (k_drained k) k), (fst (q_remove pid q)), inf', que.
  proj. cbn [k_cid set_lim_held]. rewrite nget_nset_same, aget_aset_same.
  split; [reflexivity|]. split; [reflexivity|]. split; [exact Hon|]. split; [exact Huniq|]. split; [exact Htag|exact HCQ'].
Qed.

(* PUBREC: the entry becomes a PUBREL entry with the same id *)
Theorem ack_replace_inv w c s k pid now :
  PollInv w s c -> nget c (b_conns s) = Some k ->
  PollInv w (queue_op (k_cid k) (fun q => fst (q_replace {| e_tag := 0; e_at := now; e_expiry := None; e_body := QRel pid |} q)) s) c.
Proof.
  intros HP Hk. destruct (PollInv_at w s c k HP Hk) as (q & inf & que & Hq & Hon & Huniq & Htag & HCQ).
  rewrite (queue_op_some _ _ _ _ Hq).
  set (e := {| e_tag := 0; e_at := now; e_expiry := None; e_body := QRel pid |}).
  destruct (CQ_replace w k q (b_tag s) inf que e pid HCQ eq_refl eq_refl) as (inf' & HCQ' & _).
  exists k, (fst (q_replace e q)), inf', que.
  proj. rewrite aget_aset_same.
  split; [exact Hk|]. split; [reflexivity|]. split; [exact Hon|]. split; [exact Huniq|]. split; [exact Htag|exact HCQ'].
Qed.

Definition is_ack (p : pkt) : option N :=
  match p with KPuback pid _ _ | KPubrec pid _ _ | KPubcomp pid _ _ => Some pid | _ => None end.

(* PUBACK / PUBREC / PUBCOMP for an id the poll loop does not hold *)
Theorem handle_ack_inv w c s k p pid s' o :
  PollInv w s c -> nget c (b_conns s) = Some k -> is_ack p = Some pid -> ~ In pid (held_ids k) ->
  handle_packet c k p s = HOk s' o -> PollInv w s' c.
Proof.
  intros HP Hk Hack Hnh Hh. destruct p; cbn [is_ack] in Hack; try discriminate; inversion Hack; subst pid0; cbn [handle_packet] in Hh.
  - inversion Hh; subst. now apply ack_remove_inv.
  - destruct ((k_v k =? 5) && (128 <=? code)); inversion Hh; subst.
    + now apply ack_remove_inv.
    + now apply ack_replace_inv.
  - inversion Hh; subst. now apply ack_remove_inv.
Qed.

(* release_dropped written with set_lim_held and rel_fold *)
Lemma release_dropped_eq cid evs s :
  release_dropped cid evs s =
  match aget cid (b_online s) with
  | None => s
  | Some c => match nget c (b_conns s) with
              | None => s
              | Some k => upd_conn c (set_lim_held (rel_fold evs (k_lim k)) (k_held k) (k_drained k) k) s
              end
  end.
Proof. reflexivity. Qed.

(* ... so it leaves alone whatever upd_conn leaves alone *)
Lemma release_dropped_field {A} (f : st -> A) cid evs s :
  (forall c k s0, f (upd_conn c k s0) = f s0) -> f (release_dropped cid evs s) = f s.
Proof.
  intros H. rewrite release_dropped_eq. destruct (aget cid (b_online s)) as [c|]; [|reflexivity].
  destruct (nget c (b_conns s)); auto.
Qed.

(* ... and rewrites at most the record of the connection of that client *)
Lemma release_dropped_conn cid evs s c :
  nget c (b_conns (release_dropped cid evs s)) = nget c (b_conns s) \/
  exists k, aget cid (b_online s) = Some c /\ nget c (b_conns s) = Some k /\
    nget c (b_conns (release_dropped cid evs s)) = Some (set_lim_held (rel_fold evs (k_lim k)) (k_held k) (k_drained k) k).
Proof.
  rewrite release_dropped_eq. destruct (aget cid (b_online s)) as [c0|]; [|now left].
  destruct (nget c0 (b_conns s)) as [k0|] eqn:Hk0; [|now left].
  destruct (N.eq_dec c c0) as [->|Hne]; [right; exists k0; split; [reflexivity|split; [exact Hk0|apply nget_upd_eq]]|left; now apply nget_upd_ne].
Qed.

Lemma aq_elem_quedok m sb ids t s : m_pid m = 0 -> quedok (DeliverP.aq_elem m sb ids t s).
Proof. intros H. unfold quedok. cbn. auto. Qed.

(* Add on the stored queue of some session, with a new tag *)
Lemma enq_inv w c s cid q e q' evs now :
  PollInv w s c -> aget cid (b_queues s) = Some q -> quedok e -> e_tag e = b_tag s -> q_add now e q = QOk (q', evs) ->
  PollInv w (release_dropped cid evs (DeliverP.enq cid q' s)) c.
Proof.
  intros (k & q0 & inf & que & Hk & Hq0 & Hon & Huniq & Htag & HCQ) Hq He Het Hqa.
  destruct (str_eqb_spec cid (k_cid k)) as [->|Hne].
  - (* the queue of this connection *)
    rewrite release_dropped_eq. unfold DeliverP.enq. proj.
    rewrite Hq0 in Hq. injection Hq as <-. rewrite Hon, Hk.
    destruct (CQ_add w k q0 (b_tag s) inf que now e q' evs HCQ He Het Htag Hqa) as (inf' & que' & HCQ' & _).
    exists (set_lim_held (rel_fold evs (k_lim k)) (k_held k) (k_drained k) k), q', inf', que'.
    proj. cbn [k_cid set_lim_held]. rewrite nget_nset_same, aget_aset_same.
    split; [reflexivity|]. split; [reflexivity|]. split; [exact Hon|]. split; [exact Huniq|]. split; [lia|exact HCQ'].
  - (* another session: only the tag counter moves, and possibly the limiter of that session's connection *)
    exists k, q0, inf, que.
    rewrite (release_dropped_field b_queues), (release_dropped_field b_online), (release_dropped_field b_tag) by reflexivity.
    split.
    { destruct (release_dropped_conn cid evs (DeliverP.enq cid q' s) c) as [->|(k1 & Hon1 & _)]; [exact Hk|].
      elim Hne. apply Huniq. exact Hon1. }
    unfold DeliverP.enq. proj. rewrite aget_aset_other by (intros E; apply Hne; now symmetry).
    split; [exact Hq0|]. split; [exact Hon|]. split; [exact Huniq|]. split; [lia|]. eapply CQ_mono; [|exact HCQ]. lia.
Qed.

(* a message without packet id (every message the
   broker itself builds; see api_pid_breaks_shape for the API) *)
Theorem add_to_queue_inv w c s cid m sb ids s' o :
  PollInv w s c -> m_pid m = 0 -> add_to_queue cid m sb ids s = (s', o) -> PollInv w s' c.
Proof.
  intros HP Hpid. destruct (DeliverP.add_to_queue_cases cid m sb ids s) as [->|(q & q' & evs & Hq & _ & Hqa & ->)]; intros [= <- _]; [exact HP|].
  exact (enq_inv w c s cid q _ q' evs _ HP Hq (aq_elem_quedok _ _ _ _ _ Hpid) eq_refl Hqa).
Qed.

(* deliver is a sequence of add_to_queue calls with picks in between: what these keep of the state and of
   the outputs so far, deliver keeps *)
Lemma deliver_acc_inv (P : st * list out -> Prop) src m :
  (forall cid sb ids s o, P (s, o) -> P (fst (add_to_queue cid m sb ids s), o ++ snd (add_to_queue cid m sb ids s))) ->
  (forall s o, P (s, o) -> P (count_pick s, o)) -> (forall r s o, P (s, o) -> P (set_picks_tag r (b_tag s) s, o)) ->
  forall s, P (s, []) -> P (fst (deliver src m s)).
Proof.
  intros Hadd Hcp Hsp s Hs. rewrite DeliverP.deliver_unfold. cbv zeta. cbn [fst]. rewrite <- surjective_pairing.
  assert (Hpick : forall {A} (l : list A) s0 o0, P (s0, o0) ->
            P (snd (match l with [_] => (0%nat, s0) | _ => take_pick (length l) s0 end), o0)).
  { intros A l s0 o0 H0. destruct l as [|x [|y r]]; try exact H0; unfold take_pick; destruct (b_picks s0); cbn [snd]; auto. }
  assert (H1 : forall l acc, P acc -> P (fold_left (DeliverP.plain_step m) l acc)).
  { intros l. apply fold_left_inv. intros [s0 o0] e H0. unfold DeliverP.plain_step. rewrite DeliverP.let_pair. now apply Hadd. }
  assert (H2 : forall l acc, P acc -> P (fold_left (DeliverP.shared_step m) l acc)).
  { intros l. apply fold_left_inv. intros [s0 o0] g H0. unfold DeliverP.shared_step. cbv beta iota zeta. rewrite DeliverP.let_pair.
    specialize (Hpick _ (snd g) s0 o0 H0).
    destruct (nth_error (snd g) _) as [[c0 sb]|]; [rewrite DeliverP.let_pair; now apply Hadd|exact Hpick]. }
  assert (H3 : forall l acc, P acc -> P (fold_left (DeliverP.once_step m) l acc)).
  { intros l. apply fold_left_inv. intros [s0 o0] g H0. unfold DeliverP.once_step. cbv beta iota zeta. rewrite DeliverP.let_pair.
    specialize (Hpick _ (DeliverP.best_of (snd g)) s0 o0 H0).
    destruct (nth_error (DeliverP.best_of (snd g)) _) as [sb|]; [rewrite DeliverP.let_pair; now apply Hadd|exact Hpick]. }
  destruct (c_onlyonce (b_cfg s)); auto.
Qed.

Lemma deliver_inv (P : st -> Prop) src m :
  (forall cid sb ids s, P s -> P (fst (add_to_queue cid m sb ids s))) ->
  (forall s, P s -> P (count_pick s)) -> (forall r s, P s -> P (set_picks_tag r (b_tag s) s)) ->
  forall s, P s -> P (fst (fst (deliver src m s))).
Proof. intros Hadd Hcp Hsp s Hs. apply (deliver_acc_inv (fun acc => P (fst acc))); cbn [fst]; auto. Qed.

(* delivering a message (deliverMessage) keeps the invariant of every connection *)
Theorem deliver_PollInv w c src m s : PollInv w s c -> m_pid m = 0 -> PollInv w (fst (fst (deliver src m s))) c.
Proof.
  intros HP Hm. apply (deliver_inv (fun s => PollInv w s c)); auto.
  intros cid sb ids s0 H0. destruct (add_to_queue cid m sb ids s0) as [s' o] eqn:E. cbn [fst].
  eapply add_to_queue_inv; eauto.
Qed.

(* a connection whose limiter holds no id is not touched at all by deliveries *)
Lemma slh_same k : set_lim_held (k_lim k) (k_held k) (k_drained k) k = k.
Proof. destruct k; reflexivity. Qed.

Lemma rel_fold_empty evs l : l_locked l = [] -> rel_fold evs l = l.
Proof.
  unfold rel_fold. revert l. induction evs as [|ev evs IH]; intros l Hl; cbn [fold_left]; [reflexivity|].
  destruct ev as [d r| |]; try now apply IH. destruct r; try now apply IH.
  rewrite lim_release_noop by (rewrite Hl; tauto). now apply IH.
Qed.

Lemma add_to_queue_conn_fresh c k cid m sb ids s :
  l_locked (k_lim k) = [] -> nget c (b_conns s) = Some k -> nget c (b_conns (fst (add_to_queue cid m sb ids s))) = Some k.
Proof.
  intros Hl Hk. destruct (DeliverP.add_to_queue_cases cid m sb ids s) as [->|(q & q' & evs & _ & _ & _ & ->)]; [exact Hk|]. cbn [fst].
  destruct (release_dropped_conn cid evs (DeliverP.enq cid q' s) c) as [->|(k0 & _ & Hk0 & ->)]; [exact Hk|].
  change (nget c (b_conns s) = Some k0) in Hk0. rewrite Hk in Hk0. injection Hk0 as <-.
  now rewrite (rel_fold_empty _ _ Hl), slh_same.
Qed.

Lemma deliver_conn_fresh c k src m s :
  l_locked (k_lim k) = [] -> nget c (b_conns s) = Some k -> nget c (b_conns (fst (fst (deliver src m s)))) = Some k.
Proof.
  intros Hl Hk. apply (deliver_inv (fun s => nget c (b_conns s) = Some k)); auto.
  intros cid sb ids s0 H0. now apply add_to_queue_conn_fresh.
Qed.

Lemma send_will_conn_fresh c k cid m s :
  l_locked (k_lim k) = [] -> nget c (b_conns s) = Some k -> nget c (b_conns (fst (send_will cid m s))) = Some k.
Proof.
  intros Hl Hk. unfold send_will. destruct (will_action cid s) as [|code| |t p q]; try exact Hk.
  - pose proof (deliver_conn_fresh c k cid m (retain_update m s) Hl) as H.
    destruct (deliver cid m (retain_update m s)) as [[s' o] b]. cbn [fst] in *. apply H.
    unfold retain_update. destruct (m_retained m); exact Hk.
  - set (m' := with_topic_payload_qos t p q m).
    pose proof (deliver_conn_fresh c k cid m' (retain_update m' s) Hl) as H.
    destruct (deliver cid m' (retain_update m' s)) as [[s' o] b]. cbn [fst] in *. apply H.
    unfold retain_update. destruct (m_retained m'); exact Hk.
Qed.

Definition connect_window (cfg_ : cfg) (cn : connect) : N :=
  if cn_ver cn =? 5 then
    match p_recvmax (cn_props cn) with
    | Some r => if r <? c_max_inflight cfg_ then r else c_max_inflight cfg_
    | None => c_max_inflight cfg_
    end
  else c_max_inflight cfg_.

Definition connect_maxpkt (cn : connect) : N := if cn_ver cn =? 5 then opt_or (p_maxpkt (cn_props cn)) U32MAX else U32MAX.
Definition connect_aliasmax (cn : connect) : N := if cn_ver cn =? 5 then opt_or (p_aliasmax (cn_props cn)) 0 else 0.

(* the connection record a successful CONNECT installs *)
Definition fresh_attached (cfg_ : cfg) (cn : connect) (k : conn) : Prop :=
  k_phase k = PhConnected /\ k_v k = cn_ver cn /\
  k_max_inflight k = connect_window cfg_ cn /\ k_lim k = lim_new (k_max_inflight k) /\
  k_held k = None /\ k_drained k = false /\
  k_client_max_packet k = connect_maxpkt cn /\ k_client_alias_max k = connect_aliasmax cn /\
  k_alias_out k = am_new (k_client_alias_max k).

(* A CONNECT that installs a connected record: the record, and - when no connection of the client id is taken over
   and no will of a discarded session is pending - the state: the registration on top of a state s3 that holds the
   session queue, either the stored one (resumed) or a new one, initialised for this connection *)
Lemma handle_connect_walk c cn s s' o k :
  handle_connect c cn s = (s', o) -> nget c (b_conns s') = Some k -> k_phase k = PhConnected ->
  fresh_attached (b_cfg s) cn k /\
  (aget (k_cid k) (b_online s) = None -> aget (k_cid k) (b_wills s) = None ->
   exists s3 se,
     s' = set_tables (aset (k_cid k) se (b_sessions s3)) (aset (k_cid k) c (b_online s3)) (adel (k_cid k) (b_offline s3))
                     (b_wills s3) (b_queues s3) (b_unacks s3) (upd_conn c k s3) /\
     (forall x, In x (b_online s3) -> In x (b_online s)) /\ b_tag s3 = b_tag s /\
     ((exists q, aget (k_cid k) (b_queues s) = Some q /\
                 aget (k_cid k) (b_queues s3) = Some (q_init false (k_v k =? 5) (k_client_max_packet k) q)) \/
      aget (k_cid k) (b_queues s3) =
        Some (q_init true (k_v k =? 5) (k_client_max_packet k) (q_new (c_max_queued (b_cfg s)) (c_inflight_expiry (b_cfg s) * 1000))))).
Proof.
  intros H Hk Hph. unfold handle_connect in H. cbv zeta in H.
  destruct (negb (c_allow_zero_len (b_cfg s)) && is_empty (cn_cid cn)) eqn:E1.
  { inversion H; subst s' o. rewrite nget_upd_eq in Hk. inversion Hk; subst k. discriminate Hph. }
  destruct (negb ((if (cn_ver cn =? 5) && match p_authmethod (cn_props cn) with Some _ => true | None => false end
                   then 128 else auth_code cn s) =? 0)) eqn:E2.
  { inversion H; subst s' o. rewrite nget_upd_eq in Hk. inversion Hk; subst k. discriminate Hph. }
  set (cid := if is_empty (cn_cid cn) then AUTO_PREFIX ++ dec_str (b_auto s + 1) else cn_cid cn) in H.
  set (s0 := if is_empty (cn_cid cn) then set_auto (b_auto s + 1) s else s) in H.
  destruct (match aget cid (b_online s0) with Some oldc => conn_gone oldc s0 | None => (s0, []) end) as [s1 odup] eqn:E3.
  match type of H with (let (_, _) := ?X in _) = _ => destruct X as [[s2 owill] resume] eqn:E4 end.
  match type of H with (let (_, _) := ?X in _) = _ => destruct X as [wdelay expiry] eqn:E5 end.
  match type of H with (let (_, _) := ?X in _) = _ => destruct X as [sf ow] eqn:E6 end.
  inversion H; subst s' o. clear H.
  match type of E6 with fold_left ?F owill (?sx, []) = _ => set (F6 := F) in E6; set (s4 := sx) in E6 end.
  match goal with s4 := context [upd_conn c ?k0 _] |- _ => set (kinst := k0) in * end.
  (* the wills sent at the end do not touch a connection whose limiter holds no id *)
  assert (Hkf : nget c (b_conns sf) = Some kinst).
  { replace sf with (fst (fold_left F6 owill (s4, []))) by now rewrite E6.
    apply (fold_inv (fun s => nget c (b_conns s) = Some kinst)); [|unfold s4; apply nget_upd_eq].
    intros sa oa cw Ha. unfold F6. pose proof (send_will_conn_fresh c kinst (fst cw) (snd cw) sa eq_refl Ha) as Hs.
    destruct (send_will (fst cw) (snd cw) sa). exact Hs. }
  rewrite Hkf in Hk. injection Hk as <-. clear Hkf.
  split; [unfold fresh_attached, connect_window, connect_maxpkt, connect_aliasmax, kinst; cbn; repeat split; reflexivity|].
  change (k_cid kinst) with cid. change (k_v kinst) with (cn_ver cn). intros Hon Hwl.
  assert (Hs0 : b_online s0 = b_online s /\ b_queues s0 = b_queues s /\ b_wills s0 = b_wills s /\ b_tag s0 = b_tag s).
  { unfold s0. destruct (is_empty (cn_cid cn)); repeat split. }
  destruct Hs0 as (Ho0 & Hq0 & Hw0 & Ht0).
  rewrite Ho0, Hon in E3. injection E3 as <- <-.
  (* the session lookup: no will is pending; a resumed session keeps its queue, re-initialised *)
  assert (HA : owill = [] /\ (forall x, In x (b_online s2) -> In x (b_online s)) /\ b_tag s2 = b_tag s /\
               (resume = true -> exists q, aget cid (b_queues s) = Some q /\
                  aget cid (b_queues s2) = Some (q_init false (cn_ver cn =? 5) (k_client_max_packet kinst) q))).
  { destruct (aget cid (b_sessions s0)) as [seold|].
    - destruct (negb (session_expired cid seold s0) && negb (cn_clean cn)).
      + destruct (aget cid (b_queues s0)) as [qold|] eqn:Eq; [destruct (aget cid (b_unacks s0))|]; injection E4 as <- <- <-;
          rewrite ?Ho0, ?Ht0; repeat split; auto; try discriminate.
        intros _. exists qold. rewrite <- Hq0. split; [exact Eq|]. cbn [set_tables b_queues]. apply aget_aset_same.
      + assert (Hwr : aget cid (b_wills (remove_session cid s0)) = None) by (cbn; now rewrite Hw0).
        rewrite Hwr in E4. injection E4 as <- <- <-. repeat split; try discriminate; [|exact Ht0].
        cbn. intros x Hx. apply in_adel in Hx. now rewrite <- Ho0.
    - injection E4 as <- <- <-. rewrite Ho0, Ht0. repeat split; auto; discriminate. }
  destruct HA as (-> & Hsub & Ht2 & Hres). cbn [fold_left] in E6. injection E6 as <- <-.
  eexists. eexists. split; [reflexivity|]. destruct resume.
  - split; [exact Hsub|]. split; [exact Ht2|]. left. now apply Hres.
  - cbn [set_tables b_online b_tag b_queues]. split; [exact Hsub|]. split; [exact Ht2|]. right. apply aget_aset_same.
Qed.

Theorem handle_connect_conn c cn s s' o k :
  handle_connect c cn s = (s', o) -> nget c (b_conns s') = Some k -> k_phase k = PhConnected ->
  fresh_attached (b_cfg s) cn k.
Proof. intros H Hk Hph. apply (handle_connect_walk c cn s s' o k H Hk Hph). Qed.

Theorem window_at_connect c cn s s' o k :
  handle_connect c cn s = (s', o) -> nget c (b_conns s') = Some k -> k_phase k = PhConnected ->
  k_max_inflight k <= c_max_inflight (b_cfg s) /\
  (cn_ver cn = 5 -> forall r, p_recvmax (cn_props cn) = Some r -> k_max_inflight k <= r) /\
  (k_max_inflight k = N.min (c_max_inflight (b_cfg s))
                            (if cn_ver cn =? 5 then opt_or (p_recvmax (cn_props cn)) (c_max_inflight (b_cfg s))
                             else c_max_inflight (b_cfg s))) /\
  l_limit (k_lim k) = k_max_inflight k /\ l_used (k_lim k) = 0 /\ l_locked (k_lim k) = [] /\
  k_held k = None /\ k_drained k = false.
Proof.
  intros H Hk Hph. destruct (handle_connect_conn c cn s s' o k H Hk Hph) as (_ & Hv & Hw & Hl & Hh & Hd & _).
  rewrite Hl. cbn [l_limit l_used l_locked lim_new]. rewrite Hw. unfold connect_window, opt_or.
  repeat split; auto.
  - destruct (cn_ver cn =? 5); [|lia]. destruct (p_recvmax (cn_props cn)) as [r|]; [|lia].
    destruct (r <? c_max_inflight (b_cfg s)) eqn:E; lia.
  - intros H5 r Hr. rewrite H5, Hr. cbn. destruct (r <? c_max_inflight (b_cfg s)) eqn:E; lia.
  - destruct (cn_ver cn =? 5); [|lia]. destruct (p_recvmax (cn_props cn)) as [r|]; [|lia].
    destruct (r <? c_max_inflight (b_cfg s)) eqn:E; lia.
Qed.

(* the connection a successful CONNECT installs, attached to a well-shaped
   session queue that was just initialised (cursor 0), satisfies the invariant in its replay-phase form;
   the window clause needs the in-flight entries of the session to fit the new window *)
Lemma QInv_init q b inf que v5 limit : QInv q b inf que -> QInv (q_init false v5 limit q) b inf que.
Proof.
  intros [H1 H2 H3 H4 H5 H6 H7 H8]. constructor; cbn [q_init q_l q_cur q_drained]; auto; [lia|discriminate].
Qed.

Lemma QInv_new b max ifexp v5 limit : QInv (q_init true v5 limit (q_new max ifexp)) b [] [].
Proof. constructor; cbn; auto; try constructor; discriminate. Qed.

Lemma QInv_close q b inf que : QInv q b inf que -> QInv (q_close q) b inf que.
Proof. intros [H1 H2 H3 H4 H5 H6 H7 H8]. constructor; auto. Qed.

Theorem CQ_at_connect w cfg_ cn k q b inf que :
  fresh_attached cfg_ cn k -> c_max_inflight cfg_ <= MAXPID ->
  QInv q b inf que -> q_cur q = 0%nat -> q_limit q = k_client_max_packet k -> q_v5 q = (k_v k =? 5) ->
  (w = true -> N.of_nat (length inf) <= k_max_inflight k) ->
  CQ w k q b inf que.
Proof.
  intros (Hph & Hv & Hw & Hl & Hh & Hd & Hmp & Ham & Hao) Hmax HQ Hc Hlim Hv5 Hwin.
  assert (Hmi : k_max_inflight k <= MAXPID).
  { rewrite Hw. unfold connect_window. destruct (cn_ver cn =? 5); [|exact Hmax].
    destruct (p_recvmax (cn_props cn)) as [r|]; [|exact Hmax]. destruct (r <? c_max_inflight cfg_) eqn:E; lia. }
  assert (Hhe : held_ids k = []) by (unfold held_ids; now rewrite Hh).
  constructor; rewrite ?Hl, ?Hhe, ?Hc, ?Hd, ?Hao, ?app_nil_r; cbn [lim_new l_limit l_locked l_used am_new am_max firstn map]; auto.
  - apply lim_inv_init.
  - apply (qi_nd _ _ _ _ HQ).
  - tauto.
  - discriminate.
Qed.

(* the ids of the in-flight entries are pairwise distinct and in 1..65535 *)
Theorem C03_ids_distinct_nonzero w s c k q :
  PollInv w s c -> nget c (b_conns s) = Some k -> aget (k_cid k) (b_queues s) = Some q ->
  NoDup (inflight_ids q) /\ (forall i, In i (inflight_ids q) -> 1 <= i <= MAXPID) /\ ~ In 0 (inflight_ids q) /\
  (forall i, In i (inflight_ids q) -> In i (l_locked (k_lim k))).
Proof.
  intros HP Hk Hq. destruct (PollInv_CQ _ s c k q HP Hk Hq) as (inf & que & HCQ).
  pose proof (cq_q _ _ _ _ _ _ HCQ) as HQ. rewrite (inflight_ids_inf _ _ _ _ HQ).
  assert (Hr : forall i, In i (map e_id (firstn (q_cur q) inf)) -> 1 <= i <= MAXPID).
  { intros i Hi. apply in_map_iff in Hi. destruct Hi as (e & <- & He). apply In_firstn in He.
    pose proof (qi_inf _ _ _ _ HQ) as Hf. rewrite Forall_forall in Hf. now apply Hf. }
  split; [|split; [exact Hr|split]].
  - rewrite <- firstn_map. apply NoDup_firstn. pose proof (cq_nd _ _ _ _ _ _ HCQ) as Hn. now apply NoDup_app_l in Hn.
  - intros H0. apply Hr in H0. lia.
  - intros i Hi. apply (cq_locked _ _ _ _ _ _ HCQ). apply in_or_app. now left.
Qed.

(* the packet ids of the QoS>0 PUBLISH packets written to socket c *)
Definition out_pids (c : N) (o : list out) : list N :=
  flat_map (fun x => match x with
                     | OSend c' (KPublish _ qos _ _ _ pid _) => if (c' =? c) && negb (qos =? 0) then [pid] else []
                     | _ => []
                     end) o.

Lemma out_pids_app c a b : out_pids c (a ++ b) = out_pids c a ++ out_pids c b.
Proof. unfold out_pids. apply flat_map_app. Qed.

Lemma out_pids_drops c cid evs : out_pids c (drops_of cid evs) = [].
Proof.
  unfold drops_of, out_pids. induction evs as [|e evs IH]; cbn [flat_map]; [reflexivity|].
  rewrite flat_map_app, IH, app_nil_r. destruct e as [el r| |]; try reflexivity.
  destruct (e_body el); reflexivity.
Qed.

Lemma sent_as_pids c k now rs pubs : Forall2 (sent_as c k now) rs pubs ->
  out_pids c pubs = map e_id (filter sent12 rs).
Proof.
  intros H. induction H as [|r x rs pubs (m & Hb & (topic & props & -> & _) & _) H IH]; [reflexivity|].
  match goal with |- out_pids c (?a :: pubs) = _ => change (a :: pubs) with ([a] ++ pubs) end.
  rewrite out_pids_app, IH.
  assert (Hs : sent12 r = negb (m_qos m =? 0)) by (unfold sent12; now rewrite Hb).
  cbn [filter]. rewrite Hs.
  destruct (aged_fields (k_v k =? 5) now r m) as (_ & Aq & _ & _ & _ & Ap). unfold out_pids. cbn [flat_map]. rewrite N.eqb_refl, Aq, Ap. cbn [andb].
  destruct (m_qos m =? 0); cbn [negb app map]; [reflexivity|]. f_equal. unfold e_id. now rewrite Hb.
Qed.

(* after the replay, the ids of the QoS>0 PUBLISH packets a turn of the poll loop
   writes are exactly the ids by which the in-flight part of the queue grows; with the first half
   (applied to the new state): they are non-zero, distinct from each other and from all ids in flight *)
Theorem C03_new_ids w s c k q s' o :
  PollInv w s c -> nget c (b_conns s) = Some k -> aget (k_cid k) (b_queues s) = Some q -> k_drained k = true ->
  poll_once c s = Some (s', o) ->
  exists q', aget (k_cid k) (b_queues s') = Some q' /\ inflight_ids q' = inflight_ids q ++ out_pids c o /\
             NoDup (inflight_ids q ++ out_pids c o) /\ (forall i, In i (out_pids c o) -> 1 <= i <= MAXPID).
Proof.
  intros HP Hk Hq Hd Hp. destruct (PollInv_CQ w s c k q HP Hk Hq) as (inf & que & HCQ).
  pose proof (poll_once_inv w c s s' o HP Hp) as HP'.
  destruct (poll_once_cases w c s s' o k q inf que Hk Hq HCQ Hp) as (_ & _ & _ & _ & _ & Hcase).
  assert (Hfin : forall q', aget (k_cid k) (b_queues s') = Some q' -> inflight_ids q' = inflight_ids q ++ out_pids c o ->
            exists q', aget (k_cid k) (b_queues s') = Some q' /\ inflight_ids q' = inflight_ids q ++ out_pids c o /\
             NoDup (inflight_ids q ++ out_pids c o) /\ (forall i, In i (out_pids c o) -> 1 <= i <= MAXPID)).
  { intros q' Hq' Hids. exists q'. split; [exact Hq'|]. split; [exact Hids|].
    destruct (poll_case_next _ _ _ _ _ _ _ _ _ Hcase) as (k' & q'' & _ & _ & Hk' & (Hcid & _) & Hq'' & _).
    rewrite Hq' in Hq''. inversion Hq''; subst q''. rewrite <- Hcid in Hq'.
    destruct (C03_ids_distinct_nonzero w s' c k' q' HP' Hk' Hq') as (Hnd & Hr & _). rewrite Hids in *.
    split; [exact Hnd|]. intros i Hi. apply Hr. apply in_or_app. now right. }
  destruct Hcase as [Hd' _ _ _|rs Hd' _ _ _ _|ids _ Hh Ho _ _ _ Hq'|ids rs evs pubs q' _ Hh Hr Ho Hrs Hpubs Hevs Hc
                       (k' & inf2 & que2 & Hk' & _ & _ & _ & Hq' & Hc' & Hf & Hids & HCQ')]; try congruence.
  - apply (Hfin q Hq'). subst o. cbn. now rewrite app_nil_r.
  - apply (Hfin q' Hq'). subst o. rewrite out_pids_app, out_pids_drops. cbn [app].
    rewrite (sent_as_pids _ _ _ _ _ Hpubs), <- Hf.
    pose proof (cq_q _ _ _ _ _ _ HCQ) as HQ. pose proof (cq_q _ _ _ _ _ _ HCQ') as HQ'.
    rewrite (inflight_ids_inf _ _ _ _ HQ), (inflight_ids_inf _ _ _ _ HQ'), Hc, Hc', !firstn_all, map_app. reflexivity.
Qed.

Lemma filter_len_le {A} (f : A -> bool) l : (length (filter f l) <= length l)%nat.
Proof. induction l as [|x r IH]; cbn [filter length]; [lia|]. destruct (f x); cbn [length]; lia. Qed.

(* the window.  On a connection whose replay fits the window (w = true) the in-flight entries
   (and the ids the poll loop holds) never outnumber min(Receive Maximum, max_inflight) *)
Theorem C03_window s c k q :
  PollInv true s c -> nget c (b_conns s) = Some k -> aget (k_cid k) (b_queues s) = Some q ->
  N.of_nat (length (inflight_ids q)) <= k_max_inflight k /\
  N.of_nat (length (filter is_pub (firstn (q_cur q) (q_l q)))) <= k_max_inflight k /\
  (k_drained k = true -> N.of_nat (length (inflight_ids q) + length (held_ids k)) <= k_max_inflight k) /\
  l_used (k_lim k) <= l_limit (k_lim k).
Proof.
  intros HP Hk Hq. destruct (PollInv_CQ _ s c k q HP Hk Hq) as (inf & que & HCQ).
  pose proof (cq_q _ _ _ _ _ _ HCQ) as HQ. pose proof (qi_cur _ _ _ _ HQ) as Hcur.
  pose proof (CQ_used _ _ _ _ _ _ HCQ) as Hu. pose proof (cq_win _ _ _ _ _ _ HCQ eq_refl) as Hw.
  pose proof (cq_limit _ _ _ _ _ _ HCQ) as Hl.
  assert (Hlen : length (inflight_ids q) = q_cur q).
  { unfold inflight_ids. rewrite map_length, firstn_length, (qi_l _ _ _ _ HQ), app_length. lia. }
  assert (Hfl : (length (filter is_pub (firstn (q_cur q) (q_l q))) <= q_cur q)%nat).
  { etransitivity; [apply filter_len_le|]. rewrite firstn_length. lia. }
  assert (Hused : l_used (k_lim k) <= l_limit (k_lim k)).
  { destruct (k_drained k) eqn:Hd; [exact Hw|].
    rewrite Hu. unfold held_ids. rewrite (cq_replay _ _ _ _ _ _ HCQ Hd). cbn [length]. lia. }
  rewrite Hlen. repeat split; try lia.
Qed.

Lemma In_drops_of cid evs x : In x (drops_of cid evs) -> exists m r, x = ODropped cid m r.
Proof.
  unfold drops_of. intros H. apply in_flat_map in H. destruct H as (e & _ & He).
  destruct e as [el r| |]; try contradiction. destruct (e_body el); [|contradiction].
  destruct He as [<-|[]]. eauto.
Qed.

Lemma Forall2_in_r {A B} (P : A -> B -> Prop) l m y : Forall2 P l m -> In y m -> exists x, In x l /\ P x y.
Proof.
  intros H. induction H as [|a b l m Hab H IH]; intros Hin; [contradiction|].
  destruct Hin as [<-|Hin]; [exists a; split; [now left|exact Hab]|].
  destruct (IH Hin) as (x & Hx & Hp). exists x. split; [now right|exact Hp].
Qed.

Lemma total_bytes_set_pid v5 p m : msg_total_bytes v5 (set_pid p m) = msg_total_bytes v5 m.
Proof. reflexivity. Qed.

Lemma total_bytes_aged v5 v5' now e m : msg_total_bytes v5 (aged v5' now e m) = msg_total_bytes v5 m.
Proof.
  unfold aged. destruct (v5' && negb (m_expiry m =? 0)) eqn:E; [|reflexivity].
  apply andb_true_iff in E. destruct E as [_ E]. apply negb_true_iff in E.
  unfold msg_total_bytes. cbn [with_expiry_val m_payload m_topic m_qos m_pfmt m_ctype m_corr m_subids m_expiry m_resp m_uprops].
  assert (Hr : (remaining (m_expiry m) ((now - e_at e) / 1000) =? 0) = false).
  { unfold remaining. destruct ((now - e_at e) / 1000 <? m_expiry m) eqn:E2; lia. }
  now rewrite Hr, E.
Qed.

(* what a turn of the poll loop writes once the replay is done: drop reports, and PUBLISH packets for
   queued (never sent) messages *)
Definition first_send (c : N) (L : N) (v5 : bool) (que : list elem) (ids : list N) (x : out) : Prop :=
  exists v m0 m', In v que /\ e_body v = QPub m0 /\ msg_total_bytes v5 m0 <= L /\
    is_pub_of c m' x /\ m_dup m' = m_dup m0 /\ msg_total_bytes v5 m' = msg_total_bytes v5 m0 /\
    m_topic m' = m_topic m0 /\ m_payload m' = m_payload m0 /\ m_qos m' = m_qos m0 /\ m_retained m' = m_retained m0 /\
    (m_qos m0 = 0 /\ m_pid m' = m_pid m0 \/ m_qos m0 <> 0 /\ In (m_pid m') ids) /\
    alias_fits L m' x.

Theorem poll_once_send_spec w s c k q inf que s' o :
  nget c (b_conns s) = Some k -> aget (k_cid k) (b_queues s) = Some q -> CQ w k q (b_tag s) inf que ->
  k_drained k = true -> poll_once c s = Some (s', o) ->
  forall x, In x o ->
    (exists m r, x = ODropped (k_cid k) m r) \/
    first_send c (k_client_max_packet k) (k_v k =? 5) que (held_ids k) x.
Proof.
  intros Hk Hq HCQ Hd Hp x Hx.
  destruct (poll_once_cases w c s s' o k q inf que Hk Hq HCQ Hp) as (_ & _ & _ & _ & _ & Hcase).
  destruct Hcase as [Hd' _ _ _|rs Hd' _ _ _ _|ids _ Hh Ho _ _ _ Hq'|ids rs evs pubs q' _ Hh Hr Ho Hrs Hpubs Hevs Hc _]; try congruence.
  - subst o. contradiction.
  - subst o. apply in_app_or in Hx. destruct Hx as [Hx|Hx]; [left; eapply In_drops_of; eauto|right].
    destruct (Forall2_in_r _ _ _ _ Hpubs Hx) as (r & Hr' & m & Hb & Hpub & Hfit & _).
    rewrite Forall_forall in Hrs. destruct (Hrs r Hr') as (v & m0 & Hv & Hbv & Hsz & _ & _ & Hcs).
    destruct (aged_fields (k_v k =? 5) (b_now s) r m) as (A1 & A2 & A3 & A4 & A5 & A6).
    assert (Hhe : held_ids k = ids) by (unfold held_ids; now rewrite Hh).
    exists v, m0, (aged (k_v k =? 5) (b_now s) r m). rewrite total_bytes_aged, A1, A2, A3, A4, A5, A6, Hhe.
    destruct Hcs as [[H0 ->]|(Hn0 & p & Hp' & Hbr)].
    + rewrite Hbv in Hb. inversion Hb; subst m. repeat split; auto.
    + rewrite Hbr in Hb. inversion Hb; subst m. cbn [set_pid m_dup m_topic m_payload m_qos m_retained m_pid].
      rewrite total_bytes_set_pid. repeat split; auto.
Qed.

(* a first transmission carries DUP=0 *)
Theorem C03_first_dup0 w s c k s' o dup qos ret topic payload pid props c' :
  PollInv w s c -> nget c (b_conns s) = Some k -> k_drained k = true -> poll_once c s = Some (s', o) ->
  In (OSend c' (KPublish dup qos ret topic payload pid props)) o -> dup = false.
Proof.
  intros HP Hk Hd Hp Hin. destruct (PollInv_at w s c k HP Hk) as (q & inf & que & Hq & _ & _ & _ & HCQ).
  destruct (poll_once_send_spec w s c k q inf que s' o Hk Hq HCQ Hd Hp _ Hin) as [(m & r & Hx)|Hx]; [discriminate|].
  destruct Hx as (v & m0 & m' & Hv & Hb & _ & (t & ps & Hx & _) & Hdup & _).
  inversion Hx; subst. rewrite Hdup.
  pose proof (qi_que _ _ _ _ (cq_q _ _ _ _ _ _ HCQ)) as Hque. rewrite Forall_forall in Hque.
  specialize (Hque v Hv). unfold quedok in Hque. rewrite Hb in Hque. tauto.
Qed.

(* every PUBLISH written for a queued message is within the client's Maximum Packet Size, measured
   (as the broker does) on the message as it sits in the queue: without the Topic Alias property *)
Theorem C13_out_size w s c k s' o x :
  PollInv w s c -> nget c (b_conns s) = Some k -> k_drained k = true -> poll_once c s = Some (s', o) ->
  In x o -> (forall cid m r, x <> ODropped cid m r) ->
  exists m, is_pub_of c m x /\ msg_total_bytes (k_v k =? 5) m <= k_client_max_packet k.
Proof.
  intros HP Hk Hd Hp Hin Hnd. destruct (PollInv_at w s c k HP Hk) as (q & inf & que & Hq & _ & _ & _ & HCQ).
  destruct (poll_once_send_spec w s c k q inf que s' o Hk Hq HCQ Hd Hp _ Hin) as [(m & r & Hx)|Hx]; [exfalso; eapply Hnd; eauto|].
  destruct Hx as (v & m0 & m' & Hv & Hb & Hsz & Hpub & _ & Hsz' & _).
  exists m'. split; [exact Hpub|]. now rewrite Hsz'.
Qed.

(* ... and the Topic Alias property is added only when it cannot push the packet over that maximum: a packet
   written for a queued message either carries no alias and the message measures at most the maximum, or it
   carries one and the message as a v5 packet plus the margin of the property (5 bytes: 3 for the property, one
   for a longer Property Length, one for a longer Remaining Length) measures at most the maximum *)
Theorem C13_out_size_with_alias w s c k s' o x :
  PollInv w s c -> nget c (b_conns s) = Some k -> k_drained k = true -> poll_once c s = Some (s', o) ->
  In x o -> (forall cid m r, x <> ODropped cid m r) ->
  exists m, is_pub_of c m x /\
    (out_alias x = None /\ msg_total_bytes (k_v k =? 5) m <= k_client_max_packet k \/
     (exists a, out_alias x = Some a) /\ msg_total_bytes true m + 5 <= k_client_max_packet k).
Proof.
  intros HP Hk Hd Hp Hin Hnd. destruct (PollInv_at w s c k HP Hk) as (q & inf & que & Hq & _ & _ & _ & HCQ).
  destruct (poll_once_send_spec w s c k q inf que s' o Hk Hq HCQ Hd Hp _ Hin) as [(m & r & Hx)|Hx]; [exfalso; eapply Hnd; eauto|].
  destruct Hx as (v & m0 & m' & Hv & Hb & Hsz & Hpub & _ & Hsz' & _ & _ & _ & _ & _ & Hfit).
  exists m'. split; [exact Hpub|]. destruct Hfit as [Hn|Hs]; [left|right; exact Hs].
  split; [exact Hn|]. now rewrite Hsz'.
Qed.

(* the in-flight part of a queue: the leading entries that carry a packet id *)
Fixpoint q_inf_of (l : list elem) : list elem :=
  match l with [] => [] | e :: r => if e_id e =? 0 then [] else e :: q_inf_of r end.
Fixpoint q_que_of (l : list elem) : list elem :=
  match l with [] => [] | e :: r => if e_id e =? 0 then l else q_que_of r end.
Definition q_inf (q : queue) : list elem := q_inf_of (q_l q).

Lemma q_inf_of_app inf que : Forall idok inf -> Forall quedok que -> q_inf_of (inf ++ que) = inf /\ q_que_of (inf ++ que) = que.
Proof.
  intros Hi Hq. induction Hi as [|e inf He Hi IH]; cbn [app q_inf_of q_que_of].
  - destruct Hq as [|e que He Hq]; [auto|]. cbn [q_inf_of q_que_of]. rewrite (quedok_id _ He). cbn. auto.
  - apply idok_nz in He. apply N.eqb_neq in He. rewrite He. destruct IH as [-> ->]. auto.
Qed.

Lemma q_inf_eq q b inf que : QInv q b inf que -> q_inf q = inf.
Proof. intros H. unfold q_inf. rewrite (qi_l _ _ _ _ H). apply q_inf_of_app; [apply (qi_inf _ _ _ _ H)|apply (qi_que _ _ _ _ H)]. Qed.

(* (a) the poll loop never removes an in-flight entry; it re-sends them and appends new ones *)
Theorem C03_until_acked_poll w s c k q s' o :
  PollInv w s c -> nget c (b_conns s) = Some k -> aget (k_cid k) (b_queues s) = Some q ->
  poll_once c s = Some (s', o) ->
  exists q' l, aget (k_cid k) (b_queues s') = Some q' /\ map rkey (q_inf q') = map rkey (q_inf q) ++ l.
Proof.
  intros HP Hk Hq Hp. destruct (PollInv_CQ w s c k q HP Hk Hq) as (inf & que & HCQ).
  destruct (poll_once_cases w c s s' o k q inf que Hk Hq HCQ Hp) as (_ & _ & _ & _ & _ & Hcase).
  rewrite (q_inf_eq _ _ _ _ (cq_q _ _ _ _ _ _ HCQ)).
  destruct Hcase as [_ _ _ (k' & q' & _ & _ & _ & Hq' & _ & HCQ')
                    |rs _ _ _ _ (k' & q' & inf' & _ & _ & _ & Hq' & _ & Hrk & HCQ')
                    |ids _ _ _ _ _ _ Hq'
                    |ids rs evs pubs q' _ _ _ _ _ _ _ _ (k' & inf2 & que2 & _ & _ & _ & _ & Hq' & _ & _ & _ & HCQ')].
  - exists q', []. rewrite (q_inf_eq _ _ _ _ (cq_q _ _ _ _ _ _ HCQ')), app_nil_r. auto.
  - exists q', []. rewrite (q_inf_eq _ _ _ _ (cq_q _ _ _ _ _ _ HCQ')), app_nil_r. auto.
  - exists q, []. rewrite (q_inf_eq _ _ _ _ (cq_q _ _ _ _ _ _ HCQ)), app_nil_r. auto.
  - exists q', (map rkey inf2). rewrite (q_inf_eq _ _ _ _ (cq_q _ _ _ _ _ _ HCQ')), map_app. auto.
Qed.

Lemma ack_state_queue c pid cid f s q : aget cid (b_queues s) = Some q ->
  aget cid (b_queues (release_id c pid (queue_op cid f s))) = Some (f q).
Proof.
  intros Hq. rewrite (queue_op_some _ _ _ _ Hq). unfold release_id. proj.
  destruct (nget c (b_conns s)); proj; apply aget_aset_same.
Qed.

(* (b) PUBACK / PUBCOMP / PUBREC(error, v5) with packet id pid remove exactly the entry with that id among those
   already (re)sent on this connection, or nothing; PUBREC turns it into a PUBREL entry with the same id *)
Theorem C03_until_acked_ack w s c k q p pid s' o :
  PollInv w s c -> nget c (b_conns s) = Some k -> aget (k_cid k) (b_queues s) = Some q ->
  is_ack p = Some pid -> handle_packet c k p s = HOk s' o ->
  exists q', aget (k_cid k) (b_queues s') = Some q' /\
    (q_inf q' = q_inf q \/
     exists i d, (i < q_cur q)%nat /\ nth_error (q_inf q) i = Some d /\ e_id d = pid /\
       ((q_inf q' = remove_nth i (q_inf q) /\
         match p with KPubrec _ code _ => (k_v k =? 5) && (128 <=? code) = true | _ => True end) \/
        (exists e, q_inf q' = replace_nth i e (q_inf q) /\ e_body e = QRel pid /\
         match p with KPubrec _ code _ => (k_v k =? 5) && (128 <=? code) = false | _ => False end))).
Proof.
  intros HP Hk Hq Hack Hh. destruct (PollInv_CQ w s c k q HP Hk Hq) as (inf & que & HCQ).
  pose proof (cq_q _ _ _ _ _ _ HCQ) as HQ. rewrite (q_inf_eq _ _ _ _ HQ).
  assert (Hrem : forall s1, s1 = release_id c pid (queue_op (k_cid k) (fun q => fst (q_remove pid q)) s) ->
            exists q', aget (k_cid k) (b_queues s1) = Some q' /\
              (q_inf q' = inf \/ exists i d, (i < q_cur q)%nat /\ nth_error inf i = Some d /\ e_id d = pid /\ q_inf q' = remove_nth i inf)).
  { intros s1 ->. exists (fst (q_remove pid q)). split; [exact (ack_state_queue c pid (k_cid k) (fun q => fst (q_remove pid q)) s q Hq)|].
    destruct (q_remove_inv pid q (b_tag s) inf que HQ) as (_ & _ & [(i & d & Hi & Hn & Hd & HQ' & _)|(Hq' & _)]).
    - right. exists i, d. rewrite (q_inf_eq _ _ _ _ HQ'). auto.
    - left. rewrite Hq'. apply (q_inf_eq _ _ _ _ HQ). }
  destruct p; cbn [is_ack] in Hack; try discriminate; inversion Hack; subst pid0; cbn [handle_packet] in Hh.
  - inversion Hh; subst s' o. destruct (Hrem _ eq_refl) as (q' & Hq' & [H|(i & d & H1 & H2 & H3 & H4)]); exists q'; (split; [exact Hq'|]); [now left|].
    right. exists i, d. auto 10.
  - destruct ((k_v k =? 5) && (128 <=? code)) eqn:Ec; inversion Hh; subst s' o.
    + destruct (Hrem _ eq_refl) as (q' & Hq' & [H|(i & d & H1 & H2 & H3 & H4)]); exists q'; (split; [exact Hq'|]); [now left|].
      right. exists i, d. auto 10.
    + set (e := {| e_tag := 0; e_at := b_now s; e_expiry := None; e_body := QRel pid |}).
      exists (fst (q_replace e q)). rewrite (queue_op_some _ _ _ _ Hq). proj. rewrite aget_aset_same. split; [reflexivity|].
      destruct (q_replace_inv e pid q (b_tag s) inf que HQ eq_refl eq_refl) as (_ & _ & _ & [(i & d & Hi & Hn & Hd & HQ' & _)|(Hq' & _)]).
      * right. exists i, d. rewrite (q_inf_eq _ _ _ _ HQ'). split; [exact Hi|]. split; [exact Hn|]. split; [exact Hd|].
        right. exists e. auto.
      * left. rewrite Hq'. apply (q_inf_eq _ _ _ _ HQ).
  - inversion Hh; subst s' o. destruct (Hrem _ eq_refl) as (q' & Hq' & [H|(i & d & H1 & H2 & H3 & H4)]); exists q'; (split; [exact Hq'|]); [now left|].
    right. exists i, d. auto 10.
Qed.

(* Add drops an in-flight entry only when it has expired (inflight_expiry) *)
Lemma q_add_inflight_drop_expired now e q q' d evs0 evs1 :
  q_add now e q = QOk (q', evs0 ++ EvDropped d DExpiredInflight :: evs1) -> expired now d = true.
Proof.
  assert (Hone : forall ev l, [ev] = l ++ EvDropped d DExpiredInflight :: evs1 -> ev = EvDropped d DExpiredInflight).
  { intros ev l He. destruct l as [|y [|? ?]]; inversion He; auto. }
  unfold q_add. destruct (q_max q <=? length (q_l q))%nat.
  - destruct (add_victim now e q) as [|r|i r] eqn:Ev; [discriminate| |].
    + apply add_victim_new in Ev. subst r. intros [= _ He]. apply Hone in He. discriminate.
    + destruct (nth_error (q_l q) i) as [d0|] eqn:En; [|discriminate]. intros [= _ He].
      destruct (add_victim_old _ _ _ _ _ Ev) as [(-> & d1 & Hn & _ & Hx)|(Hr & _)].
      * rewrite En in Hn. injection Hn as <-. cbn [app] in He.
        destruct evs0 as [|y evs0]; [discriminate|]. injection He as _ He. apply Hone in He. now injection He as <-.
      * exfalso. apply Hr. destruct r; try reflexivity; cbn [app] in He; apply Hone in He; now injection He.
  - intros [= _ He]. apply Hone in He. discriminate.
Qed.

(* (c) a delivery removes an in-flight entry only when it has expired, and reports the drop *)
Theorem C03_until_acked_add w s c k q cid m sb ids s' o :
  PollInv w s c -> nget c (b_conns s) = Some k -> aget (k_cid k) (b_queues s) = Some q -> m_pid m = 0 ->
  add_to_queue cid m sb ids s = (s', o) ->
  exists q', aget (k_cid k) (b_queues s') = Some q' /\
    (q_inf q' = q_inf q \/
     exists i d, nth_error (q_inf q) i = Some d /\ q_inf q' = remove_nth i (q_inf q) /\ expired (b_now s) d = true /\
                 o = match e_body d with QPub m0 => [ODropped (k_cid k) m0 DExpiredInflight] | QRel _ => [] end).
Proof.
  intros HP Hk Hq Hpid Hadd. destruct (PollInv_at w s c k HP Hk) as (q0 & inf & que & Hq0 & Hon & Huniq & Htag & HCQ).
  rewrite Hq in Hq0. injection Hq0 as <-.
  pose proof (cq_q _ _ _ _ _ _ HCQ) as HQ. rewrite (q_inf_eq _ _ _ _ HQ).
  destruct (DeliverP.add_to_queue_cases cid m sb ids s) as [E|(q0 & q' & evs & Hq0 & _ & Hqa & E)]; rewrite E in Hadd; injection Hadd as <- <-.
  { exists q. split; [exact Hq|left; apply (q_inf_eq _ _ _ _ HQ)]. }
  rewrite (release_dropped_field b_queues) by reflexivity. unfold DeliverP.enq. proj.
  destruct (str_eqb_spec cid (k_cid k)) as [->|Hne].
  - rewrite Hq in Hq0. injection Hq0 as <-. exists q'. rewrite aget_aset_same. split; [reflexivity|].
    destruct (q_add_inv _ _ q (b_tag s) inf que q' evs HQ (aq_elem_quedok _ _ _ _ _ Hpid) eq_refl Htag Hqa)
      as (_ & _ & [(que' & HQ' & _ & _)|(i & d & que' & Hn & HQ' & _ & Hev)]).
    + left. apply (q_inf_eq _ _ _ _ HQ').
    + right. exists i, d. rewrite (q_inf_eq _ _ _ _ HQ'). split; [exact Hn|]. split; [reflexivity|].
      subst evs. split; [apply (q_add_inflight_drop_expired _ _ q q' d [EvInflight (-1)] [] Hqa)|].
      unfold drops_of. cbn [flat_map app]. destruct (e_body d); reflexivity.
  - exists q. rewrite aget_aset_other by (intros E'; apply Hne; now symmetry). split; [exact Hq|left; apply (q_inf_eq _ _ _ _ HQ)].
Qed.

Definition retrans_of_key (c : N) (key : (N * bool * str * str * N) + N) (o : out) : Prop :=
  match key with
  | inl (qos, ret, topic, payload, pid) =>
      exists t ps, o = OSend c (KPublish true qos ret t payload pid ps) /\ (t = topic \/ t = [])
  | inr p => o = OSend c (KPubrel p 0 [])
  end.

Lemma is_retrans_key c e o : is_retrans c e o <-> retrans_of_key c (rkey e) o.
Proof. unfold is_retrans, retrans_of_key, rkey. destruct (e_body e); reflexivity. Qed.

Lemma Forall2_retrans_keys c l o : Forall2 (is_retrans c) l o <-> Forall2 (retrans_of_key c) (map rkey l) o.
Proof.
  split.
  - intros H. induction H; cbn [map]; constructor; auto. now apply is_retrans_key.
  - revert o. induction l as [|e l IH]; intros o H; cbn [map] in H; inversion H; subst; constructor; auto.
    now apply is_retrans_key.
Qed.

Lemma poll_conn_S_connected f c s k : nget c (b_conns s) = Some k -> k_phase k = PhConnected ->
  poll_conn (S f) c s = match poll_once c s with
                        | Some (s', o) => let '(s'', o') := poll_conn f c s' in (s'', o ++ o')
                        | None => (s, [])
                        end.
Proof. intros Hk Hph. cbn [poll_conn]. rewrite Hk, Hph. reflexivity. Qed.

Definition all_dup0 (o : list out) : Prop :=
  forall c' dup qos ret t pl pid ps, In (OSend c' (KPublish dup qos ret t pl pid ps)) o -> dup = false.

(* once the replay is over, everything the poll loop writes is a first transmission *)
Lemma poll_conn_dup0 w c : forall fuel s k,
  PollInv w s c -> nget c (b_conns s) = Some k -> k_phase k = PhConnected -> k_drained k = true ->
  all_dup0 (snd (poll_conn fuel c s)).
Proof.
  induction fuel as [|f IH]; intros s k HP Hk Hph Hd; [intros ? ? ? ? ? ? ? ? []|].
  rewrite (poll_conn_S_connected f c s k Hk Hph).
  destruct (poll_once c s) as [[s' o]|] eqn:Hp; [|intros ? ? ? ? ? ? ? ? []].
  destruct (PollInv_at w s c k HP Hk) as (q & inf & que & Hq & _ & _ & _ & HCQ).
  pose proof (poll_once_inv w c s s' o HP Hp) as HP'.
  destruct (poll_once_cases w c s s' o k q inf que Hk Hq HCQ Hp) as (_ & _ & _ & _ & _ & Hcase).
  assert (Hnext : exists k', nget c (b_conns s') = Some k' /\ k_phase k' = PhConnected /\ k_drained k' = true).
  { destruct Hcase as [Hd' _ _ _|rs Hd' _ _ _ _|ids _ _ _ _ _ (k' & Hk' & _ & Hd' & (_ & _ & Hph' & _) & _) _
                      |ids rs evs pubs q' _ _ _ _ _ _ _ _ (k' & inf2 & que2 & Hk' & _ & Hd' & (_ & _ & Hph' & _) & _)]; try congruence.
    - exists k'. rewrite Hph'. auto.
    - exists k'. rewrite Hph'. auto. }
  destruct Hnext as (k' & Hk' & Hph' & Hd').
  specialize (IH s' k' HP' Hk' Hph' Hd').
  destruct (poll_conn f c s') as [s'' o'] eqn:Hpc. cbn [snd] in *.
  intros c' dup qos ret t pl pid ps Hin. apply in_app_or in Hin. destruct Hin as [Hin|Hin].
  - eapply (C03_first_dup0 w s c k s' o); eauto.
  - eapply IH; eauto.
Qed.

Lemma poll_once_replay_some c s k q : nget c (b_conns s) = Some k -> k_phase k = PhConnected ->
  aget (k_cid k) (b_queues s) = Some q -> k_drained k = false -> exists s' o, poll_once c s = Some (s', o).
Proof.
  intros Hk Hph Hq Hd. rewrite poll_once_eq, Hk, Hph, Hq, Hd. cbn [negb].
  destruct (q_read_inflight (b_now s) (N.to_nat (k_max_inflight k)) q) as [q' rs].
  destruct rs as [|r rs]; [eauto|]. cbn zeta.
  destruct (fold_left (replay_step c (b_now s)) (r :: rs) (k, [])) as [k' o]. eauto.
Qed.

Lemma replay_run w c : forall fuel s k q inf que,
  nget c (b_conns s) = Some k -> aget (k_cid k) (b_queues s) = Some q -> CQ w k q (b_tag s) inf que ->
  PollInv w s c -> k_phase k = PhConnected -> k_drained k = false -> 1 <= k_max_inflight k ->
  (length inf - q_cur q < fuel)%nat ->
  exists o1 o2, snd (poll_conn fuel c s) = o1 ++ o2 /\
    Forall2 (retrans_of_key c) (skipn (q_cur q) (map rkey inf)) o1 /\ all_dup0 o2.
Proof.
  induction fuel as [|f IH]; intros s k q inf que Hk Hq HCQ HP Hph Hd Hm Hfuel; [lia|].
  rewrite (poll_conn_S_connected f c s k Hk Hph).
  destruct (poll_once_replay_some c s k q Hk Hph Hq Hd) as (s' & o & Hp). rewrite Hp.
  pose proof (poll_once_inv w c s s' o HP Hp) as HP'.
  destruct (poll_once_cases w c s s' o k q inf que Hk Hq HCQ Hp) as (_ & _ & _ & _ & _ & Hcase).
  destruct Hcase as [_ Ho Hall (k' & q' & Hk' & Hd' & (_ & _ & Hph' & _) & Hq' & Hc' & HCQ')
                    |rs _ Hne Hret Hrk (k' & q' & inf' & Hk' & Hd' & (Hcid & _ & Hph' & Hmi' & _) & Hq' & Hc' & Hrk' & HCQ')
                    |ids Hd' _ _ _ _ _ _|ids rs evs pubs q' Hd' _ _ _ _ _ _ _ _]; try congruence.
  - (* the replay is over *)
    subst o. rewrite Hph in Hph'.
    pose proof (poll_conn_dup0 w c f s' k' HP' Hk' Hph' Hd') as Hdup.
    destruct (poll_conn f c s') as [s'' o'']. cbn [snd app] in *.
    exists [], o''. split; [reflexivity|]. split; [|exact Hdup].
    rewrite skipn_all2 by (rewrite map_length, (Hall Hm); lia). constructor.
  - (* one batch of retransmissions *)
    rewrite Hph in Hph'. rewrite <- Hcid in Hq'.
    assert (Hlen : length inf' = length inf) by (rewrite <- (map_length rkey inf'), Hrk'; apply map_length).
    assert (Hrs1 : (1 <= length rs)%nat) by (destruct rs; [congruence|cbn; lia]).
    assert (Hrs2 : (length rs <= length inf - q_cur q)%nat).
    { apply (f_equal (@length _)) in Hrk. rewrite map_length, firstn_length, skipn_length, map_length in Hrk. lia. }
    assert (Hfuel' : (length inf' - q_cur q' < f)%nat) by lia.
    rewrite <- Hmi' in Hm.
    destruct (IH s' k' q' inf' que Hk' Hq' HCQ' HP' Hph' Hd' Hm Hfuel') as (o1 & o2 & Ho & Hf1 & Hf2).
    destruct (poll_conn f c s') as [s'' o'']. cbn [snd] in *. subst o''.
    exists (o ++ o1), o2. split; [now rewrite app_assoc|]. split; [|exact Hf2].
    rewrite <- (firstn_skipn (length rs) (skipn (q_cur q) (map rkey inf))).
    apply Forall2_app.
    + rewrite <- Hrk. now apply Forall2_retrans_keys.
    + rewrite <- skipn_add. rewrite Hrk', Hc' in Hf1. exact Hf1.
Qed.

(* on the connection that resumes a session, the poll loop first retransmits every in-flight
   entry not yet replayed, in queue order: a PUBLISH with DUP=1 and the entry's id, QoS, RETAIN, payload and
   topic (or its alias), or a PUBREL for an entry whose PUBREC had arrived; everything written afterwards
   carries DUP=0 *)
Theorem C03_replay_first w s c k q fuel :
  PollInv w s c -> nget c (b_conns s) = Some k -> aget (k_cid k) (b_queues s) = Some q ->
  k_phase k = PhConnected -> k_drained k = false -> 1 <= k_max_inflight k ->
  (length (q_inf q) - q_cur q < fuel)%nat ->
  exists o1 o2, snd (poll_conn fuel c s) = o1 ++ o2 /\
    Forall2 (is_retrans c) (skipn (q_cur q) (q_inf q)) o1 /\ all_dup0 o2.
Proof.
  intros HP Hk Hq Hph Hd Hm Hfuel. destruct (PollInv_CQ w s c k q HP Hk Hq) as (inf & que & HCQ).
  rewrite (q_inf_eq _ _ _ _ (cq_q _ _ _ _ _ _ HCQ)) in *.
  destruct (replay_run w c fuel s k q inf que Hk Hq HCQ HP Hph Hd Hm Hfuel) as (o1 & o2 & Ho & H1 & H2).
  exists o1, o2. split; [exact Ho|]. split; [|exact H2].
  apply Forall2_retrans_keys. now rewrite <- skipn_map.
Qed.

Fixpoint wp_run (c : N) (k : conn) (ms : list msg) : conn * list out :=
  match ms with
  | [] => (k, [])
  | m :: r => let '(k1, o1) := write_publish c k m in
              let '(k2, o2) := wp_run c k1 r in (k2, o1 ++ o2)
  end.

(* the client: a Topic Alias must be in 1..M; with an empty topic it is looked up, otherwise it is (re)bound *)
Definition client_alias_step (M : N) (tb : atable) (o : out) : option (atable * str) :=
  match o with
  | OSend _ (KPublish _ _ _ topic _ _ props) =>
      match p_alias props with
      | None => match topic with [] => None | _ => Some (tb, topic) end
      | Some a =>
          if (1 <=? a) && (a <=? M) then
            match topic with
            | [] => match at_get a tb with Some t => Some (tb, t) | None => None end
            | _ => Some (at_set a topic tb, topic)
            end
          else None
      end
  | _ => None
  end.

Fixpoint client_resolve (M : N) (tb : atable) (os : list out) : option (list str) :=
  match os with
  | [] => Some []
  | o :: r => match client_alias_step M tb o with
              | Some (tb', t) => match client_resolve M tb' r with Some ts => Some (t :: ts) | None => None end
              | None => None
              end
  end.

(* the packet of message m carries a Topic Alias exactly when it fits the client's Maximum Packet Size with
   the margin of the property; otherwise it is sent plain, with its topic *)
Definition alias_used (k : conn) (m : msg) (o : out) : Prop :=
  if msg_total_bytes true m + 5 <=? k_client_max_packet k
  then exists a, out_alias o = Some a /\ 1 <= a <= k_client_alias_max k
  else out_alias o = None.

Lemma wp_alias_step c k m tb :
  k_v k = 5 -> 1 <= k_client_alias_max k <= MAXPID -> am_max (k_alias_out k) = k_client_alias_max k ->
  AliasInv (k_alias_out k) -> AliasSim (k_alias_out k) tb -> m_topic m <> [] ->
  exists o tb', snd (write_publish c k m) = [o] /\ alias_used k m o /\
    client_alias_step (k_client_alias_max k) tb o = Some (tb', m_topic m) /\
    AliasInv (k_alias_out (fst (write_publish c k m))) /\ AliasSim (k_alias_out (fst (write_publish c k m))) tb'.
Proof.
  intros Hv HM Ham Hinv Hsim Ht. unfold write_publish, alias_used.
  assert (Hc : (k_v k =? 5) && (0 <? k_client_alias_max k) = true) by (rewrite Hv; cbn; lia).
  rewrite Hc. cbn [andb].
  destruct (msg_total_bytes true m + 5 <=? k_client_max_packet k).
  2:{ (* no room for the property: the packet is sent plain; the client's table is not touched *)
      eexists. exists tb. cbn [fst snd]. split; [reflexivity|]. cbn [out_alias client_alias_step].
      rewrite msg_props_no_alias. split; [reflexivity|]. split; [|split; assumption].
      destruct (m_topic m); [congruence|reflexivity]. }
  assert (HM' : 1 <= am_max (k_alias_out k) <= MAXPID) by lia.
  destruct (alias_step_sim (m_topic m) (k_alias_out k) tb Hinv HM' Hsim) as (tb' & Hstep & Hsim').
  pose proof (am_check_inv (m_topic m) (k_alias_out k) Hinv ltac:(lia)) as Hinv'.
  destruct (am_check (m_topic m) (k_alias_out k)) as [am' [a ex|]] eqn:Ec; cbn [fst snd] in *; [|discriminate].
  unfold alias_step in Hstep. rewrite Ham in Hstep.
  destruct ((1 <=? a) && (a <=? k_client_alias_max k)) eqn:Er; [|discriminate].
  assert (Ha0 : (a =? 0) = false) by lia. rewrite Ha0.
  eexists. exists tb'. split; [reflexivity|]. cbn [out_alias client_alias_step k_alias_out].
  rewrite p_alias_app, msg_props_no_alias. cbn [p_alias]. rewrite Er.
  split; [exists a; split; [reflexivity|lia]|]. split; [|split; assumption].
  destruct ex.
  - destruct (at_get a tb) as [t0|]; [|discriminate]. destruct (str_eqb t0 (m_topic m)) eqn:Et; [|discriminate].
    apply str_eqb_eq in Et. inversion Hstep; subst. reflexivity.
  - inversion Hstep; subst. destruct (m_topic m); [congruence|reflexivity].
Qed.

Lemma alias_used_static k k' m o :
  k_client_max_packet k' = k_client_max_packet k -> k_client_alias_max k' = k_client_alias_max k ->
  alias_used k' m o -> alias_used k m o.
Proof. unfold alias_used. now intros -> ->. Qed.

(* the PUBLISH packets written on one v5 connection whose client announced Topic Alias Maximum M >= 1:
   one packet per message; it carries an alias in 1..M when the packet with the property still fits the client's
   Maximum Packet Size (margin 5), and is sent plain otherwise; a client that replays them resolves every packet
   to the message's topic *)
Theorem C13_out_alias_gen c : forall ms k tb,
  k_v k = 5 -> 1 <= k_client_alias_max k <= MAXPID -> am_max (k_alias_out k) = k_client_alias_max k ->
  AliasInv (k_alias_out k) -> AliasSim (k_alias_out k) tb -> Forall (fun m => m_topic m <> []) ms ->
  client_resolve (k_client_alias_max k) tb (snd (wp_run c k ms)) = Some (map m_topic ms) /\
  Forall2 (alias_used k) ms (snd (wp_run c k ms)).
Proof.
  induction ms as [|m ms IH]; intros k tb Hv HM Ham Hinv Hsim Hts; cbn [wp_run map].
  - split; [reflexivity|constructor].
  - inversion Hts as [|? ? Ht Hts']; subst.
    destruct (wp_alias_step c k m tb Hv HM Ham Hinv Hsim Ht) as (o & tb' & Ho & Hu & Hstep & Hinv' & Hsim').
    pose proof (wp_frame c k m) as (_ & _ & _ & (_ & Hv' & _ & _ & Hcmp & Hcam) & Hamx).
    destruct (write_publish c k m) as [k1 o1]. cbn [fst snd] in *. subst o1.
    assert (Ham1 : am_max (k_alias_out k1) = k_client_alias_max k1) by congruence.
    rewrite <- Hcam in HM.
    destruct (IH k1 tb' ltac:(congruence) HM Ham1 Hinv' Hsim' Hts') as (Hres & Hall).
    destruct (wp_run c k1 ms) as [k2 o2]. cbn [snd app] in *.
    split.
    + cbn [client_resolve]. rewrite Hstep. rewrite <- Hcam. now rewrite Hres.
    + constructor; [exact Hu|]. eapply Forall2_impl_in; [|exact Hall].
      intros m' o' _. now apply alias_used_static.
Qed.

Lemma alias_sim_init max : AliasSim (am_new max) [].
Proof. intros a t. cbn. split; [discriminate|tauto]. Qed.

Theorem C13_out_alias_conn c ms k :
  k_v k = 5 -> 1 <= k_client_alias_max k <= 65535 -> k_alias_out k = am_new (k_client_alias_max k) ->
  Forall (fun m => m_topic m <> []) ms ->
  client_resolve (k_client_alias_max k) [] (snd (wp_run c k ms)) = Some (map m_topic ms) /\
  Forall2 (alias_used k) ms (snd (wp_run c k ms)).
Proof.
  intros Hv HM Hao Hts. apply C13_out_alias_gen; auto.
  - rewrite Hao. reflexivity.
  - rewrite Hao. apply alias_inv_init.
  - rewrite Hao. apply alias_sim_init.
Qed.

Fixpoint nodupNb (l : list N) : bool := match l with [] => true | x :: r => negb (memN x r) && nodupNb r end.
Lemma nodupNb_sound l : nodupNb l = true -> NoDup l.
Proof.
  induction l as [|x r IH]; cbn [nodupNb]; intros H; [constructor|].
  apply andb_true_iff in H. destruct H as [H1 H2]. constructor; [|auto].
  apply negb_true_iff in H1. now apply memN_notIn.
Qed.

Definition idokb (e : elem) : bool := (1 <=? e_id e) && (e_id e <=? MAXPID).
Definition quedokb (e : elem) : bool := match e_body e with QPub m => (m_pid m =? 0) && negb (m_dup m) | QRel _ => false end.
Definition tag_okb (b : N) (e : elem) : bool := if is_pub e then negb (e_tag e =? 0) && (e_tag e <? b) else e_tag e =? 0.

Lemma q_split l : l = q_inf_of l ++ q_que_of l.
Proof. induction l as [|e r IH]; cbn [q_inf_of q_que_of]; [reflexivity|]. destruct (e_id e =? 0); cbn [app]; [reflexivity|now f_equal]. Qed.

Definition qinv_b (q : queue) (b : N) : bool :=
  let inf := q_inf_of (q_l q) in let que := q_que_of (q_l q) in
  forallb idokb inf && forallb quedokb que && (q_cur q <=? length inf)%nat &&
  (if q_drained q then (q_cur q =? length inf)%nat else true) &&
  nodupNb (map e_id inf) && forallb (tag_okb b) (q_l q) && nodupNb (pub_tags (q_l q)).

Lemma forallb_Forall {A} (f : A -> bool) (P : A -> Prop) l : (forall x, f x = true -> P x) -> forallb f l = true -> Forall P l.
Proof. intros H Hf. apply Forall_forall. intros x Hx. apply H. rewrite forallb_forall in Hf. now apply Hf. Qed.

Lemma qinv_b_sound q b : qinv_b q b = true -> QInv q b (q_inf_of (q_l q)) (q_que_of (q_l q)).
Proof.
  unfold qinv_b. intros H. repeat (apply andb_true_iff in H; destruct H as [H ?]).
  constructor.
  - apply q_split.
  - eapply forallb_Forall; [|exact H]. clear. unfold idokb, idok. intros x Hx. lia.
  - eapply forallb_Forall; [|exact H5]. clear. unfold quedokb, quedok. intros x Hx. destruct (e_body x); [|discriminate].
    apply andb_true_iff in Hx. destruct Hx as [Hx1 Hx2]. apply negb_true_iff in Hx2. split; [lia|exact Hx2].
  - apply Nat.leb_le. exact H4.
  - intros Hd. rewrite Hd in H3. now apply Nat.eqb_eq.
  - now apply nodupNb_sound.
  - rewrite <- q_split. eapply forallb_Forall; [|exact H1]. clear. unfold tag_okb, tag_ok. intros x Hx.
    destruct (is_pub x); [|lia]. apply andb_true_iff in Hx. destruct Hx as [Hx1 Hx2]. apply negb_true_iff in Hx1. lia.
  - rewrite <- q_split. now apply nodupNb_sound.
Qed.

Definition liminv_b (l : lim) : bool :=
  nodupNb (l_locked l) && negb (memN 0 (l_locked l)) && forallb (fun i => (1 <=? i) && (i <=? MAXPID)) (l_locked l) &&
  (l_used l =? N.of_nat (length (l_locked l))) && (1 <=? l_free l) && (l_free l <=? MAXPID).

Lemma liminv_b_sound l : liminv_b l = true -> LimInv l.
Proof.
  unfold liminv_b, LimInv. intros H. repeat (apply andb_true_iff in H; destruct H as [H ?]).
  split; [now apply nodupNb_sound|]. split; [apply negb_true_iff in H4; now apply memN_notIn|].
  split; [|split; lia]. intros i Hi. rewrite forallb_forall in H3. specialize (H3 i Hi). lia.
Qed.

Definition cq_b (w : bool) (k : conn) (q : queue) (b : N) : bool :=
  let inf := q_inf_of (q_l q) in
  let pre := map e_id (firstn (q_cur q) inf) ++ held_ids k in
  qinv_b q b && liminv_b (k_lim k) && (l_limit (k_lim k) =? k_max_inflight k) && (k_max_inflight k <=? MAXPID) &&
  nodupNb (map e_id inf ++ held_ids k) &&
  forallb (fun i => memN i pre) (l_locked (k_lim k)) && forallb (fun i => memN i (l_locked (k_lim k))) pre &&
  (k_drained k || match k_held k with None => true | Some _ => false end) &&
  (q_limit q =? k_client_max_packet k) && Bool.eqb (q_v5 q) (k_v k =? 5) &&
  (am_max (k_alias_out k) =? k_client_alias_max k) &&
  (negb (k_drained k && (1 <=? k_max_inflight k)) || (q_cur q =? length inf)%nat) &&
  (negb w || (if k_drained k then l_used (k_lim k) <=? l_limit (k_lim k) else N.of_nat (length inf) <=? l_limit (k_lim k))).

Lemma cq_b_sound w k q b : cq_b w k q b = true -> CQ w k q b (q_inf_of (q_l q)) (q_que_of (q_l q)).
Proof.
  unfold cq_b. intros H. remember (qinv_b q b) as qb eqn:Eqb. remember (liminv_b (k_lim k)) as lb eqn:Elb.
  repeat (apply andb_true_iff in H; destruct H as [H ?]). subst qb lb.
  (* each clause from its own conjunct: with all of them in the context, lia would split on every boolean *)
  constructor.
  - now apply qinv_b_sound.
  - now apply liminv_b_sound.
  - now apply N.eqb_eq.
  - now apply N.leb_le.
  - now apply nodupNb_sound.
  - intros i. split; intros Hi.
    + rewrite forallb_forall in H7. apply memN_In. now apply H7.
    + rewrite forallb_forall in H6. apply memN_In. now apply H6.
  - intros Hd. rewrite Hd in H5. cbn [orb] in H5. destruct (k_held k); [discriminate|reflexivity].
  - now apply N.eqb_eq.
  - now apply eqb_prop.
  - now apply N.eqb_eq.
  - intros Hd Hm. apply N.leb_le in Hm. rewrite Hd, Hm in H1. now apply Nat.eqb_eq.
  - intros ->. cbn [negb orb] in H0. destruct (k_drained k); now apply N.leb_le.
Qed.

Definition pollinv_b (w : bool) (s : st) (c : N) : bool :=
  match nget c (b_conns s) with
  | Some k =>
      match aget (k_cid k) (b_queues s) with
      | Some q =>
          match aget (k_cid k) (b_online s) with Some c' => c' =? c | None => false end &&
          forallb (fun kv => negb (snd kv =? c) || str_eqb (fst kv) (k_cid k)) (b_online s) &&
          negb (b_tag s =? 0) && cq_b w k q (b_tag s)
      | None => false
      end
  | None => false
  end.

Theorem pollinv_b_sound w s c : pollinv_b w s c = true -> PollInv w s c.
Proof.
  unfold pollinv_b, PollInv. destruct (nget c (b_conns s)) as [k|] eqn:Ek; [|discriminate].
  destruct (aget (k_cid k) (b_queues s)) as [q|] eqn:Eq; [|discriminate].
  intros H. remember (cq_b w k q (b_tag s)) as cb eqn:Ecb.
  repeat (apply andb_true_iff in H; destruct H as [H ?]). subst cb.
  exists k, q, (q_inf_of (q_l q)), (q_que_of (q_l q)).
  split; [reflexivity|]. split; [exact Eq|].
  split; [destruct (aget (k_cid k) (b_online s)); [apply N.eqb_eq in H; now subst|discriminate]|].
  split.
  { intros cid' Hc. apply aget_In in Hc. rewrite forallb_forall in H2. specialize (H2 _ Hc). cbn [fst snd] in H2.
    rewrite N.eqb_refl in H2. cbn in H2. now apply str_eqb_eq. }
  split; [apply negb_true_iff in H1; now apply N.eqb_neq|now apply cq_b_sound].
Qed.

Definition wx_cfg (ifexp : N) (maxq : nat) : cfg :=
  {| c_onlyonce := false; c_max_inflight := 10; c_max_queued := maxq; c_queue_qos0 := true;
     c_session_expiry := 3600; c_message_expiry := 0; c_recv_max := 100; c_alias_max := 10; c_max_packet := 0;
     c_max_qos := 2; c_retain_avail := true; c_wildcard := true; c_subid := true; c_shared := true;
     c_max_keepalive := 60; c_allow_zero_len := true; c_inflight_expiry := ifexp |}.
Definition wx_connect (v : N) (cid : str) (clean : bool) (props : list prop) : connect :=
  {| cn_ver := v; cn_cid := cid; cn_clean := clean; cn_keepalive := 0; cn_user := None; cn_pass := None;
     cn_will := None; cn_props := props |}.
Definition wx_T : str := [116].      (* "t" *)
Definition wx_S : str := [115].      (* "s": the subscriber, socket 1 *)
Definition wx_P : str := [112].      (* "p": the publisher, socket 2 *)
Definition wx_sub (q : N) : event :=
  ESend 1 (KSubscribe 1 [] [{| tq_name := wx_T; tq_qos := q; tq_nl := false; tq_rap := false; tq_rh := 0 |}]).
Definition wx_pub (q pid : N) (pl : str) : event := ESend 2 (KPublish false q false wx_T pl pid []).
Definition wx_init : st := st_init (wx_cfg 0 100) no_hooks [].
(* "s" (v5, Receive Maximum 2, persistent session) subscribed to "t" with QoS 2; "p" connected *)
Definition wx_pre : list event :=
  [EConnect 1 (wx_connect 5 wx_S false [PSei 100; PRecvMax 2]); wx_sub 2; EConnect 2 (wx_connect 4 wx_P true [])].
Definition wx_s0 : st := fst (run wx_init wx_pre).
(* a message has just been queued for "s"; its poll loop has not run yet *)
Definition wx_s1 : st := fst (step_event wx_s0 (wx_pub 1 11 [1])).
(* two messages in flight (ids 1 and 3), one queued behind the full window *)
Definition wx_s2 : st := fst (run wx_s0 [wx_pub 1 11 [1]; wx_pub 2 12 [2]; wx_pub 1 13 [3]]).
(* the connection is gone, the session stays; then "s" comes back: before its poll loop runs *)
Definition wx_s3 : st := fst (run wx_s2 [EClose 1]).
Definition wx_s4 (recvmax : N) : st := fst (step_event wx_s3 (EConnect 1 (wx_connect 5 wx_S false [PSei 100; PRecvMax recvmax]))).

Example wx_window_at_connect :
  exists s' o k, handle_connect 1 (wx_connect 5 wx_S false [PSei 100; PRecvMax 2]) wx_init = (s', o) /\
                 nget 1 (b_conns s') = Some k /\ k_phase k = PhConnected /\ k_max_inflight k = 2.
Proof. do 3 eexists. vm_compute. repeat split. Qed.

Example wx_pollinv_reachable : pollinv_b true wx_s0 1 = true /\ pollinv_b true wx_s1 1 = true /\ pollinv_b true wx_s2 1 = true.
Proof. vm_compute. repeat split. Qed.

(* poll_once_inv, C03_new_ids, C03_first_dup0, C13_out_size: a turn that takes ids, then one that sends *)
Example wx_poll_turns :
  exists k, nget 1 (b_conns wx_s1) = Some k /\ k_drained k = true /\
  option_map snd (poll_once 1 wx_s1) = Some [OSend 1 (KPublish false 1 false wx_T [1] 1 [])].
Proof. eexists. vm_compute. repeat split. Qed.

(* handle_ack_inv, C03_until_acked_ack: PUBREC 3 turns the QoS 2 entry into a PUBREL entry; PUBACK 1 removes *)
Example wx_ack :
  exists k s' o, nget 1 (b_conns wx_s2) = Some k /\ ~ In 3 (held_ids k) /\
    handle_packet 1 k (KPubrec 3 0 []) wx_s2 = HOk s' o /\ o = [OSend 1 (KPubrel 3 0 [])] /\
    option_map (fun q => map rkey (q_inf q)) (aget wx_S (b_queues s')) = Some [inl (1, false, wx_T, [1], 1); inr 3].
Proof. do 3 eexists. vm_compute. repeat split. intros []. Qed.

(* add_to_queue_inv / deliver_PollInv *)
Example wx_add :
  pollinv_b true wx_s0 1 = true /\
  option_map (fun q => length (q_l q)) (aget wx_S (b_queues (fst (fst (deliver wx_P (msg_of_publish false false 1 false wx_T [1] 11 []) wx_s0))))) = Some 1%nat.
Proof. vm_compute. split; reflexivity. Qed.

(* C03_window is tight: two entries in flight, window 2, a third message waits *)
Example wx_window :
  pollinv_b true wx_s2 1 = true /\
  option_map (fun q => (inflight_ids q, length (q_l q))) (aget wx_S (b_queues wx_s2)) = Some ([1; 3], 3%nat) /\
  option_map k_max_inflight (nget 1 (b_conns wx_s2)) = Some 2.
Proof. vm_compute. repeat split. Qed.

(* kf_replay_exceeds_smaller_recvmax: the session comes back with Receive Maximum 1; both in-flight messages are
   retransmitted; the invariant without the window clause holds, the window clause does not *)
Example C03_window_refuted :
  let s := fst (poll_conn 400 1 (wx_s4 1)) in
  snd (poll_conn 400 1 (wx_s4 1)) = [OSend 1 (KPublish true 1 false wx_T [1] 1 []); OSend 1 (KPublish true 2 false wx_T [2] 3 [])] /\
  option_map k_max_inflight (nget 1 (b_conns s)) = Some 1 /\
  option_map inflight_ids (aget wx_S (b_queues s)) = Some [1; 3] /\
  pollinv_b false (wx_s4 1) 1 = true /\ pollinv_b false s 1 = true /\ pollinv_b true s 1 = false.
Proof. vm_compute. repeat split. Qed.

(* C03_replay_first: the hypotheses hold right after the CONNECT that resumes the session *)
Example wx_replay_first :
  pollinv_b true (wx_s4 2) 1 = true /\
  (exists k q, nget 1 (b_conns (wx_s4 2)) = Some k /\ aget (k_cid k) (b_queues (wx_s4 2)) = Some q /\
               k_phase k = PhConnected /\ k_drained k = false /\ k_max_inflight k = 2 /\
               (length (q_inf q) - q_cur q = 2)%nat) /\
  snd (poll_conn 400 1 (wx_s4 2)) = [OSend 1 (KPublish true 1 false wx_T [1] 1 []); OSend 1 (KPublish true 2 false wx_T [2] 3 [])].
Proof. split; [vm_compute; reflexivity|]. split; [do 2 eexists; vm_compute; repeat split|vm_compute; reflexivity]. Qed.

(* C03_until_acked_add: inflight_expiry = 1 s, queue of 2: after 5 s a third message evicts the expired
   in-flight entry with id 1, the drop is reported and its id is released *)
Definition wx_e0 : st :=
  fst (run (st_init (wx_cfg 1 2) no_hooks []) (wx_pre ++ [wx_pub 1 11 [1]; wx_pub 1 12 [2]; EAdvance 5000])).
Definition wx_sub1 : sub := {| s_share := []; s_filter := wx_T; s_id := 0; s_qos := 1; s_nl := false; s_rap := false; s_rh := 0 |}.

Example wx_expired_inflight :
  pollinv_b true wx_e0 1 = true /\ option_map inflight_ids (aget wx_S (b_queues wx_e0)) = Some [1; 3] /\
  let '(s', o) := add_to_queue wx_S (msg_of_publish false false 1 false wx_T [3] 13 []) wx_sub1 [0] wx_e0 in
  map (fun x => match x with ODropped cid m r => Some (cid, m_pid m, r) | _ => None end) o = [Some (wx_S, 1, DExpiredInflight)] /\
  option_map inflight_ids (aget wx_S (b_queues s')) = Some [3] /\
  option_map (fun k => l_locked (k_lim k)) (nget 1 (b_conns s')) = Some [3] /\ pollinv_b true s' 1 = true.
Proof. vm_compute. repeat split. Qed.

Definition wire_props (ps : list prop) : CodecProps.props :=
  fold_left (fun acc p =>
               match p with
               | PPfmt n => CodecProps.set_single 1 (CodecProps.PVByte n) acc
               | PMsgExpiry n => CodecProps.set_single 2 (CodecProps.PVU32 n) acc
               | PCtype x => CodecProps.set_single 3 (CodecProps.PVStr x) acc
               | PResp x => CodecProps.set_single 8 (CodecProps.PVStr x) acc
               | PCorr x => CodecProps.set_single 9 (CodecProps.PVStr x) acc
               | PAlias n => CodecProps.set_single 35 (CodecProps.PVU16 n) acc
               | PSubId n => {| CodecProps.pr_single := CodecProps.pr_single acc;
                                CodecProps.pr_subid := CodecProps.pr_subid acc ++ [n];
                                CodecProps.pr_user := CodecProps.pr_user acc |}
               | PUser a b => {| CodecProps.pr_single := CodecProps.pr_single acc;
                                 CodecProps.pr_subid := CodecProps.pr_subid acc;
                                 CodecProps.pr_user := CodecProps.pr_user acc ++ [(a, b)] |}
               | _ => acc
               end) ps CodecProps.props_empty.

(* the number of bytes of a v5 PUBLISH as the codec model (packets.Publish.Pack) writes it *)
Definition wire_len (o : out) : option N :=
  match o with
  | OSend _ (KPublish dup qos ret topic payload pid props) =>
      match CodecPackets.pack (CodecPackets.BPublish 5 dup qos ret topic pid payload (Some (wire_props props))) with
      | CodecBase.Ok bs => Some (len bs)
      | _ => None
      end
  | _ => None
  end.

(* "s" announces Maximum Packet Size 11 and Topic Alias Maximum 2 *)
Definition wx_a0 : st :=
  fst (run wx_init [EConnect 1 (wx_connect 5 wx_S false [PSei 100; PMaxPkt 11; PAliasMax 2]); wx_sub 1;
                    EConnect 2 (wx_connect 4 wx_P true [])]).
Definition wx_m11 : msg := msg_of_publish true false 1 false wx_T [1; 2; 3] 11 [].

(* without alias the size the broker computes is the size on the wire *)
Example wx_total_bytes_is_wire_len :
  msg_total_bytes true wx_m11 = 11 /\ wire_len (OSend 1 (KPublish false 1 false wx_T [1; 2; 3] 1 [])) = Some 11.
Proof. vm_compute. split; reflexivity. Qed.

(* kf_alias_pushes_over_max_size, after the repair (C13_out_size_with_alias is the general statement).  The
   message measures 11 bytes.  Maximum Packet Size 11: it is not dropped and - formerly sent with the Topic Alias
   property as 14 and 13 bytes - it is now sent plain, 11 bytes on the wire both times.  Maximum 16 = 11 + the
   margin: the alias is used, 14 bytes for the first use and 13 for the second (topic left out).  Maximum 15: sent
   plain although 14 bytes would have fitted - the margin is the worst case of the property, not its actual cost *)
Definition wx_a1 (mx : N) : st :=
  fst (run wx_init [EConnect 1 (wx_connect 5 wx_S false [PSei 100; PMaxPkt mx; PAliasMax 2]); wx_sub 1;
                    EConnect 2 (wx_connect 4 wx_P true [])]).
Definition wx_sent1 (s : st) : list out :=
  filter (fun x => match x with OSend 1 _ => true | _ => false end)
         (concat (snd (run s [wx_pub 1 11 [1; 2; 3]; wx_pub 1 12 [1; 2; 3]]))).
Example C13_alias_margin_examples :
  wx_a1 11 = wx_a0 /\ option_map k_client_max_packet (nget 1 (b_conns wx_a0)) = Some 11 /\
  wx_sent1 wx_a0 = [OSend 1 (KPublish false 1 false wx_T [1; 2; 3] 1 []); OSend 1 (KPublish false 1 false wx_T [1; 2; 3] 11 [])] /\
  map wire_len (wx_sent1 wx_a0) = [Some 11; Some 11] /\
  wx_sent1 (wx_a1 16) =
    [OSend 1 (KPublish false 1 false wx_T [1; 2; 3] 1 [PAlias 1]); OSend 1 (KPublish false 1 false [] [1; 2; 3] 11 [PAlias 1])] /\
  map wire_len (wx_sent1 (wx_a1 16)) = [Some 14; Some 13] /\
  map wire_len (wx_sent1 (wx_a1 15)) = [Some 11; Some 11].
Proof. vm_compute. repeat split. Qed.

(* C13_out_size is about first transmissions only: a session that comes back with a smaller Maximum Packet Size
   is sent its in-flight messages again whatever their size (ReadInflight has no size filter), while a new
   message of the same size is dropped *)
Definition wx_big : str := [1; 2; 3; 4; 5; 6; 7; 8; 9; 10; 11; 12; 13; 14; 15; 16; 17; 18; 19; 20].
Definition wx_o0 : st :=
  fst (run wx_init [EConnect 1 (wx_connect 5 wx_S false [PSei 100]); wx_sub 1; EConnect 2 (wx_connect 4 wx_P true []);
                    wx_pub 1 11 wx_big; EClose 1]).
Example C13_replay_oversize_refuted :
  let o := concat (snd (run wx_o0 [EConnect 1 (wx_connect 5 wx_S false [PSei 100; PMaxPkt 12]); wx_pub 1 12 wx_big])) in
  map (fun x => match x with
                | OSend 1 (KPublish dup _ _ _ _ _ _) => Some (inl (dup, wire_len x))
                | ODropped _ _ r => Some (inr r)
                | _ => None
                end) o =
  [None; Some (inl (true, Some 28)); None; Some (inr DExceedsMax)].
Proof. vm_compute. reflexivity. Qed.

(* C13_out_alias_conn: five messages on three topics through a table of two aliases *)
Example wx_alias_run :
  exists k, nget 1 (b_conns wx_a0) = Some k /\ k_v k = 5 /\ k_client_alias_max k = 2 /\ k_alias_out k = am_new 2 /\
  let ms := map (fun t => msg_of_publish true false 0 false t [] 0 []) [[97]; [98]; [97]; [99]; [98]] in
  map (fun o => match o with OSend _ (KPublish _ _ _ t _ _ ps) => (t, p_alias ps) | _ => ([], None) end) (snd (wp_run 1 k ms)) =
    [([97], Some 1); ([98], Some 2); ([], Some 1); ([99], Some 1); ([], Some 2)] /\
  client_resolve 2 [] (snd (wp_run 1 k ms)) = Some [[97]; [98]; [97]; [99]; [98]].
Proof. eexists. vm_compute. repeat split. Qed.

(* handle_ack_inv needs "pid is not held by the poll loop": the poll loop of an idle connection holds ids 1 and 2;
   a client that acknowledges them although they were never sent makes the limiter forget them, and ends up
   with three messages in flight under Receive Maximum 2 *)
Example held_ack_breaks_inv :
  option_map held_ids (nget 1 (b_conns wx_s0)) = Some [1; 2] /\ pollinv_b true wx_s0 1 = true /\
  let s := fst (run wx_s0 [ESend 1 (KPuback 1 0 []); ESend 1 (KPuback 2 0 []);
                           wx_pub 1 11 [1]; wx_pub 1 12 [2]; wx_pub 1 13 [3]; wx_pub 1 14 [4]]) in
  pollinv_b false (fst (run wx_s0 [ESend 1 (KPuback 1 0 [])])) 1 = false /\
  option_map k_max_inflight (nget 1 (b_conns s)) = Some 2 /\
  option_map inflight_ids (aget wx_S (b_queues s)) = Some [1; 3; 5] /\
  option_map (fun k => l_used (k_lim k)) (nget 1 (b_conns s)) = Some 2.
Proof. vm_compute. repeat split. Qed.

(* add_to_queue_inv needs m_pid m = 0: a message handed to the publish API with a packet id keeps it in the
   queue, behind entries without id *)
Example api_pid_breaks_shape :
  let m := set_pid 7 (msg_of_publish false false 1 false wx_T [9] 0 []) in
  let s := fst (run wx_s0 [wx_pub 1 11 [1]; wx_pub 1 12 [2]; wx_pub 1 13 [3]; EApiPublish m]) in
  option_map (fun q => map e_id (q_l q)) (aget wx_S (b_queues s)) = Some [1; 3; 0; 7] /\ pollinv_b false s 1 = false.
Proof. vm_compute. split; reflexivity. Qed.

(* the state handle_connect builds once the session tables are settled (s3) *)
Lemma connect_end w c cid kinst se s3 q3 inf que cfg_ cn :
  fresh_attached cfg_ cn kinst -> k_cid kinst = cid -> c_max_inflight cfg_ <= MAXPID ->
  (forall cid', ~ In (cid', c) (b_online s3)) -> b_tag s3 <> 0 ->
  aget cid (b_queues s3) = Some q3 -> QInv q3 (b_tag s3) inf que -> q_cur q3 = 0%nat ->
  q_limit q3 = k_client_max_packet kinst -> q_v5 q3 = (k_v kinst =? 5) ->
  (w = true -> N.of_nat (length inf) <= k_max_inflight kinst) ->
  PollInv w (set_tables (aset cid se (b_sessions s3)) (aset cid c (b_online s3)) (adel cid (b_offline s3)) (b_wills s3)
                        (b_queues s3) (b_unacks s3) (upd_conn c kinst s3)) c.
Proof.
  intros Hfa Hcid Hmax Hnc Htag Hq HQ Hc Hlim Hv5 Hwin.
  exists kinst, q3, inf, que. cbn [set_tables b_conns b_queues b_online b_tag upd_conn]. rewrite Hcid.
  split; [apply nget_nset_same|]. split; [exact Hq|]. split; [apply aget_aset_same|].
  split.
  { intros cid' H. apply aget_In, in_aset in H. destruct H as [[= ->]|H]; [reflexivity|]. exfalso. eapply Hnc; eauto. }
  split; [exact Htag|]. eapply CQ_at_connect; eauto.
Qed.

(* a successful CONNECT without take-over of a live connection and without
   a pending will of a discarded session leaves the new connection in the invariant, whether the session is
   resumed (its queue must have the queue shape) or created.  Socket c must not be registered already. *)
Theorem connect_establishes w c cn s s' o k :
  handle_connect c cn s = (s', o) -> nget c (b_conns s') = Some k -> k_phase k = PhConnected ->
  aget (k_cid k) (b_online s) = None -> aget (k_cid k) (b_wills s) = None ->
  (forall cid', ~ In (cid', c) (b_online s)) ->
  (forall q, aget (k_cid k) (b_queues s) = Some q ->
             exists inf que, QInv q (b_tag s) inf que /\ (w = true -> N.of_nat (length inf) <= k_max_inflight k)) ->
  c_max_inflight (b_cfg s) <= MAXPID -> b_tag s <> 0 ->
  PollInv w s' c.
Proof.
  intros H Hk Hph Hon Hwl Hnc Hqs Hmax Htag.
  destruct (handle_connect_walk c cn s s' o k H Hk Hph) as [Hfa Hw].
  destruct (Hw Hon Hwl) as (s3 & se & -> & Hsub & Ht3 & Hq3).
  assert (Hnc3 : forall cid', ~ In (cid', c) (b_online s3)) by (intros cid' Hin; eapply Hnc; apply Hsub; exact Hin).
  destruct Hfa as (Hf1 & Hf2 & Hf3 & Hf4 & Hf5 & Hf6 & Hf7 & Hf8 & Hf9).
  assert (Hfa : fresh_attached (b_cfg s) cn k) by (unfold fresh_attached; auto 10).
  destruct Hq3 as [(q & Hq & Hq3)|Hq3].
  - destruct (Hqs q Hq) as (inf & que & HQ & Hwin).
    eapply (connect_end w c (k_cid k) k se s3 _ inf que (b_cfg s) cn); eauto; try reflexivity; try congruence.
    rewrite Ht3. now apply QInv_init.
  - eapply (connect_end w c (k_cid k) k se s3 _ [] [] (b_cfg s) cn); eauto; try reflexivity; try congruence.
    + apply QInv_new.
    + intros _. cbn [length]. lia.
Qed.

Example wx_connect_establishes :
  aget wx_S (b_online wx_s3) = None /\ aget wx_S (b_wills wx_s3) = None /\
  forallb (fun kv => negb (snd kv =? 1)) (b_online wx_s3) = true /\
  option_map (fun q => (qinv_b q (b_tag wx_s3), length (q_inf q))) (aget wx_S (b_queues wx_s3)) = Some (true, 2%nat) /\
  pollinv_b true (wx_s4 2) 1 = true.
Proof. vm_compute. repeat split. Qed.

Definition AllPoll (w : bool) (s : st) : Prop :=
  forall c k, nget c (b_conns s) = Some k -> attached k -> PollInv w s c.

Lemma poll_once_detached c s k : nget c (b_conns s) = Some k -> ~ attached k -> poll_once c s = None.
Proof. intros Hk Hn. rewrite poll_once_eq, Hk. unfold attached in Hn. destruct (k_phase k); try reflexivity; tauto. Qed.

Lemma poll_once_absent c s : nget c (b_conns s) = None -> poll_once c s = None.
Proof. intros Hk. now rewrite poll_once_eq, Hk. Qed.

Lemma attached_dec k : {attached k} + {~ attached k}.
Proof. unfold attached. destruct (k_phase k); (left; tauto) || (right; intros [H|H]; discriminate). Qed.

Lemma poll_once_AllPoll w c s s' o : AllPoll w s -> poll_once c s = Some (s', o) -> AllPoll w s'.
Proof.
  intros HA Hp. destruct (nget c (b_conns s)) as [k|] eqn:Hk; [|rewrite (poll_once_absent c s Hk) in Hp; discriminate].
  destruct (attached_dec k) as [Hat|Hna]; [|rewrite (poll_once_detached c s k Hk Hna) in Hp; discriminate].
  pose proof (HA c k Hk Hat) as HP.
  destruct (PollInv_at w s c k HP Hk) as (q & inf & que & Hq & _ & _ & _ & HCQ).
  destruct (poll_once_cases w c s s' o k q inf que Hk Hq HCQ Hp) as (_ & _ & _ & Hconns & _ & _).
  intros c2 k2 Hk2 Hat2. destruct (N.eq_dec c2 c) as [->|Hne].
  - eapply poll_once_inv; eauto.
  - rewrite (Hconns c2 Hne) in Hk2. eapply poll_once_frame; eauto.
Qed.

Lemma poll_conn_AllPoll w c : forall fuel s, AllPoll w s -> AllPoll w (fst (poll_conn fuel c s)).
Proof. intros fuel s. apply poll_conn_inv. intros c0 s0 s' o H0 Hp. eapply poll_once_AllPoll; eauto. Qed.

(* whatever an event did, running all poll loops to quiescence keeps the
   invariant of every attached connection *)
Theorem poll_all_AllPoll w s : AllPoll w s -> AllPoll w (fst (poll_all s)).
Proof. apply poll_all_inv. intros c0 s0 s' o H0 Hp. eapply poll_once_AllPoll; eauto. Qed.

Example wx_all_poll :
  forallb (fun ck => match k_phase (snd ck) with
                     | PhConnected | PhZombie => pollinv_b true wx_s1 (fst ck)
                     | _ => true
                     end) (b_conns wx_s1) = true /\ length (b_conns wx_s1) = 2%nat.
Proof. vm_compute. split; reflexivity. Qed.

Lemma PollInv_unfold w s c : PollInv w s c <->
  exists k q inf que,
    nget c (b_conns s) = Some k /\ aget (k_cid k) (b_queues s) = Some q /\
    aget (k_cid k) (b_online s) = Some c /\ (forall cid', aget cid' (b_online s) = Some c -> cid' = k_cid k) /\
    b_tag s <> 0 /\ CQ w k q (b_tag s) inf que.
Proof. reflexivity. Qed.

Lemma CQ_limiter_is_queue w k q b inf que : CQ w k q b inf que ->
  LimInv (k_lim k) /\ l_limit (k_lim k) = k_max_inflight k /\
  (forall i, In i (l_locked (k_lim k)) <-> In i (map e_id (firstn (q_cur q) inf) ++ held_ids k)) /\
  NoDup (map e_id inf ++ held_ids k) /\
  l_used (k_lim k) = N.of_nat (q_cur q + length (held_ids k)) /\
  (w = true -> k_drained k = true -> l_used (k_lim k) <= l_limit (k_lim k)).
Proof.
  intros H. split; [apply (cq_lim _ _ _ _ _ _ H)|]. split; [apply (cq_limit _ _ _ _ _ _ H)|].
  split; [apply (cq_locked _ _ _ _ _ _ H)|]. split; [apply (cq_nd _ _ _ _ _ _ H)|].
  split; [apply (CQ_used _ _ _ _ _ _ H)|]. intros Hw Hd. pose proof (cq_win _ _ _ _ _ _ H Hw) as Hwin. now rewrite Hd in Hwin.
Qed.

Example wx_invariant_reachable :
  PollInv true wx_s0 1 /\ PollInv true wx_s1 1 /\ PollInv true wx_s2 1 /\ PollInv true (wx_s4 2) 1 /\ PollInv false (wx_s4 1) 1.
Proof. repeat split; apply pollinv_b_sound; vm_compute; reflexivity. Qed.

(* after the CONNECT that resumes a session (no take-over), the poll loop of the new
   connection first retransmits the in-flight entries of the stored queue, in order *)
Theorem C03_replay_after_connect w c cn s s' o k q' fuel :
  handle_connect c cn s = (s', o) -> nget c (b_conns s') = Some k -> k_phase k = PhConnected ->
  aget (k_cid k) (b_online s) = None -> aget (k_cid k) (b_wills s) = None ->
  (forall cid', ~ In (cid', c) (b_online s)) ->
  (forall q, aget (k_cid k) (b_queues s) = Some q ->
             exists inf que, QInv q (b_tag s) inf que /\ (w = true -> N.of_nat (length inf) <= k_max_inflight k)) ->
  c_max_inflight (b_cfg s) <= MAXPID -> b_tag s <> 0 ->
  aget (k_cid k) (b_queues s') = Some q' -> 1 <= k_max_inflight k -> (length (q_inf q') - q_cur q' < fuel)%nat ->
  exists o1 o2, snd (poll_conn fuel c s') = o1 ++ o2 /\
    Forall2 (is_retrans c) (skipn (q_cur q') (q_inf q')) o1 /\ all_dup0 o2.
Proof.
  intros H Hk Hph Hon Hwl Hnc Hqs Hmax Htag Hq' Hm Hfuel.
  pose proof (connect_establishes w c cn s s' o k H Hk Hph Hon Hwl Hnc Hqs Hmax Htag) as HP.
  destruct (handle_connect_conn c cn s s' o k H Hk Hph) as (_ & _ & _ & _ & _ & Hd & _).
  eapply C03_replay_first; eauto.
Qed.

(* C13: dropping an oversize message (or anything else the poll loop does) leaves the connection up *)
Theorem poll_once_conn_stays w c s s' o k :
  PollInv w s c -> nget c (b_conns s) = Some k -> poll_once c s = Some (s', o) ->
  exists k', nget c (b_conns s') = Some k' /\ same_static k k'.
Proof.
  intros HP Hk Hp. destruct (PollInv_at w s c k HP Hk) as (q & inf & que & Hq & _ & _ & _ & HCQ).
  destruct (poll_once_cases w c s s' o k q inf que Hk Hq HCQ Hp) as (_ & _ & _ & _ & _ & Hcase).
  destruct (poll_case_next _ _ _ _ _ _ _ _ _ Hcase) as (k' & q' & inf' & que' & Hk' & Hss & _). eauto.
Qed.

(* C13: what the size filter drops is reported, and only queued (never sent) messages are dropped by it *)
Theorem C13_oversize_dropped w s c k q s' o cid m r :
  PollInv w s c -> nget c (b_conns s) = Some k -> aget (k_cid k) (b_queues s) = Some q ->
  poll_once c s = Some (s', o) -> In (ODropped cid m r) o ->
  cid = k_cid k /\ (r = DExpired \/ r = DExceedsMax) /\
  exists d, In d (skipn (length (q_inf q)) (q_l q)) /\ e_body d = QPub m.
Proof.
  intros HP Hk Hq Hp Hin. destruct (PollInv_CQ w s c k q HP Hk Hq) as (inf & que & HCQ).
  pose proof (cq_q _ _ _ _ _ _ HCQ) as HQ.
  destruct (poll_once_cases w c s s' o k q inf que Hk Hq HCQ Hp) as (_ & _ & _ & _ & _ & Hcase).
  assert (Hque : skipn (length (q_inf q)) (q_l q) = que).
  { rewrite (q_inf_eq _ _ _ _ HQ), (qi_l _ _ _ _ HQ). rewrite skipn_app, skipn_all, Nat.sub_diag. reflexivity. }
  rewrite Hque.
  destruct Hcase as [_ Ho _ _|rs _ _ Hret _ _|ids _ _ Ho _ _ _ _|ids rs evs pubs q' _ _ _ Ho Hrs Hpubs (evs2 & dq & di & Hevs & Hdrops) _ _].
  - subst o. contradiction.
  - exfalso. destruct (Forall2_in_r _ _ _ _ Hret Hin) as (e & _ & He). unfold is_retrans in He.
    destruct (e_body e); [destruct He as (t & ps & He & _); discriminate|discriminate].
  - subst o. contradiction.
  - subst o. apply in_app_or in Hin. destruct Hin as [Hin|Hin].
    + unfold drops_of in Hin. apply in_flat_map in Hin. destruct Hin as (ev & Hev & Hx).
      subst evs. apply in_app_or in Hev. destruct Hev as [Hev|Hev];
        [|cbn [In] in Hev; destruct Hev as [Hev|[Hev|Hev]]; try contradiction; subst ev; contradiction].
      rewrite Forall_forall in Hdrops. destruct (Hdrops ev Hev) as (d & Hd & [-> | ->]); cbn in Hx;
        destruct (e_body d) as [m0|p] eqn:Eb; try contradiction; destruct Hx as [Hx|[]]; inversion Hx; subst;
        (split; [reflexivity|]); (split; [auto|]); exists d; auto.
    + exfalso. destruct (Forall2_in_r _ _ _ _ Hpubs Hin) as (e & _ & m0 & _ & (t & ps & Hx & _) & _). discriminate.
Qed.

(* wire_len encodes a PUBLISH with the codec model (Model/CodecPackets.v).  msg_total_bytes is the
   encoded size of the message without alias (Proofs/CodecMsgP.v); here: the packet write_publish writes, with or
   without the Topic Alias property, measures at most msg_total_bytes + 5 and so stays within the client's maximum *)
Import CodecBaseP CodecStrP.

Definition wp_step (acc : CodecProps.props) (p : prop) : CodecProps.props :=
  match p with
  | PPfmt n => CodecProps.set_single 1 (CodecProps.PVByte n) acc
  | PMsgExpiry n => CodecProps.set_single 2 (CodecProps.PVU32 n) acc
  | PCtype x => CodecProps.set_single 3 (CodecProps.PVStr x) acc
  | PResp x => CodecProps.set_single 8 (CodecProps.PVStr x) acc
  | PCorr x => CodecProps.set_single 9 (CodecProps.PVStr x) acc
  | PAlias n => CodecProps.set_single 35 (CodecProps.PVU16 n) acc
  | PSubId n => {| CodecProps.pr_single := CodecProps.pr_single acc;
                   CodecProps.pr_subid := CodecProps.pr_subid acc ++ [n];
                   CodecProps.pr_user := CodecProps.pr_user acc |}
  | PUser a b => {| CodecProps.pr_single := CodecProps.pr_single acc;
                    CodecProps.pr_subid := CodecProps.pr_subid acc;
                    CodecProps.pr_user := CodecProps.pr_user acc ++ [(a, b)] |}
  | _ => acc
  end.

Lemma wire_props_eq ps : wire_props ps = fold_left wp_step ps CodecProps.props_empty.
Proof. reflexivity. Qed.

Lemma fold_subid l : forall acc,
  fold_left wp_step (map PSubId l) acc =
  {| CodecProps.pr_single := CodecProps.pr_single acc; CodecProps.pr_subid := CodecProps.pr_subid acc ++ l;
     CodecProps.pr_user := CodecProps.pr_user acc |}.
Proof.
  induction l as [|x l IH]; intros acc; cbn [map fold_left].
  - rewrite app_nil_r. now destruct acc.
  - rewrite IH. cbn [wp_step CodecProps.pr_single CodecProps.pr_subid CodecProps.pr_user]. now rewrite <- app_assoc.
Qed.

Lemma fold_user (l : list (str * str)) : forall acc,
  fold_left wp_step (map (fun kv => PUser (fst kv) (snd kv)) l) acc =
  {| CodecProps.pr_single := CodecProps.pr_single acc; CodecProps.pr_subid := CodecProps.pr_subid acc;
     CodecProps.pr_user := CodecProps.pr_user acc ++ l |}.
Proof.
  induction l as [|[a b] l IH]; intros acc; cbn [map fold_left].
  - rewrite app_nil_r. now destruct acc.
  - rewrite IH. cbn [wp_step CodecProps.pr_single CodecProps.pr_subid CodecProps.pr_user fst snd]. now rewrite <- app_assoc.
Qed.

Lemma wire_props_snoc ps p : wire_props (ps ++ [p]) = wp_step (wire_props ps) p.
Proof. rewrite !wire_props_eq, fold_left_app. reflexivity. Qed.

(* the properties write_publish attaches to a message are, on the codec side, the property block that
   MessageToPublish builds for it; the Topic Alias property comes last among the single-valued ones *)
Lemma wire_props_msg m a :
  CodecPackets.message_to_publish m 5 =
    CodecPackets.BPublish 5 (m_dup m) (m_qos m) (m_retained m) (m_topic m) (m_pid m) (m_payload m)
                          (Some (wire_props (msg_props true m))) /\
  CodecProps.pr_single (wire_props (msg_props true m ++ [PAlias a])) =
    CodecProps.pr_single (wire_props (msg_props true m)) ++ [(35, CodecProps.PVU16 a)].
Proof.
  rewrite !wire_props_eq. unfold msg_props, CodecPackets.message_to_publish.
  rewrite <- !app_assoc, !fold_left_app, !fold_user, !fold_subid.
  destruct (N.eqb_spec (m_pfmt m) 1) as [->|_]; destruct (m_expiry m =? 0); destruct (m_ctype m); destruct (m_resp m);
    destruct (m_corr m); split; reflexivity.
Qed.

Lemma wire_props_len m : len (CodecProps.props_body (wire_props (msg_props true m))) = CodecMsgP.msg_props_len m.
Proof. pose proof (CodecMsgP.msg_props_body_len m) as H. now rewrite (proj1 (wire_props_msg m 0)) in H. Qed.

(* ... plus the three bytes of the Topic Alias property *)
Lemma wire_props_alias_len m a :
  len (CodecProps.props_body (wire_props (msg_props true m ++ [PAlias a]))) = CodecMsgP.msg_props_len m + 3.
Proof.
  rewrite <- wire_props_len. unfold CodecProps.props_body. rewrite (proj2 (wire_props_msg m a)), wire_props_snoc.
  cbn [wp_step CodecProps.set_single CodecProps.pr_subid CodecProps.pr_user].
  rewrite !filter_app. cbn [filter fst N.ltb N.compare Pos.compare Pos.compare_cont andb].
  unfold CodecProps.pack_singles. rewrite !app_nil_r, flat_map_app, !len_app. cbn. lia.
Qed.

(* the fixed header: one byte and the remaining length as a variable byte integer *)
Definition fh_len (rl : N) : N := if rl <? 128 then 2 else if rl <? 16384 then 3 else if rl <? 2097152 then 4 else 5.

(* the thresholds are more than 127 apart: a few more bytes make either length field at most one byte longer *)
Lemma fh_len_le a b : b <= a + 127 -> fh_len b <= fh_len a + 1.
Proof.
  unfold fh_len. intros H.
  destruct (N.ltb_spec a 128); [|destruct (N.ltb_spec a 16384); [|destruct (N.ltb_spec a 2097152)]];
    (destruct (N.ltb_spec b 128); [lia|destruct (N.ltb_spec b 16384); [lia|destruct (N.ltb_spec b 2097152); lia]]).
Qed.

Lemma varlen_le a d : d <= 127 -> varlen (a + d) <= varlen a + 1.
Proof.
  unfold varlen. intros H.
  destruct (N.leb_spec a 127); [|destruct (N.leb_spec a 16383); [|destruct (N.leb_spec a 2097151); [|destruct (N.leb_spec a 268435455)]]];
    (destruct (N.leb_spec (a + d) 127); [lia|destruct (N.leb_spec (a + d) 16383); [lia|destruct (N.leb_spec (a + d) 2097151);
       [lia|destruct (N.leb_spec (a + d) 268435455); lia]]]).
Qed.

Lemma leb_ltb_succ a b : (a <=? b) = (a <? N.succ b).
Proof. apply eq_true_iff_eq. rewrite N.leb_le, N.ltb_lt. symmetry. apply N.lt_succ_r. Qed.

(* the size of a v5 PUBLISH as the codec model writes it *)
Lemma wire_len_formula c dup qos ret topic payload pid props n :
  wire_len (OSend c (KPublish dup qos ret topic payload pid props)) = Some n ->
  let pl := len (CodecProps.props_body (wire_props props)) in
  let rl := 2 + len topic + (if (qos =? 1) || (qos =? 2) then 2 else 0) + (varlen pl + pl) + len payload in
  rl < 268435456 /\ n = fh_len rl + rl.
Proof.
  unfold wire_len, CodecPackets.pack, CodecPackets.pack_full. intros H.
  destruct (CodecPackets.pack_body _) as [[[t fl] bytes]| | |] eqn:Epb; cbn [CodecBase.bind] in H; try discriminate.
  destruct (CodecPackets.pack_fixhdr _) as [l| | |] eqn:Eh; cbn [CodecBase.bind] in H; try discriminate.
  injection H as <-.
  apply CodecMsgP.pack_body_publish_len in Epb. cbn [N.eqb Pos.eqb] in Epb. rewrite CodecMsgP.len_props_pack in Epb.
  apply CodecSizeP.pack_fixhdr_len in Eh. cbn [CodecPackets.fh_rl] in Eh. destruct Eh as [Hlt Hl].
  cbv zeta. rewrite <- Epb. split; [exact Hlt|]. rewrite len_app, Hl. reflexivity.
Qed.

Lemma mtb_eq m :
  msg_total_bytes true m =
  (let pl := CodecMsgP.msg_props_len m in
   let rl := len (m_payload m) + 2 + len (m_topic m) + (if 0 <? m_qos m then 2 else 0) + pl + varlen pl in
   (fh_len rl + rl) mod 4294967296).
Proof. unfold msg_total_bytes, fh_len. cbv zeta. rewrite !leb_ltb_succ. reflexivity. Qed.

Lemma qos_pid_bytes q : q <= 2 -> (if (q =? 1) || (q =? 2) then 2 else 0) = (if 0 <? q then 2 else 0).
Proof. intros H. destruct (N.eqb_spec q 0) as [->|E]; [reflexivity|].
  replace ((q =? 1) || (q =? 2)) with true by lia. replace (0 <? q) with true by lia. reflexivity. Qed.

(* sizes: T' is the topic written (the topic or nothing), d the bytes of the alias property (3 or 0).  The packet
   body grows by at most 4 bytes (d and one more byte of Property Length), its header by at most one; nothing
   wraps around in the 32 bits of msg_total_bytes *)
Lemma size_arith P T T' Q pl d :
  T' <= T -> T <= 65535 -> d <= 3 ->
  let rl' := 2 + T' + Q + (varlen (pl + d) + (pl + d)) + P in
  let rl := P + 2 + T + Q + pl + varlen pl in
  rl' < 268435456 ->
  fh_len rl' + rl' <= (fh_len rl + rl) mod 4294967296 + 5 /\
  (d = 0 -> T' = T -> fh_len rl' + rl' = (fh_len rl + rl) mod 4294967296).
Proof.
  intros H1 H2 H3 rl' rl H4.
  assert (Hv : varlen (pl + d) <= varlen pl + 1) by (apply varlen_le; lia).
  assert (Hv4 : varlen pl <= 4) by (unfold varlen; repeat destruct (_ <=? _); lia).
  assert (Hf : fh_len rl' <= fh_len rl + 1) by (apply fh_len_le; unfold rl, rl'; lia).
  assert (Hf5 : fh_len rl <= 5) by (unfold fh_len; repeat destruct (_ <? _); lia).
  rewrite N.mod_small by (unfold rl, rl' in *; lia).
  split; [unfold rl, rl' in *; lia|].
  intros -> ->. subst rl' rl. rewrite !N.add_0_r.
  now replace (2 + T + Q + (varlen pl + pl) + P) with (P + 2 + T + Q + pl + varlen pl) by lia.
Qed.

(* C13 on the wire: a v5 PUBLISH written by write_publish for a message that measures at most the client's
   Maximum Packet Size (what the queue's size filter guarantees for first transmissions: C13_out_size) is at
   most that many bytes as the codec model encodes it - with or without the Topic Alias property *)
Theorem C13_wire_size c k m o n :
  k_v k = 5 -> m_qos m <= 2 -> len (m_topic m) <= 65535 ->
  msg_total_bytes true m <= k_client_max_packet k ->
  In o (snd (write_publish c k m)) -> wire_len o = Some n -> n <= k_client_max_packet k.
Proof.
  intros Hv Hq Ht Hsz Hin Hw. unfold write_publish in Hin. rewrite Hv in Hin. cbn [N.eqb Pos.eqb andb] in Hin.
  rewrite mtb_eq in Hsz. cbv zeta in Hsz.
  destruct ((0 <? k_client_alias_max k) && (msg_total_bytes true m + 5 <=? k_client_max_packet k)) eqn:Ea.
  - apply andb_true_iff in Ea as [_ Ea]. apply N.leb_le in Ea. rewrite mtb_eq in Ea. cbv zeta in Ea.
    destruct (am_check (m_topic m) (k_alias_out k)) as [am' [a ex|]]; cbn [snd] in Hin; [|destruct Hin].
    destruct Hin as [<-|[]]. apply wire_len_formula in Hw. cbv zeta in Hw. destruct Hw as [Hlt ->].
    rewrite (qos_pid_bytes _ Hq) in Hlt |- *.
    assert (Hpl : exists d, d <= 3 /\ len (CodecProps.props_body (wire_props (msg_props true m ++ (if a =? 0 then [] else [PAlias a]))))
                                 = CodecMsgP.msg_props_len m + d).
    { destruct (a =? 0); [exists 0; rewrite app_nil_r, wire_props_len|exists 3; rewrite wire_props_alias_len]; lia. }
    destruct Hpl as (d & Hd & Hpl). rewrite Hpl in Hlt |- *.
    assert (HT : len (if ex then [] else m_topic m) <= len (m_topic m)) by (destruct ex; [unfold len; cbn; lia|lia]).
    destruct (size_arith (len (m_payload m)) (len (m_topic m)) (len (if ex then [] else m_topic m))
                (if 0 <? m_qos m then 2 else 0) (CodecMsgP.msg_props_len m) d HT Ht Hd Hlt) as [Hle _].
    lia.
  - cbn [snd] in Hin. destruct Hin as [<-|[]]. apply wire_len_formula in Hw. cbv zeta in Hw. destruct Hw as [Hlt ->].
    rewrite (qos_pid_bytes _ Hq) in Hlt |- *. rewrite wire_props_len in Hlt |- *.
    pose proof (size_arith (len (m_payload m)) (len (m_topic m)) (len (m_topic m))
                  (if 0 <? m_qos m then 2 else 0) (CodecMsgP.msg_props_len m) 0 (N.le_refl _) Ht ltac:(lia)) as Hs.
    cbv zeta in Hs. rewrite !N.add_0_r in Hs. destruct (Hs Hlt) as [_ Heq].
    rewrite (Heq eq_refl eq_refl). exact Hsz.
Qed.

(* the messages in a session queue are what the decoder lets in: QoS at most 2, a topic of at most 65535 bytes *)
Definition queued_wf (q : queue) : Prop :=
  forall e m, In e (q_l q) -> e_body e = QPub m -> m_qos m <= 2 /\ len (m_topic m) <= 65535.

(* ... and at the level of the poll loop: every PUBLISH a turn writes for a queued message of a v5 connection is,
   as the codec model encodes it, within the client's Maximum Packet Size *)
Theorem C13_out_wire_size w s c k q s' o x n :
  PollInv w s c -> nget c (b_conns s) = Some k -> k_v k = 5 -> k_drained k = true ->
  aget (k_cid k) (b_queues s) = Some q -> queued_wf q ->
  poll_once c s = Some (s', o) -> In x o -> wire_len x = Some n -> n <= k_client_max_packet k.
Proof.
  intros HP Hk Hv Hd Hq Hwf Hp Hx Hw. destruct (PollInv_CQ w s c k q HP Hk Hq) as (inf & que & HCQ).
  destruct (poll_once_cases w c s s' o k q inf que Hk Hq HCQ Hp) as (_ & _ & _ & _ & _ & Hcase).
  destruct Hcase as [Hd' _ _ _|rs Hd' _ _ _ _|ids _ Hh Ho _ _ _ Hq'|ids rs evs pubs q' _ Hh Hr Ho Hrs Hpubs Hevs Hc _]; try congruence.
  - subst o. contradiction.
  - subst o. apply in_app_or in Hx. destruct Hx as [Hx|Hx].
    { apply In_drops_of in Hx. destruct Hx as (m & r & ->). discriminate. }
    destruct (Forall2_in_r _ _ _ _ Hpubs Hx) as (r & Hr' & m & Hb & _ & _ & k0 & Hss & Hin).
    rewrite Forall_forall in Hrs. destruct (Hrs r Hr') as (v & m0 & Hvq & Hbv & Hsz & _ & _ & Hcs).
    assert (Hin_q : In v (q_l q)) by (rewrite (qi_l _ _ _ _ (cq_q _ _ _ _ _ _ HCQ)); apply in_or_app; now right).
    destruct (Hwf v m0 Hin_q Hbv) as [Hq2 Ht].
    destruct Hss as (_ & Hv0 & _ & _ & HL0 & _).
    destruct (aged_fields (k_v k =? 5) (b_now s) r m) as (_ & A2 & _ & A4 & _ & _).
    rewrite Hv in Hsz. cbn [N.eqb Pos.eqb] in Hsz.
    assert (Hm : m_qos m = m_qos m0 /\ m_topic m = m_topic m0 /\ msg_total_bytes true m = msg_total_bytes true m0).
    { destruct Hcs as [[_ ->]|(_ & p & _ & Hbr)].
      - rewrite Hbv in Hb. now inversion Hb.
      - rewrite Hbr in Hb. inversion Hb; subst m. auto. }
    destruct Hm as (M1 & M2 & M3).
    rewrite <- HL0. apply (C13_wire_size c k0 (aged (k_v k =? 5) (b_now s) r m) x n); try assumption.
    + congruence.
    + now rewrite A2, M1.
    + now rewrite A4, M2.
    + now rewrite total_bytes_aged, M3, HL0.
Qed.
