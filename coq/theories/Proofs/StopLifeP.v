(* C15 - theorems about Model/StopLife.v, over the reachable set computed in Coq.
   Two instances (ctx_may_expire false / true); two callers, two connections; search depth
   <= sfuel = 100 levels. *)
From Coq Require Import List Arith Bool PArith Lia.
Import ListNotations.
From GM Require Import Gen.StopOrder Model.StopLife Proofs.FiniteSys Proofs.ConnLifeP.

Definition scode (s : sst) : positive := enc (sfields s).

Lemma scode_inj : forall s s', scode s = scode s' -> s = s'.
Proof. enc_fields_inj. Qed.

Definition sfuel := 100.
Definition sexplored (expire : bool) := explore snext scode sfuel (sinit expire).
Definition sreach (expire : bool) : list sst :=
  match sexplored expire with Some l => l | None => [] end.

Definition sreachable (expire : bool) : sst -> Prop := reachable_from snext (sinit expire).

Definition all2 (f : bool -> bool) : bool := f false && f true.

Lemma all2_iff f : all2 f = true <-> forall b, f b = true.
Proof.
  unfold all2. rewrite andb_true_iff. split.
  - intros [H1 H2] b. now destruct b.
  - auto.
Qed.

Definition sinv (s : sst) : bool :=
  at_most_once s && exactly_once_on_return s && order_ok s && listed_closed_on_return s.

Definition sinv2 (s : sst) : bool :=
  registered_is_listed s && none_registered_on_return s && all_closed_or_unserved s && none_served_after_snapshot s.

(* a context that cannot expire never "expires" *)
Definition ctx_inv (s : sst) : bool := negb (ctx s).

(* with a context that does not expire, Stop always returns nil: every maximal run ends with both
   calls returned, no timeout, Unload and OnStop exactly once, listeners and exitedChan closed *)
Definition nil_end (s : sst) : bool :=
  both_returned s && negb (ctx s) && Nat.eqb (unl s) 1 && Nat.eqb (ons s) 1 && exited s && negb (lst s).

(* the listeners are closed (O1) before the snapshot (O2) in the model as well: a state in which the
   owner is past O1 has no open listener *)
Definition listeners_closed_inv (s : sst) : bool :=
  let past (pc : nat) := negb (Nat.eqb pc C0) && negb (Nat.eqb pc O1) && negb (Nat.eqb pc C8) && negb (Nat.eqb pc C9) in
  negb (past (cA s) || past (cB s)) || negb (lst s).

(* where a run of the instance `expire` may end: both calls returned and every accepted connection
   closed; with a context that cannot expire also nil_end *)
Definition send (expire : bool) (s : sst) : bool := all_over s && (expire || nil_end s).

(* transition checks: nobody registers, and no connection starts being served, once exit() has run *)
Definition no_late (s s' : sst) : bool := no_late_registration s s' && no_late_service s s'.

(* everything that is checked of a state of the instance `expire`, so that the one evaluation
   below serves all theorems *)
Definition schecks (expire : bool) (s : sst) : bool :=
  sinv s && sinv2 s && listeners_closed_inv s && (expire || ctx_inv s)
  && stepb snext smeasure (send expire) s && forallb (no_late s) (snext s).

(* stated of the body of `sexplored`, which is unfolded by hand where it is met (see ConnLifeP.explored_ok) *)
Lemma sexplored_ok : all2 (fun b => checkb (schecks b) (explore snext scode sfuel (sinit b))) = true.
Proof. vm_compute. reflexivity. Qed.

Lemma sexplored_some : all2 (fun b => is_some (sexplored b)) = true.
Proof.
  apply all2_iff. intros b. unfold sexplored.
  exact (checkb_some _ _ (proj1 (all2_iff _) sexplored_ok b)).
Qed.

Lemma schecks_spec b s : schecks b s = true ->
  sinv s = true /\ sinv2 s = true /\ listeners_closed_inv s = true /\ b || ctx_inv s = true /\
  stepb snext smeasure (send b) s = true /\ forall s', In s' (snext s) -> no_late s s' = true.
Proof. unfold schecks. rewrite !andb_true_iff, forallb_forall. tauto. Qed.

Lemma sreachable_checks b s : sreachable b s -> schecks b s = true.
Proof. exact (checkb_sound snext scode scode_inj (schecks b) sfuel (sinit b) (proj1 (all2_iff _) sexplored_ok b) s). Qed.

(* back on the computed lists: a predicate that every checked state satisfies holds on all of `sreach b` *)
Lemma sreach_inv b (inv : sst -> bool) : (forall s, schecks b s = true -> inv s = true) ->
  invb_of inv (sreach b) = true.
Proof.
  intros W. unfold sreach, sexplored.
  exact (checkb_list (schecks b) inv _ W (proj1 (all2_iff _) sexplored_ok b)).
Qed.

Lemma sctx_ok : invb_of ctx_inv (sreach false) = true.
Proof. apply sreach_inv. intros s H. now apply schecks_spec in H as (_ & _ & _ & H & _). Qed.

Lemma listeners_closed_ok : all2 (fun b => invb_of listeners_closed_inv (sreach b)) = true.
Proof.
  apply all2_iff. intros b. apply sreach_inv. intros s H. now apply schecks_spec in H as (_ & _ & H & _).
Qed.

(* all state and transition invariants of a reachable state, spelt out *)
Theorem stop_invariants : forall expire s, sreachable expire s ->
  (at_most_once s = true /\ exactly_once_on_return s = true /\ order_ok s = true /\ listed_closed_on_return s = true) /\
  (registered_is_listed s = true /\ none_registered_on_return s = true /\
   all_closed_or_unserved s = true /\ none_served_after_snapshot s = true) /\
  (forall s', In s' (snext s) -> no_late_registration s s' = true /\ no_late_service s s' = true).
Proof.
  intros b s R. destruct (schecks_spec b s (sreachable_checks b s R)) as (H1 & H2 & _ & _ & _ & N).
  unfold sinv in H1. unfold sinv2 in H2. rewrite !andb_true_iff in H1, H2.
  split; [tauto|]. split; [tauto|]. intros s' Hin. now apply N, andb_true_iff in Hin.
Qed.

(* Unload and OnStop run at most once in any run, whatever the number of Stop calls; once some Stop
   call has returned without context expiry, each has run exactly once *)
Theorem stop_once :
  forall expire s, sreachable expire s ->
    (unl s <= 1 /\ ons s <= 1) /\
    (returned s = true -> ctx s = false -> unl s = 1 /\ ons s = 1 /\ exited s = true /\ lst s = false).
Proof.
  intros b s R. destruct (stop_invariants b s R) as ((H1 & H2 & _) & _). split.
  - unfold at_most_once in H1. now rewrite andb_true_iff, !Nat.leb_le in H1.
  - intros Hr Hc. unfold exactly_once_on_return in H2. rewrite Hr, Hc in H2. cbn in H2.
    rewrite !andb_true_iff, !Nat.eqb_eq, negb_true_iff in H2. tauto.
Qed.

Lemma stop_ends : forall expire s, sreachable expire s -> ends_in snext (fun s => send expire s = true) s.
Proof.
  intros b.
  assert (H : forall s, sreachable b s ->
                (snext s = [] -> send b s = true) /\ forall s', In s' (snext s) -> smeasure s' < smeasure s).
  { intros s R. apply stepb_spec, (schecks_spec b s (sreachable_checks b s R)). }
  apply all_runs_end with (measure := smeasure); intros s; [intros R | intros s' R]; apply (H s R).
Qed.

(* no connection stays open for ever: every maximal run is finite and ends with both Stop calls
   returned and every accepted connection closed *)
Theorem stop_all_over : forall expire s, sreachable expire s ->
  ends_in snext (fun s => all_over s = true) s.
Proof.
  intros b s R. apply ends_in_weaken with (2 := stop_ends b s R).
  intros s' H. now apply andb_true_iff in H.
Qed.

(* every maximal run is finite and ends with every Stop call returned; with a context that does not
   expire, Stop returns nil *)
Theorem stop_terminates_both :
  (forall expire s, sreachable expire s -> ends_in snext (fun s => both_returned s = true) s) /\
  (forall s, sreachable false s -> ends_in snext (fun s => nil_end s = true) s).
Proof.
  split.
  - intros b s R. apply ends_in_weaken with (2 := stop_all_over b s R).
    intros s' H. unfold all_over in H. rewrite !andb_true_iff in H. tauto.
  - intros s R. apply ends_in_weaken with (2 := stop_ends false s R).
    intros s' H. now apply andb_true_iff in H.
Qed.

(* FULL statement about the connections Stop is responsible for: when a Stop call has returned without
   timeout, every connection that was in srv.clients or srv.connecting when Stop listed them -
   registered or not - is closed (and Unload/OnStop came after that); after the locked block every
   registered connection is a listed one, and none is registered once Stop has returned; and no
   transition registers a connection after exit() *)
Theorem stop_closes_all :
  forall expire s, sreachable expire s ->
    listed_closed_on_return s = true /\ order_ok s = true /\
    registered_is_listed s = true /\ none_registered_on_return s = true /\
    (forall s', In s' (snext s) -> no_late_registration s s' = true).
Proof.
  intros b s R. destruct (stop_invariants b s R) as ((_ & _ & H1 & H2) & (H3 & H4 & _) & N).
  repeat split; try assumption. intros s' Hin. apply N, Hin.
Qed.

(* the strongest true form of "Stop leaves no connection behind": when a Stop call has returned
   without timeout every listed connection is closed (waited for), and every other connection is
   gone, not yet recorded (KA: the transition that records it closes it) or closed by addConnecting
   and winding down (KX); once the locked block has run NO connection is served, and no transition
   starts serving a connection after exit() *)
Theorem stop_all_closed :
  forall expire s, sreachable expire s ->
    listed_closed_on_return s = true /\ all_closed_or_unserved s = true /\
    none_served_after_snapshot s = true /\
    (forall s', In s' (snext s) -> no_late_service s s' = true).
Proof.
  intros b s R. destruct (stop_invariants b s R) as ((_ & _ & _ & H1) & (_ & _ & H2 & H3) & N).
  repeat split; try assumption. intros s' Hin. apply N, Hin.
Qed.

(* honest remainder (not a defect of the statement above): Stop does not WAIT for a connection that
   is recorded after its locked block - it has been closed by addConnecting, is never served, and its
   goroutines end on their own right after; so "all goroutines have exited when Stop returns" holds
   only up to these *)
Definition run_late_recorded : list nat := [2; 1; 1; 1; 1; 1; 1; 1].

Lemma run_late_recorded_ok :
  reaches snext (fun s => late_recorded_not_waited_for s && negb (all_closed_on_return s) && Nat.eqb (unl s) 1
                     && negb (served (k1 s)) && negb (served (k2 s)))
           run_late_recorded (sinit false) = true.
Proof. vm_compute. reflexivity. Qed.

Theorem stop_does_not_wait_for_late_recorded :
  exists s, sreachable false s /\ returned s = true /\ ctx s = false /\ all_closed_on_return s = false
            /\ late_recorded_not_waited_for s = true.
Proof.
  destruct (reaches_spec _ _ _ _ run_late_recorded_ok) as [s [R H]].
  rewrite !andb_true_iff, !negb_true_iff in H. destruct H as [[[[Hk Ha] _] _] _].
  pose proof Hk as Hk'. unfold late_recorded_not_waited_for in Hk'. rewrite !andb_true_iff, negb_true_iff in Hk'.
  exists s. split; [exact R | tauto].
Qed.

(* not a defect, the documented "force exit": when the caller's context expires while connections
   are still winding down, Stop returns ctx.Err() and Unload / OnStop are skipped.  This is the only
   way left in the model for Stop to return an error (stop_terminates_both). *)
Definition run_stop_timeout : list nat := [1; 1; 1; 2; 1].

Lemma run_stop_timeout_ok :
  reaches snext (fun s => returned s && ctx s && Nat.eqb (unl s) 0 && Nat.eqb (ons s) 0) run_stop_timeout (sinit true) = true.
Proof. vm_compute. reflexivity. Qed.

Theorem stop_timeout_skips_unload :
  exists s, sreachable true s /\ returned s = true /\ ctx s = true /\ unl s = 0 /\ ons s = 0.
Proof.
  destruct (reaches_spec _ _ _ _ run_stop_timeout_ok) as [s [R H]].
  rewrite !andb_true_iff, !Nat.eqb_eq in H. exists s. split; [exact R | tauto].
Qed.

(* non-vacuity: a run with two registered connections, two Stop calls, everything closed,
   Unload and OnStop exactly once *)
Definition run_clean : list nat := [2; 0; 4; 2; 0; 4; 0; 2; 1; 0; 0; 0; 0; 0].

Lemma run_clean_ok :
  reaches snext (fun s => both_returned s && Nat.eqb (unl s) 1 && Nat.eqb (ons s) 1 && Nat.eqb (k1 s) KD && Nat.eqb (k2 s) KD && w1 s && w2 s)
           run_clean (sinit false) = true.
Proof. vm_compute. reflexivity. Qed.

Theorem stop_clean_run_exists :
  exists s, sreachable false s /\ both_returned s = true /\ unl s = 1 /\ ons s = 1 /\ k1 s = KD /\ k2 s = KD.
Proof.
  destruct (reaches_spec _ _ _ _ run_clean_ok) as [s [R H]].
  rewrite !andb_true_iff, !Nat.eqb_eq in H. exists s. split; [exact R | tauto].
Qed.

Lemma search_complete : is_some ConnLifeP.explored = true /\ all2 (fun b => is_some (sexplored b)) = true.
Proof. exact (conj ConnLifeP.explored_some sexplored_some). Qed.

(* Gen/StopOrder.v is the sequence of operations of the body of stopOnce.Do in source order. *)

Definition op_code (o : stop_op) : nat :=
  match o with
  | SDeferCloseExited => 0 | SExit => 1 | SCloseListeners => 2 | SShutdownWebsockets => 3 | SLock => 4
  | SSnapshotCloseClients => 5 | SUnlock => 6 | SStartWaiter => 7 | SWait => 8 | SUnload => 9 | SOnStop => 10
  | SSnapshotCloseConnecting => 11
  end.

Lemma op_code_inj a b : op_code a = op_code b -> a = b.
Proof. destruct a, b; cbn; intros H; try reflexivity; discriminate. Qed.

Definition op_eqb (a b : stop_op) : bool := Nat.eqb (op_code a) (op_code b).

Fixpoint split_at (a : stop_op) (l : list stop_op) : option (list stop_op * list stop_op) :=
  match l with
  | [] => None
  | x :: tl => if op_eqb x a then Some ([], tl)
               else match split_at a tl with Some (l1, l2) => Some (x :: l1, l2) | None => None end
  end.

Lemma split_at_spec a : forall l l1 l2, split_at a l = Some (l1, l2) -> l = l1 ++ a :: l2.
Proof.
  induction l as [|x tl IH]; intros l1 l2 H; cbn in H; [discriminate|].
  destruct (op_eqb x a) eqn:E.
  - inversion H; subst. apply Nat.eqb_eq in E. apply op_code_inj in E. now subst.
  - destruct (split_at a tl) as [[m1 m2]|] eqn:S; [|discriminate]. inversion H; subst.
    cbn. f_equal. now apply IH.
Qed.

Definition before (a b : stop_op) (l : list stop_op) : Prop :=
  exists l1 l2 l3, l = l1 ++ a :: l2 ++ b :: l3.

Definition beforeb (a b : stop_op) (l : list stop_op) : bool :=
  match split_at a l with
  | Some (_, r) => match split_at b r with Some _ => true | None => false end
  | None => false
  end.

Lemma beforeb_spec a b l : beforeb a b l = true -> before a b l.
Proof.
  unfold beforeb, before. destruct (split_at a l) as [[l1 r]|] eqn:S1; [|discriminate].
  destruct (split_at b r) as [[l2 l3]|] eqn:S2; [|discriminate]. intros _.
  apply split_at_spec in S1. apply split_at_spec in S2. exists l1, l2, l3. now subst.
Qed.

Definition count_op (a : stop_op) (l : list stop_op) : nat := List.length (filter (op_eqb a) l).

(* the required order, as pairs (earlier, later) *)
Definition required_order : list (stop_op * stop_op) :=
  [ (SDeferCloseExited, SExit);            (* the deferred close(exitedChan) is registered first: it runs on every return *)
    (SExit, SSnapshotCloseClients);        (* no new accept loops ... *)
    (SCloseListeners, SSnapshotCloseClients);      (* ... and no new connections before the clients are listed *)
    (SShutdownWebsockets, SSnapshotCloseClients);
    (SLock, SSnapshotCloseClients); (SSnapshotCloseClients, SUnlock);   (* the snapshot is taken under srv.mu *)
    (SExit, SSnapshotCloseConnecting); (SCloseListeners, SSnapshotCloseConnecting);
    (SShutdownWebsockets, SSnapshotCloseConnecting);                    (* the same for the unregistered connections *)
    (SLock, SSnapshotCloseConnecting); (SSnapshotCloseConnecting, SUnlock);
    (SUnlock, SStartWaiter); (SStartWaiter, SWait); (SUnlock, SWait);   (* the wait is outside srv.mu *)
    (SWait, SUnload); (SUnload, SOnStop) ].                             (* plugins and OnStop after the wait *)

Lemma required_order_ok : forallb (fun p => beforeb (fst p) (snd p) stop_ops) required_order = true.
Proof. vm_compute. reflexivity. Qed.

Theorem stop_order :
  (forall o, count_op o stop_ops = 1) /\
  (forall a b, In (a, b) required_order -> before a b stop_ops).
Proof.
  split.
  - intros o. destruct o; reflexivity.
  - intros a b Hin. apply beforeb_spec. exact (proj1 (forallb_forall _ _) required_order_ok (a, b) Hin).
Qed.

(* the readable core of it *)
Corollary stop_order_core :
  before SExit SSnapshotCloseClients stop_ops /\ before SCloseListeners SSnapshotCloseClients stop_ops /\
  before SShutdownWebsockets SSnapshotCloseClients stop_ops /\
  before SLock SSnapshotCloseClients stop_ops /\ before SSnapshotCloseClients SUnlock stop_ops /\
  before SExit SSnapshotCloseConnecting stop_ops /\ before SCloseListeners SSnapshotCloseConnecting stop_ops /\
  before SShutdownWebsockets SSnapshotCloseConnecting stop_ops /\
  before SLock SSnapshotCloseConnecting stop_ops /\ before SSnapshotCloseConnecting SUnlock stop_ops /\
  before SUnlock SWait stop_ops /\ before SWait SUnload stop_ops /\ before SUnload SOnStop stop_ops.
Proof.
  destruct stop_order as [_ H]. repeat split; apply H; cbn; auto 20.
Qed.

(* the model's order IS the source's order: mapping every operation to the program counter of
   Model/StopLife.v that stands for it and merging equal neighbours gives exactly owner_phases *)
Definition phase (o : stop_op) : option nat :=
  match o with
  | SDeferCloseExited => None
  | SExit | SCloseListeners | SShutdownWebsockets => Some O1
  | SLock | SSnapshotCloseClients | SSnapshotCloseConnecting | SUnlock => Some O2
  | SStartWaiter | SWait => Some O3
  | SUnload => Some O4
  | SOnStop => Some O5
  end.

Fixpoint phases (l : list stop_op) : list nat :=
  match l with
  | [] => []
  | o :: tl => match phase o with
               | None => phases tl
               | Some p => match phases tl with
                           | q :: r => if Nat.eqb p q then q :: r else p :: q :: r
                           | [] => [p]
                           end
               end
  end.

Theorem stop_order_is_model_order : phases stop_ops = owner_phases.
Proof. vm_compute. reflexivity. Qed.

(* and the model's owner does go through owner_phases in this order *)
Lemma owner_follows_phases : forall a s s', In s' (step_caller a s) ->
  (caller a s = O1 -> caller a s' = O2) /\
  (caller a s = O2 -> caller a s' = O3) /\
  (caller a s = O3 -> caller a s' = O4 \/ caller a s' = O7) /\
  (caller a s = O4 -> caller a s' = O5 /\ unl s' = S (unl s)) /\
  (caller a s = O5 -> caller a s' = O6 /\ ons s' = S (ons s)).
Proof.
  intros a s s' Hin. unfold step_caller in Hin.
  split; [|split; [|split; [|split]]]; intros Hc; rewrite Hc in Hin; cbn in Hin.
  - destruct Hin as [<-|[]]. destruct a; reflexivity.
  - destruct Hin as [<-|[]]. destruct a; reflexivity.
  - apply in_app_or in Hin as [Hin|Hin].
    + destruct ((negb (w1 s) || Nat.eqb (k1 s) 3) && (negb (w2 s) || Nat.eqb (k2 s) 3)); cbn in Hin; [|contradiction].
      destruct Hin as [<-|[]]. left. destruct a; reflexivity.
    + destruct (ctx_may_expire s); cbn in Hin; [|contradiction].
      destruct Hin as [<-|[]]. right. destruct a; reflexivity.
  - destruct Hin as [<-|[]]. destruct a; split; reflexivity.
  - destruct Hin as [<-|[]]. destruct a; split; reflexivity.
Qed.

Theorem stop_order_all :
  ((forall o, count_op o stop_ops = 1) /\ (forall a b, In (a, b) required_order -> before a b stop_ops)) /\
  phases stop_ops = owner_phases.
Proof. exact (conj stop_order stop_order_is_model_order). Qed.
