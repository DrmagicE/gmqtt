(* C01 / C11 (broker level): what `deliver` (deliverMessage + flush + addMsgToQueueLocked of
   server/server.go) does to the session queues, for all states; the acknowledgement part
   of `handle_publish`. *)
From Coq Require Import List NArith ZArith Bool Arith Lia ZifyN ZifyNat ZifyBool Sorted.
Import ListNotations.
From GM Require Import Base.Topic Base.Msg Model.SubTrie Model.SubSpec Model.RetTrie Model.Queue Model.Limiter
  Model.TopicMatch Model.Broker Proofs.ListP Proofs.TopicP Proofs.SubTrieP Proofs.BrokerBasicP.
Open Scope N_scope.

Lemma conn_eta (k : conn) :
  {| k_cid := k_cid k; k_v := k_v k; k_phase := k_phase k; k_max_inflight := k_max_inflight k;
     k_client_max_packet := k_client_max_packet k; k_client_alias_max := k_client_alias_max k;
     k_server_alias_max := k_server_alias_max k; k_recv_max := k_recv_max k; k_keepalive := k_keepalive k;
     k_session_expiry := k_session_expiry k; k_retain_avail := k_retain_avail k; k_wildcard := k_wildcard k;
     k_subid := k_subid k; k_shared := k_shared k; k_lim := k_lim k; k_held := k_held k;
     k_alias_out := k_alias_out k; k_alias_in := k_alias_in k; k_alias_in_size := k_alias_in_size k;
     k_quota := k_quota k; k_clean_will := k_clean_will k; k_disc_sei := k_disc_sei k;
     k_got_disconnect := k_got_disconnect k; k_force_remove := k_force_remove k; k_drained := k_drained k |} = k.
Proof. destruct k; reflexivity. Qed.

(* the oracle-resolved random choices: the only fields `take_pick` touches *)
Definition set_pk (p : list nat) (n : N) (s : st) : st :=
  {| b_cfg := b_cfg s; b_hooks := b_hooks s; b_now := b_now s; b_rt := b_rt s; b_sessions := b_sessions s;
     b_online := b_online s; b_offline := b_offline s; b_wills := b_wills s; b_subs := b_subs s; b_ret := b_ret s;
     b_queues := b_queues s; b_unacks := b_unacks s; b_conns := b_conns s; b_picks := p; b_tag := b_tag s;
     b_auto := b_auto s; b_npick := n |}.

Lemma set_pk_id (s : st) : set_pk (b_picks s) (b_npick s) s = s.
Proof. destruct s; reflexivity. Qed.

Lemma set_pk_set_pk p n p' n' s : set_pk p n (set_pk p' n' s) = set_pk p n s.
Proof. reflexivity. Qed.

Lemma take_pick_set_pk (n : nat) (s : st) : exists i p k, take_pick n s = (i, set_pk p k s).
Proof.
  unfold take_pick. destruct (b_picks s) as [|x r] eqn:E.
  - exists 0%nat, [], (b_npick s + 1). unfold count_pick, set_pk. now rewrite E.
  - exists (x mod Nat.max n 1)%nat, r, (b_npick s + 1). reflexivity.
Qed.

Lemma take_pick_lt (n : nat) (s : st) : (1 <= n)%nat -> (fst (take_pick n s) < n)%nat.
Proof.
  intros H. unfold take_pick. destruct (b_picks s) as [|x r]; cbn [fst]; [exact H|].
  rewrite (Nat.max_l n 1 H). apply Nat.mod_upper_bound. intros ->. inversion H.
Qed.

Definition nz (i : N) : bool := negb (i =? 0).

(* the copy queued for a subscription `sb`, carrying the identifiers `ids` *)
Definition copy_of (m : msg) (sb : sub) (ids : list N) : msg :=
  with_qos_etc m (if s_qos sb <? m_qos m then s_qos sb else m_qos m) (filter nz ids) (m_retained m && s_rap sb).

Definition aq_expiry (m' : msg) (s : st) : option N :=
  let now := b_now s in
  let ce := c_message_expiry (b_cfg s) in
  if negb (ce =? 0) then
    if negb (m_expiry m' =? 0) && (m_expiry m' <=? ce) then Some (now + m_expiry m' * 1000)
    else Some (now + ce * 1000)
  else if negb (m_expiry m' =? 0) then Some (now + m_expiry m' * 1000) else None.

Definition aq_elem (m : msg) (sb : sub) (ids : list N) (tag : N) (s : st) : elem :=
  {| e_tag := tag; e_at := b_now s; e_expiry := aq_expiry (copy_of m sb ids) s; e_body := QPub (copy_of m sb ids) |}.

(* the queue_qos0 rule: a QoS 0 message for an offline session is skipped *)
Definition aq_skip (cid : str) (m : msg) (s : st) : bool :=
  negb (c_queue_qos0 (b_cfg s)) && negb (ahas cid (b_online s)) && (m_qos m =? 0).

Definition q_push (e : elem) (q : queue) : queue := q_set (q_l q ++ [e]) (q_cur q) (q_drained q) q.

Definition enq (cid : str) (q' : queue) (s : st) : st :=
  set_picks_tag (b_picks s) (b_tag s + 1) (set_queues (aset cid q' (b_queues s)) s).

Lemma add_to_queue_unfold cid m sb ids s :
  add_to_queue cid m sb ids s =
  match aget cid (b_queues s) with
  | None => (s, [])
  | Some q =>
      if aq_skip cid m s then (s, [])
      else match q_add (b_now s) (aq_elem m sb ids (b_tag s) s) q with
           | QOk (q', evs) => (release_dropped cid evs (enq cid q' s), drops_of cid evs)
           | _ => (s, [])
           end
  end.
Proof. reflexivity. Qed.

Lemma add_to_queue_cases cid m sb ids s :
  add_to_queue cid m sb ids s = (s, []) \/
  exists q q' evs,
    aget cid (b_queues s) = Some q /\ aq_skip cid m s = false /\
    q_add (b_now s) (aq_elem m sb ids (b_tag s) s) q = QOk (q', evs) /\
    add_to_queue cid m sb ids s = (release_dropped cid evs (enq cid q' s), drops_of cid evs).
Proof.
  rewrite add_to_queue_unfold. destruct (aget cid (b_queues s)) as [q|]; [|now left].
  destruct (aq_skip cid m s); [now left|].
  destruct (q_add (b_now s) (aq_elem m sb ids (b_tag s) s) q) as [[q' evs]| | |] eqn:E; try now left.
  right. now exists q, q', evs.
Qed.

Lemma copy_qos m sb ids : m_qos (copy_of m sb ids) = N.min (m_qos m) (s_qos sb).
Proof. unfold copy_of. cbn [with_qos_etc m_qos]. destruct (s_qos sb <? m_qos m) eqn:E; lia. Qed.
Lemma copy_retained m sb ids : m_retained (copy_of m sb ids) = m_retained m && s_rap sb.
Proof. reflexivity. Qed.
Lemma copy_subids m sb ids : m_subids (copy_of m sb ids) = m_subids m ++ filter nz ids.
Proof. reflexivity. Qed.
Lemma copy_dup m sb ids : m_dup (copy_of m sb ids) = false.
Proof. reflexivity. Qed.
Lemma copy_rest m sb ids :
  m_topic (copy_of m sb ids) = m_topic m /\ m_payload (copy_of m sb ids) = m_payload m /\
  m_pid (copy_of m sb ids) = m_pid m /\ m_ctype (copy_of m sb ids) = m_ctype m /\
  m_corr (copy_of m sb ids) = m_corr m /\ m_expiry (copy_of m sb ids) = m_expiry m /\
  m_pfmt (copy_of m sb ids) = m_pfmt m /\ m_resp (copy_of m sb ids) = m_resp m /\
  m_uprops (copy_of m sb ids) = m_uprops m.
Proof. repeat split. Qed.

Lemma nset_keys {V} (c : N) (k k' : V) (l : list (N * V)) : nget c l = Some k -> map fst (nset c k' l) = map fst l.
Proof.
  induction l as [|[c0 v0] r IH]; cbn [nget nset]; intros H; [discriminate|].
  destruct (c =? c0) eqn:E; cbn [map fst].
  - apply N.eqb_eq in E. now subst.
  - now rewrite IH.
Qed.

(* release_dropped rewrites at most the connection the session is attached to *)
Lemma release_dropped_upd cid evs s :
  release_dropped cid evs s = s \/
  exists c k k', nget c (b_conns s) = Some k /\ release_dropped cid evs s = upd_conn c k' s.
Proof.
  unfold release_dropped. destruct (aget cid (b_online s)) as [c|]; [|now left].
  destruct (nget c (b_conns s)) as [k|] eqn:E; [|now left].
  right. exists c, k. eexists. split; [exact E|reflexivity].
Qed.

Lemma fold_lim_noop (evs : list qev) : forall (l : lim),
  (forall el, ~ In (EvDropped el DExpiredInflight) evs) ->
  fold_left (fun l e => match e with
                        | EvDropped el DExpiredInflight => lim_release (e_id el) l
                        | _ => l
                        end) evs l = l.
Proof.
  induction evs as [|e r IH]; intros l H; cbn [fold_left]; [reflexivity|].
  assert (Hr : forall el, ~ In (EvDropped el DExpiredInflight) r).
  { intros el Hin. apply (H el). now right. }
  destruct e as [el rs| |]; try now apply IH.
  destruct rs; try now apply IH.
  exfalso. apply (H el). now left.
Qed.

Lemma release_dropped_noop cid evs s :
  (forall el, ~ In (EvDropped el DExpiredInflight) evs) -> release_dropped cid evs s = s.
Proof.
  intros H. unfold release_dropped. destruct (aget cid (b_online s)) as [c|]; [|reflexivity].
  destruct (nget c (b_conns s)) as [k|] eqn:E; [|reflexivity].
  rewrite (fold_lim_noop evs (k_lim k) H). rewrite conn_eta. now apply upd_conn_id.
Qed.

Lemma q_add_room now e q : (length (q_l q) < q_max q)%nat -> q_add now e q = QOk (q_push e q, [EvQueue 1]).
Proof.
  intros H. unfold q_add. destruct (q_max q <=? length (q_l q))%nat eqn:E; [|reflexivity].
  apply Nat.leb_le in E. lia.
Qed.

Lemma add_to_queue_noqueue cid m sb ids s : aget cid (b_queues s) = None -> add_to_queue cid m sb ids s = (s, []).
Proof. intros H. rewrite add_to_queue_unfold, H. reflexivity. Qed.

Lemma add_to_queue_skipped cid m sb ids s : aq_skip cid m s = true -> add_to_queue cid m sb ids s = (s, []).
Proof. intros H. rewrite add_to_queue_unfold, H. destruct (aget cid (b_queues s)); reflexivity. Qed.

(* room in the queue, not skipped: the copy is appended, nothing is dropped *)
Lemma add_to_queue_room cid m sb ids s q :
  aget cid (b_queues s) = Some q -> aq_skip cid m s = false -> (length (q_l q) < q_max q)%nat ->
  add_to_queue cid m sb ids s = (enq cid (q_push (aq_elem m sb ids (b_tag s) s) q) s, []).
Proof.
  intros Hq Hs Hr. rewrite add_to_queue_unfold, Hq, Hs, (q_add_room _ _ _ Hr).
  rewrite release_dropped_noop; [reflexivity|].
  intros el [H|[]]. discriminate.
Qed.

Definition is_dropped_of (cid : str) (o : out) : Prop := exists m r, o = ODropped cid m r.

Lemma drops_of_only cid evs : Forall (is_dropped_of cid) (drops_of cid evs).
Proof.
  unfold drops_of. induction evs as [|e r IH]; cbn [flat_map]; [constructor|].
  apply Forall_app. split; [|exact IH].
  destruct e as [el rs| |]; try constructor.
  destruct (e_body el) as [m|p]; constructor; [|constructor]. now exists m, rs.
Qed.

(* what add_to_queue does in every case (drops included) *)
Lemma add_to_queue_frame cid m sb ids s :
  let s' := fst (add_to_queue cid m sb ids s) in
  b_cfg s' = b_cfg s /\ b_hooks s' = b_hooks s /\ b_now s' = b_now s /\ b_rt s' = b_rt s /\
  b_sessions s' = b_sessions s /\ b_online s' = b_online s /\ b_offline s' = b_offline s /\
  b_wills s' = b_wills s /\ b_subs s' = b_subs s /\ b_ret s' = b_ret s /\
  b_unacks s' = b_unacks s /\ b_picks s' = b_picks s /\ b_auto s' = b_auto s /\ b_npick s' = b_npick s /\
  map fst (b_conns s') = map fst (b_conns s) /\
  (b_tag s <= b_tag s' <= b_tag s + 1) /\
  (forall c', c' <> cid -> aget c' (b_queues s') = aget c' (b_queues s)) /\
  (forall c', ahas c' (b_queues s') = ahas c' (b_queues s)) /\
  Forall (is_dropped_of cid) (snd (add_to_queue cid m sb ids s)).
Proof.
  destruct (add_to_queue_cases cid m sb ids s) as [->|(q & q' & evs & Hq & _ & _ & ->)]; cbn [fst snd].
  { repeat split; auto; lia. }
  assert (Hhas : forall c', ahas c' (aset cid q' (b_queues s)) = ahas c' (b_queues s)).
  { intros c'. rewrite ahas_aset. destruct (str_eqb_spec c' cid) as [->|Hne]; [|reflexivity].
    unfold ahas. now rewrite Hq. }
  (* the fields of enq, and of upd_conn over it, compute *)
  destruct (release_dropped_upd cid evs (enq cid q' s)) as [->|(c & k & k' & Hk & ->)]; cbn;
    repeat split; try reflexivity; try exact Hhas; try apply drops_of_only;
    try (intros c' Hc; now apply aget_aset_other); try lia.
  eapply nset_keys. exact Hk.
Qed.

(* add_to_queue neither reads nor writes the random choices *)
Lemma release_dropped_set_pk cid evs p n s :
  release_dropped cid evs (set_pk p n s) = set_pk p n (release_dropped cid evs s).
Proof.
  unfold release_dropped. cbn [set_pk b_online b_conns].
  destruct (aget cid (b_online s)) as [c|]; [|reflexivity].
  destruct (nget c (b_conns s)) as [k|]; reflexivity.
Qed.

Lemma add_to_queue_set_pk cid m sb ids p n s :
  add_to_queue cid m sb ids (set_pk p n s) =
  (set_pk p n (fst (add_to_queue cid m sb ids s)), snd (add_to_queue cid m sb ids s)).
Proof.
  rewrite !add_to_queue_unfold. cbn [set_pk b_queues].
  destruct (aget cid (b_queues s)) as [q|]; [|reflexivity].
  change (aq_skip cid m (set_pk p n s)) with (aq_skip cid m s).
  destruct (aq_skip cid m s); [reflexivity|].
  change (aq_elem m sb ids (b_tag (set_pk p n s)) (set_pk p n s)) with (aq_elem m sb ids (b_tag s) s).
  change (b_now (set_pk p n s)) with (b_now s).
  destruct (q_add (b_now s) (aq_elem m sb ids (b_tag s) s) q) as [[q' evs]| | |]; try reflexivity.
  cbn [fst snd]. f_equal.
  change (enq cid q' (set_pk p n s)) with (set_pk p n (set_pk p n (enq cid q' s))).
  rewrite set_pk_set_pk. apply release_dropped_set_pk.
Qed.

(* the subscriptions the store returns for the topic *)
Definition d_found (m : msg) (s : st) : list (cid * sub) :=
  match db_iterate (deliver_opts (m_topic m)) (b_subs s) with
  | IOk l => flat_map (fun e : ient => match snd e with Some x => [(fst e, x)] | None => [] end) l
  | IPanic => []
  end.
(* No Local: the publisher's own subscriptions with the option are left out *)
Definition nl_keep (src : str) (e : cid * sub) : bool := negb (s_nl (snd e) && str_eqb (fst e) src).
Definition d_ents (src : str) (m : msg) (s : st) : list (cid * sub) := filter (nl_keep src) (d_found m s).
Definition is_plain (e : cid * sub) : bool := is_empty (s_share (snd e)).
Definition d_plain (src : str) (m : msg) (s : st) := filter is_plain (d_ents src m s).
Definition d_shared (src : str) (m : msg) (s : st) := filter (fun e => negb (is_plain e)) (d_ents src m s).

Definition plain_step (m : msg) (acc : st * list out) (e : cid * sub) : st * list out :=
  let '(s0, o0) := acc in
  let '(s', o') := add_to_queue (fst e) m (snd e) [s_id (snd e)] s0 in (s', o0 ++ o').

Definition shared_step (m : msg) (acc : st * list out) (g : str * list (cid * sub)) : st * list out :=
  let '(s0, o0) := acc in
  let members := snd g in
  let '(i, s0') := match members with [_] => (0%nat, s0) | _ => take_pick (length members) s0 end in
  match nth_error members i with
  | Some (c, s_) => let '(s', o') := add_to_queue c m s_ [s_id s_] s0' in (s', o0 ++ o')
  | None => (s0', o0)
  end.

Definition best_of (subs : list sub) : list sub := filter (fun x => s_qos x =? max_qos_of subs) subs.

Definition once_step (m : msg) (acc : st * list out) (g : str * list sub) : st * list out :=
  let '(s0, o0) := acc in
  let subs := snd g in
  let best := best_of subs in
  let '(i, s0') := match best with [_] => (0%nat, s0) | _ => take_pick (length best) s0 end in
  match nth_error best i with
  | Some s_ => let '(s', o') := add_to_queue (fst g) m s_ (map s_id subs) s0' in (s', o0 ++ o')
  | None => (s0', o0)
  end.

Definition nonnil {A} (l : list A) : bool := match l with [] => false | _ => true end.

Lemma let_pair {A B C} (X : A * B) (f : A -> B -> C) : (let '(a, b) := X in f a b) = f (fst X) (snd X).
Proof. destruct X; reflexivity. Qed.

Lemma deliver_unfold src m s :
  deliver src m s =
  let r1 := if c_onlyonce (b_cfg s) then (s, []) else fold_left (plain_step m) (d_plain src m s) (s, []) in
  let r2 := fold_left (shared_step m) (group_shared (d_shared src m s) []) r1 in
  let r3 := if c_onlyonce (b_cfg s) then fold_left (once_step m) (group_by_client (d_plain src m s) []) r2 else r2 in
  (fst r3, snd r3, nonnil (d_ents src m s)).
Proof.
  unfold deliver, d_plain, d_shared, d_ents, d_found, nl_keep, is_plain, plain_step, shared_step, once_step, best_of.
  cbn zeta. destruct (c_onlyonce (b_cfg s)).
  - destruct (fold_left _ (group_shared _ []) _) as [s2 o2]. now destruct (fold_left _ (group_by_client _ []) _).
  - destruct (fold_left _ (filter _ _) (s, [])) as [s1 o1]. now destruct (fold_left _ (group_shared _ []) _).
Qed.

Definition call := (cid * sub * list N)%type.
Definition call_cid (cl : call) : cid := fst (fst cl).
Definition call_sub (cl : call) : sub := snd (fst cl).
Definition call_ids (cl : call) : list N := snd cl.

Definition call_step (m : msg) (acc : st * list out) (cl : call) : st * list out :=
  let '(s', o') := add_to_queue (call_cid cl) m (call_sub cl) (call_ids cl) (fst acc) in (s', snd acc ++ o').
Definition run_calls (m : msg) (calls : list call) (acc : st * list out) : st * list out :=
  fold_left (call_step m) calls acc.

Lemma call_step_eq m s o cl :
  call_step m (s, o) cl =
  (fst (add_to_queue (call_cid cl) m (call_sub cl) (call_ids cl) s),
   o ++ snd (add_to_queue (call_cid cl) m (call_sub cl) (call_ids cl) s)).
Proof. unfold call_step. cbn [fst snd]. now rewrite let_pair. Qed.

Lemma run_calls_app m a b acc : run_calls m (a ++ b) acc = run_calls m b (run_calls m a acc).
Proof. apply fold_left_app. Qed.

Lemma run_calls_set_pk m p n calls : forall s o,
  run_calls m calls (set_pk p n s, o) =
  (set_pk p n (fst (run_calls m calls (s, o))), snd (run_calls m calls (s, o))).
Proof.
  induction calls as [|cl r IH]; intros s o; [reflexivity|].
  cbn [run_calls fold_left]. rewrite !call_step_eq, add_to_queue_set_pk. cbn [fst snd]. apply IH.
Qed.

Definition plain_call (e : cid * sub) : call := (fst e, snd e, [s_id (snd e)]).

Lemma plain_fold_calls m l : forall acc, fold_left (plain_step m) l acc = run_calls m (map plain_call l) acc.
Proof.
  induction l as [|e r IH]; intros [s o]; [reflexivity|].
  change (run_calls m (map plain_call (e :: r)) (s, o))
    with (run_calls m (map plain_call r) (call_step m (s, o) (plain_call e))).
  cbn [fold_left]. rewrite IH. reflexivity.
Qed.

(* a share group hands the message to exactly one of its members *)
Definition group_call (g : str * list (cid * sub)) (cl : call) : Prop :=
  In (call_cid cl, call_sub cl) (snd g) /\ call_ids cl = [s_id (call_sub cl)].

(* the member a group step takes: no random choice when there is one candidate *)
Definition pick_of {A} (l : list A) (s : st) : nat * st :=
  match l with [_] => (0%nat, s) | _ => take_pick (length l) s end.

Lemma pick_in_range {A} (l : list A) (s : st) :
  l <> [] -> exists i p k x, pick_of l s = (i, set_pk p k s) /\ nth_error l i = Some x.
Proof.
  intros Hne.
  assert (H : exists i p k, pick_of l s = (i, set_pk p k s) /\ (i < length l)%nat).
  { destruct l as [|x [|y r]]; [congruence| |].
    - exists 0%nat, (b_picks s), (b_npick s). rewrite set_pk_id. cbn. split; [reflexivity|lia].
    - destruct (take_pick_set_pk (length (x :: y :: r)) s) as (i & p & k & E).
      exists i, p, k. split; [exact E|].
      pose proof (take_pick_lt (length (x :: y :: r)) s) as Hlt. unfold pick_of. rewrite E in Hlt. cbn [fst] in Hlt.
      apply Hlt. cbn. lia. }
  destruct H as (i & p & k & E & Hlt).
  destruct (nth_error l i) as [x|] eqn:En.
  - now exists i, p, k, x.
  - apply nth_error_None in En. lia.
Qed.

(* a fold whose step picks one candidate x of each group g and makes the call `mk g x` *)
Lemma pick_fold_calls {G X} (cands : G -> list X) (mk : G -> X -> call)
                      (step : st * list out -> G -> st * list out) m :
  (forall s o g i s' x, pick_of (cands g) s = (i, s') -> nth_error (cands g) i = Some x ->
     step (s, o) g = call_step m (s', o) (mk g x)) ->
  forall groups, Forall (fun g => cands g <> []) groups ->
  forall s o, exists calls p n,
    fold_left step groups (s, o) =
    (set_pk p n (fst (run_calls m calls (s, o))), snd (run_calls m calls (s, o))) /\
    Forall2 (fun g cl => exists x, In x (cands g) /\ cl = mk g x) groups calls.
Proof.
  intros Hstep groups. induction 1 as [|g r Hg Hr IH]; intros s o.
  - exists [], (b_picks s), (b_npick s). cbn. rewrite set_pk_id. split; [reflexivity|constructor].
  - destruct (pick_in_range (cands g) s Hg) as (i & p & k & x & E & En).
    cbn [fold_left]. rewrite (Hstep s o g i _ x E En).
    change (call_step m (set_pk p k s, o) (mk g x)) with (run_calls m [mk g x] (set_pk p k s, o)).
    rewrite run_calls_set_pk. destruct (run_calls m [mk g x] (s, o)) as [s1 o1] eqn:E1. cbn [fst snd].
    destruct (IH (set_pk p k s1) o1) as (calls & p' & n' & Ef & F2).
    exists (mk g x :: calls), p', n'. split.
    + change (run_calls m (mk g x :: calls) (s, o)) with (run_calls m calls (run_calls m [mk g x] (s, o))).
      rewrite Ef, run_calls_set_pk, E1. reflexivity.
    + constructor; [|exact F2]. exists x. split; [|reflexivity]. eapply nth_error_In. exact En.
Qed.

Lemma shared_fold_calls m groups :
  Forall (fun g : str * list (cid * sub) => snd g <> []) groups ->
  forall s o, exists calls p n,
    fold_left (shared_step m) groups (s, o) =
    (set_pk p n (fst (run_calls m calls (s, o))), snd (run_calls m calls (s, o))) /\
    Forall2 group_call groups calls.
Proof.
  intros Hne s o.
  destruct (pick_fold_calls snd (fun _ e => (fst e, snd e, [s_id (snd e)])) (shared_step m) m) with groups s o
    as (calls & p & n & E & F); [|exact Hne|].
  - intros s0 o0 g i s' [c sb] E En. unfold shared_step. cbn zeta. unfold pick_of in E. rewrite E, En. reflexivity.
  - exists calls, p, n. split; [exact E|]. eapply Forall2_impl; [|exact F].
    intros g cl ([c sb] & Hin & ->). split; [exact Hin|reflexivity].
Qed.

(* onlyonce: the subscription used is one of highest QoS; all identifiers are carried *)
Definition once_call (g : str * list sub) (cl : call) : Prop :=
  call_cid cl = fst g /\ In (call_sub cl) (best_of (snd g)) /\ call_ids cl = map s_id (snd g).

Lemma max_fold (l : list sub) : forall a,
  let r := fold_left (fun a x => if a <? s_qos x then s_qos x else a) l a in
  a <= r /\ (forall x, In x l -> s_qos x <= r) /\ (r = a \/ exists x, In x l /\ s_qos x = r).
Proof.
  induction l as [|y t IH]; intros a; cbn [fold_left].
  - cbn. split; [lia|]. split; [intros x []|now left].
  - cbn zeta. specialize (IH (if a <? s_qos y then s_qos y else a)). cbn zeta in IH.
    destruct IH as (I1 & I2 & I3). set (r := fold_left _ t _) in *.
    split; [destruct (a <? s_qos y) eqn:E; lia|]. split.
    + intros x [->|Hx]; [destruct (a <? s_qos x) eqn:E; lia|now apply I2].
    + destruct I3 as [I3|(x & Hx & Ex)].
      * destruct (a <? s_qos y) eqn:E; [right; exists y; split; [now left|lia]|now left].
      * right. exists x. split; [now right|exact Ex].
Qed.

Lemma max_qos_ge subs x : In x subs -> s_qos x <= max_qos_of subs.
Proof. intros H. apply (max_fold subs 0). exact H. Qed.

Lemma best_of_spec subs x :
  In x (best_of subs) <-> In x subs /\ s_qos x = max_qos_of subs.
Proof. unfold best_of. rewrite filter_In. rewrite N.eqb_eq. tauto. Qed.

Lemma best_of_nonempty subs : subs <> [] -> best_of subs <> [].
Proof.
  intros Hne.
  assert (H : exists x, In x subs /\ s_qos x = max_qos_of subs).
  { destruct (max_fold subs 0) as (_ & H2 & [H3|H3]); [|exact H3].
    destruct subs as [|y t]; [congruence|]. exists y. split; [now left|].
    fold (max_qos_of (y :: t)) in *. specialize (H2 y (or_introl eq_refl)). lia. }
  destruct H as (x & Hx & Ex). intros E.
  assert (Hin : In x (best_of subs)) by (apply best_of_spec; now split).
  rewrite E in Hin. destruct Hin.
Qed.

Lemma once_fold_calls m groups :
  Forall (fun g : str * list sub => snd g <> []) groups ->
  forall s o, exists calls p n,
    fold_left (once_step m) groups (s, o) =
    (set_pk p n (fst (run_calls m calls (s, o))), snd (run_calls m calls (s, o))) /\
    Forall2 once_call groups calls.
Proof.
  intros Hne s o.
  destruct (pick_fold_calls (fun g : str * list sub => best_of (snd g)) (fun g sb => (fst g, sb, map s_id (snd g))) (once_step m) m)
    with groups s o as (calls & p & n & E & F).
  - intros s0 o0 g i s' sb E En. unfold once_step. cbn zeta. unfold pick_of in E. rewrite E, En. reflexivity.
  - eapply Forall_impl; [|exact Hne]. intros g. apply best_of_nonempty.
  - exists calls, p, n. split; [exact E|]. eapply Forall2_impl; [|exact F].
    intros g cl (sb & Hin & ->). split; [reflexivity|]. split; [exact Hin|reflexivity].
Qed.

Section Grouping.
  Context {A B : Type} (key : A -> str) (val : A -> B).

  Fixpoint group_gen (l : list A) (acc : list (str * list B)) : list (str * list B) :=
    match l with
    | [] => acc
    | x :: r => group_gen r (aset (key x) (opt_or (aget (key x) acc) [] ++ [val x]) acc)
    end.

  Definition opt_app (o : option (list B)) (extra : list B) : option (list B) :=
    match extra with [] => o | _ => Some (opt_or o [] ++ extra) end.

  Definition with_key (k : str) (l : list A) : list A := filter (fun x => str_eqb (key x) k) l.

  Lemma group_gen_get k l : forall acc,
    aget k (group_gen l acc) = opt_app (aget k acc) (map val (with_key k l)).
  Proof.
    induction l as [|x r IH]; intros acc; cbn [group_gen with_key filter map]; [reflexivity|].
    rewrite IH, aget_aset. fold (with_key k r).
    destruct (str_eqb_spec k (key x)) as [E|E].
    - subst k. rewrite str_eqb_refl. cbn [map opt_app opt_or].
      destruct (map val (with_key (key x) r)) as [|y t]; cbn [opt_app opt_or].
      + reflexivity.
      + now rewrite <- app_assoc.
    - destruct (str_eqb_spec (key x) k) as [E'|E']; [congruence|reflexivity].
  Qed.

  Lemma group_gen_nodup l : forall acc, NoDup (map fst acc) -> NoDup (map fst (group_gen l acc)).
  Proof. induction l as [|x r IH]; intros acc H; cbn [group_gen]; [exact H|]. apply IH. now apply NoDup_aset. Qed.

  Lemma group_gen_nonempty l : forall acc,
    Forall (fun g : str * list B => snd g <> []) acc -> Forall (fun g => snd g <> []) (group_gen l acc).
  Proof.
    induction l as [|x r IH]; intros acc H; cbn [group_gen]; [exact H|]. apply IH.
    apply Forall_aset; [exact H|]. cbn [snd]. intros E. apply app_eq_nil in E as [_ E]. discriminate.
  Qed.

  Lemma group_gen_in k vs l :
    In (k, vs) (group_gen l []) <-> vs = map val (with_key k l) /\ vs <> [].
  Proof.
    pose proof (group_gen_nodup l [] (NoDup_nil _)) as Hnd.
    pose proof (group_gen_get k l []) as Hg. cbn [aget] in Hg.
    split.
    - intros Hin. apply (In_aget _ _ _ Hnd) in Hin. rewrite Hin in Hg.
      destruct (map val (with_key k l)) as [|y t]; cbn [opt_app opt_or app] in Hg; [discriminate|].
      injection Hg as ->. split; [reflexivity|discriminate].
    - intros [-> Hne]. apply aget_In. rewrite Hg.
      destruct (map val (with_key k l)) as [|y t]; [congruence|reflexivity].
  Qed.

  (* the groups partition the list: counting *)
  Lemma count_aset_snoc (p : B -> bool) k x : forall acc : list (str * list B),
    length (filter p (flat_map snd (aset k (opt_or (aget k acc) [] ++ [x]) acc))) =
    (length (filter p (flat_map snd acc)) + length (filter p [x]))%nat.
  Proof.
    induction acc as [|[k0 v0] r IH]; cbn [aget aset].
    - cbn. reflexivity.
    - destruct (str_eqb k k0) eqn:E; cbn [flat_map snd opt_or].
      + rewrite !filter_app, !app_length. cbn [filter]. lia.
      + rewrite !filter_app, !app_length, IH. lia.
  Qed.

  Lemma group_gen_count (p : B -> bool) l : forall acc,
    length (filter p (flat_map snd (group_gen l acc))) =
    (length (filter p (flat_map snd acc)) + length (filter p (map val l)))%nat.
  Proof.
    induction l as [|x r IH]; intros acc; cbn [group_gen map]; [cbn; lia|].
    rewrite IH, count_aset_snoc. cbn [filter]. destruct (p (val x)); cbn [length]; lia.
  Qed.
End Grouping.

Lemma group_shared_gen l : forall acc,
  group_shared l acc = group_gen (fun e : cid * sub => full_name (snd e)) (fun e => e) l acc.
Proof. induction l as [|[c sb] r IH]; intros acc; cbn [group_shared group_gen snd]; [reflexivity|]. apply IH. Qed.

Lemma group_by_client_gen l : forall acc,
  group_by_client l acc = group_gen (fun e : cid * sub => fst e) (fun e => snd e) l acc.
Proof. induction l as [|[c sb] r IH]; intros acc; cbn [group_by_client group_gen fst snd]; [reflexivity|]. apply IH. Qed.

(* the members of the share group with full topic name k: all matching entries of that name, in order *)
Lemma group_shared_in k members l :
  In (k, members) (group_shared l []) <->
  members = filter (fun e => str_eqb (full_name (snd e)) k) l /\ members <> [].
Proof. rewrite group_shared_gen, group_gen_in. unfold with_key. now rewrite map_id. Qed.

Lemma group_shared_nodup l : NoDup (map fst (group_shared l [])).
Proof. rewrite group_shared_gen. apply group_gen_nodup. constructor. Qed.

Lemma group_shared_nonempty l : Forall (fun g : str * list (cid * sub) => snd g <> []) (group_shared l []).
Proof. rewrite group_shared_gen. apply group_gen_nonempty. constructor. Qed.

Lemma group_by_client_in c subs l :
  In (c, subs) (group_by_client l []) <->
  subs = map snd (filter (fun e => str_eqb (fst e) c) l) /\ subs <> [].
Proof. rewrite group_by_client_gen, group_gen_in. reflexivity. Qed.

Lemma group_by_client_nodup l : NoDup (map fst (group_by_client l [])).
Proof. rewrite group_by_client_gen. apply group_gen_nodup. constructor. Qed.

Lemma group_by_client_nonempty l : Forall (fun g : str * list sub => snd g <> []) (group_by_client l []).
Proof. rewrite group_by_client_gen. apply group_gen_nonempty. constructor. Qed.

Definition d_groups (src : str) (m : msg) (s : st) := group_shared (d_shared src m s) [].
Definition d_clients (src : str) (m : msg) (s : st) := group_by_client (d_plain src m s) [].

Record deliver_shape (src : str) (m : msg) (s : st) (cl1 cl2 cl3 : list call) : Prop := {
  ds_plain : cl1 = if c_onlyonce (b_cfg s) then [] else map plain_call (d_plain src m s);
  ds_shared : Forall2 group_call (d_groups src m s) cl2;
  ds_once : if c_onlyonce (b_cfg s) then Forall2 once_call (d_clients src m s) cl3 else cl3 = [] }.

Theorem deliver_calls src m s :
  exists cl1 cl2 cl3 p n,
    deliver_shape src m s cl1 cl2 cl3 /\
    deliver src m s =
    (set_pk p n (fst (run_calls m (cl1 ++ cl2 ++ cl3) (s, []))),
     snd (run_calls m (cl1 ++ cl2 ++ cl3) (s, [])), nonnil (d_ents src m s)).
Proof.
  rewrite deliver_unfold. cbn zeta.
  destruct (c_onlyonce (b_cfg s)) eqn:Eo.
  - destruct (shared_fold_calls m _ (group_shared_nonempty (d_shared src m s)) s []) as (cl2 & p & n & E2 & F2).
    rewrite E2.
    destruct (once_fold_calls m _ (group_by_client_nonempty (d_plain src m s))
                (set_pk p n (fst (run_calls m cl2 (s, [])))) (snd (run_calls m cl2 (s, []))))
      as (cl3 & p' & n' & E3 & F3).
    rewrite E3, run_calls_set_pk. cbn [fst snd]. rewrite set_pk_set_pk.
    exists [], cl2, cl3, p', n'. split.
    + constructor; rewrite ?Eo; auto.
    + cbn [app]. rewrite run_calls_app. rewrite <- (surjective_pairing (run_calls m cl2 (s, []))). reflexivity.
  - rewrite plain_fold_calls.
    destruct (run_calls m (map plain_call (d_plain src m s)) (s, [])) as [s1 o1] eqn:E1.
    destruct (shared_fold_calls m _ (group_shared_nonempty (d_shared src m s)) s1 o1) as (cl2 & p & n & E2 & F2).
    rewrite E2. cbn [fst snd].
    exists (map plain_call (d_plain src m s)), cl2, [], p, n. split.
    + constructor; rewrite ?Eo; auto.
    + rewrite app_nil_r, run_calls_app, E1. reflexivity.
Qed.

(* C11: one add_to_queue call per share group with a matching member, for a member of
   that group, whatever the pick values are; every call of deliver is for a matching entry *)
Lemma group_call_member src m s g cl :
  In g (d_groups src m s) -> group_call g cl ->
  In (call_cid cl, call_sub cl) (d_shared src m s) /\ full_name (call_sub cl) = fst g.
Proof.
  intros Hg [Hin _]. destruct g as [k members]. unfold d_groups in Hg.
  apply group_shared_in in Hg as [-> _]. cbn [snd fst] in *.
  apply filter_In in Hin as [Hin Hk]. cbn [snd] in Hk. apply str_eqb_eq in Hk. now split.
Qed.

Definition calls_for (c : cid) (calls : list call) : list call := filter (fun cl => str_eqb c (call_cid cl)) calls.

(* every queue that gets copies has room for all of them, and the queue_qos0 rule skips none *)
Definition room_for (m : msg) (s : st) (calls : list call) : Prop :=
  forall c q, aget c (b_queues s) = Some q -> calls_for c calls <> [] ->
    aq_skip c m s = false /\ (length (q_l q) + length (calls_for c calls) <= q_max q)%nat.

(* the elements appended to c's queue: tags are handed out in call order, to the calls whose
   client has a queue *)
Fixpoint appended (m : msg) (s : st) (c : cid) (calls : list call) (tag : N) : list elem :=
  match calls with
  | [] => []
  | cl :: r =>
      if ahas (call_cid cl) (b_queues s) then
        (if str_eqb c (call_cid cl) then [aq_elem m (call_sub cl) (call_ids cl) tag s] else []) ++
        appended m s c r (tag + 1)
      else appended m s c r tag
  end.

Definition q_extend (l : list elem) (q : queue) : queue := q_set (q_l q ++ l) (q_cur q) (q_drained q) q.

Lemma q_extend_nil q : q_extend [] q = q.
Proof. unfold q_extend, q_set. rewrite app_nil_r. destruct q; reflexivity. Qed.

Lemma q_extend_push e l q : q_extend l (q_push e q) = q_extend (e :: l) q.
Proof. unfold q_extend, q_push, q_set. cbn. now rewrite <- app_assoc. Qed.

Lemma q_extend_extend a b q : q_extend b (q_extend a q) = q_extend (a ++ b) q.
Proof. unfold q_extend, q_set. cbn. now rewrite app_assoc. Qed.

Lemma aq_elem_ext m sb ids tag s s' : b_now s = b_now s' -> b_cfg s = b_cfg s' -> aq_elem m sb ids tag s = aq_elem m sb ids tag s'.
Proof. intros H1 H2. unfold aq_elem, aq_expiry. now rewrite H1, H2. Qed.

Lemma appended_ext m s s' c calls : forall tag,
  b_now s = b_now s' -> b_cfg s = b_cfg s' -> (forall c', ahas c' (b_queues s) = ahas c' (b_queues s')) ->
  appended m s c calls tag = appended m s' c calls tag.
Proof.
  induction calls as [|cl r IH]; intros tag H1 H2 H3; cbn [appended]; [reflexivity|].
  rewrite H3, (aq_elem_ext _ _ _ _ s s' H1 H2). destruct (ahas (call_cid cl) (b_queues s')); now rewrite IH.
Qed.

Lemma aq_skip_ext c m s s' : b_cfg s = b_cfg s' -> b_online s = b_online s' -> aq_skip c m s = aq_skip c m s'.
Proof. intros H1 H2. unfold aq_skip. now rewrite H1, H2. Qed.

Definition queued_calls (s : st) (calls : list call) : list call :=
  filter (fun cl => ahas (call_cid cl) (b_queues s)) calls.

Definition call_body (m : msg) (cl : call) : qbody := QPub (copy_of m (call_sub cl) (call_ids cl)).

Lemma calls_for_app c a b : calls_for c (a ++ b) = calls_for c a ++ calls_for c b.
Proof. apply filter_app. Qed.

Lemma appended_bodies m s c calls : forall tag,
  ahas c (b_queues s) = true ->
  map e_body (appended m s c calls tag) = map (call_body m) (calls_for c calls).
Proof.
  induction calls as [|cl r IH]; intros tag Hc; cbn [appended calls_for filter map]; [reflexivity|].
  fold (calls_for c r).
  destruct (str_eqb_spec c (call_cid cl)) as [E|E].
  - rewrite <- E, Hc. cbn [app map]. now rewrite IH.
  - destruct (ahas (call_cid cl) (b_queues s)); cbn [app]; now apply IH.
Qed.

Lemma appended_cons m s c cl r tag :
  appended m s c (cl :: r) tag =
  appended m s c [cl] tag ++ appended m s c r (tag + if ahas (call_cid cl) (b_queues s) then 1 else 0).
Proof.
  cbn [appended]. destruct (ahas (call_cid cl) (b_queues s)); [now rewrite app_nil_r|].
  now rewrite N.add_0_r.
Qed.

(* the state after a call that finds room (or no queue) *)
Definition after_call (m : msg) (s : st) (cl : call) : st :=
  match aget (call_cid cl) (b_queues s) with
  | Some q => enq (call_cid cl) (q_push (aq_elem m (call_sub cl) (call_ids cl) (b_tag s) s) q) s
  | None => s
  end.

Lemma after_call_frame m s cl :
  let s1 := after_call m s cl in
  b_cfg s1 = b_cfg s /\ b_now s1 = b_now s /\ b_online s1 = b_online s /\ b_conns s1 = b_conns s /\
  b_tag s1 = b_tag s + if ahas (call_cid cl) (b_queues s) then 1 else 0.
Proof.
  unfold after_call, ahas. destruct (aget (call_cid cl) (b_queues s)); cbn; repeat split. symmetry. apply N.add_0_r.
Qed.

Lemma after_call_queue m s cl c :
  aget c (b_queues (after_call m s cl)) =
  option_map (q_extend (appended m s c [cl] (b_tag s))) (aget c (b_queues s)).
Proof.
  unfold after_call. cbn [appended]. unfold ahas.
  destruct (aget (call_cid cl) (b_queues s)) as [q|] eqn:Hq.
  - cbn [enq set_picks_tag set_queues b_queues]. rewrite aget_aset, app_nil_r.
    destruct (str_eqb_spec c (call_cid cl)) as [->|Hne]; [now rewrite Hq|].
    destruct (aget c (b_queues s)); [cbn; now rewrite q_extend_nil|reflexivity].
  - destruct (aget c (b_queues s)); [cbn; now rewrite q_extend_nil|reflexivity].
Qed.

Lemma call_step_room m s o cl r : room_for m s (cl :: r) -> call_step m (s, o) cl = (after_call m s cl, o).
Proof.
  intros H. rewrite call_step_eq. unfold after_call.
  destruct (aget (call_cid cl) (b_queues s)) as [q|] eqn:Hq.
  - destruct (H _ q Hq) as [Hs Hl]; unfold calls_for in *; cbn [filter] in *; rewrite str_eqb_refl in *; [discriminate|].
    cbn [length] in Hl. rewrite (add_to_queue_room _ m (call_sub cl) (call_ids cl) s q Hq Hs) by lia.
    cbn [fst snd]. now rewrite app_nil_r.
  - rewrite (add_to_queue_noqueue _ m (call_sub cl) (call_ids cl) s Hq). cbn [fst snd]. now rewrite app_nil_r.
Qed.

Lemma room_for_tail m s cl r : room_for m s (cl :: r) -> room_for m (after_call m s cl) r.
Proof.
  intros H c qc Hc Hn. rewrite after_call_queue in Hc.
  destruct (aget c (b_queues s)) as [q|] eqn:Hq; [|discriminate].
  assert (El : length (appended m s c [cl] (b_tag s)) = length (calls_for c [cl])).
  { rewrite <- (map_length e_body), appended_bodies, map_length; [reflexivity|]. unfold ahas. now rewrite Hq. }
  revert Hc El. generalize (appended m s c [cl] (b_tag s)). intros l Hc El. injection Hc as <-.
  change (cl :: r) with ([cl] ++ r) in H. destruct (H c q Hq) as [H1 H2]; rewrite calls_for_app in *.
  { intros E. apply app_eq_nil in E. now apply Hn. }
  destruct (after_call_frame m s cl) as (Ec & _ & Eo & _).
  split; [now rewrite (aq_skip_ext c m _ s Ec Eo)|].
  unfold q_extend, q_set. cbn [q_l q_max]. rewrite app_length in *. lia.
Qed.

Lemma run_calls_nodrop m calls : forall s o,
  room_for m s calls ->
  let R := run_calls m calls (s, o) in
  snd R = o /\ b_conns (fst R) = b_conns s /\
  b_tag (fst R) = b_tag s + N.of_nat (length (queued_calls s calls)) /\
  forall c, aget c (b_queues (fst R)) = option_map (q_extend (appended m s c calls (b_tag s))) (aget c (b_queues s)).
Proof.
  induction calls as [|cl r IH]; intros s o Hroom; cbn zeta.
  - cbn [run_calls fold_left fst snd queued_calls filter length appended]. split; [reflexivity|].
    split; [reflexivity|]. split; [lia|].
    intros c. destruct (aget c (b_queues s)) as [q|]; cbn [option_map]; [now rewrite q_extend_nil|reflexivity].
  - change (run_calls m (cl :: r) (s, o)) with (run_calls m r (call_step m (s, o) cl)).
    rewrite (call_step_room m s o cl r Hroom).
    destruct (IH _ o (room_for_tail m s cl r Hroom)) as (I1 & I2 & I3 & I4).
    destruct (after_call_frame m s cl) as (Ec & En & _ & Ek & Et).
    assert (Eh : forall c, ahas c (b_queues s) = ahas c (b_queues (after_call m s cl))).
    { intros c. unfold ahas. rewrite after_call_queue. now destruct (aget c (b_queues s)). }
    split; [exact I1|]. split; [congruence|]. split.
    + rewrite I3, Et. unfold queued_calls. cbn [filter].
      rewrite (filter_ext _ _ (fun cl0 => Eh (call_cid cl0))).
      destruct (ahas (call_cid cl) (b_queues s)); cbn [length]; lia.
    + intros c. rewrite I4, after_call_queue, Et, (appended_cons m s c cl r).
      rewrite <- (appended_ext m s _ c r _ (eq_sym En) (eq_sym Ec) Eh).
      destruct (aget c (b_queues s)); [cbn [option_map]; now rewrite q_extend_extend|reflexivity].
Qed.

Lemma appended_none m s c calls : forall tag, calls_for c calls = [] -> appended m s c calls tag = [].
Proof.
  induction calls as [|cl r IH]; intros tag H; cbn [appended]; [reflexivity|].
  unfold calls_for in H. cbn [filter] in H.
  destruct (str_eqb c (call_cid cl)); [discriminate|].
  destruct (ahas (call_cid cl) (b_queues s)); cbn [app]; now apply IH.
Qed.

(* every appended element is the copy of one of the client's calls, stamped with the current time *)
Lemma appended_elems m s c calls : forall tag,
  Forall (fun e => exists cl, In cl (calls_for c calls) /\ e = aq_elem m (call_sub cl) (call_ids cl) (e_tag e) s)
         (appended m s c calls tag).
Proof.
  induction calls as [|cl r IH]; intros tag; cbn [appended]; [constructor|].
  assert (Hr : forall tg, Forall (fun e => exists cl0, In cl0 (calls_for c (cl :: r)) /\
                                                      e = aq_elem m (call_sub cl0) (call_ids cl0) (e_tag e) s)
                                 (appended m s c r tg)).
  { intros tg. eapply Forall_impl; [|apply IH]. intros e (cl0 & Hin & He). exists cl0. split; [|exact He].
    unfold calls_for. cbn [filter]. destruct (str_eqb c (call_cid cl)); [now right|exact Hin]. }
  destruct (ahas (call_cid cl) (b_queues s)); [|apply Hr].
  apply Forall_app. split; [|apply Hr].
  destruct (str_eqb c (call_cid cl)) eqn:E; constructor; [|constructor].
  exists cl. split; [|reflexivity]. unfold calls_for. cbn [filter]. rewrite E. now left.
Qed.

Lemma appended_tags m s c calls : forall tag,
  Forall (fun e => tag <= e_tag e < tag + N.of_nat (length (queued_calls s calls))) (appended m s c calls tag) /\
  StronglySorted N.lt (map e_tag (appended m s c calls tag)).
Proof.
  induction calls as [|cl r IH]; intros tag; cbn [appended queued_calls filter]; [split; constructor|].
  fold (queued_calls s r).
  destruct (ahas (call_cid cl) (b_queues s)).
  - destruct (IH (tag + 1)) as [I1 I2]. cbn [length].
    assert (I1' : Forall (fun e => tag + 1 <= e_tag e < tag + N.of_nat (S (length (queued_calls s r))))
                         (appended m s c r (tag + 1))).
    { eapply Forall_impl; [|exact I1]. cbn beta. intros e He. lia. }
    destruct (str_eqb c (call_cid cl)); cbn [app map].
    + split.
      * constructor; [cbn [aq_elem e_tag]; lia|]. eapply Forall_impl; [|exact I1']. cbn beta. intros e He. lia.
      * constructor; [exact I2|]. cbn [aq_elem e_tag]. apply Forall_map.
        eapply Forall_impl; [|exact I1']. cbn beta. intros e He. lia.
    + split; [|exact I2]. eapply Forall_impl; [|exact I1']. cbn beta. intros e He. lia.
  - apply IH.
Qed.

Definition of_cl (c : cid) (l : list (cid * sub)) : list (cid * sub) := filter (fun e => str_eqb c (fst e)) l.

(* every session with a matching subscription has room for as many copies as it has matching
   subscriptions, and the queue_qos0 rule does not apply to it *)
Definition nodrop_ok (src : str) (m : msg) (s : st) : bool :=
  forallb (fun e : cid * sub => match aget (fst e) (b_queues s) with
                    | None => true
                    | Some q => negb (aq_skip (fst e) m s) &&
                                (length (q_l q) + length (of_cl (fst e) (d_ents src m s)) <=? q_max q)%nat
                    end) (d_ents src m s).

Lemma calls_for_plain c l : calls_for c (map plain_call l) = map plain_call (of_cl c l).
Proof.
  induction l as [|e r IH]; [reflexivity|].
  change (calls_for c (map plain_call (e :: r)))
    with (if str_eqb c (fst e) then plain_call e :: calls_for c (map plain_call r) else calls_for c (map plain_call r)).
  change (of_cl c (e :: r)) with (if str_eqb c (fst e) then e :: of_cl c r else of_cl c r).
  destruct (str_eqb c (fst e)); cbn [map]; rewrite IH; reflexivity.
Qed.

Lemma calls_for_groups c gs cls :
  Forall2 group_call gs cls -> (length (calls_for c cls) <= length (of_cl c (flat_map snd gs)))%nat.
Proof.
  unfold of_cl. induction 1 as [|g cl gs cls [Hin _] _ IH]; [cbn; lia|].
  cbn [flat_map calls_for filter]. fold (calls_for c cls). rewrite filter_app, app_length.
  destruct (str_eqb c (call_cid cl)) eqn:E; [|eapply Nat.le_trans; [exact IH|apply Nat.le_add_l]]. cbn [length].
  pose proof (filter_len_pos (fun e : cid * sub => str_eqb c (fst e)) _ _ Hin E) as P.
  exact (Nat.add_le_mono _ _ _ _ P IH).
Qed.

Lemma group_by_client_of_cl c subs l :
  In (c, subs) (group_by_client l []) <-> subs = map snd (of_cl c l) /\ subs <> [].
Proof.
  rewrite group_by_client_in. unfold of_cl.
  rewrite (filter_ext (fun e : cid * sub => str_eqb (fst e) c) (fun e => str_eqb c (fst e)))
    by (intros a; apply str_eqb_sym). reflexivity.
Qed.

Lemma once_calls_for c (gs : list (str * list sub)) cls :
  Forall2 once_call gs cls -> NoDup (map fst gs) ->
  (~ In c (map fst gs) -> calls_for c cls = []) /\
  (forall subs, In (c, subs) gs ->
     exists sb, calls_for c cls = [(c, sb, map s_id subs)] /\ In sb (best_of subs)).
Proof.
  induction 1 as [|g cl gs cls Hg F IH]; intros Hnd.
  - split; [reflexivity|intros subs []].
  - destruct g as [k subs']. destruct Hg as (Hc & Hb & Hi). cbn [map fst] in *. inversion Hnd as [|x xs Hx Hnd']; subst. destruct (IH Hnd') as [IH1 IH2].
    cbn [snd] in *. unfold calls_for. cbn [filter]. fold (calls_for c cls).
    destruct (str_eqb_spec c (call_cid cl)) as [E|E].
    + split; [intros H; exfalso; apply H; now left|].
      intros subs [Eq|Hin].
      * injection Eq as _ <-. exists (call_sub cl). rewrite IH1 by (rewrite E; exact Hx). split; [|exact Hb].
        destruct cl as [[a b] d]. cbn in *. now subst.
      * exfalso. apply Hx. rewrite <- E. apply in_map_iff. exists (c, subs). now split.
    + split.
      * intros H. apply IH1. intros H'. apply H. now right.
      * intros subs [Eq|Hin]; [injection Eq as Eq1 Eq2; congruence|]. now apply IH2.
Qed.

Lemma calls_for_once c l cls :
  Forall2 once_call (group_by_client l []) cls -> (length (calls_for c cls) <= length (of_cl c l))%nat.
Proof.
  intros F. destruct (once_calls_for c _ _ F (group_by_client_nodup l)) as [H0 H1].
  destruct (of_cl c l) as [|e r] eqn:E.
  - rewrite H0; [reflexivity|]. intros Hin. apply in_map_iff in Hin as ([c' subs] & Ec & Hin). cbn [fst] in Ec. subst c'.
    apply group_by_client_of_cl in Hin as [-> Hne]. rewrite E in Hne. now apply Hne.
  - destruct (H1 (map snd (of_cl c l))) as (sb & -> & _); [|cbn; lia].
    apply group_by_client_of_cl. rewrite E. split; [reflexivity|discriminate].
Qed.

Lemma of_cl_split c src m s :
  length (of_cl c (d_ents src m s)) = (length (of_cl c (d_shared src m s)) + length (of_cl c (d_plain src m s)))%nat.
Proof. unfold of_cl, d_shared, d_plain. apply filter_partition_len. Qed.

Lemma groups_flat_count c l : length (of_cl c (flat_map snd (group_shared l []))) = length (of_cl c l).
Proof.
  rewrite group_shared_gen. unfold of_cl.
  pose proof (group_gen_count (fun e : cid * sub => full_name (snd e)) (fun e => e) (fun e => str_eqb c (fst e)) l []) as H.
  cbn [flat_map filter length] in H. rewrite map_id in H. exact H.
Qed.

Lemma shape_count src m s cl1 cl2 cl3 c :
  deliver_shape src m s cl1 cl2 cl3 ->
  (length (calls_for c (cl1 ++ cl2 ++ cl3)) <= length (of_cl c (d_ents src m s)))%nat.
Proof.
  intros [H1 H2 H3]. rewrite !calls_for_app, !app_length, of_cl_split.
  pose proof (calls_for_groups c _ _ H2) as B2. unfold d_groups in B2. rewrite groups_flat_count in B2.
  destruct (c_onlyonce (b_cfg s)).
  - subst cl1. pose proof (calls_for_once c _ _ H3) as B3. cbn [calls_for filter length]. lia.
  - subst cl1 cl3. rewrite calls_for_plain, map_length. cbn [calls_for filter length]. lia.
Qed.

Lemma nodrop_room src m s cl1 cl2 cl3 :
  deliver_shape src m s cl1 cl2 cl3 -> nodrop_ok src m s = true -> room_for m s (cl1 ++ cl2 ++ cl3).
Proof.
  intros Hs Hn c q Hq Hne. pose proof (shape_count src m s cl1 cl2 cl3 c Hs) as Hc.
  assert (Hex : exists e, In e (d_ents src m s) /\ fst e = c).
  { destruct (filter_nonnil_in (fun e : cid * sub => str_eqb c (fst e)) (d_ents src m s)) as (e & He & Ee).
    - change (of_cl c (d_ents src m s) <> []). intros E0. rewrite E0 in Hc. cbn [length] in Hc.
      destruct (calls_for c (cl1 ++ cl2 ++ cl3)); [congruence|cbn in Hc; lia].
    - exists e. split; [exact He|]. apply str_eqb_eq in Ee. congruence. }
  destruct Hex as (e & He & <-).
  unfold nodrop_ok in Hn. rewrite forallb_forall in Hn. specialize (Hn e He). cbn beta in Hn. rewrite Hq in Hn.
  apply andb_true_iff in Hn as [Hn1 Hn2]. apply negb_true_iff in Hn1. apply Nat.leb_le in Hn2.
  split; [exact Hn1|lia].
Qed.

(* what deliver never touches, in all states, drops included *)

Record dframe (s s' : st) : Prop := {
  df_cfg : b_cfg s' = b_cfg s; df_hooks : b_hooks s' = b_hooks s; df_now : b_now s' = b_now s; df_rt : b_rt s' = b_rt s;
  df_sessions : b_sessions s' = b_sessions s; df_online : b_online s' = b_online s; df_offline : b_offline s' = b_offline s;
  df_wills : b_wills s' = b_wills s; df_subs : b_subs s' = b_subs s; df_ret : b_ret s' = b_ret s;
  df_unacks : b_unacks s' = b_unacks s; df_auto : b_auto s' = b_auto s;
  df_conns : map fst (b_conns s') = map fst (b_conns s);
  df_tag : b_tag s <= b_tag s';
  df_has : forall c, ahas c (b_queues s') = ahas c (b_queues s) }.

Lemma dframe_refl s : dframe s s.
Proof. constructor; try reflexivity; lia. Qed.

Lemma dframe_trans a b c : dframe a b -> dframe b c -> dframe a c.
Proof. intros [] []. constructor; try congruence; try lia. Qed.

Lemma dframe_add cid m sb ids s : dframe s (fst (add_to_queue cid m sb ids s)).
Proof.
  pose proof (add_to_queue_frame cid m sb ids s) as F. cbn zeta in F.
  destruct F as (F1&F2&F3&F4&F5&F6&F7&F8&F9&F10&F11&F12&F13&F14&F15&F16&F17&F18&F19).
  constructor; auto. lia.
Qed.

Lemma dframe_set_pk p n s : dframe s (set_pk p n s).
Proof. constructor; try reflexivity; cbn; lia. Qed.

Definition is_dropped (o : out) : Prop := exists cid m r, o = ODropped cid m r.

Lemma dropped_all (P : out -> Prop) o : (forall c m r, P (ODropped c m r)) -> Forall is_dropped o -> Forall P o.
Proof. intros H. apply Forall_impl. intros a (c & m & r & ->). apply H. Qed.

Lemma run_calls_frame m calls : forall s o,
  Forall is_dropped o ->
  dframe s (fst (run_calls m calls (s, o))) /\ Forall is_dropped (snd (run_calls m calls (s, o))) /\
  forall c, calls_for c calls = [] -> aget c (b_queues (fst (run_calls m calls (s, o)))) = aget c (b_queues s).
Proof.
  induction calls as [|cl r IH]; intros s o Ho.
  - cbn. split; [apply dframe_refl|]. split; [exact Ho|reflexivity].
  - change (run_calls m (cl :: r) (s, o)) with (run_calls m r (call_step m (s, o) cl)). rewrite call_step_eq.
    pose proof (add_to_queue_frame (call_cid cl) m (call_sub cl) (call_ids cl) s) as F. cbn zeta in F.
    destruct F as (_&_&_&_&_&_&_&_&_&_&_&_&_&_&_&_&F17&_&F19).
    set (X := add_to_queue (call_cid cl) m (call_sub cl) (call_ids cl) s) in *.
    assert (Ho' : Forall is_dropped (o ++ snd X)).
    { apply Forall_app. split; [exact Ho|]. eapply Forall_impl; [|exact F19].
      intros a (m0 & r0 & ->). now exists (call_cid cl), m0, r0. }
    destruct (IH (fst X) (o ++ snd X) Ho') as (I1 & I2 & I3).
    split; [eapply dframe_trans; [apply dframe_add|exact I1]|]. split; [exact I2|].
    intros c Hc. unfold calls_for in Hc. cbn [filter] in Hc.
    destruct (str_eqb_spec c (call_cid cl)) as [E|E]; [discriminate|].
    rewrite I3 by exact Hc. now apply F17.
Qed.

Theorem deliver_frame src m s :
  dframe s (fst (fst (deliver src m s))) /\ Forall is_dropped (snd (fst (deliver src m s))) /\
  forall c, of_cl c (d_ents src m s) = [] ->
            aget c (b_queues (fst (fst (deliver src m s)))) = aget c (b_queues s).
Proof.
  destruct (deliver_calls src m s) as (cl1 & cl2 & cl3 & p & n & Hs & E). rewrite E. cbn [fst snd].
  destruct (run_calls_frame m (cl1 ++ cl2 ++ cl3) s [] (Forall_nil _)) as (F1 & F2 & F3).
  split; [eapply dframe_trans; [exact F1|apply dframe_set_pk]|]. split; [exact F2|].
  intros c Hc. cbn [set_pk b_queues]. apply F3.
  pose proof (shape_count src m s cl1 cl2 cl3 c Hs) as Hl. rewrite Hc in Hl. cbn [length] in Hl.
  destruct (calls_for c (cl1 ++ cl2 ++ cl3)); [reflexivity|cbn in Hl; lia].
Qed.

(* a client none of whose subscriptions matches receives nothing *)
Corollary C01_nothing_unmatched_l src m s c :
  of_cl c (d_ents src m s) = [] ->
  aget c (b_queues (fst (fst (deliver src m s)))) = aget c (b_queues s).
Proof. apply deliver_frame. Qed.

Theorem deliver_nodrop src m s :
  nodrop_ok src m s = true ->
  exists cl1 cl2 cl3,
    deliver_shape src m s cl1 cl2 cl3 /\
    snd (fst (deliver src m s)) = [] /\
    b_conns (fst (fst (deliver src m s))) = b_conns s /\
    b_tag (fst (fst (deliver src m s))) = b_tag s + N.of_nat (length (queued_calls s (cl1 ++ cl2 ++ cl3))) /\
    forall c, aget c (b_queues (fst (fst (deliver src m s)))) =
              option_map (q_extend (appended m s c (cl1 ++ cl2 ++ cl3) (b_tag s))) (aget c (b_queues s)).
Proof.
  intros Hn. destruct (deliver_calls src m s) as (cl1 & cl2 & cl3 & p & n & Hs & E).
  exists cl1, cl2, cl3. split; [exact Hs|]. rewrite E. cbn [fst snd set_pk b_queues b_tag b_conns].
  destruct (run_calls_nodrop m (cl1 ++ cl2 ++ cl3) s [] (nodrop_room _ _ _ _ _ _ Hs Hn)) as (R1 & R2 & R3 & R4).
  split; [exact R1|]. split; [apply R2|]. split; [exact R3|exact R4].
Qed.

Definition plain_copy (m : msg) (e : cid * sub) : qbody := QPub (copy_of m (snd e) [s_id (snd e)]).

Definition stamped (m : msg) (s s' : st) (e : elem) : Prop :=
  b_tag s <= e_tag e < b_tag s' /\ e_at e = b_now s /\
  exists m', e_body e = QPub m' /\ e_expiry e = aq_expiry m' s.

Lemma appended_stamped m s s' c calls :
  b_tag s' = b_tag s + N.of_nat (length (queued_calls s calls)) ->
  Forall (stamped m s s') (appended m s c calls (b_tag s)).
Proof.
  intros Ht. pose proof (proj1 (appended_tags m s c calls (b_tag s))) as H1.
  pose proof (appended_elems m s c calls (b_tag s)) as H2.
  rewrite Forall_forall in *. intros e He. specialize (H1 e He). destruct (H2 e He) as (cl & _ & Ee).
  split; [lia|]. rewrite Ee. cbn [aq_elem e_at e_body e_expiry]. split; [reflexivity|].
  eexists. split; reflexivity.
Qed.

(* overlap mode: one copy per matching plain subscription, then the share-group picks *)
Theorem C01_overlap_copies_l src m s c q :
  c_onlyonce (b_cfg s) = false -> nodrop_ok src m s = true -> aget c (b_queues s) = Some q ->
  exists (picked : list call) (app : list elem),
    Forall2 group_call (d_groups src m s) picked /\
    aget c (b_queues (fst (fst (deliver src m s)))) = Some (q_extend app q) /\
    snd (fst (deliver src m s)) = [] /\
    map e_body app = map (plain_copy m) (of_cl c (d_plain src m s)) ++ map (call_body m) (calls_for c picked) /\
    Forall (stamped m s (fst (fst (deliver src m s)))) app /\
    StronglySorted N.lt (map e_tag app).
Proof.
  intros Ho Hn Hq. destruct (deliver_nodrop src m s Hn) as (cl1 & cl2 & cl3 & [H1 H2 H3] & D1 & _ & D2 & D3).
  rewrite Ho in H1, H3. subst cl1 cl3. rewrite app_nil_r in *.
  exists cl2, (appended m s c (map plain_call (d_plain src m s) ++ cl2) (b_tag s)).
  split; [exact H2|]. split; [rewrite D3, Hq; reflexivity|]. split; [exact D1|]. split; [|split].
  - rewrite appended_bodies by (unfold ahas; now rewrite Hq).
    rewrite calls_for_app, map_app, calls_for_plain, map_map. reflexivity.
  - now apply appended_stamped.
  - apply appended_tags.
Qed.

(* onlyonce mode: one copy for all matching plain subscriptions, made through one of highest QoS *)
Theorem C01_onlyonce_copy_l src m s c q :
  c_onlyonce (b_cfg s) = true -> nodrop_ok src m s = true -> aget c (b_queues s) = Some q ->
  let subs := map snd (of_cl c (d_plain src m s)) in
  exists (picked : list call) (app : list elem),
    Forall2 group_call (d_groups src m s) picked /\
    aget c (b_queues (fst (fst (deliver src m s)))) = Some (q_extend app q) /\
    snd (fst (deliver src m s)) = [] /\
    ((subs = [] /\ map e_body app = map (call_body m) (calls_for c picked)) \/
     (exists sb, In sb subs /\ s_qos sb = max_qos_of subs /\
                 map e_body app = map (call_body m) (calls_for c picked) ++ [QPub (copy_of m sb (map s_id subs))])) /\
    Forall (stamped m s (fst (fst (deliver src m s)))) app /\
    StronglySorted N.lt (map e_tag app).
Proof.
  intros Ho Hn Hq subs. destruct (deliver_nodrop src m s Hn) as (cl1 & cl2 & cl3 & [H1 H2 H3] & D1 & _ & D2 & D3).
  rewrite Ho in H1, H3. subst cl1. cbn [app] in *.
  exists cl2, (appended m s c (cl2 ++ cl3) (b_tag s)).
  split; [exact H2|]. split; [rewrite D3, Hq; reflexivity|]. split; [exact D1|]. split; [|split].
  - rewrite appended_bodies by (unfold ahas; now rewrite Hq). rewrite calls_for_app, map_app.
    destruct (once_calls_for c _ _ H3 (group_by_client_nodup _)) as [O1 O2].
    destruct subs as [|sb0 t] eqn:Es.
    + left. split; [reflexivity|]. rewrite O1; [now rewrite app_nil_r|].
      intros Hin. apply in_map_iff in Hin as ([c' subs'] & Ec & Hin). cbn [fst] in Ec. subst c'.
      apply group_by_client_of_cl in Hin as [-> Hne]. apply Hne. exact Es.
    + right. destruct (O2 subs) as (sb & Ecl & Hb).
      { apply group_by_client_of_cl. split; [reflexivity|]. subst subs. rewrite Es. discriminate. }
      apply best_of_spec in Hb as [Hb1 Hb2]. exists sb. rewrite <- Es. split; [exact Hb1|]. split; [exact Hb2|].
      subst subs. rewrite Ecl. reflexivity.
  - now apply appended_stamped.
  - apply appended_tags.
Qed.

Lemma deliver_matched_eq src m s : snd (deliver src m s) = nonnil (d_ents src m s).
Proof. rewrite deliver_unfold. reflexivity. Qed.

Lemma nl_keep_spec src c sb : nl_keep src (c, sb) = true <-> ~ (s_nl sb = true /\ c = src).
Proof.
  unfold nl_keep. cbn [fst snd]. rewrite negb_true_iff, andb_false_iff. split.
  - intros [H|H] [H1 H2]; [congruence|]. subst. now rewrite str_eqb_refl in H.
  - intros Hn. destruct (s_nl sb); [|now left]. right. apply str_eqb_neq. intros E. now apply Hn.
Qed.

Theorem deliver_matched src m s :
  snd (deliver src m s) = true <->
  exists c sb, In (c, sb) (d_found m s) /\ ~ (s_nl sb = true /\ c = src).
Proof.
  rewrite deliver_matched_eq. unfold d_ents. split.
  - intros H. destruct (filter (nl_keep src) (d_found m s)) as [|[c sb] r] eqn:E; [discriminate|].
    assert (Hin : In (c, sb) (filter (nl_keep src) (d_found m s))) by (rewrite E; now left).
    apply filter_In in Hin as [Hin Hk]. exists c, sb. split; [exact Hin|now apply nl_keep_spec].
  - intros (c & sb & Hin & Hn).
    assert (Hin' : In (c, sb) (filter (nl_keep src) (d_found m s))) by (apply filter_In; split; [exact Hin|now apply nl_keep_spec]).
    destruct (filter (nl_keep src) (d_found m s)); [destruct Hin'|reflexivity].
Qed.

Lemma unsome_some_ents (l : list (cid * sub)) :
  flat_map (fun e : ient => match snd e with Some x => [(fst e, x)] | None => [] end) (some_ents l) = l.
Proof. induction l as [|[c sb] r IH]; [reflexivity|]. cbn [some_ents map flat_map fst snd app]. f_equal. exact IH. Qed.

Lemma some_ents_app a b : some_ents (a ++ b) = some_ents a ++ some_ents b.
Proof. apply map_app. Qed.

Lemma db_iterate_deliver t d :
  db_iterate (deliver_opts t) d =
  match db_iterate (q_sh_topic t []) d, db_iterate (q_topic t []) d with
  | IOk a, IOk b => IOk (a ++ b)
  | _, _ => IPanic
  end.
Proof.
  unfold db_iterate. cbn [deliver_opts q_sh_topic q_topic io_shared io_nonshared io_sys io_topic andb].
  change (iterate_shared (deliver_opts t)) with (iterate_shared (q_sh_topic t [])).
  change (iterate_nonshared (deliver_opts t)) with (iterate_nonshared (q_topic t [])).
  destruct (iterate_shared (q_sh_topic t []) (sharedI d) (sharedT d)) as [l1|]; [|reflexivity].
  cbn [app]. now rewrite !app_nil_r.
Qed.

(* matching as the store implements it: MQTT 4.7 matching, with the 4.7.2-1 exclusion of
   $-topics for wildcard-led filters, for plain and (since getMatchedTopicFilter applies the
   rule itself) for shared subscriptions alike *)
Definition sub_matches (t : str) (sb : sub) : bool := topic_match t (s_filter sb).

Theorem found_spec m s ops :
  b_subs s = db_run ops -> wf_ops ops = true -> m_topic m <> [] -> no_wild_levels (split (m_topic m)) = true ->
  NoDup (d_found m s) /\
  forall c sb, In (c, sb) (d_found m s) <->
    sp_get (c, s_share sb, s_filter sb) (spec_run ops) = Some sb /\ sub_matches (m_topic m) sb = true.
Proof.
  intros Hs Hwf Ht Hnw.
  destruct (sh_lookup_topic_exact ops (m_topic m) [] Hwf Ht Hnw) as (l1 & E1 & N1 & I1).
  destruct (lookup_topic_exact ops (m_topic m) [] Hwf Ht Hnw) as (l2 & E2 & N2 & I2).
  pose proof (inv_ok _ _ (Inv_run ops Hwf)) as Hok.
  assert (Ef : d_found m s = l1 ++ l2).
  { unfold d_found. rewrite Hs, db_iterate_deliver, E1, E2, <- some_ents_app. apply unsome_some_ents. }
  rewrite Ef. split.
  - apply NoDup_app_disjoint; [exact N1|exact N2|].
    intros [c sb] H1 H2. apply I1 in H1 as (Hne & _). apply I2 in H2 as (Hg & _).
    apply (sp_get_good _ _ _ _ _ Hok) in Hg as [Hg _]. congruence.
  - intros c sb. rewrite in_app_iff, I1, I2. unfold sub_matches, want_client. split.
    + intros [(Hne & Hg & Hlm & _)|(Hg & Htm & _)].
      * now split.
      * pose proof (sp_get_good _ _ _ _ _ Hok Hg) as [Hsh _]. rewrite Hsh. now split.
    + intros [Hg Hm]. destruct (is_empty (s_share sb)) eqn:E.
      * right. apply is_empty_true in E. rewrite E in Hg. split; [exact Hg|]. split; [exact Hm|now left].
      * left. apply is_empty_false in E. split; [exact E|]. split; [exact Hg|]. split; [exact Hm|now left].
Qed.

(* the plain and the shared matches, No Local applied, in terms of the specification *)
Corollary plain_spec src m s ops :
  b_subs s = db_run ops -> wf_ops ops = true -> m_topic m <> [] -> no_wild_levels (split (m_topic m)) = true ->
  NoDup (d_plain src m s) /\
  forall c sb, In (c, sb) (d_plain src m s) <->
    sp_get (c, [], s_filter sb) (spec_run ops) = Some sb /\ topic_match (m_topic m) (s_filter sb) = true /\
    ~ (s_nl sb = true /\ c = src).
Proof.
  intros Hs Hwf Ht Hnw. destruct (found_spec m s ops Hs Hwf Ht Hnw) as [Hnd Hin].
  pose proof (inv_ok _ _ (Inv_run ops Hwf)) as Hok.
  split; [unfold d_plain, d_ents; now repeat apply NoDup_filter|].
  intros c sb. unfold d_plain, d_ents. rewrite !filter_In, Hin, nl_keep_spec. unfold is_plain, sub_matches. cbn [snd].
  split.
  - intros [[[Hg Hm] Hk] Hp]. apply is_empty_true in Hp. rewrite Hp in Hg. now split.
  - intros (Hg & Hm & Hn). pose proof (sp_get_good _ _ _ _ _ Hok Hg) as [Hsh _]. rewrite Hsh. cbn [is_empty].
    split; [|reflexivity]. split; [now split|exact Hn].
Qed.

Corollary shared_spec src m s ops :
  b_subs s = db_run ops -> wf_ops ops = true -> m_topic m <> [] -> no_wild_levels (split (m_topic m)) = true ->
  NoDup (d_shared src m s) /\
  forall c sb, In (c, sb) (d_shared src m s) <->
    s_share sb <> [] /\ sp_get (c, s_share sb, s_filter sb) (spec_run ops) = Some sb /\
    topic_match (m_topic m) (s_filter sb) = true /\ ~ (s_nl sb = true /\ c = src).
Proof.
  intros Hs Hwf Ht Hnw. destruct (found_spec m s ops Hs Hwf Ht Hnw) as [Hnd Hin].
  split; [unfold d_shared, d_ents; now repeat apply NoDup_filter|].
  intros c sb. unfold d_shared, d_ents. rewrite !filter_In, Hin, nl_keep_spec. unfold is_plain, sub_matches. cbn [snd].
  rewrite negb_true_iff, is_empty_false.
  split; [intros [[[Hg Hm] Hk] Hp]|intros (Hp & Hg & Hm & Hk)]; repeat split; assumption.
Qed.

(* `matched` in terms of the flat specification *)
Theorem deliver_matched_spec src m s ops :
  b_subs s = db_run ops -> wf_ops ops = true -> m_topic m <> [] -> no_wild_levels (split (m_topic m)) = true ->
  (snd (deliver src m s) = true <->
   exists c sb, sp_get (c, s_share sb, s_filter sb) (spec_run ops) = Some sb /\
                sub_matches (m_topic m) sb = true /\ ~ (s_nl sb = true /\ c = src)).
Proof.
  intros Hs Hwf Ht Hnw. destruct (found_spec m s ops Hs Hwf Ht Hnw) as [_ Hin]. rewrite deliver_matched.
  split; intros (c & sb & H); exists c, sb.
  - destruct H as [H1 H2]. apply Hin in H1 as [H3 H4]. tauto.
  - destruct H as (H1 & H2 & H3). split; [apply Hin; now split|exact H3].
Qed.

Lemma d_groups_spec src m s k members :
  In (k, members) (d_groups src m s) <->
  members = filter (fun e : cid * sub => str_eqb (full_name (snd e)) k) (d_shared src m s) /\ members <> [].
Proof. apply group_shared_in. Qed.

Lemma d_groups_nodup src m s : NoDup (map fst (d_groups src m s)).
Proof. apply group_shared_nodup. Qed.

Theorem C11_one_member_per_group_l src m s :
  exists cl1 picked cl3 p n,
    deliver src m s = (set_pk p n (fst (run_calls m (cl1 ++ picked ++ cl3) (s, []))),
                       snd (run_calls m (cl1 ++ picked ++ cl3) (s, [])), nonnil (d_ents src m s)) /\
    (* one call per group, for a member of the group *)
    Forall2 group_call (d_groups src m s) picked /\
    (* every such call is for a matching shared subscription (No Local applied) *)
    Forall (fun cl => In (call_cid cl, call_sub cl) (d_shared src m s)) picked /\
    (* and no other call of deliver uses a shared subscription *)
    Forall (fun cl => is_empty (s_share (call_sub cl)) = true) (cl1 ++ cl3).
Proof.
  destruct (deliver_calls src m s) as (cl1 & cl2 & cl3 & p & n & [H1 H2 H3] & E).
  exists cl1, cl2, cl3, p, n. split; [exact E|]. split; [exact H2|]. split.
  - eapply Forall2_right; [exact H2|]. intros g cl Hg Hc. cbn beta.
    now destruct (group_call_member src m s g cl Hg Hc).
  - assert (Hp : forall e, In e (d_plain src m s) -> is_empty (s_share (snd e)) = true).
    { intros e He. unfold d_plain in He. apply filter_In in He as [_ He]. exact He. }
    apply Forall_app. split.
    + subst cl1. destruct (c_onlyonce (b_cfg s)); [constructor|].
      apply Forall_forall. intros cl Hcl. apply in_map_iff in Hcl as (e & <- & He). exact (Hp e He).
    + destruct (c_onlyonce (b_cfg s)); [|subst cl3; constructor].
      eapply Forall2_right; [exact H3|]. intros [c subs] cl Hg (_ & Hb & _). cbn beta. cbn [snd] in Hb.
      apply best_of_spec in Hb as [Hb _]. unfold d_clients in Hg. apply group_by_client_of_cl in Hg as [-> _].
      apply in_map_iff in Hb as (e & <- & He). unfold of_cl in He. apply filter_In in He as [He _]. exact (Hp e He).
Qed.

Definition copy_elem (m : msg) (e : elem) : Prop := exists sb ids, e_body e = QPub (copy_of m sb ids).

Theorem deliver_appends src m s c q :
  nodrop_ok src m s = true -> aget c (b_queues s) = Some q ->
  exists app,
    aget c (b_queues (fst (fst (deliver src m s)))) = Some (q_extend app q) /\
    Forall (stamped m s (fst (fst (deliver src m s)))) app /\
    Forall (copy_elem m) app /\
    StronglySorted N.lt (map e_tag app).
Proof.
  intros Hn Hq. destruct (deliver_nodrop src m s Hn) as (cl1 & cl2 & cl3 & _ & _ & _ & D2 & D3).
  exists (appended m s c (cl1 ++ cl2 ++ cl3) (b_tag s)).
  split; [rewrite D3, Hq; reflexivity|]. split; [now apply appended_stamped|]. split; [|apply appended_tags].
  eapply Forall_impl; [|apply appended_elems]. intros e (cl & _ & ->). now exists (call_sub cl), (call_ids cl).
Qed.

Theorem deliver_tag_mono src m s : b_tag s <= b_tag (fst (fst (deliver src m s))).
Proof. apply deliver_frame. Qed.

Lemma sorted_app (a b : list N) :
  StronglySorted N.lt a -> StronglySorted N.lt b -> (forall x y, In x a -> In y b -> x < y) ->
  StronglySorted N.lt (a ++ b).
Proof. apply ListP.sorted_app. Qed.

(* two publications delivered one after the other: in every queue the copies of the first
   precede the copies of the second, and the tags increase strictly along the queue *)
Theorem C01_fifo_two_l src1 m1 src2 m2 s c q :
  let s1 := fst (fst (deliver src1 m1 s)) in
  let s2 := fst (fst (deliver src2 m2 s1)) in
  nodrop_ok src1 m1 s = true -> nodrop_ok src2 m2 s1 = true -> aget c (b_queues s) = Some q ->
  exists app1 app2,
    aget c (b_queues s2) = Some (q_extend (app1 ++ app2) q) /\
    Forall (copy_elem m1) app1 /\ Forall (copy_elem m2) app2 /\
    Forall (stamped m1 s s1) app1 /\ Forall (stamped m2 s1 s2) app2 /\
    StronglySorted N.lt (map e_tag (app1 ++ app2)).
Proof.
  intros s1 s2 Hn1 Hn2 Hq.
  destruct (deliver_appends src1 m1 s c q Hn1 Hq) as (app1 & Q1 & S1 & C1 & T1). fold s1 in Q1, S1.
  destruct (deliver_appends src2 m2 s1 c _ Hn2 Q1) as (app2 & Q2 & S2 & C2 & T2). fold s2 in Q2, S2.
  exists app1, app2. rewrite q_extend_extend in Q2. repeat split; auto.
  rewrite map_app. apply sorted_app; [exact T1|exact T2|].
  intros x y Hx Hy. apply in_map_iff in Hx as (e1 & <- & He1). apply in_map_iff in Hy as (e2 & <- & He2).
  rewrite Forall_forall in S1, S2. destruct (S1 e1 He1) as [A _]. destruct (S2 e2 He2) as [B _]. lia.
Qed.

Definition is_send (o : out) : bool := match o with OSend _ _ => true | _ => false end.

Definition ack_of (c : N) (qos pid code : N) : list out :=
  if qos =? 1 then [OSend c (KPuback pid code [])]
  else if qos =? 2 then [OSend c (KPubrec pid code [])] else [].

Lemma handle_publish_ok c k dup qos retain topic payload pid props s s' out :
  handle_publish c k dup qos retain topic payload pid props s = HOk s' out ->
  exists o code, out = o ++ ack_of c qos pid code /\ Forall is_dropped o.
Proof.
  unfold handle_publish. cbn zeta.
  destruct (negb (k_retain_avail k) && retain); [discriminate|].
  match goal with |- match ?X with _ => _ end = _ -> _ => destruct X as [[[k1 m1]|]|code0] end; try discriminate.
  match goal with |- (let (_, _) := ?X in _) = _ -> _ => destruct X as [s0 isdup] end.
  match goal with |- (let (_, _) := ?X in _) = _ -> _ => destruct X as [[[s1 o] matched] err] eqn:EY end.
  intros H. injection H as <- <-.
  exists o. eexists. split; [unfold ack_of; reflexivity|].
  destruct isdup; [injection EY as <- <- <- <-; constructor|].
  assert (D : forall src m s2 o2 mt, deliver src m (retain_update m s0) = (s2, o2, mt) -> Forall is_dropped o2).
  { intros src m s2 o2 mt Ed. pose proof (deliver_frame src m (retain_update m s0)) as (_ & F & _). now rewrite Ed in F. }
  match type of EY with match ?A with _ => _ end = _ => destruct A as [|code1| |t p q] end;
    try (injection EY as <- <- <- <-; constructor).
  - destruct (deliver (k_cid k1) m1 (retain_update m1 s0)) as [[s2 o2] mt] eqn:Ed.
    injection EY as <- <- <- <-. exact (D _ _ _ _ _ Ed).
  - destruct (deliver (k_cid k1) (rewrite_msg t p q m1) (retain_update (rewrite_msg t p q m1) s0)) as [[s2 o2] mt] eqn:Ed.
    injection EY as <- <- <- <-. exact (D _ _ _ _ _ Ed).
Qed.

Lemma filter_send_ack c qos pid code : filter is_send (ack_of c qos pid code) = ack_of c qos pid code.
Proof. unfold ack_of. destruct (qos =? 1); [reflexivity|]. destruct (qos =? 2); reflexivity. Qed.

(* every PUBLISH the handler accepts produces exactly the acknowledgement its QoS asks for,
   with the packet identifier of the PUBLISH, and no other packet *)
Theorem C01_ack_l c k dup qos retain topic payload pid props s s' out :
  handle_publish c k dup qos retain topic payload pid props s = HOk s' out ->
  exists code, filter is_send out = ack_of c qos pid code.
Proof.
  intros H. destruct (handle_publish_ok _ _ _ _ _ _ _ _ _ _ _ _ H) as (o & code & -> & Ho).
  exists code. rewrite filter_app, filter_send_ack, filter_none; [reflexivity|].
  apply Forall_forall, (dropped_all _ o (fun _ _ _ => eq_refl) Ho).
Qed.

(* a PUBLISH that passes the checks of the read loop is handled by handle_publish *)
Lemma handle_packet_publish_ok c k dup qos retain topic payload pid props s s' out :
  handle_packet c k (KPublish dup qos retain topic payload pid props) s = HOk s' out ->
  exists k' s0, handle_publish c k' dup qos retain topic payload pid props s0 = HOk s' out.
Proof.
  unfold handle_packet. destruct (has_wild topic); [discriminate|].
  match goal with |- context [if ?b then HErrRead s (Some 148) else _] => destruct b end; [discriminate|].
  match goal with |- context [if ?b then HErrRead s (Some 130) else _] => destruct b end; [discriminate|].
  destruct ((k_v k =? 5) && (0 <? qos) && (k_quota k =? 0)); [discriminate|]. eauto.
Qed.

Theorem C01_ack_packet c k dup qos retain topic payload pid props s s' out :
  handle_packet c k (KPublish dup qos retain topic payload pid props) s = HOk s' out ->
  exists code, filter is_send out = ack_of c qos pid code.
Proof. intros H. destruct (handle_packet_publish_ok _ _ _ _ _ _ _ _ _ _ _ _ H) as (k' & s0 & H'). exact (C01_ack_l _ _ _ _ _ _ _ _ _ _ _ _ H'). Qed.

Theorem C01_ack_event c k dup qos retain topic payload pid props s s' out :
  nget c (b_conns s) = Some k -> k_phase k = PhConnected ->
  handle_packet c k (KPublish dup qos retain topic payload pid props) s = HOk s' out ->
  step_event s (ESend c (KPublish dup qos retain topic payload pid props)) = (s', out) /\
  exists code, filter is_send out = ack_of c qos pid code.
Proof.
  intros Hk Hp H. split; [|eapply C01_ack_packet; exact H].
  unfold step_event. now rewrite Hk, Hp, H.
Qed.

(* add_to_queue_room with the queue, the copy and the untouched tables spelled out *)
Theorem add_to_queue_room_full cid m sb ids s q :
  aget cid (b_queues s) = Some q -> aq_skip cid m s = false -> (length (q_l q) < q_max q)%nat ->
  exists e m' s',
    add_to_queue cid m sb ids s = (s', []) /\
    aget cid (b_queues s') = Some (q_set (q_l q ++ [e]) (q_cur q) (q_drained q) q) /\
    e_body e = QPub m' /\ e_tag e = b_tag s /\ e_at e = b_now s /\
    m_qos m' = N.min (m_qos m) (s_qos sb) /\
    m_retained m' = m_retained m && s_rap sb /\
    m_subids m' = m_subids m ++ filter (fun i => negb (i =? 0)) ids /\
    m_dup m' = false /\
    m_topic m' = m_topic m /\ m_payload m' = m_payload m /\ m_pid m' = m_pid m /\ m_ctype m' = m_ctype m /\
    m_corr m' = m_corr m /\ m_expiry m' = m_expiry m /\ m_pfmt m' = m_pfmt m /\ m_resp m' = m_resp m /\
    m_uprops m' = m_uprops m /\
    (forall c', c' <> cid -> aget c' (b_queues s') = aget c' (b_queues s)) /\
    b_subs s' = b_subs s /\ b_ret s' = b_ret s /\ b_online s' = b_online s /\ b_sessions s' = b_sessions s /\
    b_conns s' = b_conns s /\ b_tag s' = b_tag s + 1.
Proof.
  intros Hq Hs Hr.
  exists (aq_elem m sb ids (b_tag s) s), (copy_of m sb ids), (enq cid (q_push (aq_elem m sb ids (b_tag s) s) q) s).
  split; [now apply add_to_queue_room|].
  split; [cbn; apply aget_aset_same|].
  split; [reflexivity|]. split; [reflexivity|]. split; [reflexivity|].
  split; [apply copy_qos|].
  repeat (split; [reflexivity|]).
  split; [|repeat split].
  intros c' Hc. cbn. now apply aget_aset_other.
Qed.

Lemma of_cl_subs c l :
  NoDup l -> NoDup (map snd (of_cl c l)) /\ forall sb, In sb (map snd (of_cl c l)) <-> In (c, sb) l.
Proof.
  intros Hnd. split.
  - apply NoDup_map_inj; [|unfold of_cl; now apply NoDup_filter].
    intros [c1 s1] [c2 s2] H1 H2 E. unfold of_cl in H1, H2. apply filter_In in H1 as [_ H1], H2 as [_ H2].
    cbn [fst snd] in *. apply str_eqb_eq in H1, H2. congruence.
  - intros sb. rewrite in_map_iff. unfold of_cl. split.
    + intros ([c' sb'] & E & Hin). apply filter_In in Hin as [Hin Hc]. cbn [fst snd] in *.
      apply str_eqb_eq in Hc. subst. exact Hin.
    + intros Hin. exists (c, sb). split; [reflexivity|]. apply filter_In. split; [exact Hin|]. cbn. apply str_eqb_refl.
Qed.

(* the matching plain subscriptions of client c, as the specification sees them *)
Definition matching_plain (ops : list op) (src : str) (t : str) (c : cid) (sb : sub) : Prop :=
  sp_get (c, [], s_filter sb) (spec_run ops) = Some sb /\ topic_match t (s_filter sb) = true /\
  ~ (s_nl sb = true /\ c = src).

Definition sub_copy (m : msg) (sb : sub) : qbody := QPub (copy_of m sb [s_id sb]).

(* overlap mode in terms of the flat specification *)
Theorem C01_overlap_copies_spec src m s ops c q :
  b_subs s = db_run ops -> wf_ops ops = true -> m_topic m <> [] -> no_wild_levels (split (m_topic m)) = true ->
  c_onlyonce (b_cfg s) = false -> nodrop_ok src m s = true -> aget c (b_queues s) = Some q ->
  exists (subs : list sub) (picked : list call) (app : list elem),
    NoDup subs /\ (forall sb, In sb subs <-> matching_plain ops src (m_topic m) c sb) /\
    Forall2 group_call (d_groups src m s) picked /\
    aget c (b_queues (fst (fst (deliver src m s)))) = Some (q_extend app q) /\
    snd (fst (deliver src m s)) = [] /\
    map e_body app = map (sub_copy m) subs ++ map (call_body m) (calls_for c picked) /\
    Forall (stamped m s (fst (fst (deliver src m s)))) app /\
    StronglySorted N.lt (map e_tag app).
Proof.
  intros Hs Hwf Ht Hnw Ho Hn Hq.
  destruct (C01_overlap_copies_l src m s c q Ho Hn Hq) as (picked & app & H1 & H2 & H3 & H4 & H5 & H6).
  destruct (plain_spec src m s ops Hs Hwf Ht Hnw) as [Hnd Hin].
  destruct (of_cl_subs c _ Hnd) as [S1 S2].
  exists (map snd (of_cl c (d_plain src m s))), picked, app.
  split; [exact S1|]. split; [intros sb; rewrite S2; apply Hin|].
  repeat (split; [assumption|]). split; [|split; assumption].
  rewrite H4, map_map. reflexivity.
Qed.

(* onlyonce mode in terms of the flat specification *)
Theorem C01_onlyonce_copy_spec src m s ops c q :
  b_subs s = db_run ops -> wf_ops ops = true -> m_topic m <> [] -> no_wild_levels (split (m_topic m)) = true ->
  c_onlyonce (b_cfg s) = true -> nodrop_ok src m s = true -> aget c (b_queues s) = Some q ->
  exists (subs : list sub) (picked : list call) (app : list elem),
    NoDup subs /\ (forall sb, In sb subs <-> matching_plain ops src (m_topic m) c sb) /\
    Forall2 group_call (d_groups src m s) picked /\
    aget c (b_queues (fst (fst (deliver src m s)))) = Some (q_extend app q) /\
    snd (fst (deliver src m s)) = [] /\
    ((subs = [] /\ map e_body app = map (call_body m) (calls_for c picked)) \/
     (exists sb m', In sb subs /\ (forall x, In x subs -> s_qos x <= s_qos sb) /\
        map e_body app = map (call_body m) (calls_for c picked) ++ [QPub m'] /\
        m' = copy_of m sb (map s_id subs) /\
        m_qos m' = N.min (m_qos m) (max_qos_of subs) /\
        m_subids m' = m_subids m ++ filter (fun i => negb (i =? 0)) (map s_id subs))) /\
    Forall (stamped m s (fst (fst (deliver src m s)))) app /\
    StronglySorted N.lt (map e_tag app).
Proof.
  intros Hs Hwf Ht Hnw Ho Hn Hq.
  destruct (C01_onlyonce_copy_l src m s c q Ho Hn Hq) as (picked & app & H1 & H2 & H3 & H4 & H5 & H6).
  destruct (plain_spec src m s ops Hs Hwf Ht Hnw) as [Hnd Hin].
  destruct (of_cl_subs c _ Hnd) as [S1 S2].
  exists (map snd (of_cl c (d_plain src m s))), picked, app.
  split; [exact S1|]. split; [intros sb; rewrite S2; apply Hin|].
  repeat (split; [assumption|]). split; [|split; assumption].
  destruct H4 as [H4|(sb & Hb1 & Hb2 & Hb3)]; [now left|right].
  exists sb, (copy_of m sb (map s_id (map snd (of_cl c (d_plain src m s))))).
  split; [exact Hb1|]. split; [intros x Hx; rewrite Hb2; now apply max_qos_ge|].
  split; [exact Hb3|]. split; [reflexivity|]. split; [|reflexivity].
  now rewrite copy_qos, Hb2.
Qed.

(* the topic must not be the empty string: see C01_empty_topic_reaches_everyone in Props/C01.v *)
Theorem C01_nothing_unmatched_spec src m s ops c :
  b_subs s = db_run ops -> wf_ops ops = true -> m_topic m <> [] -> no_wild_levels (split (m_topic m)) = true ->
  (forall sb, sp_get (c, s_share sb, s_filter sb) (spec_run ops) = Some sb -> sub_matches (m_topic m) sb = false) ->
  aget c (b_queues (fst (fst (deliver src m s)))) = aget c (b_queues s).
Proof.
  intros Hs Hwf Ht Hnw Hno. apply C01_nothing_unmatched_l.
  destruct (found_spec m s ops Hs Hwf Ht Hnw) as [_ Hin].
  destruct (of_cl c (d_ents src m s)) as [|[c' sb] r] eqn:E; [reflexivity|exfalso].
  assert (H : In (c', sb) (of_cl c (d_ents src m s))) by (rewrite E; now left).
  unfold of_cl, d_ents in H. apply filter_In in H as [H Hc]. apply filter_In in H as [H _].
  cbn [fst] in Hc. apply str_eqb_eq in Hc. subst c'. apply Hin in H as [H1 H2]. rewrite (Hno sb H1) in H2. discriminate.
Qed.

(* a concrete reachable state for the non-vacuity examples *)

Definition ex_cfg (once : bool) : cfg :=
  {| c_onlyonce := once; c_max_inflight := 10; c_max_queued := 100; c_queue_qos0 := true;
     c_session_expiry := 3600; c_message_expiry := 0; c_recv_max := 10; c_alias_max := 0; c_max_packet := 0;
     c_max_qos := 2; c_retain_avail := true; c_wildcard := true; c_subid := true; c_shared := true;
     c_max_keepalive := 60; c_allow_zero_len := true; c_inflight_expiry := 0 |}.
Definition ex_conn (id : str) : connect :=
  {| cn_ver := 5; cn_cid := id; cn_clean := true; cn_keepalive := 0; cn_user := None; cn_pass := None;
     cn_will := None; cn_props := [] |}.
Definition ex_tq (name : str) (q : N) (nl rap : bool) : topic_req :=
  {| tq_name := name; tq_qos := q; tq_nl := nl; tq_rap := rap; tq_rh := 0 |}.
Definition ex_A : str := [97].
Definition ex_B : str := [98].
Definition ex_C : str := [99].
Definition ex_t_x : str := [116; 47; 120].           (* "t/x" *)
Definition ex_t_hash : str := [116; 47; 35].         (* "t/#" *)
Definition ex_t_plus : str := [116; 47; 43].         (* "t/+" *)
Definition ex_u : str := [117].                      (* "u" *)
Definition ex_sh_x : str := SHARE_PREFIX ++ [103; 47; 116; 47; 120].   (* "$share/g/t/x" *)
(* three v5 clients on sockets 1, 2, 3; a: "t/#" (QoS 1, id 7) and "t/+" (QoS 0, No Local);
   b: "t/x" (QoS 2, Retain As Published, id 9) and "$share/g/t/x" (QoS 1, id 9); c: "$share/g/t/x" (QoS 0) *)
Definition ex_events : list event :=
  [EConnect 1 (ex_conn ex_A); EConnect 2 (ex_conn ex_B); EConnect 3 (ex_conn ex_C);
   ESend 1 (KSubscribe 1 [PSubId 7] [ex_tq ex_t_hash 1 false false]);
   ESend 1 (KSubscribe 2 [] [ex_tq ex_t_plus 0 true false]);
   ESend 2 (KSubscribe 1 [PSubId 9] [ex_tq ex_t_x 2 false true; ex_tq ex_sh_x 1 false false]);
   ESend 3 (KSubscribe 1 [] [ex_tq ex_sh_x 0 false false])].
Definition ex_state (once : bool) (picks : list nat) : st :=
  fst (run (st_init (ex_cfg once) no_hooks picks) ex_events).
Definition ex_sub (g f : str) (id q : N) (nl rap : bool) : sub :=
  {| s_share := g; s_filter := f; s_id := id; s_qos := q; s_nl := nl; s_rap := rap; s_rh := 0 |}.
Definition ex_ops : list op :=
  [OSub ex_A (ex_sub [] ex_t_hash 7 1 false false); OSub ex_A (ex_sub [] ex_t_plus 0 0 true false);
   OSub ex_B (ex_sub [] ex_t_x 9 2 false true); OSub ex_B (ex_sub [103] ex_t_x 9 1 false false);
   OSub ex_C (ex_sub [103] ex_t_x 0 0 false false)].
Definition ex_pub (topic : str) (q : N) (retained : bool) : msg :=
  {| m_dup := false; m_qos := q; m_retained := retained; m_topic := topic; m_payload := [104; 105]; m_pid := 0;
     m_ctype := []; m_corr := []; m_expiry := 0; m_pfmt := 0; m_resp := []; m_subids := []; m_uprops := [] |}.
Definition ex_queue_bodies (c : cid) (s : st) : list qbody :=
  match aget c (b_queues s) with Some q => map e_body (q_l q) | None => [] end.
Definition ex_queue_tags (c : cid) (s : st) : list N :=
  match aget c (b_queues s) with Some q => map e_tag (q_l q) | None => [] end.

From GM Require Import Proofs.QueueP.

(* what Read hands out are elements it walked over, in their order, with their tags *)
Lemma reads_subseq now limit v5 ifexp pids pre inf drops rs :
  reads now limit v5 ifexp pids pre inf drops rs -> subseq (map e_tag rs) (map e_tag pre).
Proof.
  induction 1; cbn [map]; try (now constructor).
  replace (e_tag (hand now ifexp p m v)) with (e_tag v) by (unfold hand; destruct (ifexp =? 0); reflexivity).
  now constructor.
Qed.

(* Read is one walk over the first elements of the unread part, as many as there are packet ids *)
Lemma q_read_reads now pids q q' rs evs :
  q_read now pids q = QOk (q', rs, evs) ->
  let n := Nat.min (length (q_l q)) (length pids) in
  let unread := skipn (q_cur q) (q_l q) in
  exists inf drops dq di,
    reads now (q_limit q) (q_v5 q) (q_ifexp q) pids (firstn n unread) inf drops rs /\
    q_l q' = firstn (q_cur q) (q_l q) ++ inf ++ skipn n unread /\ skipn (q_cur q') (q_l q') = skipn n unread /\
    evs = map ev_dropped drops ++ [EvQueue dq; EvInflight di].
Proof.
  unfold q_read. destruct (negb (q_drained q)); [discriminate|]. destruct (q_closed q); [discriminate|].
  destruct (q_cur q =? length (q_l q))%nat; [discriminate|].
  destruct (read_loop _ _ _ _ _ _ _ _ _ _ _ _) as [[[[[[l cur] dq] di] evs0] rs0]|] eqn:E; [|discriminate].
  intros [= <- <- <-]. apply read_loop_reads in E as (inf & drops & rs2 & Hr & -> & -> & Hs & _ & _ & -> & ->).
  exists inf, drops, dq, di. cbn [q_set q_l q_cur app]. auto.
Qed.

(* Read returns a subsequence of the not-yet-read part of the queue, in queue order *)
Theorem q_read_in_order now pids q q' rs evs :
  q_read now pids q = QOk (q', rs, evs) ->
  subseq (map e_tag rs) (map e_tag (skipn (q_cur q) (q_l q))).
Proof.
  intros H. destruct (q_read_reads _ _ _ _ _ _ H) as (inf & drops & dq & di & Hr & _). cbv zeta in Hr.
  eapply subseq_trans; [exact (reads_subseq _ _ _ _ _ _ _ _ _ Hr)|]. apply subseq_map.
  set (n := Nat.min _ _). set (l := skipn _ _). rewrite <- (firstn_skipn n l) at 2. rewrite <- (app_nil_r (firstn n l)) at 1.
  apply subseq_app; [apply subseq_refl|apply subseq_nil].
Qed.

Lemma subseq_sorted (a b : list N) : subseq a b -> StronglySorted N.lt b -> StronglySorted N.lt a.
Proof. apply QueueP.subseq_sorted. Qed.

(* so: when the unread part of a queue carries increasing tags (which is how deliver builds it),
   every Read returns its elements in increasing tag order - publication order *)
Corollary q_read_sorted now pids q q' rs evs :
  StronglySorted N.lt (map e_tag (skipn (q_cur q) (q_l q))) ->
  q_read now pids q = QOk (q', rs, evs) -> StronglySorted N.lt (map e_tag rs).
Proof. intros Hs H. eapply subseq_sorted; [eapply q_read_in_order; exact H|exact Hs]. Qed.

Section PollOut.
  Variable P : out -> Prop.
  Hypothesis Hpub : forall c k m, Forall P (snd (write_publish c k m)).
  Hypothesis Hrel : forall c p, P (OSend c (KPubrel p 0 [])).
  Hypothesis Hdrop : forall cid m r, P (ODropped cid m r).

  (* a turn of the poll loop writes PUBLISH packets through write_publish and the PUBRELs of the
     retransmission pass, and reports what the read dropped *)
  Lemma poll_once_out c s s' o : poll_once c s = Some (s', o) -> Forall P o.
  Proof.
    unfold poll_once. destruct (nget c (b_conns s)) as [k|]; [|discriminate]. intros H.
    (* the two polling phases share one body *)
    assert (H' : match aget (k_cid k) (b_queues s) with None => None | Some q => _ end = Some (s', o))
      by (destruct (k_phase k); try discriminate; exact H).
    clear H. destruct (aget (k_cid k) (b_queues s)) as [q|]; [|discriminate].
    destruct (negb (k_drained k)).
    - destruct (q_read_inflight (b_now s) (N.to_nat (k_max_inflight k)) q) as [q' rs].
      destruct rs as [|r0 rs]; [injection H' as <- <-; constructor|].
      match type of H' with context [fold_left ?f ?l (?k0, [])] =>
        assert (F : Forall P (snd (fold_left f l (k0, [])))) end.
      { apply (fold_left_inv (fun acc => Forall P (snd acc))); [|constructor]. intros [k1 o1] a Ho. cbn beta iota.
        destruct (e_body a) as [m|p].
        - rewrite let_pair. cbn [snd]. apply Forall_app. split; [exact Ho|apply Hpub].
        - cbn [snd]. apply Forall_app. split; [exact Ho|]. constructor; [apply Hrel|constructor]. }
      match type of F with Forall P (snd ?X) => destruct X as [k' o'] end. injection H' as <- <-. exact F.
    - destruct (k_held k) as [ids|].
      + destruct (q_read (b_now s) ids q) as [[[q' rs] evs]| | |]; try discriminate.
        match type of H' with context [fold_left ?f ?l (?k0, [])] =>
          assert (F : Forall P (snd (fold_left f l (k0, [])))) end.
        { apply (fold_left_inv (fun acc => Forall P (snd acc))); [|constructor]. intros [k1 o1] a Ho. cbn beta iota.
          destruct (e_body a) as [m|p]; [|exact Ho].
          rewrite let_pair. cbn [snd]. apply Forall_app. split; [exact Ho|apply Hpub]. }
        match type of F with Forall P (snd ?X) => destruct X as [k' o'] end. injection H' as <- <-.
        apply Forall_app. split; [|exact F].
        eapply Forall_impl; [|apply drops_of_only]. intros a (m & r & ->). apply Hdrop.
      + destruct (lim_poll _ (k_lim k)) as [l' [| | |ids]]; try discriminate.
        injection H' as <- <-. constructor.
  Qed.

  Lemma poll_conn_out fuel c : forall s, Forall P (snd (poll_conn fuel c s)).
  Proof.
    induction fuel as [|f IH]; intros s; cbn [poll_conn]; [constructor|].
    destruct (poll_once c s) as [[s' o]|] eqn:E; [|constructor].
    apply poll_once_out in E. rewrite let_pair. cbn [snd]. apply Forall_app. split; [|apply IH].
    destruct (nget c (b_conns s)) as [k|]; [|exact E].
    destruct (k_phase k); try exact E. eapply incl_Forall; [apply incl_filter|exact E].
  Qed.

  Lemma poll_all_out s : Forall P (snd (poll_all s)).
  Proof.
    unfold poll_all. apply (fold_left_inv (fun acc => Forall P (snd acc))); [|constructor]. intros [s0 o0] ck Ho.
    rewrite let_pair. cbn [snd]. apply Forall_app. split; [exact Ho|apply poll_conn_out].
  Qed.
End PollOut.

Definition is_ack (o : out) : bool :=
  match o with OSend _ (KPuback _ _ _) | OSend _ (KPubrec _ _ _) => true | _ => false end.
Definition noack (o : out) : Prop := is_ack o = false.

Lemma write_publish_noack c k m : Forall noack (snd (write_publish c k m)).
Proof.
  unfold write_publish. destruct ((k_v k =? 5) && (0 <? k_client_alias_max k) && (msg_total_bytes true m + 5 <=? k_client_max_packet k)).
  - destruct (am_check (m_topic m) (k_alias_out k)) as [am' [a ex|]]; cbn [snd]; repeat constructor.
  - cbn [snd]. repeat constructor.
Qed.

Lemma poll_all_noack s : Forall noack (snd (poll_all s)).
Proof. apply poll_all_out; [apply write_publish_noack|reflexivity|reflexivity]. Qed.

Lemma filter_ack_ack c qos pid code : filter is_ack (ack_of c qos pid code) = ack_of c qos pid code.
Proof. unfold ack_of. destruct (qos =? 1); [reflexivity|]. destruct (qos =? 2); reflexivity. Qed.

(* the whole step (handler + poll loops run to quiescence) of an accepted PUBLISH contains exactly
   one acknowledgement packet: the one for this PUBLISH, to its sender, with its packet identifier *)
Theorem C01_ack_step c k dup qos retain topic payload pid props s s' out :
  nget c (b_conns s) = Some k -> k_phase k = PhConnected ->
  handle_packet c k (KPublish dup qos retain topic payload pid props) s = HOk s' out ->
  exists code,
    filter is_ack (snd (step s (ESend c (KPublish dup qos retain topic payload pid props)))) = ack_of c qos pid code.
Proof.
  intros Hk Hp H. destruct (C01_ack_event _ _ _ _ _ _ _ _ _ _ _ _ Hk Hp H) as [Es _].
  destruct (handle_packet_publish_ok _ _ _ _ _ _ _ _ _ _ _ _ H) as (k' & s0 & H').
  destruct (handle_publish_ok _ _ _ _ _ _ _ _ _ _ _ _ H') as (o & code & -> & Ho).
  exists code. unfold step. rewrite Es, let_pair. cbn [snd].
  rewrite !filter_app, filter_ack_ack, !filter_none; [now rewrite app_nil_r| |].
  - apply Forall_forall, poll_all_noack.
  - apply Forall_forall, (dropped_all _ o (fun _ _ _ => eq_refl) Ho).
Qed.

Definition unread_sorted (bound : N) (q : queue) : Prop :=
  StronglySorted N.lt (map e_tag (skipn (q_cur q) (q_l q))) /\
  Forall (fun e => e_tag e < bound) (skipn (q_cur q) (q_l q)).

Theorem deliver_keeps_order src m s c q :
  nodrop_ok src m s = true -> aget c (b_queues s) = Some q -> (q_cur q <= length (q_l q))%nat ->
  unread_sorted (b_tag s) q ->
  exists q', aget c (b_queues (fst (fst (deliver src m s)))) = Some q' /\
             q_cur q' = q_cur q /\ unread_sorted (b_tag (fst (fst (deliver src m s)))) q'.
Proof.
  intros Hn Hq Hcur [Hs Hb]. destruct (deliver_appends src m s c q Hn Hq) as (app & Q & St & _ & T).
  pose proof (deliver_tag_mono src m s) as Hm.
  exists (q_extend app q). split; [exact Q|]. split; [reflexivity|].
  unfold unread_sorted, q_extend, q_set. cbn [q_l q_cur].
  rewrite skipn_app. replace (q_cur q - length (q_l q))%nat with 0%nat by lia. cbn [skipn].
  rewrite Forall_forall in St, Hb. split.
  - rewrite map_app. apply sorted_app; [exact Hs|exact T|].
    intros x y Hx Hy. apply in_map_iff in Hx as (e1 & <- & He1). apply in_map_iff in Hy as (e2 & <- & He2).
    specialize (Hb e1 He1). destruct (St e2 He2) as [B _]. lia.
  - apply Forall_forall. intros e He. apply in_app_or in He as [He|He].
    + specialize (Hb e He). lia.
    + destruct (St e He) as [B _]. lia.
Qed.

(* a second example state: client a subscribes "#" and "$share/g/#"; b publishes *)
Definition ex_sys_x : str := [36; 83; 89; 83; 47; 120].                (* "$SYS/x" *)
Definition ex_hash : str := [35].                                      (* "#" *)
Definition ex_sh_hash : str := SHARE_PREFIX ++ [103; 47; 35].          (* "$share/g/#" *)
Definition ex_events2 : list event :=
  [EConnect 1 (ex_conn ex_A); EConnect 2 (ex_conn ex_B);
   ESend 1 (KSubscribe 1 [] [ex_tq ex_hash 0 false false; ex_tq ex_sh_hash 0 false false])].
Definition ex_state2 : st := fst (run (st_init (ex_cfg false) no_hooks []) ex_events2).
(* a third one: a additionally subscribes "$share/g/$SYS/#" (subscription identifier 5) *)
Definition ex_sh_sys_hash : str := SHARE_PREFIX ++ [103; 47; 36; 83; 89; 83; 47; 35].   (* "$share/g/$SYS/#" *)
Definition ex_sys_hash : str := [36; 83; 89; 83; 47; 35].                                (* "$SYS/#" *)
Definition ex_events3 : list event :=
  ex_events2 ++ [ESend 1 (KSubscribe 2 [PSubId 5] [ex_tq ex_sh_sys_hash 0 false false])].
Definition ex_state3 : st := fst (run (st_init (ex_cfg false) no_hooks []) ex_events3).
