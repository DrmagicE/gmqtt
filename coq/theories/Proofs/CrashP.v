(* Proofs about the redis persistence model (Model/Redis.v, Model/RQueue.v, Model/Crash.v):
   - store typing: every command of every journal keeps the store loadable, so `recover`
     succeeds on the store left by ANY prefix of the journal of ANY history;
   - one statement per client event (`bstep_ok`): the broker after it follows from the broker
     before it by the storage commands of its journal, which stay within the keys of the event;
   - the subscription hash, the session hash and the unack hash at any prefix lie between
     the acknowledged state and the state the request in flight would produce;
   - witnesses (vm_compute) for the three deviations of the code before the repairs. *)
From Coq Require Import List NArith ZArith Bool Arith Lia.
Import ListNotations.
From GM Require Import Base.Topic Base.Msg Model.SubTrie Model.SubSpec Model.Queue Model.Redis Model.RQueue Model.Crash
  Proofs.TopicP Proofs.ListP Proofs.SubTrieP.
Open Scope N_scope.

Definition is_sess_key (k : str) : bool := has_prefix_str SESS_PREFIX k.
Definition is_sub_key (k : str) : bool := has_prefix_str SUBS_PREFIX k.

Definition is_unack_key (k : str) : bool := has_prefix_str UNACK_PREFIX k.
(* keys that only ever hold hashes: session:* and unack:* *)
Definition is_hash_key (k : str) : bool := is_sess_key k || is_unack_key k.

(* the family of a key and the client it belongs to.  On a key built from a prefix and a
   variable client id everything below computes: facts like `is_sub_key (sess_key c) = false`
   or `sess_key c <> unack_key c'` hold by reflexivity / discriminate *)
Inductive kclass := KSess (c : cid) | KSub (c : cid) | KUnack (c : cid) | KQueue (c : cid) | KOther.

Definition key_class (k : str) : kclass :=
  if is_sess_key k then KSess (skipn 8 k) else if is_sub_key k then KSub (skipn 4 k)
  else if is_unack_key k then KUnack (skipn 6 k)
  else if has_prefix_str QUEUE_PREFIX k then KQueue (skipn 6 k) else KOther.

Lemma class_sess c : key_class (sess_key c) = KSess c.
Proof. reflexivity. Qed.
Lemma class_unack c : key_class (unack_key c) = KUnack c.
Proof. reflexivity. Qed.
Lemma class_queue c : key_class (queue_key c) = KQueue c.
Proof. reflexivity. Qed.

Lemma queue_key_not_sub c : is_sub_key (queue_key c) = false.
Proof. reflexivity. Qed.
Lemma hash_key_sess c : is_hash_key (sess_key c) = true.
Proof. reflexivity. Qed.
Lemma hash_key_unack c : is_hash_key (unack_key c) = true.
Proof. reflexivity. Qed.

Lemma has_prefix_split p k : has_prefix_str p k = true -> k = p ++ skipn (length p) k.
Proof.
  revert k. induction p as [|x p IH]; intros k H; cbn [has_prefix_str length skipn app] in *; [reflexivity|].
  destruct k as [|y k]; [discriminate|]. apply andb_true_iff in H as [H1 H2].
  apply N.eqb_eq in H1. subst y. f_equal. now apply IH.
Qed.

Definition sub_client (k : str) : option cid := if is_sub_key k then Some (skipn 4 k) else None.

Lemma sub_client_key c : sub_client (sub_key c) = Some c.
Proof. reflexivity. Qed.

Lemma sub_client_inv k c : sub_client k = Some c -> k = sub_key c.
Proof.
  unfold sub_client. destruct (is_sub_key k) eqn:E; [|discriminate]. intros H. injection H as <-.
  exact (has_prefix_split SUBS_PREFIX k E).
Qed.

Definition sess_client (k : str) : option cid := if is_sess_key k then Some (skipn 8 k) else None.
Lemma sess_client_key c : sess_client (sess_key c) = Some c.
Proof. reflexivity. Qed.
Lemma sess_client_inv k c : sess_client k = Some c -> k = sess_key c.
Proof.
  unfold sess_client. destruct (is_sess_key k) eqn:E; [|discriminate]. intros H. injection H as <-.
  exact (has_prefix_split SESS_PREFIX k E).
Qed.

Definition sub_fv (fv : str * blob) : Prop := exists s, snd fv = BSub s /\ fst fv = full_topic s.
Definition all_subs (h : list (str * blob)) : Prop := Forall sub_fv h.

Definition wt_val (k : str) (v : rval) : Prop :=
  (is_hash_key k = true -> exists h, v = RHash h) /\
  (is_sub_key k = true -> exists h, v = RHash h /\ all_subs h) /\
  (forall h, v = RHash h -> NoDup (map fst h)).

Definition wt_store (s : rstore) : Prop :=
  NoDup (map fst s) /\ forall k v, aget k s = Some v -> wt_val k v.

Definition wt_cmd (c : rcmd) : Prop :=
  match c with
  | CHSet k fvs => is_sub_key k = true -> all_subs fvs
  | CHDel _ _ | CDel _ => True
  | CRPush k _ | CLRem k _ | CLSet k _ _ => is_hash_key k = false /\ is_sub_key k = false
  end.

Definition cmd_key (c : rcmd) : str :=
  match c with CHSet k _ | CHDel k _ | CDel k | CRPush k _ | CLRem k _ | CLSet k _ _ => k end.

Lemma all_subs_hset_all fvs h : all_subs fvs -> all_subs h -> all_subs (hset_all fvs h).
Proof.
  revert h. induction fvs as [|[f v] r IH]; cbn [hset_all]; intros h Hf Hh; [exact Hh|].
  inversion Hf as [|x xs Hx Hr]; subst. apply IH; [exact Hr|]. now apply Forall_aset.
Qed.

Lemma all_subs_hdel_all fs h : all_subs h -> all_subs (hdel_all fs h).
Proof.
  revert h. induction fs as [|f r IH]; cbn [hdel_all]; intros h Hh; [exact Hh|].
  apply IH. now apply Forall_adel.
Qed.

Lemma NoDup_hset_all fvs (h : list (str * blob)) : NoDup (map fst h) -> NoDup (map fst (hset_all fvs h)).
Proof.
  revert h. induction fvs as [|[f v] r IH]; cbn [hset_all]; intros h Hh; [exact Hh|].
  apply IH. now apply NoDup_aset.
Qed.

Lemma NoDup_hdel_all fs (h : list (str * blob)) : NoDup (map fst h) -> NoDup (map fst (hdel_all fs h)).
Proof.
  revert h. induction fs as [|f r IH]; cbn [hdel_all]; intros h Hh; [exact Hh|].
  apply IH. now apply NoDup_adel.
Qed.

Lemma wt_store_nil : wt_store [].
Proof. split; [constructor|]. intros k v H. discriminate. Qed.

Lemma wt_store_aset k v s : wt_store s -> wt_val k v -> wt_store (aset k v s).
Proof.
  intros [Hnd Hs] Hv. split; [now apply NoDup_aset|].
  intros k' v' Hget. rewrite aget_aset in Hget.
  destruct (str_eqb_spec k' k) as [E|E].
  - subst k'. injection Hget as <-. exact Hv.
  - now apply Hs.
Qed.

Lemma wt_store_adel k s : wt_store s -> wt_store (adel k s).
Proof.
  intros [Hnd Hs]. split; [now apply NoDup_adel|].
  intros k' v' Hget. rewrite aget_adel in Hget by exact Hnd.
  destruct (str_eqb k' k); [discriminate|]. now apply Hs.
Qed.

Lemma wt_val_list k l : is_hash_key k = false -> is_sub_key k = false -> wt_val k (RList l).
Proof.
  intros H1 H2. split; [|split].
  - intros H. rewrite H1 in H. discriminate.
  - intros H. rewrite H2 in H. discriminate.
  - intros h E. discriminate.
Qed.

Lemma wt_val_hash k h : (is_sub_key k = true -> all_subs h) -> NoDup (map fst h) -> wt_val k (RHash h).
Proof.
  intros Hh Hnd. split; [|split].
  - intros _. now exists h.
  - intros H. exists h. split; [reflexivity|now apply Hh].
  - intros h' E. injection E as <-. exact Hnd.
Qed.

Lemma wt_hash_inv s k h : wt_store s -> aget k s = Some (RHash h) ->
  NoDup (map fst h) /\ (is_sub_key k = true -> all_subs h).
Proof.
  intros [_ Hs] E. destruct (Hs _ _ E) as (_ & H2 & H3). split; [now apply H3|].
  intros Hk. destruct (H2 Hk) as (h' & Eh & Hh). injection Eh as <-. exact Hh.
Qed.

Lemma exec_wt s c : wt_store s -> wt_cmd c -> wt_store (exec s c).
Proof.
  intros Hs Hc. destruct c as [k fvs|k fs|k|k v|k v|k i v]; cbn [exec wt_cmd] in *.
  - destruct (aget k s) as [[h|l]|] eqn:E.
    + destruct (wt_hash_inv s k h Hs E) as [Hnd Hsub].
      apply wt_store_aset; [exact Hs|]. apply wt_val_hash; [|now apply NoDup_hset_all].
      intros Hk. apply all_subs_hset_all; [now apply Hc|now apply Hsub].
    + exact Hs.
    + apply wt_store_aset; [exact Hs|]. apply wt_val_hash; [|apply NoDup_hset_all; constructor].
      intros Hk. apply all_subs_hset_all; [now apply Hc|constructor].
  - destruct (aget k s) as [[h|l]|] eqn:E; try exact Hs.
    destruct (wt_hash_inv s k h Hs E) as [Hnd Hsub].
    destruct (hdel_all fs h) as [|x r] eqn:Eh.
    + now apply wt_store_adel.
    + apply wt_store_aset; [exact Hs|]. rewrite <- Eh. apply wt_val_hash; [|now apply NoDup_hdel_all].
      intros Hk. apply all_subs_hdel_all. now apply Hsub.
  - now apply wt_store_adel.
  - destruct Hc as [H1 H2]. destruct (aget k s) as [[h|l]|] eqn:E; try exact Hs;
      (apply wt_store_aset; [exact Hs|now apply wt_val_list]).
  - destruct Hc as [H1 H2]. destruct (aget k s) as [[h|l]|] eqn:E; try exact Hs.
    destruct (remove_first v l) as [|x r].
    + now apply wt_store_adel.
    + apply wt_store_aset; [exact Hs|now apply wt_val_list].
  - destruct Hc as [H1 H2]. destruct (aget k s) as [[h|l]|] eqn:E; try exact Hs.
    destruct (norm_index i (length l)); [|exact Hs].
    apply wt_store_aset; [exact Hs|now apply wt_val_list].
Qed.

Lemma exec_all_app s a b : exec_all s (a ++ b) = exec_all (exec_all s a) b.
Proof. unfold exec_all. now rewrite fold_left_app. Qed.

Lemma exec_all_wt cs s : wt_store s -> Forall wt_cmd cs -> wt_store (exec_all s cs).
Proof.
  unfold exec_all. revert s. induction cs as [|c r IH]; cbn [fold_left]; intros s Hs Hc; [exact Hs|].
  inversion Hc as [|x xs Hx Hr]; subst. apply IH; [|exact Hr]. now apply exec_wt.
Qed.

(* a command leaves every key but its own alone *)
Lemma exec_frame s c k' : NoDup (map fst s) -> cmd_key c <> k' -> aget k' (exec s c) = aget k' s.
Proof.
  intros Hnd Hk. assert (Hk' : k' <> cmd_key c) by congruence.
  assert (Hdel : aget k' (adel (cmd_key c) s) = aget k' s).
  { rewrite aget_adel by exact Hnd. apply str_eqb_neq in Hk'. now rewrite Hk'. }
  destruct c as [k fvs|k fs|k|k v|k v|k i v]; cbn [exec cmd_key] in *; try exact Hdel;
    destruct (aget k s) as [[h|l]|]; try reflexivity; try now apply aget_aset_other.
  - destruct (hdel_all fs h); [exact Hdel|now apply aget_aset_other].
  - destruct (remove_first v l); [exact Hdel|now apply aget_aset_other].
  - destruct (norm_index i (length l)); [now apply aget_aset_other|reflexivity].
Qed.

Lemma exec_nodup s c : NoDup (map fst s) -> NoDup (map fst (exec s c)).
Proof.
  intros H. destruct c as [k fvs|k fs|k|k v|k v|k i v]; cbn [exec]; try (now apply NoDup_adel);
    destruct (aget k s) as [[h|l]|]; try exact H; try (now apply NoDup_aset).
  - destruct (hdel_all fs h); [now apply NoDup_adel|now apply NoDup_aset].
  - destruct (remove_first v l); [now apply NoDup_adel|now apply NoDup_aset].
  - destruct (norm_index i (length l)); [now apply NoDup_aset|exact H].
Qed.

Lemma exec_all_nodup cs : forall s, NoDup (map fst s) -> NoDup (map fst (exec_all s cs)).
Proof. unfold exec_all. induction cs as [|c r IH]; intros s H; cbn [fold_left]; [exact H|]. now apply IH, exec_nodup. Qed.

Lemma frame_all cmds : forall s key,
  NoDup (map fst s) -> Forall (fun c => cmd_key c <> key) cmds -> aget key (exec_all s cmds) = aget key s.
Proof.
  unfold exec_all. induction cmds as [|c r IH]; intros s key Hs Hk; cbn [fold_left]; [reflexivity|].
  inversion Hk as [|y ys Hy Hr]; subst. rewrite IH; [now apply exec_frame|now apply exec_nodup|exact Hr].
Qed.

(* the hash under one key: what HGETALL answers, and what its commands do to it *)
Definition hview (K : str) (s : rstore) : list (str * blob) :=
  match aget K s with Some (RHash h) => h | _ => [] end.

Definition no_list (K : str) (s : rstore) : Prop := forall l, aget K s <> Some (RList l).

Definition hexec (h : list (str * blob)) (c : rcmd) : list (str * blob) :=
  match c with CHSet _ fvs => hset_all fvs h | CHDel _ fs => hdel_all fs h | CDel _ => [] | _ => h end.

Definition hcmd (c : rcmd) : Prop := match c with CHSet _ _ | CHDel _ _ | CDel _ => True | _ => False end.

Lemma hdel_all_nil fs : hdel_all fs [] = [].
Proof. induction fs as [|f r IH]; [reflexivity|exact IH]. Qed.

Lemma hview_exec K s c : NoDup (map fst s) -> no_list K s -> cmd_key c = K -> hcmd c ->
  hview K (exec s c) = hexec (hview K s) c /\ no_list K (exec s c).
Proof.
  intros Hnd Hl <- Hc. unfold hview, no_list.
  assert (Hdel : aget (cmd_key c) (adel (cmd_key c) s) = None) by now rewrite aget_adel, str_eqb_refl.
  destruct c as [k fvs|k fs|k|k v|k v|k i v]; try contradiction; cbn [exec hexec cmd_key] in *;
    [destruct (aget k s) as [[h|l]|] eqn:E; [|now destruct (Hl l)|]..|].
  - rewrite aget_aset_same. now split.
  - rewrite aget_aset_same. now split.
  - destruct (hdel_all fs h); [rewrite Hdel|rewrite aget_aset_same]; now split.
  - rewrite E, hdel_all_nil. now split.
  - rewrite Hdel. now split.
Qed.

Lemma hview_frame K s c : NoDup (map fst s) -> cmd_key c <> K -> hview K (exec s c) = hview K s.
Proof. intros Hnd Hk. unfold hview. now rewrite exec_frame. Qed.

Lemma hgetall_hview K s : no_list K s -> hgetall K s = Some (hview K s).
Proof. intros Hl. unfold hgetall, hview. destruct (aget K s) as [[h|l]|] eqn:E; [reflexivity|now destruct (Hl l)|reflexivity]. Qed.

Lemma wt_hview s K : wt_store s -> NoDup (map fst (hview K s)) /\ (is_sub_key K = true -> all_subs (hview K s)).
Proof.
  intros Hs. unfold hview. destruct (aget K s) as [[h|l]|] eqn:E; [exact (wt_hash_inv s K h Hs E)| |]; split; constructor.
Qed.

Lemma wt_no_list s K : wt_store s -> is_hash_key K = true \/ is_sub_key K = true -> no_list K s.
Proof.
  intros [_ Hs] HK l E. destruct (Hs _ _ E) as (H1 & H2 & _).
  destruct HK as [HK|HK]; [destruct (H1 HK)|destruct (H2 HK) as (? & ? & _)]; discriminate.
Qed.

Lemma subs_of_hash_total h : all_subs h -> subs_of_hash h <> None.
Proof.
  induction h as [|[f v] r IH]; cbn [subs_of_hash]; intros Hh; [discriminate|].
  inversion Hh as [|x xs Hx Hr]; subst. destruct Hx as (s & Hs & _). cbn [snd] in Hs. subst v.
  specialize (IH Hr). destruct (subs_of_hash r); [discriminate|congruence].
Qed.

(* HGETALL sub:<c> on a well-typed store: a hash that decodes *)
Lemma stored_subs_load s c : wt_store s ->
  exists l, hgetall (sub_key c) s = Some (hview (sub_key c) s) /\ subs_of_hash (hview (sub_key c) s) = Some l.
Proof.
  intros Hs. pose proof (subs_of_hash_total _ (proj2 (wt_hview s (sub_key c) Hs) eq_refl)) as Ht.
  destruct (subs_of_hash _) as [l|]; [|congruence]. exists l. split; [|reflexivity].
  apply hgetall_hview. apply (wt_no_list s _ Hs). now right.
Qed.

Lemma load_subs_total fx s cids : wt_store s -> load_subs fx s cids <> None.
Proof.
  intros Hs. induction cids as [|c r IH]; cbn [load_subs]; [discriminate|].
  destruct (stored_subs_load s c Hs) as (l & -> & ->). destruct (load_subs fx s r); [discriminate|congruence].
Qed.

Lemma no_wrongtype_session s : wt_store s -> has_wrongtype_session s = false.
Proof.
  intros [Hnd Hs]. unfold has_wrongtype_session.
  apply not_true_is_false. intros H. apply existsb_exists in H as ([k v] & Hin & Hb).
  cbn [fst snd] in Hb. apply andb_true_iff in Hb as [Hk Hv].
  pose proof (In_aget k v s Hnd Hin) as Hget.
  destruct (Hs _ _ Hget) as [H1 _].
  assert (Hk' : is_hash_key k = true) by (unfold is_hash_key, is_sess_key; now rewrite Hk).
  destruct (H1 Hk') as [h ->]. discriminate.
Qed.

Lemma load_bsubs_total fx s cids m : wt_store s -> load_bsubs fx s cids m <> None.
Proof.
  intros Hs. revert m. induction cids as [|c r IH]; intros m; cbn [load_bsubs]; [discriminate|].
  destruct (stored_subs_load s c Hs) as (l & -> & ->). apply IH.
Qed.

Lemma recover_total fx s : wt_store s -> recover fx s <> None.
Proof.
  intros Hs. unfold recover. rewrite (no_wrongtype_session s Hs).
  pose proof (load_bsubs_total fx s (map fst (stored_sessions s (scan_prefix SESS_PREFIX s))) [] Hs) as Hl.
  destruct (load_bsubs fx s _ _); [discriminate|congruence].
Qed.

Definition qcmd (k : str) (c : rcmd) : Prop :=
  match c with
  | CRPush k' _ | CLRem k' _ | CLSet k' _ _ | CDel k' => k' = k
  | _ => False
  end.

Lemma qcmd_key k cmd : qcmd k cmd -> cmd_key cmd = k.
Proof. destruct cmd; cbn [qcmd cmd_key]; intros H; try contradiction; exact H. Qed.

(* a method of the queue object issues commands on its own key only, keeps its key, and returns
   the store it obtained by executing them *)
Definition res_ok (s : rstore) (q : rq) (x : rqres) : Prop :=
  Forall (qcmd (rq_key q)) (r_cmds x) /\ rq_key (r_q x) = rq_key q /\ r_store x = exec_all s (r_cmds x).

Lemma done_ok s q q' o cs : rq_key q' = rq_key q -> Forall (qcmd (rq_key q)) cs -> res_ok s q (done s q' o cs).
Proof. intros Hk Hc. unfold done, res_ok. cbn [r_cmds r_q r_store]. now split. Qed.

Lemma rq_init_ok c v l s q : res_ok s q (rq_init c v l s q).
Proof. unfold rq_init, res_ok. cbn [r_cmds r_q rq_key r_store]. split; [destruct c; repeat constructor|now split]. Qed.

Lemma rq_close_ok s q : res_ok s q (rq_close s q).
Proof. unfold rq_close, res_ok. cbn [r_cmds r_q rq_key r_store]. split; [constructor|now split]. Qed.

Lemma rq_restart_ok s q : res_ok s q (rq_restart s q).
Proof. unfold rq_restart, res_ok. cbn [r_cmds r_q rq_key r_store]. split; [constructor|now split]. Qed.

Lemma rq_add_ok now e s q : res_ok s q (rq_add now e s q).
Proof.
  assert (H : forall victim r bk p, res_ok s q (rq_add_finish s q e victim r bk p)).
  { intros victim r bk p. unfold rq_add_finish. destruct victim; apply done_ok; repeat constructor. }
  unfold rq_add. destruct (rq_max q <=? rq_len q)%Z; [|apply done_ok; repeat constructor].
  destruct (rq_add_scan _ _ _ _ _ _) as [d r bk|cand|cand front]; try apply H.
  destruct (rq_drained q && (rq_len q <=? rq_cur q)%Z); [apply H|].
  destruct cand; [apply H|]. destruct (e_body e) as [m|p]; [|apply H]. destruct (m_qos m =? 0); apply H.
Qed.

Lemma rq_replace_ok e s q : res_ok s q (rq_replace e s q).
Proof.
  unfold rq_replace. destruct (rq_cur q <=? 0)%Z; [apply done_ok; repeat constructor|].
  destruct (find_id_z _ _ _) as [k|]; [destruct (rq_cache q)|]; apply done_ok; repeat constructor.
Qed.

Lemma rq_remove_ok pid s q : res_ok s q (rq_remove pid s q).
Proof.
  unfold rq_remove. destruct (rq_cache q) as [c|]; [destruct (cache_get pid c)|]; apply done_ok; repeat constructor.
Qed.

(* the commands of the loop of Read: an LREM of a window element, or an LSET of one with the
   packet id (and the in-flight expiry) written into it *)
Lemma read_loop_cmds (P : rcmd -> Prop) now key limit v5 ifexp (L : list elem) :
  (forall v, In v L -> P (CLRem key (BElem v))) ->
  (forall v m p i, In v L -> e_body v = QPub m ->
     P (CLSet key i (BElem (if ifexp =? 0 then with_body (QPub (set_pid p m)) v
                            else with_expiry (Some (now + ifexp)) (with_body (QPub (set_pid p m)) v))))) ->
  forall l a, incl l L -> Forall P (ra_cmds a) ->
  Forall P (ra_cmds (fst (rq_read_loop now key limit v5 ifexp l a))).
Proof.
  intros Hrem Hset. induction l as [|v r IH]; intros a Hl Ha; cbn [rq_read_loop]; [exact Ha|].
  assert (Hv : In v L) by (apply Hl; now left). assert (Hr : incl r L) by (intros x Hx; apply Hl; now right).
  assert (Hrm : Forall P (ra_cmds a ++ [CLRem key (BElem v)])).
  { apply Forall_app. split; [exact Ha|]. constructor; [now apply Hrem|constructor]. }
  destruct (expired now v); [now apply IH|].
  destruct (e_body v) as [m|p] eqn:Eb; [|exact Ha].
  destruct (limit <? msg_total_bytes v5 m); [now apply IH|].
  destruct (m_qos m =? 0); [now apply IH|].
  destruct (ra_pids a) as [|p pids']; [exact Ha|].
  assert (Hst : Forall P (ra_cmds a ++ [CLSet key (ra_cur a) (BElem (if ifexp =? 0 then with_body (QPub (set_pid p m)) v
                            else with_expiry (Some (now + ifexp)) (with_body (QPub (set_pid p m)) v)))])).
  { apply Forall_app. split; [exact Ha|]. constructor; [now apply Hset|constructor]. }
  destruct (ra_cache a) as [c|]; [now apply IH|exact Hst].
Qed.

(* ... and of the loop of ReadInflight: LSETs of window elements with a new in-flight expiry *)
Lemma rif_loop_cmds (P : rcmd -> Prop) now key ifexp (L : list elem) :
  (forall e x i, In e L -> P (CLSet key i (BElem (with_expiry x e)))) ->
  forall l idx cur cache rs cmds, incl l L -> Forall P cmds ->
  let '(_, _, _, cmds', _, _) := rq_rif_loop now key ifexp l idx cur cache rs cmds in Forall P cmds'.
Proof.
  intros Hset. induction l as [|e r IH]; intros idx cur cache rs cmds Hl Hc; cbn [rq_rif_loop]; [exact Hc|].
  destruct (e_id e =? 0); [exact Hc|].
  assert (He : In e L) by (apply Hl; now left). assert (Hr : incl r L) by (intros x Hx; apply Hl; now right).
  assert (Hc' : Forall P (if ifexp =? 0 then cmds
                          else cmds ++ [CLSet key idx (BElem (if ifexp =? 0 then e else with_expiry (Some (now + ifexp)) e))])).
  { destruct (ifexp =? 0); [exact Hc|]. apply Forall_app. split; [exact Hc|]. constructor; [now apply Hset|constructor]. }
  destruct cache as [c|]; [now apply IH|exact Hc'].
Qed.

Lemma rq_read_ok now pids s q : res_ok s q (rq_read now pids s q).
Proof.
  unfold rq_read. destruct (negb (rq_drained q)); [apply done_ok; repeat constructor|].
  destruct (rq_closed q); [apply done_ok; repeat constructor|].
  destruct (rq_len q <=? rq_cur q)%Z; [apply done_ok; repeat constructor|].
  destruct (length pids =? 0)%nat; [apply done_ok; repeat constructor|].
  match goal with |- context [rq_read_loop ?a ?b ?c ?d ?e ?l ?acc] =>
    pose proof (read_loop_cmds (qcmd b) a b c d e l (fun _ _ => eq_refl) (fun _ _ _ _ _ _ => eq_refl) l acc
                  (incl_refl _) (Forall_nil _)) as H;
    destruct (rq_read_loop a b c d e l acc) as [a' p] end.
  destruct p; apply done_ok; try reflexivity; exact H.
Qed.

Lemma rq_read_inflight_ok now n s q : res_ok s q (rq_read_inflight now n s q).
Proof.
  unfold rq_read_inflight. destruct n as [|n']; [apply done_ok; repeat constructor|].
  destruct (elems_of _) as [|e l] eqn:El; [apply done_ok; repeat constructor|].
  match goal with |- context [rq_rif_loop ?a ?b ?c ?d ?e0 ?f ?g ?h ?i] =>
    pose proof (rif_loop_cmds (qcmd b) a b c d (fun _ _ _ _ => eq_refl) d e0 f g h i (incl_refl _) (Forall_nil _)) as H;
    destruct (rq_rif_loop a b c d e0 f g h i) as [[[[[cur cache] rs] cmds] dr] panicked] end.
  destruct panicked; apply done_ok; try reflexivity; exact H.
Qed.

(* commands on some client's queue key *)
Definition isq (cmd : rcmd) : Prop := exists c0, qcmd (queue_key c0) cmd.

Lemma isq_wt cmd : isq cmd -> wt_cmd cmd.
Proof.
  intros [c0 H]. destruct cmd as [k fvs|k fs|k|k v|k v|k i v]; cbn [qcmd wt_cmd] in *; try exact I; try contradiction;
    subst k; split; reflexivity.
Qed.

Lemma isq_key cmd : isq cmd -> exists c0, key_class (cmd_key cmd) = KQueue c0.
Proof. intros [c0 H]. exists c0. rewrite (qcmd_key _ _ H). apply class_queue. Qed.

(* the in-memory index, updated field by field *)
Definition bs_setf (c : cid) (f : str) (x : sub) (m : bsubs) : bsubs := aset c (aset f x (bs_table c m)) m.

(* the effect of one storage command on the subscription tables *)
Definition mem_eff (m : bsubs) (cmd : rcmd) : bsubs :=
  match cmd with
  | CHSet k fvs =>
      match sub_client k with
      | Some c => fold_left (fun m fv => match snd fv with BSub x => bs_setf c (fst fv) x m | _ => m end) fvs m
      | None => m
      end
  | CHDel k fs => match sub_client k with Some c => fold_left (fun m f => bs_unsub c f m) fs m | None => m end
  | CDel k => match sub_client k with Some c => bs_clear c m | None => m end
  | _ => m
  end.

Definition store_tb (c : cid) (s : rstore) : list (str * blob) :=
  match aget (sub_key c) s with Some (RHash h) => h | _ => [] end.

Lemma store_tb_hview c s : store_tb c s = hview (sub_key c) s.
Proof. reflexivity. Qed.

Definition tb_rel (h : list (str * blob)) (tb : list (str * sub)) : Prop :=
  forall t, aget t h = option_map BSub (aget t tb).

(* the stored hashes hold exactly the tables *)
Definition sub_rel (s : rstore) (m : bsubs) : Prop := forall c, tb_rel (store_tb c s) (bs_table c m).

Definition nosub (c : rcmd) : Prop := sub_client (cmd_key c) = None.

Lemma mem_eff_nosub1 m c : nosub c -> mem_eff m c = m.
Proof. unfold nosub. intros H. destruct c; cbn [mem_eff cmd_key] in *; try reflexivity; now rewrite H. Qed.

Lemma nosub_del_sess c : nosub (CDel (sess_key c)).
Proof. reflexivity. Qed.

Lemma mem_eff_nosub cs : forall m, Forall nosub cs -> fold_left mem_eff cs m = m.
Proof.
  induction cs as [|c r IH]; intros m H; cbn [fold_left]; [reflexivity|].
  inversion H as [|x xs Hx Hr]; subst. now rewrite mem_eff_nosub1, IH.
Qed.

Definition bs_ok (m : bsubs) : Prop :=
  NoDup (map fst m) /\ forall c tb, aget c m = Some tb -> NoDup (map fst tb).

Lemma bs_table_nodup c m : bs_ok m -> NoDup (map fst (bs_table c m)).
Proof.
  intros [_ H]. unfold bs_table. destruct (aget c m) as [tb|] eqn:E; [now apply (H c)|constructor].
Qed.

Lemma bs_table_set_same c tb m : bs_table c (aset c tb m) = tb.
Proof. unfold bs_table. now rewrite aget_aset_same. Qed.
Lemma bs_table_set_other c c' tb m : c' <> c -> bs_table c' (aset c tb m) = bs_table c' m.
Proof. intros H. unfold bs_table. now rewrite aget_aset_other. Qed.

Lemma bs_ok_set c tb m : bs_ok m -> NoDup (map fst tb) -> bs_ok (aset c tb m).
Proof.
  intros [H1 H2] Htb. split; [now apply NoDup_aset|].
  intros c' tb' E. rewrite aget_aset in E. destruct (str_eqb c' c).
  - injection E as <-. exact Htb.
  - now apply (H2 c').
Qed.

Lemma bs_ok_clear c m : bs_ok m -> bs_ok (bs_clear c m).
Proof.
  intros [H1 H2]. unfold bs_clear. split; [now apply NoDup_adel|].
  intros c' tb' E. rewrite aget_adel in E by exact H1. destruct (str_eqb c' c); [discriminate|now apply (H2 c')].
Qed.

Lemma bs_table_clear c c' m : bs_ok m -> bs_table c' (bs_clear c m) = if str_eqb c' c then [] else bs_table c' m.
Proof.
  intros [H1 _]. unfold bs_table, bs_clear. rewrite aget_adel by exact H1. now destruct (str_eqb c' c).
Qed.

Lemma tb_rel_nil : tb_rel [] [].
Proof. intros t. reflexivity. Qed.

Lemma tb_rel_aset f x h tb : tb_rel h tb -> tb_rel (aset f (BSub x) h) (aset f x tb).
Proof. intros H t. rewrite !aget_aset. destruct (str_eqb t f); [reflexivity|apply H]. Qed.

Lemma tb_rel_adel f h tb :
  NoDup (map fst h) -> NoDup (map fst tb) -> tb_rel h tb -> tb_rel (adel f h) (adel f tb).
Proof.
  intros H1 H2 H t. rewrite !aget_adel by assumption. destruct (str_eqb t f); [reflexivity|apply H].
Qed.

Lemma tb_rel_nil_l tb : tb_rel [] tb -> forall t, aget t tb = None.
Proof. intros H t. specialize (H t). cbn [aget] in H. destruct (aget t tb); [discriminate|reflexivity]. Qed.

(* HSET of subscription values *)
Lemma hset_rel c fvs : forall h m,
  all_subs fvs -> bs_ok m -> tb_rel h (bs_table c m) ->
  let m' := fold_left (fun m fv => match snd fv with BSub x => bs_setf c (fst fv) x m | _ => m end) fvs m in
  tb_rel (hset_all fvs h) (bs_table c m') /\ (forall c', c' <> c -> bs_table c' m' = bs_table c' m) /\ bs_ok m'.
Proof.
  induction fvs as [|[f v] r IH]; intros h m Hf Hm Hr; cbn [fold_left hset_all].
  - split; [exact Hr|]. split; [reflexivity|exact Hm].
  - inversion Hf as [|y ys Hy Hrest]; subst. destruct Hy as (x & Hx & _). cbn [snd fst] in *. subst v.
    assert (Hm1 : bs_ok (bs_setf c f x m)).
    { apply bs_ok_set; [exact Hm|]. apply NoDup_aset. now apply bs_table_nodup. }
    assert (Hr1 : tb_rel (aset f (BSub x) h) (bs_table c (bs_setf c f x m))).
    { unfold bs_setf. rewrite bs_table_set_same. now apply tb_rel_aset. }
    destruct (IH (aset f (BSub x) h) (bs_setf c f x m) Hrest Hm1 Hr1) as (H1 & H2 & H3).
    split; [exact H1|]. split; [|exact H3].
    intros c' Hc'. rewrite (H2 c' Hc'). unfold bs_setf. now apply bs_table_set_other.
Qed.

Lemma hdel_rel c fs : forall h m,
  NoDup (map fst h) -> bs_ok m -> tb_rel h (bs_table c m) ->
  let m' := fold_left (fun m f => bs_unsub c f m) fs m in
  tb_rel (hdel_all fs h) (bs_table c m') /\ (forall c', c' <> c -> bs_table c' m' = bs_table c' m) /\ bs_ok m'.
Proof.
  induction fs as [|f r IH]; intros h m Hh Hm Hr; cbn [fold_left hdel_all].
  - split; [exact Hr|]. split; [reflexivity|exact Hm].
  - assert (Hm1 : bs_ok (bs_unsub c f m)).
    { apply bs_ok_set; [exact Hm|]. apply NoDup_adel. now apply bs_table_nodup. }
    assert (Hr1 : tb_rel (adel f h) (bs_table c (bs_unsub c f m))).
    { unfold bs_unsub. rewrite bs_table_set_same. apply tb_rel_adel; [exact Hh|now apply bs_table_nodup|exact Hr]. }
    destruct (IH (adel f h) (bs_unsub c f m) (NoDup_adel _ _ Hh) Hm1 Hr1) as (H1 & H2 & H3).
    split; [exact H1|]. split; [|exact H3].
    intros c' Hc'. rewrite (H2 c' Hc'). unfold bs_unsub. now apply bs_table_set_other.
Qed.

(* a well-typed command on sub:<c0> is a hash command, and does to the table of c0 what it does to the
   stored hash *)
Lemma mem_eff_rel c0 cmd h m :
  cmd_key cmd = sub_key c0 -> wt_cmd cmd -> NoDup (map fst h) -> bs_ok m -> tb_rel h (bs_table c0 m) ->
  hcmd cmd /\ tb_rel (hexec h cmd) (bs_table c0 (mem_eff m cmd)) /\
  (forall c', c' <> c0 -> bs_table c' (mem_eff m cmd) = bs_table c' m) /\ bs_ok (mem_eff m cmd).
Proof.
  intros Hk Hc Hh Hm Hr.
  destruct cmd as [k fvs|k fs|k|k v|k v|k i v]; cbn [cmd_key] in Hk; subst k; cbn [mem_eff hexec hcmd wt_cmd] in *;
    try discriminate (proj2 Hc); rewrite sub_client_key; (split; [exact I|]).
  - apply hset_rel; [now apply Hc|exact Hm|exact Hr].
  - now apply hdel_rel.
  - split; [|split; [|now apply bs_ok_clear]].
    + rewrite bs_table_clear, str_eqb_refl by exact Hm. apply tb_rel_nil.
    + intros c' Hc'. rewrite bs_table_clear by exact Hm. apply str_eqb_neq in Hc'. now rewrite Hc'.
Qed.

(* one command keeps the stored hashes and the tables in step *)
Lemma step_sub_rel s m cmd :
  wt_store s -> bs_ok m -> wt_cmd cmd -> sub_rel s m ->
  sub_rel (exec s cmd) (mem_eff m cmd) /\ bs_ok (mem_eff m cmd).
Proof.
  intros Hs Hm Hc Hrel. pose proof (proj1 Hs) as Hnd.
  destruct (sub_client (cmd_key cmd)) as [c0|] eqn:Ek.
  - apply sub_client_inv in Ek.
    destruct (mem_eff_rel c0 cmd (store_tb c0 s) m Ek Hc (proj1 (wt_hview s _ Hs)) Hm (Hrel c0)) as (Hh & H1 & H2 & H3).
    split; [|exact H3]. intros c. rewrite store_tb_hview. destruct (str_eqb_spec c c0) as [->|E].
    + rewrite (proj1 (hview_exec _ s cmd Hnd (wt_no_list s (sub_key c0) Hs (or_intror eq_refl)) Ek Hh)). exact H1.
    + rewrite hview_frame, (H2 c E); [apply Hrel|exact Hnd|].
      rewrite Ek. intros E'. apply app_inv_head in E'. congruence.
  - rewrite (mem_eff_nosub1 m cmd Ek). split; [|exact Hm]. intros c.
    rewrite store_tb_hview, hview_frame; [apply Hrel|exact Hnd|].
    intros E. rewrite E, sub_client_key in Ek. discriminate.
Qed.

Lemma steps_sub_rel cs : forall s m,
  wt_store s -> bs_ok m -> Forall wt_cmd cs -> sub_rel s m ->
  sub_rel (exec_all s cs) (fold_left mem_eff cs m) /\ bs_ok (fold_left mem_eff cs m).
Proof.
  unfold exec_all. induction cs as [|c r IH]; intros s m Hs Hm Hc Hrel; cbn [fold_left].
  - now split.
  - inversion Hc as [|x xs Hx Hr]; subst.
    destruct (step_sub_rel s m c Hs Hm Hx Hrel) as [H1 H2].
    apply IH; [now apply exec_wt|exact H2|exact Hr|exact H1].
Qed.

Lemma bs_ok_nil : bs_ok [].
Proof. split; [constructor|]. intros c tb E. discriminate. Qed.
Lemma sub_rel_nil : sub_rel [] [].
Proof. intros c t. reflexivity. Qed.

Definition qkey_ok (q : rq) : Prop := exists c, rq_key q = queue_key c.
Definition client_ok (x : bclient) : Prop := forall q, bc_q x = Some q -> qkey_ok q.
Definition cl_ok (cl : list (cid * bclient)) : Prop := Forall (fun cx => client_ok (snd cx)) cl.
Definition binv (b : broker) : Prop := cl_ok (b_clients b).

Lemma cl_ok_get {c x cl} : cl_ok cl -> aget c cl = Some x -> client_ok x.
Proof.
  intros Hcl Hg. apply aget_In in Hg. unfold cl_ok in Hcl. rewrite Forall_forall in Hcl.
  exact (Hcl _ Hg).
Qed.

Lemma client_ok_some o q u : qkey_ok q -> client_ok {| bc_online := o; bc_q := Some q; bc_ua := u |}.
Proof. intros Hq q0 E. injection E as <-. exact Hq. Qed.

Lemma client_ok_same x y : bc_q y = bc_q x -> client_ok x -> client_ok y.
Proof. intros E H q. rewrite E. apply H. Qed.

Lemma b_get_set c x b : b_get c (b_set c x b) = Some x.
Proof. apply aget_aset_same. Qed.

Lemma binv_set c x b : binv b -> client_ok x -> binv (b_set c x b).
Proof. intros Hb Hx. exact (Forall_aset _ c x _ Hb Hx). Qed.
Lemma binv_with_store s b : binv b -> binv (b_with_store s b).
Proof. intros Hb. exact Hb. Qed.

Lemma binv0 : binv broker0.
Proof. constructor. Qed.

Lemma qkey_new n i c : qkey_ok (rq_new n i c).
Proof. exists c. reflexivity. Qed.

Lemma jcmds_app a b : jcmds (a ++ b) = jcmds a ++ jcmds b.
Proof.
  induction a as [|[c|o] r IH]; cbn [app jcmds]; [reflexivity| |exact IH]. now rewrite IH.
Qed.
Lemma jcmds_map_cmd l : jcmds (map JCmd l) = l.
Proof. induction l as [|c r IH]; cbn [map jcmds]; [reflexivity|now rewrite IH]. Qed.
Lemma jcmds_deliveries c d l : jcmds (deliveries_of c d l) = [].
Proof.
  unfold deliveries_of. induction l as [|e r IH]; cbn [map jcmds]; [reflexivity|].
  destruct (e_body e); exact IH.
Qed.
(* a journal that starts with its commands and goes on with packets only *)
Lemma jcmds_cmds l j : jcmds j = [] -> jcmds (map JCmd l ++ j) = l.
Proof. intros H. now rewrite jcmds_app, jcmds_map_cmd, H, app_nil_r. Qed.

(* s' is the store s after the commands cs, each of which satisfies P *)
Definition seg (P : rcmd -> Prop) (s s' : rstore) (cs : list rcmd) : Prop := s' = exec_all s cs /\ Forall P cs.

Lemma seg_nil P s : seg P s s [].
Proof. split; [reflexivity|constructor]. Qed.
Lemma seg_exec P s cs : Forall P cs -> seg P s (exec_all s cs) cs.
Proof. now split. Qed.
Lemma seg_app {P s s1 s2 a b} : seg P s s1 a -> seg P s1 s2 b -> seg P s s2 (a ++ b).
Proof. intros [-> Ha] [-> Hb]. split; [now rewrite exec_all_app|apply Forall_app; now split]. Qed.
Lemma seg_impl {P Q : rcmd -> Prop} {s s' cs} : (forall c, P c -> Q c) -> seg P s s' cs -> seg Q s s' cs.
Proof. intros H [E Hc]. split; [exact E|exact (Forall_impl _ H Hc)]. Qed.

(* the queue methods the broker calls: commands on queue keys, executed *)
Lemma res_seg s q x : qkey_ok q -> res_ok s q x -> qkey_ok (r_q x) /\ seg isq s (r_store x) (r_cmds x).
Proof.
  intros [c Hc] (Hcmds & Hk & Hst). split; [exists c; now rewrite Hk|]. split; [exact Hst|].
  rewrite Hc in Hcmds. eapply Forall_impl; [|exact Hcmds]. intros k Hk'. now exists c.
Qed.

Lemma poll_new_seg c pids s q :
  qkey_ok q -> let '(s', q', j) := poll_new c pids s q in qkey_ok q' /\ seg isq s s' (jcmds j).
Proof.
  intros Hq. unfold poll_new.
  destruct (res_seg s q _ Hq (rq_read_ok 0 (pids ++ filler (MAXINFLIGHT - length pids)) s q)) as [Hq' Hs].
  destruct (r_out _); rewrite ?jcmds_map_cmd, ?(jcmds_cmds _ _ (jcmds_deliveries _ _ _)); now split.
Qed.

Lemma poll_inflight_seg fuel c : forall s q,
  qkey_ok q -> let '(s', q', j) := poll_inflight fuel c s q in qkey_ok q' /\ seg isq s s' (jcmds j).
Proof.
  induction fuel as [|k IH]; intros s q Hq; cbn [poll_inflight]; [split; [exact Hq|apply seg_nil]|].
  destruct (res_seg s q _ Hq (rq_read_inflight_ok 0 MAXINFLIGHT s q)) as [Hq' Hs].
  destruct (r_out (rq_read_inflight 0 MAXINFLIGHT s q)) as [| |[|e rs]| | | | | |];
    try (rewrite jcmds_map_cmd; now split).
  specialize (IH (r_store (rq_read_inflight 0 MAXINFLIGHT s q)) _ Hq'). destruct (poll_inflight k c _ _) as [[s' q''] j]. destruct IH as [Hq'' Hj].
  split; [exact Hq''|]. rewrite jcmds_app, jcmds_map_cmd, jcmds_app, jcmds_deliveries. exact (seg_app Hs Hj).
Qed.

Lemma deliver_seg topic payload qos publisher sp cl : forall s,
  cl_ok cl ->
  let '(cl', s', cmds) := deliver topic payload qos publisher sp cl s in cl_ok cl' /\ seg isq s s' cmds.
Proof.
  induction cl as [|[c x] r IH]; intros s Hcl; cbn [deliver]; [split; [constructor|apply seg_nil]|].
  inversion Hcl as [|y ys Hy Hr]; subst. cbn [snd] in Hy.
  destruct (bc_q x) as [q|] eqn:Eq; [destruct (client_match topic publisher c sp) as [[sq ids]|]|].
  2, 3: specialize (IH s Hr); destruct (deliver topic payload qos publisher sp r s) as [[r' s'] cmds];
    destruct IH as [Hr' Hcm]; (split; [now constructor|exact Hcm]).
  destruct (res_seg s q _ (Hy q Eq) (rq_add_ok 0 (mk_elem (mk_msg (N.min qos sq) topic payload ids)) s q)) as [Hq' Hs].
  specialize (IH (r_store (rq_add 0 (mk_elem (mk_msg (N.min qos sq) topic payload ids)) s q)) Hr).
  destruct (deliver topic payload qos publisher sp r _) as [[r' s'] cmds]. destruct IH as [Hr' Hcm].
  split; [constructor; [now apply client_ok_some|exact Hr']|exact (seg_app Hs Hcm)].
Qed.

(* a condition on commands under which every session hash keeps naming the client of its key *)
Definition sess_cmd_ok (cmd : rcmd) : Prop :=
  match cmd with
  | CHSet k fvs => match key_class k with
                   | KSess c => forall h, aget F_CLIENT_ID (hset_all fvs h) = Some (BRaw c)
                   | _ => True
                   end
  | CHDel k _ => is_sess_key k = false
  | _ => True
  end.

Definition evc (ev : bevent) : cid :=
  match ev with
  | EConnect c _ _ _ | EClose c | ESubscribe c _ _ | EUnsubscribe c _ _ | EPublish c _ _ _ _ | EPubrel c _
  | EPoll c _ | EPuback c _ | EPubrec c _ | EPubcomp c _ => c
  end.

Definition old_id_of (b : broker) (c : cid) : cid :=
  match sess_get c (b_store b) with Some (id, _) => id | None => [] end.

(* CONNECT and connection close are the only events that touch session keys *)
Definition is_conn (ev : bevent) : Prop := match ev with EConnect _ _ _ _ | EClose _ => True | _ => False end.

Definition safe (cmd : rcmd) : Prop := wt_cmd cmd /\ sess_cmd_ok cmd.

(* the commands of the event ev on the broker b: safe; on a session key only at a CONNECT / close, and
   then on that of the event's client or of the client id found in its stored session; of the unack
   keys only on that of the event's client *)
Definition foot (b : broker) (ev : bevent) (cmd : rcmd) : Prop :=
  safe cmd /\
  match key_class (cmd_key cmd) with
  | KSess c => is_conn ev /\ (c = evc ev \/ c = old_id_of b (evc ev))
  | KUnack c => c = evc ev
  | _ => True
  end.

(* ... and, for the events that leave the subscriptions alone, not a subscription key *)
Definition own (b : broker) (ev : bevent) (cmd : rcmd) : Prop := foot b ev cmd /\ nosub cmd.

Lemma own_q b ev cmd : isq cmd -> own b ev cmd.
Proof.
  intros H. destruct (isq_key cmd H) as [c0 Hk]. split; [split; [split; [now apply isq_wt|]|now rewrite Hk]|].
  - destruct H as [c1 H]. destruct cmd; cbn [qcmd sess_cmd_ok] in *; try exact I; contradiction.
  - destruct H as [c1 H]. unfold nosub. now rewrite (qcmd_key _ _ H).
Qed.

Lemma seg_q {b ev s s' cs} : seg isq s s' cs -> seg (own b ev) s s' cs.
Proof. apply seg_impl, own_q. Qed.

Lemma own_unack b ev cmd : hcmd cmd -> cmd_key cmd = unack_key (evc ev) -> own b ev cmd.
Proof.
  intros Hh Hk. destruct cmd as [k fvs|k fs|k|k v|k v|k i v]; try contradiction; cbn [cmd_key] in Hk; subst k;
    (split; [split; [split|]|]); try reflexivity; try exact I.
  intros H. discriminate H.
Qed.

Lemma own_sess_set b ev e : is_conn ev -> own b ev (sess_set_cmd (evc ev) e).
Proof.
  intros Hc. split; [split; [split; [intros H; discriminate H|]|split; [exact Hc|now left]]|reflexivity].
  intros h. cbn [hset_all]. rewrite !aget_aset. reflexivity.
Qed.

Lemma foot_sop fx b ev o : Forall (foot b ev) (sop_cmds fx o).
Proof.
  destruct o as [c subs|c ts|c]; cbn [sop_cmds].
  - induction subs as [|s r IH]; cbn [map]; constructor; [|exact IH]. split; [split; [|exact I]|exact I].
    intros _. constructor; [exists s; split; reflexivity|constructor].
  - destruct (fix_hdel fx); repeat constructor.
  - repeat constructor.
Qed.

(* the broker b' follows from b by the commands cs *)
Definition follows (P : rcmd -> Prop) (b b' : broker) (cs : list rcmd) : Prop :=
  binv b' /\ seg P (b_store b) (b_store b') cs /\ b_subs b' = fold_left mem_eff cs (b_subs b).

Lemma follows_refl P b : binv b -> follows P b b [].
Proof. intros Hb. split; [exact Hb|]. split; [apply seg_nil|reflexivity]. Qed.

(* ... and goes on with commands t that are not on subscription keys *)
Lemma follows_app b0 ev b b1 b2 a t :
  follows (foot b0 ev) b b1 a -> binv b2 -> b_subs b2 = b_subs b1 -> seg (own b0 ev) (b_store b1) (b_store b2) t ->
  follows (foot b0 ev) b b2 (a ++ t).
Proof.
  intros (_ & Hs & Hm) Hb2 E Ht. split; [exact Hb2|]. split.
  - apply (seg_app Hs). exact (seg_impl (fun c H => proj1 H) Ht).
  - rewrite E, Hm, fold_left_app. symmetry. apply mem_eff_nosub.
    exact (Forall_impl _ (fun c H => proj2 H) (proj2 Ht)).
Qed.

Lemma follows_own b ev b' t :
  binv b -> binv b' -> b_subs b' = b_subs b -> seg (own b ev) (b_store b) (b_store b') t -> follows (foot b ev) b b' t.
Proof. intros Hb. exact (follows_app b ev b b b' [] t (follows_refl _ b Hb)). Qed.

Lemma remove_session_follows b0 ev id b :
  binv b -> is_conn ev -> id = evc ev \/ id = old_id_of b0 (evc ev) ->
  follows (foot b0 ev) b (fst (remove_session id b)) (snd (remove_session id b)).
Proof.
  intros Hb Hcn Hid. unfold remove_session. cbn [fst snd].
  set (qd := match b_get id b with Some x => match bc_q x with Some _ => [CDel (queue_key id)] | None => [] end | None => [] end).
  assert (Hqd : Forall (own b0 ev) qd).
  { unfold qd. destruct (b_get id b) as [x|]; [destruct (bc_q x)|]; repeat constructor; apply own_q; now exists id. }
  split; [|split].
  - unfold binv. cbn [b_clients]. destruct (b_get id b) as [x|]; [|exact Hb].
    apply (binv_set id _ b Hb). intros q Hq. discriminate.
  - cbn [b_store]. apply seg_exec, Forall_app. split; [exact (Forall_impl _ (fun c H => proj1 H) Hqd)|].
    constructor; [|repeat constructor]. split; [now split|now split].
  - cbn [b_subs]. rewrite fold_left_app, (mem_eff_nosub qd) by exact (Forall_impl _ (fun c H => proj2 H) Hqd). reflexivity.
Qed.

(* what is needed of an event: the broker after it follows from the one before by the storage commands
   of its journal - the index only when Unsubscribe reaches redis (fix_hdel), or the event is not an
   UNSUBSCRIBE *)
Definition no_unsub (ev : bevent) : Prop := match ev with EUnsubscribe _ _ _ => False | _ => True end.

Definition ev_ok (fx : fixes) (b : broker) (ev : bevent) (r : broker * list jentry) : Prop :=
  binv (fst r) /\ seg (foot b ev) (b_store b) (b_store (fst r)) (jcmds (snd r)) /\
  (fix_hdel fx = true \/ no_unsub ev -> b_subs (fst r) = fold_left mem_eff (jcmds (snd r)) (b_subs b)).

Lemma ev_ok_follows fx b ev b' j cs : follows (foot b ev) b b' cs -> jcmds j = cs -> ev_ok fx b ev (b', j).
Proof. intros (H1 & H2 & H3) <-. split; [exact H1|]. split; [exact H2|intros _; exact H3]. Qed.

Lemma ev_ok_noop fx b ev : binv b -> ev_ok fx b ev (b, []).
Proof. intros Hb. exact (ev_ok_follows fx b ev b [] [] (follows_refl _ b Hb) eq_refl). Qed.

(* an event that only calls a method of the queue of its client *)
Lemma ev_ok_queue fx b ev c x q' s' j :
  binv b -> qkey_ok q' -> seg isq (b_store b) s' (jcmds j) -> ev_ok fx b ev (b_set c (with_q x q') (b_with_store s' b), j).
Proof.
  intros Hb Hq Hs. apply (ev_ok_follows fx b ev _ j (jcmds j)); [|reflexivity].
  apply follows_own; [exact Hb|apply binv_set; [exact Hb|now apply client_ok_some]|reflexivity|].
  exact (seg_impl (own_q b ev) Hs).
Qed.

(* CONNECT: when it is answered at all, the session hash is written, and only queue commands follow *)
Lemma connect_ok fx b c clean expiry pids : binv b ->
  let r := bstep fx b (EConnect c clean expiry pids) in
  ev_ok fx b (EConnect c clean expiry pids) r /\
  forall sp, In (JOut (OConnack c sp)) (snd r) ->
    exists A e B, jcmds (snd r) = A ++ sess_set_cmd c e :: B /\ Forall isq B.
Proof.
  intros Hb. cbn zeta.
  assert (Hno : ev_ok fx b (EConnect c clean expiry pids) (b, []) /\
                forall sp, In (JOut (OConnack c sp)) [] ->
                  exists A e B, @nil rcmd = A ++ sess_set_cmd c e :: B /\ Forall isq B)
    by (split; [now apply ev_ok_noop|intros sp []]).
  cbn [bstep].
  destruct (match b_get c b with Some x => bc_online x | None => false end); [exact Hno|].
  destruct (sess_get c (b_store b)) as [[old_id old_exp]|] eqn:Esg; [|exact Hno].
  set (resume0 := negb (is_empty old_id) && negb (old_exp =? 0) && negb clean).
  (* the session found in the store is ended first, unless it is resumed *)
  assert (H1 : let '(b1, cmds1) := (if resume0 || negb (negb (is_empty old_id)) then (b, []) else remove_session old_id b) in
               follows (foot b (EConnect c clean expiry pids)) b b1 cmds1).
  { destruct (resume0 || negb (negb (is_empty old_id))); [now apply follows_refl|].
    pose proof (remove_session_follows b (EConnect c clean expiry pids) old_id b Hb I) as H.
    destruct (remove_session old_id b) as [b1 cmds1]. apply H. right. unfold old_id_of. cbn [evc]. now rewrite Esg. }
  destruct (if resume0 || negb (negb (is_empty old_id)) then (b, []) else remove_session old_id b) as [b1 cmds1].
  set (K := sess_set_cmd c (N.min expiry SESSION_CAP)).
  pose proof (own_sess_set b (EConnect c clean expiry pids) (N.min expiry SESSION_CAP) I) as HK. cbn [evc] in HK. fold K in HK.
  destruct (resume0 && _).
  - destruct (b_get c b) as [x|] eqn:Ex; [|exact Hno].
    destruct (bc_q x) as [q|] eqn:Eq; [|exact Hno].
    set (ri := rq_init false true MAXPACKET (b_store b1) q).
    destruct (res_seg _ q _ (cl_ok_get Hb Ex q Eq) (rq_init_ok false true MAXPACKET (b_store b1) q)) as [Hq1 Hsi].
    fold ri in Hq1, Hsi.
    pose proof (poll_inflight_seg 3 c (exec (r_store ri) K) (r_q ri) Hq1) as Hp.
    destruct (poll_inflight 3 c _ _) as [[s3 q3] j3]. destruct Hp as [Hq3 Hs3].
    assert (H4 : let '(s4, q4, j4) := (if (rq_cur q3 <? rq_len q3)%Z then poll_new c pids s3 q3 else (s3, q3, [])) in
                 qkey_ok q4 /\ seg isq s3 s4 (jcmds j4)).
    { destruct (rq_cur q3 <? rq_len q3)%Z; [now apply poll_new_seg|split; [exact Hq3|apply seg_nil]]. }
    destruct (if (rq_cur q3 <? rq_len q3)%Z then poll_new c pids s3 q3 else (s3, q3, [])) as [[s4 q4] j4].
    destruct H4 as [Hq4 Hs4]. cbn [fst snd].
    assert (EJ : jcmds (map JCmd (cmds1 ++ r_cmds ri ++ [K]) ++ [JOut (OConnack c true)] ++ j3 ++ j4)
                 = cmds1 ++ r_cmds ri ++ [K] ++ jcmds j3 ++ jcmds j4).
    { rewrite jcmds_app, jcmds_map_cmd. cbn [app jcmds]. now rewrite jcmds_app, <- !app_assoc. }
    split.
    + eapply ev_ok_follows; [|exact EJ].
      apply (follows_app _ _ _ b1 _ cmds1); [exact H1|apply binv_set; [exact (proj1 H1)|now apply client_ok_some]|reflexivity|].
      apply (seg_app (s1 := r_store ri)); [exact (seg_q Hsi)|].
      apply (seg_app (s1 := exec (r_store ri) K) (a := [K])); [exact (seg_exec _ _ [K] (Forall_cons _ HK (Forall_nil _)))|].
      exact (seg_app (seg_q Hs3) (seg_q Hs4)).
    + intros sp _. exists (cmds1 ++ r_cmds ri), (N.min expiry SESSION_CAP), (jcmds j3 ++ jcmds j4).
      split; [now rewrite EJ, <- !app_assoc|apply Forall_app; split; [exact (proj2 Hs3)|exact (proj2 Hs4)]].
  - set (ri := rq_init true true MAXPACKET (b_store b1) (rq_new MAXQ IFEXP c)).
    destruct (res_seg _ _ _ (qkey_new MAXQ IFEXP c) (rq_init_ok true true MAXPACKET (b_store b1) (rq_new MAXQ IFEXP c))) as [Hq1 Hsi].
    fold ri in Hq1, Hsi.
    pose proof (poll_inflight_seg 3 c (exec_all (r_store ri) [CDel (unack_key c); K]) (r_q ri) Hq1) as Hp.
    destruct (poll_inflight 3 c _ _) as [[s3 q3] j3]. destruct Hp as [Hq3 Hs3]. cbn [fst snd].
    assert (EJ : jcmds (map JCmd (cmds1 ++ r_cmds ri ++ [CDel (unack_key c); K]) ++ [JOut (OConnack c false)] ++ j3)
                 = cmds1 ++ r_cmds ri ++ [CDel (unack_key c); K] ++ jcmds j3).
    { rewrite jcmds_app, jcmds_map_cmd. cbn [app jcmds]. now rewrite <- !app_assoc. }
    assert (HD : own b (EConnect c clean expiry pids) (CDel (unack_key c))) by now apply own_unack.
    split.
    + eapply ev_ok_follows; [|exact EJ].
      apply (follows_app _ _ _ b1 _ cmds1); [exact H1|apply binv_set; [exact (proj1 H1)|now apply client_ok_some]|reflexivity|].
      apply (seg_app (s1 := r_store ri)); [exact (seg_q Hsi)|].
      apply (seg_app (s1 := exec_all (r_store ri) [CDel (unack_key c); K])); [exact (seg_exec _ _ _ (Forall_cons _ HD (Forall_cons _ HK (Forall_nil _))))|].
      exact (seg_q Hs3).
    + intros sp _. exists (cmds1 ++ r_cmds ri ++ [CDel (unack_key c)]), (N.min expiry SESSION_CAP), (jcmds j3).
      split; [now rewrite EJ, <- !app_assoc|exact (proj2 Hs3)].
Qed.

(* PUBLISH: at most the HSET of the packet id awaiting PUBREL, then only queue commands *)
Lemma publish_ok fx b c qos pid topic payload : binv b ->
  let r := bstep fx b (EPublish c qos pid topic payload) in
  ev_ok fx b (EPublish c qos pid topic payload) r /\
  exists u B, jcmds (snd r) = u ++ B /\ (u = [] \/ u = [CHSet (unack_key c) [(dec pid, BRaw ONE)]]) /\ Forall isq B.
Proof.
  intros Hb. cbn zeta.
  assert (Hno : ev_ok fx b (EPublish c qos pid topic payload) (b, []) /\
                exists u B, @nil rcmd = u ++ B /\ (u = [] \/ u = [CHSet (unack_key c) [(dec pid, BRaw ONE)]]) /\ Forall isq B).
  { split; [now apply ev_ok_noop|]. exists [], []. split; [reflexivity|]. split; [now left|constructor]. }
  cbn [bstep]. destruct (negb _); [exact Hno|].
  destruct (b_get c b) as [x|] eqn:Ex; [|exact Hno].
  set (cache := match bc_ua x with Some u => u | None => [] end).
  set (dup := (qos =? 2) && memN pid cache). set (new := (qos =? 2) && negb dup).
  set (ucmds := if new then [CHSet (unack_key c) [(dec pid, BRaw ONE)]] else []).
  set (x' := if new then {| bc_online := bc_online x; bc_q := bc_q x; bc_ua := Some (pid :: cache) |} else x).
  set (b1 := b_set c x' (b_with_store (exec_all (b_store b) ucmds) b)).
  assert (Hb1 : binv b1).
  { apply binv_set; [exact Hb|]. unfold x'. destruct new; exact (client_ok_same x _ eq_refl (cl_ok_get Hb Ex)). }
  assert (Hu : Forall (own b (EPublish c qos pid topic payload)) ucmds /\
               (ucmds = [] \/ ucmds = [CHSet (unack_key c) [(dec pid, BRaw ONE)]])).
  { unfold ucmds. destruct new; [split; [|now right]|split; [constructor|now left]].
    constructor; [now apply own_unack|constructor]. }
  assert (Hd : let '(cl, s2, dcmds) := (if dup then (b_clients b1, b_store b1, [])
                                        else deliver topic payload qos c (b_subs b1) (b_clients b1) (b_store b1)) in
               cl_ok cl /\ seg isq (b_store b1) s2 dcmds).
  { destruct dup; [split; [exact Hb1|apply seg_nil]|]. exact (deliver_seg topic payload qos c _ _ _ Hb1). }
  destruct (if dup then _ else _) as [[cl s2] dcmds]. destruct Hd as [Hcl Hsd]. cbn [fst snd].
  assert (EJ : jcmds (map JCmd (ucmds ++ dcmds) ++
                      (if qos =? 1 then [JOut (OPuback c pid)] else if qos =? 2 then [JOut (OPubrec c pid)] else []))
               = ucmds ++ dcmds) by (apply jcmds_cmds; destruct (qos =? 1), (qos =? 2); reflexivity).
  split.
  - eapply ev_ok_follows; [|exact EJ]. apply follows_own; [exact Hb|exact Hcl|reflexivity|].
    exact (seg_app (seg_exec _ _ _ (proj1 Hu)) (seg_q Hsd)).
  - exists ucmds, dcmds. split; [exact EJ|]. split; [exact (proj2 Hu)|exact (proj2 Hsd)].
Qed.

Lemma bstep_ok fx b ev : binv b -> ev_ok fx b ev (bstep fx b ev).
Proof.
  intros Hb. pose proof (ev_ok_noop fx b ev Hb) as Hno.
  destruct ev as [c clean expiry pids|c|c pid subs|c pid ts|c qos pid topic payload|c pid|c pids|c pid|c pid|c pid];
    [exact (proj1 (connect_ok fx b c clean expiry pids Hb))| | | |exact (proj1 (publish_ok fx b c qos pid topic payload Hb))| | | | |];
    cbn [bstep]; (destruct (negb _); [exact Hno|]).
  (* PUBACK and PUBCOMP are one clause of bstep: Remove on the queue of the client *)
  6, 8: (destruct (b_get c b) as [x|] eqn:Ex; [|exact Hno]; destruct (bc_q x) as [q|] eqn:Eq; [|exact Hno];
         destruct (res_seg _ q _ (cl_ok_get Hb Ex q Eq) (rq_remove_ok pid (b_store b) q)) as [Hq' Hs];
         apply ev_ok_queue; [exact Hb|exact Hq'|now rewrite jcmds_map_cmd]).
  - (* close *)
    destruct (b_get c b) as [x|] eqn:Ex; [|exact Hno].
    destruct (sess_get c (b_store b)) as [[id exp]|]; [|exact Hno].
    match goal with |- context [b_set c ?y b] => set (x' := y) end.
    assert (Hb' : binv (b_set c x' b)).
    { apply binv_set; [exact Hb|]. intros q0 E0. cbn [bc_q x'] in E0.
      destruct (bc_q x) as [q|] eqn:Eq; [|discriminate]. injection E0 as <-.
      exact (proj1 (res_seg _ q _ (cl_ok_get Hb Ex q Eq) (rq_close_ok (b_store b) q))). }
    destruct (exp =? 0); [|exact (ev_ok_follows fx b (EClose c) _ [] [] (follows_own _ _ _ [] Hb Hb' eq_refl (seg_nil _ _)) eq_refl)].
    pose proof (remove_session_follows b (EClose c) c _ Hb' I (or_introl eq_refl)) as Hr.
    destruct (remove_session c _) as [b2 cmds]. exact (ev_ok_follows fx b (EClose c) b2 _ cmds Hr (jcmds_map_cmd cmds)).
  - (* subscribe *)
    apply (ev_ok_follows fx b _ _ _ (sop_cmds fx (SSub c subs))); [|now apply jcmds_cmds].
    split; [exact Hb|]. split; [apply seg_exec, foot_sop|]. cbn [b_subs sop_cmds].
    clear Hno. generalize (b_subs b). induction subs as [|s r IH]; intros m; cbn [map fold_left]; [reflexivity|].
    rewrite IH. reflexivity.
  - (* unsubscribe: the handler calls Unsubscribe once per topic *)
    split; [exact Hb|]. cbn [fst snd b_store b_subs]. rewrite jcmds_cmds by reflexivity. split.
    + apply seg_exec, Forall_concat, Forall_map, Forall_forall. intros t _. apply (foot_sop fx b _ (SUnsub c [t])).
    + intros [Hfix|[]]. clear Hno. generalize (b_subs b).
      induction ts as [|t r IH]; intros m; cbn [map concat fold_left]; [reflexivity|].
      rewrite fold_left_app, IH. cbn [sop_cmds]. rewrite Hfix. reflexivity.
  - (* pubrel *)
    destruct (b_get c b) as [x|] eqn:Ex; [|exact Hno].
    apply (ev_ok_follows fx b _ _ _ [CHDel (unack_key c) [dec pid]]); [|now apply jcmds_cmds].
    apply follows_own; [exact Hb|apply binv_set; [exact Hb|exact (client_ok_same x _ eq_refl (cl_ok_get Hb Ex))]|reflexivity|].
    apply seg_exec. constructor; [now apply own_unack|constructor].
  - (* poll *)
    destruct (b_get c b) as [x|] eqn:Ex; [|exact Hno].
    destruct (bc_q x) as [q|] eqn:Eq; [|exact Hno].
    pose proof (poll_new_seg c pids (b_store b) q (cl_ok_get Hb Ex q Eq)) as Hp.
    destruct (poll_new c pids (b_store b) q) as [[s' q'] j]. now apply ev_ok_queue.
  - (* pubrec *)
    destruct (b_get c b) as [x|] eqn:Ex; [|exact Hno].
    destruct (bc_q x) as [q|] eqn:Eq; [|exact Hno].
    destruct (res_seg _ q _ (cl_ok_get Hb Ex q Eq)
                (rq_replace_ok {| e_tag := 0; e_at := 0; e_expiry := None; e_body := QRel pid |} (b_store b) q)) as [Hq' Hs].
    apply ev_ok_queue; [exact Hb|exact Hq'|now rewrite jcmds_cmds].
Qed.

Lemma brun_ok fx h : forall b, binv b ->
  binv (fst (brun fx b h)) /\
  seg safe (b_store b) (b_store (fst (brun fx b h))) (jcmds (snd (brun fx b h))) /\
  (fix_hdel fx = true \/ Forall no_unsub h ->
   b_subs (fst (brun fx b h)) = fold_left mem_eff (jcmds (snd (brun fx b h))) (b_subs b)).
Proof.
  induction h as [|ev r IH]; intros b Hb; cbn [brun]; [split; [exact Hb|split; [apply seg_nil|reflexivity]]|].
  destruct (bstep_ok fx b ev Hb) as (Hb1 & Hs1 & Hm1). destruct (bstep fx b ev) as [b1 j1]. cbn [fst snd] in *.
  destruct (IH b1 Hb1) as (Hb2 & Hs2 & Hm2). destruct (brun fx b1 r) as [b2 j2]. cbn [fst snd] in *.
  split; [exact Hb2|]. rewrite jcmds_app. split.
  - exact (seg_app (seg_impl (fun c H => proj1 H) Hs1) Hs2).
  - intros Hc. rewrite fold_left_app, <- Hm1, <- Hm2; [reflexivity| |];
      (destruct Hc as [Hc|Hc]; [now left|right; now inversion Hc]).
Qed.

Lemma brun_wt fx h b : binv b -> Forall wt_cmd (jcmds (snd (brun fx b h))).
Proof. intros Hb. destruct (brun_ok fx h b Hb) as (_ & [_ H] & _). exact (Forall_impl _ (fun c Hc => proj1 Hc) H). Qed.

Lemma journal_wt fx h : Forall wt_cmd (jcmds (journal fx h)).
Proof. exact (brun_wt fx h broker0 binv0). Qed.

(* start-up succeeds on the store left by any prefix of the storage commands of any history *)
Theorem startup_any_prefix (fx : fixes) (h : list bevent) (k : nat) :
  recover fx (exec_all [] (firstn k (jcmds (journal fx h)))) <> None.
Proof.
  apply recover_total. apply exec_all_wt; [exact wt_store_nil|].
  apply Forall_firstn. apply journal_wt.
Qed.

(* the same from any broker state reached after a recovery: the journal of the events that
   follow a restart, cut anywhere, again leaves a loadable store (crash after crash) *)
Lemma recover_binv fx s b : recover fx s = Some b -> binv b.
Proof.
  unfold recover. destruct (has_wrongtype_session s); [discriminate|].
  destruct (load_bsubs fx s _ _) as [ops|]; [|discriminate]. intros E. injection E as <-.
  unfold binv. cbn [b_clients]. apply (fold_left_inv cl_ok); [|constructor].
  intros cl c Hcl. apply Forall_aset; [exact Hcl|]. apply client_ok_some. exists c. reflexivity.
Qed.

Theorem startup_after_restart (fx : fixes) (s : rstore) (b : broker) (h : list bevent) (k : nat) :
  wt_store s -> recover fx s = Some b ->
  recover fx (exec_all s (firstn k (jcmds (snd (brun fx b h))))) <> None.
Proof.
  intros Hs Hr. apply recover_total. apply exec_all_wt; [exact Hs|].
  apply Forall_firstn. exact (brun_wt fx h b (recover_binv fx s b Hr)).
Qed.

(* No hypothesis on the history, any behaviour flags: after ANY prefix of the
   storage commands of ANY history the stored subscription hashes are exactly the tables
   obtained by replaying the subscription effects of the same prefix *)
Theorem subs_any_prefix (fx : fixes) (h : list bevent) (k : nat) :
  let cmds := firstn k (jcmds (journal fx h)) in
  sub_rel (exec_all [] cmds) (fold_left mem_eff cmds []).
Proof.
  cbn zeta. apply steps_sub_rel; [exact wt_store_nil|exact bs_ok_nil| |exact sub_rel_nil].
  apply Forall_firstn. apply journal_wt.
Qed.

(* the store the live broker holds after a history is the execution of its journal *)
Corollary journal_store fx h : b_store (fst (brun fx broker0 h)) = exec_all [] (jcmds (journal fx h)).
Proof. exact (proj1 (proj1 (proj2 (brun_ok fx h broker0 binv0)))). Qed.

(* for whole histories: the live broker's subscription index (what its SUBACKs and
   UNSUBACKs report, what deliveries are matched against) is the replay of its journal *)
Corollary journal_subs fx h :
  fix_hdel fx = true \/ Forall no_unsub h ->
  b_subs (fst (brun fx broker0 h)) = fold_left mem_eff (jcmds (journal fx h)) [].
Proof. exact (proj2 (proj2 (brun_ok fx h broker0 binv0))). Qed.

(* the three repaired defects: regression histories (old_code vs now) *)
Definition C1 : cid := [99; 49].                       (* "c1" *)
Definition SUB1 : cid := [115; 117; 98; 49].           (* "sub1" *)
Definition TA : str := [97].                           (* "a" *)
Definition sub_a : sub := {| s_share := []; s_filter := TA; s_id := 0; s_qos := 1; s_nl := false; s_rap := false; s_rh := 0 |}.

Definition recovered_subs (fx : fixes) (h : list bevent) (k : nat) : option (list (cid * sub)) :=
  match recover fx (exec_all [] (firstn k (jcmds (journal fx h)))) with
  | Some b => Some (bs_entries (b_subs b))
  | None => None
  end.

(* UNSUBACK was sent (the history is complete), the subscription is back after a restart *)
Definition h_unsub : list bevent :=
  [EConnect C1 true 3600 []; ESubscribe C1 10 [sub_a]; EUnsubscribe C1 11 [TA]].

Lemma unsub_lost_old_code :
  bs_entries (b_subs (fst (brun old_code broker0 h_unsub))) = [] /\
  recovered_subs old_code h_unsub (length (jcmds (journal old_code h_unsub))) = Some [(C1, sub_a)].
Proof. split; vm_compute; reflexivity. Qed.

Lemma unsub_kept_now :
  recovered_subs cur_code h_unsub (length (jcmds (journal cur_code h_unsub))) = Some [].
Proof. vm_compute. reflexivity. Qed.

(* SUBACK was sent to client "sub1"; after a restart the subscription belongs to client "1" *)
Definition h_trim : list bevent := [EConnect SUB1 true 3600 []; ESubscribe SUB1 10 [sub_a]].

Lemma clientid_mangled_old_code :
  recovered_subs old_code h_trim (length (jcmds (journal old_code h_trim))) = Some [([49], sub_a)].
Proof. vm_compute. reflexivity. Qed.

Lemma clientid_kept_now :
  recovered_subs cur_code h_trim (length (jcmds (journal cur_code h_trim))) = Some [(SUB1, sub_a)].
Proof. vm_compute. reflexivity. Qed.

(* PUBREC was sent for QoS 2 packet id 7; after a restart and a reconnection without clean
   start the same PUBLISH is appended to the subscriber's queue a second time *)
Definition C2 : cid := [99; 50].
Definition PM : str := [109; 49].
Definition h_q2 : list bevent :=
  [EConnect C1 true 3600 []; EConnect C2 true 3600 []; ESubscribe C2 10 [sub_a]; EClose C2; EPublish C1 2 7 TA PM].

Definition resend_appends (fx : fixes) : option nat :=
  match recover fx (exec_all [] (jcmds (journal fx h_q2))) with
  | Some b =>
      let '(b1, _) := bstep fx b (EConnect C1 false 3600 []) in
      let '(_, j) := bstep fx b1 (EPublish C1 2 7 TA PM) in
      Some (length (filter (fun e => match e with JCmd (CRPush _ _) => true | _ => false end) j))
  | None => None
  end.

Lemma qos2_duplicate_accepted_old_code : resend_appends old_code = Some 1%nat.
Proof. vm_compute. reflexivity. Qed.
Lemma qos2_duplicate_recognised_now : resend_appends cur_code = Some 0%nat.
Proof. vm_compute. reflexivity. Qed.

Definition unblob (o : option blob) : option sub := match o with Some (BSub x) => Some x | _ => None end.

Lemma bs_ok_sub c x m : bs_ok m -> bs_ok (bs_sub c x m).
Proof. intros Hm. apply bs_ok_set; [exact Hm|]. apply NoDup_aset. now apply bs_table_nodup. Qed.

Lemma load_table c : forall h l m,
  all_subs h -> NoDup (map fst h) -> subs_of_hash h = Some l -> bs_ok m ->
  let m' := fold_left (fun m x => bs_sub c x m) l m in
  bs_ok m' /\
  (forall t, aget t (bs_table c m') = match aget t h with Some (BSub x) => Some x | _ => aget t (bs_table c m) end) /\
  (forall c', c' <> c -> bs_table c' m' = bs_table c' m).
Proof.
  induction h as [|[f v] r IH]; intros l m Hh Hnd Hl Hm; cbn [subs_of_hash] in Hl.
  - injection Hl as <-. cbn [fold_left]. split; [exact Hm|]. split; [reflexivity|reflexivity].
  - inversion Hh as [|y ys Hy Hr]; subst. destruct Hy as (x & Hx & Hf). cbn [fst snd] in *. subst v f.
    destruct (subs_of_hash r) as [l'|] eqn:El; [|discriminate]. injection Hl as <-.
    cbn [map] in Hnd. inversion Hnd as [|z zs Hz Hnd']; subst.
    cbn [fold_left].
    destruct (IH l' (bs_sub c x m) Hr Hnd' eq_refl (bs_ok_sub c x m Hm)) as (H1 & H2 & H3).
    split; [exact H1|]. split.
    + assert (Ht : forall t, aget t (bs_table c (bs_sub c x m)) =
                               if str_eqb t (full_topic x) then Some x else aget t (bs_table c m)).
      { intros t. unfold bs_sub. rewrite bs_table_set_same. apply aget_aset. }
      intros t. rewrite H2, Ht. cbn [aget].
      destruct (str_eqb_spec t (full_topic x)) as [E|E].
      * subst t. rewrite (aget_notin _ _ Hz). reflexivity.
      * reflexivity.
    + intros c' Hc'. rewrite (H3 c' Hc'). unfold bs_sub. now apply bs_table_set_other.
Qed.

Fixpoint mem_cid (c : cid) (l : list cid) : bool := match l with [] => false | x :: r => str_eqb x c || mem_cid c r end.

Lemma load_bsubs_get fx s : forall cids m m',
  wt_store s -> bs_ok m ->
  (fix_trim fx = true \/ Forall (fun c => trim_left c = c) cids) ->
  load_bsubs fx s cids m = Some m' ->
  bs_ok m' /\
  forall c t, bs_get c t m' = if mem_cid c cids
                              then match unblob (aget t (store_tb c s)) with Some x => Some x | None => bs_get c t m end
                              else bs_get c t m.
Proof.
  induction cids as [|c0 r IH]; intros m m' Hs Hm Htrim Hl; cbn [load_bsubs] in Hl.
  - injection Hl as <-. split; [exact Hm|]. intros c t. reflexivity.
  - assert (Hc0 : load_cid fx c0 = c0).
    { unfold load_cid. destruct Htrim as [->|H]; [reflexivity|]. inversion H; subst. destruct (fix_trim fx); [reflexivity|assumption]. }
    assert (Hr : fix_trim fx = true \/ Forall (fun c => trim_left c = c) r).
    { destruct Htrim as [H|H]; [now left|right; now inversion H]. }
    destruct (stored_subs_load s c0 Hs) as (l & Hhg & El). rewrite Hhg, El, Hc0 in Hl.
    destruct (wt_hview s (sub_key c0) Hs) as [Hnd0 Hall].
    destruct (load_table c0 (store_tb c0 s) l m (Hall eq_refl) Hnd0 El Hm) as (Hm1 & Ht1 & Ho1).
    destruct (IH _ m' Hs Hm1 Hr Hl) as [Hm' Hget'].
    split; [exact Hm'|]. intros c t. rewrite Hget'. cbn [mem_cid].
    set (mm := fold_left (fun m0 x => bs_sub c0 x m0) l m) in *.
    destruct (str_eqb_spec c0 c) as [E|E]; cbn [orb].
    + subst c0.
      assert (Hmm : bs_get c t mm = match unblob (aget t (store_tb c s)) with Some x => Some x | None => bs_get c t m end).
      { unfold bs_get. rewrite Ht1. unfold unblob. destruct (aget t (store_tb c s)) as [[b|x|e]|]; reflexivity. }
      rewrite Hmm. destruct (mem_cid c r); [|reflexivity]. destruct (unblob _); reflexivity.
    + assert (Hmm : bs_get c t mm = bs_get c t m).
      { unfold bs_get. rewrite (Ho1 c) by congruence. reflexivity. }
      rewrite Hmm. reflexivity.
Qed.

(* the client ids of the sessions found at start-up *)
Definition session_ids (s : rstore) : list cid := map fst (stored_sessions s (scan_prefix SESS_PREFIX s)).

(* a fresh broker started on a well-typed store registers, for every client that
   has a stored session, exactly the subscriptions stored for that client - under the same
   client id when the id is not trimmed (fix_trim, or no stored id starts with s,u,b,:) *)
Theorem recover_subs (fx : fixes) (s : rstore) :
  wt_store s ->
  (fix_trim fx = true \/ Forall (fun c => trim_left c = c) (session_ids s)) ->
  exists b, recover fx s = Some b /\
    forall c t, bs_get c t (b_subs b) = if mem_cid c (session_ids s) then unblob (aget t (store_tb c s)) else None.
Proof.
  intros Hs Htrim. unfold recover. rewrite (no_wrongtype_session s Hs).
  fold (session_ids s).
  destruct (load_bsubs fx s (session_ids s) []) as [m|] eqn:El; [|exfalso; now apply (load_bsubs_total fx s (session_ids s) [] Hs)].
  eexists. split; [reflexivity|]. cbn [b_subs]. intros c t.
  destruct (load_bsubs_get fx s (session_ids s) [] m Hs bs_ok_nil Htrim El) as [_ Hg]. rewrite Hg.
  destruct (mem_cid c (session_ids s)); [|reflexivity].
  destruct (unblob (aget t (store_tb c s))); reflexivity.
Qed.

(* THE SUBSCRIPTION CLAUSE OF C09.  Cut the storage commands of any history anywhere and start
   a broker on what is left: start-up succeeds and, for every client with a stored session,
   the broker's subscription index holds exactly the replay of the subscription effects of
   the commands before the cut.  Every effect belongs to one SUBSCRIBE / UNSUBSCRIBE / session
   end, all effects of a request precede its acknowledgement in the journal, and for complete
   histories the replay is the live broker's own index (journal_subs): the recovered
   subscriptions are those acknowledged, plus/minus a part of the one request in flight. *)
Theorem subs_recovered_any_prefix (fx : fixes) (h : list bevent) (k : nat) :
  let cmds := firstn k (jcmds (journal fx h)) in
  let s := exec_all [] cmds in
  (fix_trim fx = true \/ Forall (fun c => trim_left c = c) (session_ids s)) ->
  exists b, recover fx s = Some b /\
    forall c t, bs_get c t (b_subs b) =
                if mem_cid c (session_ids s) then bs_get c t (fold_left mem_eff cmds []) else None.
Proof.
  cbn zeta. intros Htrim.
  assert (Hs : wt_store (exec_all [] (firstn k (jcmds (journal fx h))))).
  { apply exec_all_wt; [exact wt_store_nil|]. apply Forall_firstn. apply journal_wt. }
  destruct (recover_subs fx _ Hs Htrim) as (b & Hb & Hg). exists b. split; [exact Hb|].
  intros c t. rewrite Hg. destruct (mem_cid c _); [|reflexivity].
  pose proof (subs_any_prefix fx h k c t) as Hrel. cbn zeta in Hrel. rewrite Hrel.
  unfold bs_get. destruct (aget t (bs_table c _)); reflexivity.
Qed.

(* the session hash of client c exists and names c *)
Definition has_session (c : cid) (s : rstore) : Prop :=
  exists h, aget (sess_key c) s = Some (RHash h) /\ aget F_CLIENT_ID h = Some (BRaw c).

(* every session hash names the client of its key: kept by safe commands *)
Definition names_ok (s : rstore) : Prop :=
  forall c h, aget (sess_key c) s = Some (RHash h) -> aget F_CLIENT_ID h = Some (BRaw c).

Lemma exec_names s cmd : wt_store s -> safe cmd -> names_ok s -> names_ok (exec s cmd).
Proof.
  intros Hs [Hw Hc] Hn c h. pose proof (proj1 Hs) as Hnd.
  destruct (str_eqb_spec (cmd_key cmd) (sess_key c)) as [E|E]; [|rewrite exec_frame by assumption; apply Hn].
  destruct cmd as [k fvs|k fs|k|k v|k v|k i v]; cbn [cmd_key exec sess_cmd_ok wt_cmd] in *; subst k;
    try discriminate (proj1 Hw).
  - rewrite class_sess in Hc.
    destruct (aget (sess_key c) s) as [[h0|l]|] eqn:Eg; rewrite ?aget_aset_same, ?Eg; try discriminate;
      intros H; injection H as <-; apply Hc.
  - discriminate Hc.
  - rewrite aget_adel, str_eqb_refl by exact Hnd. discriminate.
Qed.

Lemma exec_all_safe cmds : forall s,
  wt_store s -> names_ok s -> Forall safe cmds -> wt_store (exec_all s cmds) /\ names_ok (exec_all s cmds).
Proof.
  unfold exec_all. induction cmds as [|c r IH]; intros s Hs Hn Hc; cbn [fold_left]; [now split|].
  inversion Hc as [|x xs Hx Hr]; subst. apply IH; [exact (exec_wt s c Hs (proj1 Hx))|now apply exec_names|exact Hr].
Qed.

(* what a run keeps *)
Definition inv (b : broker) : Prop := binv b /\ wt_store (b_store b) /\ names_ok (b_store b).

Lemma inv_seg b b' cs : inv b -> binv b' -> seg safe (b_store b) (b_store b') cs -> inv b'.
Proof. intros (_ & Hs & Hn) Hb' [E Hc]. split; [exact Hb'|rewrite E; now apply exec_all_safe]. Qed.

Lemma bstep_inv fx b ev : inv b -> inv (fst (bstep fx b ev)).
Proof.
  intros Hi. destruct (bstep_ok fx b ev (proj1 Hi)) as (Hb1 & Hs1 & _).
  exact (inv_seg b _ _ Hi Hb1 (seg_impl (fun c H => proj1 H) Hs1)).
Qed.

Lemma brun_inv fx h b : inv b -> inv (fst (brun fx b h)).
Proof. intros Hi. destruct (brun_ok fx h b (proj1 Hi)) as (Hb1 & Hs1 & _). exact (inv_seg b _ _ Hi Hb1 Hs1). Qed.

Lemma inv0 : inv broker0.
Proof. split; [exact binv0|]. split; [exact wt_store_nil|]. intros c h E. discriminate. Qed.

(* a key that none of the events of h touches keeps its value under every prefix of their commands *)
Lemma key_survives_any_prefix fx K (G : bevent -> Prop) :
  (forall b ev cmd, inv b -> G ev -> foot b ev cmd -> cmd_key cmd <> K) ->
  forall h b k, inv b -> Forall G h ->
  aget K (exec_all (b_store b) (firstn k (jcmds (snd (brun fx b h))))) = aget K (b_store b).
Proof.
  intros HK. induction h as [|ev r IH]; intros b k Hi Hev; cbn [brun]; [cbn [snd jcmds]; now rewrite firstn_nil|].
  inversion Hev as [|x xs Hx Hr]; subst.
  pose proof (bstep_inv fx b ev Hi) as Hi1. pose proof (proj1 (proj1 (proj2 Hi))) as Hnd.
  destruct (bstep_ok fx b ev (proj1 Hi)) as (_ & [Hst Hf] & _).
  destruct (bstep fx b ev) as [b1 j1]. cbn [fst snd] in *. specialize (IH b1).
  destruct (brun fx b1 r) as [b2 j2]. cbn [fst snd] in *.
  assert (Hns : Forall (fun cmd => cmd_key cmd <> K) (jcmds j1)).
  { eapply Forall_impl; [|exact Hf]. intros cmd. now apply HK. }
  rewrite jcmds_app. destruct (firstn_app_cut k (jcmds j1) (jcmds j2)) as [-> | ->].
  - apply frame_all; [exact Hnd|now apply Forall_firstn].
  - rewrite exec_all_app, <- Hst, IH, Hst by assumption. now apply frame_all.
Qed.

Lemma old_id_cases b c : inv b -> old_id_of b c = [] \/ old_id_of b c = c.
Proof.
  intros (_ & _ & Hn). unfold old_id_of, sess_get, hgetall.
  destruct (aget (sess_key c) (b_store b)) as [[h|l]|] eqn:E; [right|now left|now left].
  rewrite (Hn c h E). reflexivity.
Qed.

(* an event leaves the session key of c alone unless it is a CONNECT / close of c itself *)
Definition spares (c : cid) (ev : bevent) : Prop := evc ev <> c \/ ~ is_conn ev.

Lemma foot_nosess c b ev cmd : c <> [] -> inv b -> spares c ev -> foot b ev cmd -> cmd_key cmd <> sess_key c.
Proof.
  intros Hc Hi Hev [_ Hf] E. rewrite E, class_sess in Hf. destruct Hf as [Hcn Hf].
  destruct Hev as [Hev|Hev]; [|contradiction]. destruct Hf as [->|Hf]; [congruence|].
  destruct (old_id_cases b (evc ev) Hi); congruence.
Qed.

Lemma hset_session s c e : wt_store s -> has_session c (exec s (sess_set_cmd c e)).
Proof.
  intros Hs. unfold has_session. cbn [sess_set_cmd exec].
  destruct (aget (sess_key c) s) as [[h|l]|] eqn:E; [|destruct (wt_no_list s _ Hs (or_introl (hash_key_sess c)) l E)|];
    (eexists; split; [apply aget_aset_same|]; cbn [hset_all]; rewrite !aget_aset; reflexivity).
Qed.

(* the commands A, then x, then only queue commands: what x writes under its key is what is found there *)
Lemma exec_then_queue s A x B :
  NoDup (map fst s) -> Forall isq B -> (forall c0, key_class (cmd_key x) <> KQueue c0) ->
  aget (cmd_key x) (exec_all s (A ++ x :: B)) = aget (cmd_key x) (exec (exec_all s A) x).
Proof.
  intros Hnd HB Hx. rewrite exec_all_app. apply (frame_all B (exec (exec_all s A) x)); [now apply exec_nodup, exec_all_nodup|].
  eapply Forall_impl; [|exact HB]. intros cmd Hq E. destruct (isq_key cmd Hq) as [c0 Hc]. rewrite E in Hc. exact (Hx c0 Hc).
Qed.

(* whenever the journal of a CONNECT contains a CONNACK, the store after it has the session *)
Theorem connack_has_session (fx : fixes) (b : broker) (c : cid) (clean : bool) (expiry : N) (pids : list N) (sp : bool) :
  binv b -> wt_store (b_store b) ->
  In (JOut (OConnack c sp)) (snd (bstep fx b (EConnect c clean expiry pids))) ->
  has_session c (b_store (fst (bstep fx b (EConnect c clean expiry pids)))).
Proof.
  intros Hb Hs Hin. destruct (connect_ok fx b c clean expiry pids Hb) as [(_ & [Hst Hf] & _) Hsh].
  destruct (Hsh sp Hin) as (A & e & B & EJ & HB). rewrite EJ in Hst, Hf. apply Forall_app in Hf as [HA _].
  destruct (hset_session (exec_all (b_store b) A) c e) as (h & Hg & Hnm).
  { apply exec_all_wt; [exact Hs|]. exact (Forall_impl _ (fun cmd H => proj1 (proj1 H)) HA). }
  exists h. split; [|exact Hnm]. rewrite Hst, <- Hg.
  apply (exec_then_queue _ A (sess_set_cmd c e) B (proj1 Hs) HB). discriminate.
Qed.

Lemma stored_sessions_in s c keys h :
  In (sess_key c) keys -> aget (sess_key c) s = Some (RHash h) -> aget F_CLIENT_ID h = Some (BRaw c) ->
  In c (map fst (stored_sessions s keys)).
Proof.
  intros Hin Hg Hn. induction keys as [|k r IH]; [destruct Hin|].
  cbn [stored_sessions]. destruct Hin as [->|Hin].
  - unfold hgetall. rewrite Hg. cbn [map fst]. left. now rewrite Hn.
  - destruct (hgetall k s); [right|]; now apply IH.
Qed.

Lemma scan_prefix_in p k v s : aget k s = Some v -> has_prefix_str p k = true -> In k (scan_prefix p s).
Proof.
  intros Hg Hp. unfold scan_prefix. apply in_map_iff. exists (k, v). split; [reflexivity|].
  apply filter_In. split; [now apply aget_In|exact Hp].
Qed.

Lemma mem_cid_In c l : mem_cid c l = true <-> In c l.
Proof.
  induction l as [|x r IH]; cbn [mem_cid In]; [split; [discriminate|tauto]|].
  rewrite orb_true_iff, IH. destruct (str_eqb_spec x c); split; intros [H|H]; auto; discriminate.
Qed.

Lemma has_session_listed c s : has_session c s -> mem_cid c (session_ids s) = true.
Proof.
  intros (h & Hg & Hn). apply mem_cid_In. unfold session_ids.
  apply (stored_sessions_in s c _ h); [|exact Hg|exact Hn].
  now apply (scan_prefix_in SESS_PREFIX _ _ _ Hg).
Qed.

(* the client table of a recovered broker: the fresh record f c for every stored client id *)
Lemma fold_clients_get (f : cid -> bclient) cids : forall cl c,
  In c cids \/ aget c cl = Some (f c) ->
  aget c (fold_left (fun cl c => aset c (f c) cl) cids cl) = Some (f c).
Proof.
  induction cids as [|c0 r IH]; intros cl c H; cbn [fold_left].
  - destruct H as [[]|H]; exact H.
  - apply IH. destruct H as [[->|H]|H].
    + right. apply aget_aset_same.
    + now left.
    + right. rewrite aget_aset. destruct (str_eqb_spec c c0) as [->|E]; [reflexivity|exact H].
Qed.

Lemma recover_client fx s b c : recover fx s = Some b -> mem_cid c (session_ids s) = true ->
  b_store b = s /\ b_get c b = Some {| bc_online := false; bc_q := Some (rq_fresh s MAXQ IFEXP c); bc_ua := Some [] |}.
Proof.
  intros Hr Hm. unfold recover in Hr. destruct (has_wrongtype_session s); [discriminate|]. fold (session_ids s) in Hr.
  destruct (load_bsubs fx s (session_ids s) []); [|discriminate]. injection Hr as <-. split; [reflexivity|].
  unfold b_get. cbn [b_clients].
  apply (fold_clients_get (fun c0 => {| bc_online := false; bc_q := Some (rq_fresh s MAXQ IFEXP c0); bc_ua := Some [] |})).
  left. now apply mem_cid_In.
Qed.

(* a client with a stored session reappears, under the same client id, in the session table
   of the broker started on that store *)
Theorem recovered_session (fx : fixes) (s : rstore) (b : broker) (c : cid) :
  recover fx s = Some b -> has_session c s -> b_get c b <> None.
Proof.
  intros Hr Hh. rewrite (proj2 (recover_client fx s b c Hr (has_session_listed c s Hh))). discriminate.
Qed.

(* THE SESSION CLAUSE OF C09.  History h1, then a CONNECT of c that is answered by a CONNACK,
   then any continuation h2 without a CONNECT / close of c, cut after ANY number k of its storage commands:
   a broker started on the store finds the session of c under the client id c: the session hash, written
   by the HSET that precedes the CONNACK, is neither removed nor renamed by any prefix of what follows *)
Theorem session_recovered_any_prefix (fx : fixes) (h1 h2 : list bevent) (c : cid) (clean : bool) (expiry : N)
        (pids : list N) (sp : bool) (k : nat) :
  let b1 := fst (brun fx broker0 h1) in
  let ev := EConnect c clean expiry pids in
  let b2 := fst (bstep fx b1 ev) in
  In (JOut (OConnack c sp)) (snd (bstep fx b1 ev)) ->
  c <> [] -> Forall (spares c) h2 ->
  exists br, recover fx (exec_all (b_store b2) (firstn k (jcmds (snd (brun fx b2 h2))))) = Some br /\ b_get c br <> None.
Proof.
  cbn zeta. intros Hack Hc Hev.
  pose proof (brun_inv fx h1 broker0 inv0) as Hi1.
  pose proof (bstep_inv fx _ (EConnect c clean expiry pids) Hi1) as Hi2.
  pose proof (connack_has_session fx _ c clean expiry pids sp (proj1 Hi1) (proj1 (proj2 Hi1)) Hack) as Hh.
  set (b2 := fst (bstep fx (fst (brun fx broker0 h1)) (EConnect c clean expiry pids))) in *.
  set (s := exec_all (b_store b2) (firstn k (jcmds (snd (brun fx b2 h2))))).
  assert (Hws : wt_store s).
  { apply exec_all_wt; [exact (proj1 (proj2 Hi2))|]. apply Forall_firstn. exact (brun_wt fx h2 b2 (proj1 Hi2)). }
  destruct (recover fx s) as [br|] eqn:Er; [|exfalso; now apply (recover_total fx s Hws)].
  exists br. split; [reflexivity|]. apply (recovered_session fx s br c Er).
  destruct Hh as (h & Hg & Hnm). exists h. split; [|exact Hnm]. rewrite <- Hg.
  exact (key_survives_any_prefix fx _ (spares c) (fun b ev cmd => foot_nosess c b ev cmd Hc) h2 b2 k Hi2 Hev).
Qed.

(* decimal printing and parsing are inverse.  The digits `dec_aux` writes in front of acc enter the
   accumulator a of `undec` as a * p + n, p the power of ten of their number; fuel with n < 2 ^ fuel
   is enough, and `dec` gives one more than the binary size of n *)
Lemma undec_dec_aux fuel : forall n acc, n < 2 ^ N.of_nat fuel ->
  exists p, forall a, undec (dec_aux fuel n acc) a = undec acc (a * p + n).
Proof.
  induction fuel as [|k IH]; intros n acc Hn.
  - exists 1. intros a. cbn [dec_aux]. f_equal. cbn in Hn. lia.
  - rewrite Nat2N.inj_succ, N.pow_succ_r' in Hn. cbn [dec_aux].
    pose proof (N.div_mod n 10) as Hdm. pose proof (N.mod_lt n 10) as Hm.
    assert (Hlt : n / 10 < 2 ^ N.of_nat k) by (apply N.div_lt_upper_bound; lia).
    revert Hdm Hm Hlt. generalize (n / 10) (n mod 10). intros d m Hdm Hm Hlt.
    assert (Hd : forall a, undec ((48 + m) :: acc) a = undec acc (a * 10 + m)).
    { intros a. cbn [undec]. rewrite (N.add_comm 48 m), N.add_sub.
      replace ((48 <=? m + 48) && (m + 48 <=? 57)) with true; [reflexivity|].
      symmetry. apply andb_true_iff. split; apply N.leb_le; lia. }
    destruct (N.eqb_spec d 0) as [E|E].
    + exists 10. intros a. rewrite Hd. f_equal. lia.
    + destruct (IH d ((48 + m) :: acc) Hlt) as [p Hp].
      exists (p * 10). intros a. rewrite Hp, Hd. f_equal. lia.
Qed.

Lemma undec_dec n : undec (dec n) 0 = Some n.
Proof.
  destruct (undec_dec_aux (S (N.to_nat (N.size n))) n []) as [p Hp]; [|exact (Hp 0)].
  rewrite Nat2N.inj_succ, N2Nat.id, N.pow_succ_r'. pose proof (N.size_gt n). lia.
Qed.

Lemma dec_inj a b : dec a = dec b -> a = b.
Proof. intros E. pose proof (undec_dec a) as H. rewrite E, undec_dec in H. now injection H. Qed.

Lemma dec_aux_nonnil fuel : forall n acc, acc <> [] -> dec_aux fuel n acc <> [].
Proof.
  induction fuel as [|k IH]; intros n acc Ha; cbn [dec_aux]; [exact Ha|].
  destruct (n / 10 =? 0); [discriminate|]. apply IH. discriminate.
Qed.

Lemma dec_nonnil n : dec n <> [].
Proof. unfold dec. cbn [dec_aux]. destruct (n / 10 =? 0); [discriminate|]. apply dec_aux_nonnil. discriminate. Qed.

Lemma dec_eqb x y : str_eqb (dec x) (dec y) = (x =? y).
Proof.
  destruct (str_eqb_spec (dec x) (dec y)) as [E|E], (N.eqb_spec x y) as [E'|E']; try reflexivity.
  - now apply dec_inj in E.
  - now subst y.
Qed.

(* HKEYS: a field written by `dec` is read back as its number *)
Lemma ids_of_hash_dec n v r : ids_of_hash ((dec n, v) :: r) = n :: ids_of_hash r.
Proof.
  cbn [ids_of_hash]. pose proof (dec_nonnil n) as H. destruct (dec n) eqn:E; [congruence|]. now rewrite <- E, undec_dec.
Qed.

Lemma ids_of_hash_in f v n (h : list (str * blob)) :
  aget f h = Some v -> f <> [] -> undec f 0 = Some n -> memN n (ids_of_hash h) = true.
Proof.
  intros Hg Hf Hu. induction h as [|[f0 v0] r IH]; cbn [aget] in Hg; [discriminate|].
  cbn [ids_of_hash]. destruct (str_eqb_spec f f0) as [E|E].
  - subst f0. destruct f as [|x f']; [congruence|]. rewrite Hu. cbn [memN]. now rewrite N.eqb_refl.
  - specialize (IH Hg). destruct f0 as [|y f0']; [exact IH|].
    destruct (undec (y :: f0') 0); [|exact IH]. cbn [memN]. rewrite IH. apply orb_true_r.
Qed.

Definition unack_tb (c : cid) (s : rstore) : list (str * blob) :=
  match aget (unack_key c) s with Some (RHash h) => h | _ => [] end.

Lemma unack_tb_hview c s : unack_tb c s = hview (unack_key c) s.
Proof. reflexivity. Qed.

Lemma stored_unack_view c s : stored_unack c s = ids_of_hash (unack_tb c s).
Proof. unfold stored_unack, unack_tb, hgetall. destruct (aget (unack_key c) s) as [[h|l]|]; reflexivity. Qed.

(* the HSET that precedes PUBREC puts the id into the stored set *)
Lemma unack_hset_stored s c pid :
  wt_store s -> memN pid (stored_unack c (exec s (CHSet (unack_key c) [(dec pid, BRaw ONE)]))) = true.
Proof.
  intros Hs. rewrite stored_unack_view, unack_tb_hview.
  rewrite (proj1 (hview_exec _ s (CHSet (unack_key c) [(dec pid, BRaw ONE)]) (proj1 Hs)
                    (wt_no_list s _ Hs (or_introl (hash_key_unack c))) eq_refl I)).
  apply (ids_of_hash_in (dec pid) (BRaw ONE)); [apply aget_aset_same|apply dec_nonnil|apply undec_dec].
Qed.

(* commands of an event of another client never touch unack:<c> *)
Lemma foot_nounack c b ev cmd : evc ev <> c -> foot b ev cmd -> cmd_key cmd <> unack_key c.
Proof. intros Hev [_ Hf] E. rewrite E, class_unack in Hf. congruence. Qed.

Lemma stored_unack_eq c s s' : aget (unack_key c) s' = aget (unack_key c) s -> stored_unack c s' = stored_unack c s.
Proof. intros E. unfold stored_unack, hgetall. now rewrite E. Qed.

(* a QoS 2 PUBLISH that is new to the broker (the HSET is in its journal): after the event the
   id is in the stored set *)
Lemma publish_stores_id fx b c pid topic payload :
  binv b -> wt_store (b_store b) ->
  In (CHSet (unack_key c) [(dec pid, BRaw ONE)]) (jcmds (snd (bstep fx b (EPublish c 2 pid topic payload)))) ->
  memN pid (stored_unack c (b_store (fst (bstep fx b (EPublish c 2 pid topic payload))))) = true.
Proof.
  intros Hb Hs Hin. destruct (publish_ok fx b c 2 pid topic payload Hb) as [(_ & [Hst _] & _) (u & B & EJ & Hu & HB)].
  rewrite EJ in Hst, Hin. rewrite Hst.
  destruct Hu as [->| ->].
  - exfalso. rewrite Forall_forall in HB. now destruct (HB _ Hin) as [c0 Hq].
  - rewrite (stored_unack_eq c (exec (b_store b) (CHSet (unack_key c) [(dec pid, BRaw ONE)]))); [now apply unack_hset_stored|].
    apply (exec_then_queue _ [] (CHSet (unack_key c) [(dec pid, BRaw ONE)]) B (proj1 Hs) HB). discriminate.
Qed.

(* UNACK CLAUSE, the store.  After any history h1, a QoS 2 PUBLISH of c with packet id pid that is
   new to the broker, and any continuation h2 by other clients cut after ANY number k of its
   storage commands: pid is in the stored set of c *)
Theorem qos2_id_stored_any_prefix (fx : fixes) (h1 h2 : list bevent) (c : cid) (pid : N) (topic payload : str) (k : nat) :
  let b1 := fst (brun fx broker0 h1) in
  let ev := EPublish c 2 pid topic payload in
  let b2 := fst (bstep fx b1 ev) in
  In (CHSet (unack_key c) [(dec pid, BRaw ONE)]) (jcmds (snd (bstep fx b1 ev))) ->
  Forall (fun e => evc e <> c) h2 ->
  memN pid (stored_unack c (exec_all (b_store b2) (firstn k (jcmds (snd (brun fx b2 h2)))))) = true.
Proof.
  cbn zeta. intros Hin Hev.
  pose proof (brun_inv fx h1 broker0 inv0) as Hi1.
  pose proof (bstep_inv fx _ (EPublish c 2 pid topic payload) Hi1) as Hi2.
  rewrite (stored_unack_eq c _ _ (key_survives_any_prefix fx _ _ (fun b ev cmd _ => foot_nounack c b ev cmd) h2 _ k Hi2 Hev)).
  exact (publish_stores_id fx _ c pid topic payload (proj1 Hi1) (proj1 (proj2 Hi1)) Hin).
Qed.

Lemma memN_app x a b : memN x (a ++ b) = memN x a || memN x b.
Proof. induction a as [|y r IH]; cbn [app memN]; [reflexivity|]. now rewrite IH, orb_assoc. Qed.

(* UNACK CLAUSE, the restart.  A broker started on a store in which c has a persistent session
   and pid is in the stored set of c: c reconnects without clean start, sends the QoS 2 PUBLISH
   with pid again - the broker answers PUBREC and does nothing else (no storage command, in
   particular nothing is appended to any queue).  Needs the reload of 892f3ad (fix_unack). *)
Theorem qos2_duplicate_recognised (fx : fixes) (s : rstore) (b : broker) (c : cid) (exp expiry pid : N)
        (pids : list N) (topic payload : str) :
  fix_unack fx = true ->
  recover fx s = Some b ->
  sess_get c s = Some (c, exp) -> exp <> 0 -> c <> [] -> mem_cid c (session_ids s) = true ->
  memN pid (stored_unack c s) = true ->
  snd (bstep fx (fst (bstep fx b (EConnect c false expiry pids))) (EPublish c 2 pid topic payload)) = [JOut (OPubrec c pid)].
Proof.
  intros Hfix Hr Hsg Hexp Hc Hm Hpid. destruct (recover_client fx s b c Hr Hm) as [Hst Hget].
  assert (Hb1 : exists q4 s4 b1', fst (bstep fx b (EConnect c false expiry pids)) =
            b_set c {| bc_online := true; bc_q := Some q4; bc_ua := Some (stored_unack c s ++ []) |} (b_with_store s4 b1')).
  { cbn [bstep]. rewrite Hget, Hst. cbn [bc_online bc_q bc_ua]. rewrite Hsg.
    assert (E1 : is_empty c = false) by (destruct c; [congruence|reflexivity]).
    assert (E2 : (exp =? 0) = false) by now apply N.eqb_neq.
    rewrite E1, E2. cbn [negb andb orb bc_q bc_ua].
    destruct (poll_inflight 3 c _ _) as [[s3 q3] j3].
    destruct (if (rq_cur q3 <? rq_len q3)%Z then poll_new c pids s3 q3 else (s3, q3, [])) as [[s4 q4] j4].
    cbn [fst]. rewrite Hfix, Hst. exists q4, s4, b. reflexivity. }
  destruct Hb1 as (q4 & s4 & b1' & ->).
  cbn [bstep]. rewrite b_get_set. cbn [bc_online negb bc_ua].
  rewrite memN_app, Hpid. cbn [N.eqb Pos.eqb andb orb negb snd app map]. reflexivity.
Qed.
