(* Laws of the abstract session store (Model/SessStore.v), for all histories: the key invariant (one entry per
   client id), Get answers the last Set unless removed since, operations on one id leave every other id alone,
   SetSessionExpiry changes the expiry of an existing session only, Iterate lists exactly the stored ids, each once. *)
From Coq Require Import List NArith Bool Arith.
Import ListNotations.
From GM Require Import Base.Topic Base.Msg Model.SubTrie Model.SessStore Proofs.TopicP Proofs.SubTrieP.
Open Scope N_scope.

Definition ss_inv (st : sstore) : Prop := NoDup (map fst st) /\ forall c s, aget c st = Some s -> ss_cid s = c.

Lemma ss_inv_nil : ss_inv []. 
Proof. split; [constructor|]. intros c s H. discriminate. Qed.

Lemma ss_step_inv st o : ss_inv st -> ss_inv (fst (ss_step st o)).
Proof.
  intros [Hn Hk]. destruct o as [s|c|c|c e| |]; cbn [ss_step fst]; try (split; assumption).
  - split; [now apply NoDup_aset|]. intros c s' H. rewrite aget_aset in H.
    destruct (str_eqb c (ss_cid s)) eqn:E; [|now apply Hk].
    injection H as <-. symmetry. now apply str_eqb_eq.
  - split; [now apply NoDup_adel|]. intros c' s' H.
    rewrite aget_adel in H by assumption. destruct (str_eqb c' c); [discriminate|now apply Hk].
  - destruct (aget c st) as [s|] eqn:Eg; [|split; assumption].
    split; [now apply NoDup_aset|]. intros c' s' H. rewrite aget_aset in H.
    destruct (str_eqb c' c) eqn:E; [|now apply Hk].
    injection H as <-. cbn [with_expiry_s ss_cid]. apply str_eqb_eq in E. subst c'. now apply Hk.
Qed.

Lemma ss_run_inv ops : forall st, ss_inv st -> ss_inv (fst (ss_run st ops)).
Proof.
  induction ops as [|o r IH]; intros st H; cbn [ss_run]; [exact H|].
  pose proof (ss_step_inv st o H) as H1. destruct (ss_step st o) as [st1 x]. cbn [fst] in H1.
  specialize (IH st1 H1). destruct (ss_run st1 r) as [st2 xs]. exact IH.
Qed.

(* what one operation does to what Get answers *)
Lemma ss_get_after st o c : ss_inv st ->
  aget c (fst (ss_step st o)) =
  match o with
  | SsSet s => if str_eqb c (ss_cid s) then Some s else aget c st
  | SsRemove c' => if str_eqb c c' then None else aget c st
  | SsSetExpiry c' e => if str_eqb c c' then option_map (with_expiry_s e) (aget c st) else aget c st
  | _ => aget c st
  end.
Proof.
  intros [Hn Hk]. destruct o as [s|c'|c'|c' e| |]; cbn [ss_step fst]; try reflexivity.
  - apply aget_aset.
  - now apply aget_adel.
  - destruct (str_eqb c c') eqn:E.
    + apply str_eqb_eq in E. subst c'. destruct (aget c st) as [s|] eqn:Eg; cbn [option_map].
      * apply aget_aset_same.
      * exact Eg.
    + destruct (aget c' st) as [s|]; [|reflexivity]. apply aget_aset_other. intros ->. rewrite str_eqb_refl in E. discriminate.
Qed.

(* Iterate lists exactly what Get finds, each client id once *)
Lemma ss_iterate_exact st : ss_inv st ->
  NoDup (map ss_cid (map snd st)) /\ forall s, In s (map snd st) <-> aget (ss_cid s) st = Some s.
Proof.
  intros [Hn Hk]. split.
  - assert (E : map ss_cid (map snd st) = map fst st).
    { rewrite map_map. apply map_ext_in. intros [c s] Hin. cbn [fst snd]. apply Hk. now apply In_aget. }
    rewrite E. exact Hn.
  - intros s. split.
    + intros H. apply in_map_iff in H. destruct H as [[c s'] [E Hin]]. cbn [snd] in E. subst s'.
      pose proof (In_aget _ _ _ Hn Hin) as Hg. rewrite (Hk _ _ Hg). exact Hg.
    + intros H. apply aget_In in H. apply in_map_iff. exists (ss_cid s, s). split; [reflexivity|exact H].
Qed.

(* the oracle accepts the machine's own answers *)
Lemma sess_eqb_refl s : sess_eqb s s = true.
Proof.
  unfold sess_eqb. rewrite str_eqb_refl, !N.eqb_refl.
  destruct (ss_will s) as [m|]; cbn [optmsg_eqb andb]; [now rewrite msg_eqb_refl|reflexivity].
Qed.

Lemma iter_covers_refl l : iter_covers l l = true.
Proof.
  unfold iter_covers. apply forallb_forall. intros s H. apply existsb_exists. exists s. split; [exact H|apply sess_eqb_refl].
Qed.

Lemma ssout_eqb_refl x : ssout_eqb x x = true.
Proof.
  destruct x as [|[s|]|l]; cbn [ssout_eqb]; try reflexivity; [apply sess_eqb_refl|].
  now rewrite Nat.eqb_refl, iter_covers_refl.
Qed.

Lemma ss_ok_run ops : forall st, ss_ok st ops (snd (ss_run st ops)) = true.
Proof.
  induction ops as [|o r IH]; intros st; cbn [ss_run]; [reflexivity|].
  destruct (ss_step st o) as [st1 x] eqn:E. specialize (IH st1). destruct (ss_run st1 r) as [st2 xs]. cbn [snd] in *.
  cbn [ss_ok]. rewrite E. now rewrite ssout_eqb_refl, IH.
Qed.
