From Coq Require Import List NArith Bool Arith Lia ZifyN ZifyNat ZifyBool.
Import ListNotations.
From GM Require Import Base.Topic Base.Msg Model.SubTrie Model.SubSpec Model.RetTrie Model.FedQueue Model.FedRoute
  Oracle.C02O Oracle.C17O Proofs.TopicP Proofs.SubTrieP Proofs.RetTrieP Proofs.FedRouteP.
Open Scope N_scope.

(* A whole federation in its stable state (Oracle/C17O.v: case_state), seen from the origin:
   what its stores hold in terms of the description, what one sendMessage call leaves in the
   queues and shows in the observation; a share group that spans nodes is served exactly
   once outside the known-finding class. *)

(* the flat store after a history of plain subscribes *)
Definition is_psub (o : op) : Prop := exists c g f, o = OSub c (plain_sub g f).

Lemma psubs_get ops c g f s : (forall o, In o ops -> is_psub o) ->
  sp_get (c, g, f) (spec_run ops) = Some s <-> s = plain_sub g f /\ In (OSub c (plain_sub g f)) ops.
Proof.
  unfold spec_run. induction ops as [|o r IH] using rev_ind; intros H; [split; [discriminate|intros [_ []]]|].
  destruct (H o) as (c' & g' & f' & ->); [apply in_or_app; right; now left|].
  rewrite fold_left_app, in_app_iff. cbn [fold_left In spec_step plain_sub s_share s_filter].
  rewrite sp_get_set. destruct (skey_eqb_spec (c, g, f) (c', g', f')) as [[= -> -> ->]|Hne].
  - split; [intros [= <-]; split; [reflexivity|right; now left]|now intros [-> _]].
  - rewrite IH by (intros o Ho; apply H, in_or_app; now left). split; [intros [E Hin]; split; [exact E|now left]|].
    intros [E [Hin|[[= -> -> ->]|[]]]]; [now split|now destruct Hne].
Qed.

(* well-formed federation description *)
Definition wf_lsub (s : lsub) : bool := negb (is_empty (fst (fst s))) && no_slash (snd (fst s)).
Definition wf_case (c : rcase) : bool :=
  negb (mem_str (rc_node c) (rc_peers c)) &&
  forallb (fun n => negb (is_empty n) && forallb wf_lsub (subs_of n c)) (rc_node c :: rc_peers c).

Lemma wf_case_subs c n s : wf_case c = true -> In n (rc_node c :: rc_peers c) -> In s (subs_of n c) -> wf_lsub s = true.
Proof.
  unfold wf_case. intros H Hn Hs. apply andb_true_iff in H as [_ H]. rewrite forallb_forall in H.
  specialize (H n Hn). apply andb_true_iff in H as [_ H]. rewrite forallb_forall in H. now apply H.
Qed.

Lemma local_ops_psub c o : In o (local_ops_of c) -> is_psub o.
Proof. unfold local_ops_of. intros H. apply in_map_iff in H as ([[cl g] f] & <- & _). now exists cl, g, f. Qed.
Lemma fed_ops_psub c o : In o (fed_ops_of c) -> is_psub o.
Proof.
  unfold fed_ops_of. intros H. apply in_flat_map in H as (n & _ & H). apply in_map_iff in H as ([[cl g] f] & <- & _). now exists n, g, f.
Qed.

Lemma wf_local_ops c : wf_case c = true -> wf_ops (local_ops_of c) = true.
Proof.
  intros H. unfold wf_ops, local_ops_of. apply forallb_forall. intros o Ho. apply in_map_iff in Ho as (s & <- & Hs).
  exact (wf_case_subs c (rc_node c) s H (or_introl eq_refl) Hs).
Qed.
Lemma wf_fed_ops c : wf_case c = true -> wf_ops (fed_ops_of c) = true.
Proof.
  intros H. unfold wf_ops, fed_ops_of. apply forallb_forall. intros o Ho. apply in_flat_map in Ho as (n & Hn & Ho).
  apply in_map_iff in Ho as (s & <- & Hs). pose proof (wf_case_subs c n s H (or_intror Hn) Hs) as Hw.
  unfold wf_lsub in Hw. apply andb_true_iff in Hw as [_ Hw]. cbn [wf_op plain_sub s_share].
  unfold wf_case in H. apply andb_true_iff in H as [_ H]. rewrite forallb_forall in H. specialize (H n (or_intror Hn)).
  apply andb_true_iff in H as [Hne _]. now rewrite Hne, Hw.
Qed.

(* the stores of the stable federation, in terms of the description *)
Lemma local_spec_get c cl g f s :
  sp_get (cl, g, f) (spec_run (local_ops_of c)) = Some s <-> s = plain_sub g f /\ In (cl, g, f) (subs_of (rc_node c) c).
Proof.
  rewrite (psubs_get _ _ _ _ _ (local_ops_psub c)). unfold local_ops_of. rewrite in_map_iff. split.
  - intros (E & [[cl' g'] f'] & [= -> -> ->] & H). now split.
  - intros (E & H). split; [exact E|now exists (cl, g, f)].
Qed.

Lemma fed_spec_get c n g f s :
  sp_get (n, g, f) (spec_run (fed_ops_of c)) = Some s <->
  s = plain_sub g f /\ In n (rc_peers c) /\ exists cl, In (cl, g, f) (subs_of n c).
Proof.
  rewrite (psubs_get _ _ _ _ _ (fed_ops_psub c)). unfold fed_ops_of. rewrite in_flat_map. split.
  - intros (E & n' & Hn & H). apply in_map_iff in H as ([[cl g'] f'] & [= -> -> ->] & H). split; [exact E|]. split; [exact Hn|now exists cl].
  - intros (E & Hn & cl & H). split; [exact E|]. exists n. split; [exact Hn|]. apply in_map_iff. now exists (cl, g, f).
Qed.

Lemma has_member_iff t G l : has_member t G l = true <->
  exists cl g f, In (cl, g, f) l /\ g <> [] /\ topic_match t f = true /\ fed_full_topic g f = G.
Proof.
  unfold has_member. rewrite existsb_exists. split.
  - intros ([[cl g] f] & Hin & H). unfold lsub_match, lsub_full in H. cbn [fst snd] in H.
    apply andb_true_iff in H as [H HG]. apply andb_true_iff in H as [Hg Hlm]. apply negb_true_iff in Hg.
    exists cl, g, f. split; [exact Hin|]. split; [now apply is_empty_false|]. split; [exact Hlm|].
    now destruct (str_eqb_spec (fed_full_topic g f) G).
  - intros (cl & g & f & Hin & Hg & Hlm & HG). exists (cl, g, f). split; [exact Hin|].
    unfold lsub_match, lsub_full. cbn [fst snd]. apply is_empty_false in Hg. rewrite Hg, Hlm, HG. cbn [negb andb]. apply str_eqb_refl.
Qed.

Lemma has_plain_iff t l : has_plain t l = true <-> exists cl f, In (cl, [], f) l /\ topic_match t f = true.
Proof.
  unfold has_plain. rewrite existsb_exists. split.
  - intros ([[cl g] f] & Hin & H). unfold lsub_match in H. cbn [fst snd] in H.
    apply andb_true_iff in H as [Hg Hm]. destruct g; [|discriminate]. now exists cl, f.
  - intros (cl & f & Hin & Hm). exists (cl, [], f). split; [exact Hin|]. unfold lsub_match. cbn [fst snd is_empty]. now rewrite Hm.
Qed.

Section Case.
  Variables (c : rcase) (cnt : list (str * N)) (t : str).
  Hypothesis Hwf : wf_case c = true.
  Hypothesis Ht : t <> [].
  Hypothesis Hnw : no_wild_levels (split t) = true.

  Let st := case_state c cnt.

  (* the matching entries of the federation tree are the peers' matching local subscriptions *)
  Lemma fed_ent n s : In (n, s) (FEs st t) <->
    In n (rc_peers c) /\ exists cl g f, In (cl, g, f) (subs_of n c) /\ topic_match t f = true /\ s = plain_sub g f.
  Proof.
    unfold FEs. cbn [st case_state r_fed]. rewrite (lookup_all_in _ _ (wf_fed_ops c Hwf) Ht Hnw), fed_spec_get. split.
    - intros ((E & Hn & cl & Hs) & Hm). split; [exact Hn|]. now exists cl, (s_share s), (s_filter s).
    - intros (Hn & cl & g & f & Hs & Hm & ->). cbn [plain_sub s_share s_filter]. split; [|exact Hm].
      split; [reflexivity|]. split; [exact Hn|now exists cl].
  Qed.

  Lemma local_shared_ent cl s : In (cl, s) (LEs st t) <->
    exists g f, In (cl, g, f) (subs_of (rc_node c) c) /\ g <> [] /\ topic_match t f = true /\ s = plain_sub g f.
  Proof.
    unfold LEs. cbn [st case_state r_local]. rewrite (lookup_shared_in _ _ (wf_local_ops c Hwf) Ht Hnw), local_spec_get. split.
    - intros (Hg & (E & Hs) & Hm). now exists (s_share s), (s_filter s).
    - intros (g & f & Hs & Hg & Hm & ->). cbn [plain_sub s_share s_filter]. now repeat split.
  Qed.

  (* the sources of the shared list: the nodes that hold a matching member of the group *)
  Lemma src_ok_case k x : src_ok st t k x <-> In x (rc_node c :: rc_peers c) /\ has_member t k (subs_of x c) = true.
  Proof.
    unfold src_ok. split.
    - intros [[-> (cl & s & Hin & <-)]|(s & Hin & He & <-)].
      + apply local_shared_ent in Hin as (g & f & Hs & Hg & Hm & ->). split; [now left|].
        apply has_member_iff. now exists cl, g, f.
      + apply fed_ent in Hin as (Hn & cl & g & f & Hs & Hm & ->). split; [now right|].
        apply has_member_iff. exists cl, g, f. split; [exact Hs|]. split; [now apply is_empty_false|now split].
    - intros [Hx Hm]. apply has_member_iff in Hm as (cl & g & f & Hs & Hg & Hm & <-). destruct Hx as [<-|Hx]; [left|right].
      + split; [reflexivity|]. exists cl, (plain_sub g f). split; [|reflexivity]. apply local_shared_ent. now exists g, f.
      + exists (plain_sub g f). split; [apply fed_ent; split; [exact Hx|now exists cl, g, f]|].
        split; [now apply is_empty_false|reflexivity].
  Qed.

  Lemma nonshared_case p : In p (fr_nonshared st t) <-> In p (rc_peers c) /\ has_plain t (subs_of p c) = true.
  Proof.
    rewrite nonshared_in. split.
    - intros (s & Hin & He). apply fed_ent in Hin as (Hp & cl & g & f & Hs & Hm & ->). split; [exact Hp|].
      destruct g; [|discriminate]. apply has_plain_iff. now exists cl, f.
    - intros (Hp & Hpl). apply has_plain_iff in Hpl as (cl & f & Hs & Hm). exists (plain_sub [] f). split; [|reflexivity].
      apply fed_ent. split; [exact Hp|now exists cl, [], f].
  Qed.

  Lemma local_plain_true : has_plain t (subs_of (rc_node c) c) = true -> fr_local_plain st t = true.
  Proof.
    intros Hp. apply has_plain_iff in Hp as (cl & f & Hs & Hm). unfold fr_local_plain. cbn [st case_state r_local].
    assert (Hin : In (cl, plain_sub [] f) (ents (db_iterate (q_match true false true t) (db_run (local_ops_of c))))).
    { apply (lookup_plain_in _ _ (wf_local_ops c Hwf) Ht Hnw). cbn [plain_sub s_share s_filter].
      split; [reflexivity|]. split; [|exact Hm]. now apply local_spec_get. }
    now destruct (ents _).
  Qed.
End Case.

Lemma fold_sum_acc (f : str -> N) l : forall a, fold_left (fun acc p => acc + f p) l a = a + fold_left (fun acc p => acc + f p) l 0.
Proof.
  induction l as [|x r IH]; intros a; cbn [fold_left]; [lia|]. rewrite (IH (a + f x)), (IH (0 + f x)). lia.
Qed.

Lemma fold_sum_zero (f : str -> N) l : (forall p, In p l -> f p = 0) -> fold_left (fun acc p => acc + f p) l 0 = 0.
Proof.
  induction l as [|x r IH]; intros H; cbn [fold_left]; [reflexivity|].
  rewrite fold_sum_acc, (H x (or_introl eq_refl)), IH by (intros p Hp; apply H; now right). reflexivity.
Qed.

Lemma fold_sum_one (f : str -> N) l n0 : NoDup l -> In n0 l -> f n0 = 1 -> (forall p, In p l -> p <> n0 -> f p = 0) ->
  fold_left (fun acc p => acc + f p) l 0 = 1.
Proof.
  induction l as [|x r IH]; intros Hnd Hin H1 H0; [destruct Hin|]. cbn [fold_left]. rewrite fold_sum_acc.
  inversion Hnd as [|? ? Hx Hr]; subst. destruct Hin as [->|Hin].
  - rewrite H1, fold_sum_zero; [reflexivity|]. intros p Hp. apply H0; [now right|]. intros ->. contradiction.
  - rewrite (H0 x (or_introl eq_refl)) by (intros ->; contradiction). rewrite IH; [reflexivity|exact Hr|exact Hin|exact H1|].
    intros p Hp. apply H0. now right.
Qed.

Lemma keys_push n e ps : map fst (push_event n e ps) = map fst ps.
Proof.
  unfold push_event. destruct (aget n ps) as [q|] eqn:Hq; [|reflexivity].
  induction ps as [|[k v] r IH]; [discriminate|]. cbn [aget aset] in *.
  destruct (str_eqb_spec n k) as [->|Hne]; cbn [map fst]; [reflexivity|]. now rewrite IH.
Qed.

Definition emsgs (n : str) (q : list fevent) : list (str * msg) :=
  flat_map (fun e => match e with EMsg m => [(n, m)] | _ => [] end) q.

Lemma filter_emsgs n k' q :
  filter (fun e : str * msg => str_eqb (fst e) n) (emsgs k' q) = if str_eqb k' n then emsgs k' q else [].
Proof.
  unfold emsgs. induction q as [|e q' IHq]; cbn [flat_map]; [now destruct (str_eqb k' n)|].
  rewrite filter_app, IHq. destruct e as [| |m]; cbn; destruct (str_eqb k' n); reflexivity.
Qed.

Lemma count_flat n (ps : list (str * list fevent)) : NoDup (map fst ps) ->
  length (filter (fun e : str * msg => str_eqb (fst e) n) (flat_map (fun p => emsgs (fst p) (snd p)) ps)) =
  match aget n ps with Some q => length (emsgs n q) | None => O end.
Proof.
  induction ps as [|[k q] r IH]; intros Hnd; cbn [flat_map aget map fst]; [reflexivity|].
  inversion Hnd as [|? ? Hk Hr]; subst. rewrite filter_app, app_length, (IH Hr). cbn [fst snd].
  rewrite filter_emsgs. destruct (str_eqb_spec n k) as [->|Hne].
  - rewrite str_eqb_refl. assert (aget k r = None) by (apply aget_notin; exact Hk). rewrite H. lia.
  - destruct (str_eqb_spec k n) as [E|_]; [congruence|]. reflexivity.
Qed.

Lemma emsgs_one n m' : length (emsgs n [EMsg m']) = 1%nat.
Proof. reflexivity. Qed.

Lemma single_key (l : list (str * list str)) G :
  NoDup (map fst l) -> (forall k v, In (k, v) l -> k = G) -> l = [] \/ exists v, l = [(G, v)].
Proof.
  intros Hnd Hk. destruct l as [|[k v] r]; [now left|right].
  assert (k = G) by (apply (Hk k v); now left). subst k. exists v. f_equal.
  destruct r as [|[k' v'] r']; [reflexivity|]. exfalso.
  assert (k' = G) by (apply (Hk k' v'); right; now left). subst k'.
  inversion Hnd as [|? ? Hx _]; subst. apply Hx. now left.
Qed.

Lemma in_dedup x l : In x (dedup_str l) <-> In x l.
Proof.
  induction l as [|y r IH]; cbn [dedup_str]; [tauto|]. destruct (mem_str y r) eqn:Hm.
  - rewrite IH. cbn [In]. split; [now right|]. intros [<-|H]; [now apply mem_str_In|exact H].
  - cbn [In]. rewrite IH. tauto.
Qed.

Lemma in_groups c t G : In G (groups t c) <-> exists n, In n (rc_node c :: rc_peers c) /\ has_member t G (subs_of n c) = true.
Proof.
  unfold groups. rewrite in_dedup, in_flat_map. split.
  - intros (n & Hn & Hin). exists n. split; [exact Hn|]. apply in_map_iff in Hin as (s & <- & Hs). apply filter_In in Hs as [Hs Hf].
    unfold has_member. apply existsb_exists. exists s. split; [exact Hs|]. rewrite Hf. apply str_eqb_refl.
  - intros (n & Hn & Hm). exists n. split; [exact Hn|]. unfold has_member in Hm. apply existsb_exists in Hm as (s & Hs & Hf).
    apply andb_true_iff in Hf as [Hf HG]. apply in_map_iff. exists s. split; [now destruct (str_eqb_spec (lsub_full s) G)|].
    apply filter_In. now split.
Qed.

Lemma aget_init_peers n (ps : list str) : aget n (map (fun x => (x, @nil fevent)) ps) = if mem_str n ps then Some [] else None.
Proof.
  induction ps as [|x r IH]; cbn [map aget mem_str]; [reflexivity|].
  destruct (str_eqb n x); cbn [orb]; [reflexivity|exact IH].
Qed.

Lemma new_events_init (st st' : rstate) :
  (forall n, match aget n (r_peers st) with Some q => q | None => [] end = []) ->
  fr_new_events st st' = r_peers st'.
Proof.
  intros H. unfold fr_new_events. rewrite <- (map_id (r_peers st')) at 2. apply map_ext. intros [n q]. cbn [fst snd].
  now rewrite H.
Qed.

Lemma keys_shared_step st m a tv : map fst (sa_peers (fr_shared_step st m a tv)) = map fst (sa_peers a).
Proof. destruct tv as [k v]. rewrite shared_step_peers. destruct (_ || _); [reflexivity|apply keys_push]. Qed.

Lemma keys_send st m : m_retained m = false -> map fst (r_peers (fst (fst (fr_send_message st m)))) = map fst (r_peers st).
Proof.
  intros Hr. unfold fr_send_message. rewrite Hr. cbn [fst r_peers].
  apply (fold_left_inv (fun ps => map fst ps = map fst (r_peers st))).
  - intros ps x <-. destruct (mem_str x _); [reflexivity|apply keys_push].
  - apply (fold_left_inv (fun a => map fst (sa_peers a) = map fst (r_peers st))); [|reflexivity].
    intros a tv <-. apply keys_shared_step.
Qed.

Section Send.
  Variables (c : rcase) (cnt : list (str * N)) (m : msg).
  Hypothesis Hwf : wf_case c = true.
  Hypothesis Hnd : NoDup (rc_peers c).
  Hypothesis Hr : m_retained m = false.
  Hypothesis Ht : m_topic m <> [].
  Hypothesis Hnw : no_wild_levels (split (m_topic m)) = true.

  Let t := m_topic m.
  Let st := case_state c cnt.
  Let ev := EMsg (msg_event_form m).

  (* through the loop over the shared topics: every peer's queue holds the event iff the peer is
     in `sent`; only peers with a member of some group are in `sent`; the drop flag and the options
     are untouched while nothing was sent, and afterwards say whether the origin has a matching
     non-shared subscriber *)
  Definition SI (a : sacc) : Prop :=
    (forall p, In p (rc_peers c) -> aget p (sa_peers a) = Some (if mem_str p (sa_sent a) then [ev] else [])) /\
    (forall p, In p (sa_sent a) -> In p (rc_peers c) -> exists G, has_member t G (subs_of p c) = true) /\
    match sa_sent a with
    | [] => sa_drop a = false /\ sa_opts a = None
    | _ => if fr_local_plain st t then sa_drop a = false /\ sa_opts a = Some (q_match true false true t)
           else sa_drop a = true /\ sa_opts a = None
    end.

  Lemma SI_step a k v : SI a -> v <> [] -> (forall x, In x v -> src_ok st t k x) -> SI (fr_shared_step st m a (k, v)).
  Proof.
    intros (H1 & H2 & H3) Hne Hv.
    pose proof (turn_in (sa_counters a) k v Hne) as Hx. apply Hv, (src_ok_case c cnt t Hwf Ht Hnw) in Hx as [Hx Hm].
    assert (Ho : fr_local_plain st t = false -> sa_opts a = None) by (intros E; rewrite E in H3; destruct (sa_sent a); apply H3).
    unfold SI, fr_shared_step. fold (turn (sa_counters a) k v). set (x := turn (sa_counters a) k v) in *.
    destruct (str_eqb_spec x (r_node st)) as [E|Hne0]; [now split|].
    destruct Hx as [E|Hxp]; [now destruct Hne0|].
    destruct (mem_str x (sa_sent a)) eqn:Hms; [now split|].
    assert (Hah : ahas x (sa_peers a) = true) by (unfold ahas; now rewrite (H1 x Hxp)).
    rewrite Hah. fold t ev.
    assert (G1 : forall p, In p (rc_peers c) ->
                 aget p (push_event x ev (sa_peers a)) = Some (if mem_str p (sa_sent a ++ [x]) then [ev] else [])).
    { intros p Hp. rewrite aget_push, (H1 p Hp), mem_str_snoc.
      destruct (str_eqb_spec p x) as [->|_]; [rewrite Hms; reflexivity|now rewrite orb_false_r]. }
    assert (G2 : forall p, In p (sa_sent a ++ [x]) -> In p (rc_peers c) -> exists G, has_member t G (subs_of p c) = true).
    { intros p Hp Hpp. apply in_app_or in Hp as [Hp|[<-|[]]]; [now apply H2|now exists k]. }
    destruct (fr_local_plain st t) eqn:Hlp; cbn [sa_sent sa_peers sa_drop sa_opts]; (split; [exact G1|split; [exact G2|]]);
      destruct (sa_sent a); cbn [app].
    1,2: now split.
    all: split; [reflexivity|now apply Ho].
  Qed.

  Let a1 := shared_acc st m.

  Lemma case_SI : SI a1.
  Proof.
    unfold a1, shared_acc. apply fold_left_In_inv.
    - intros a [k v] Hin Ha. destruct (proj2 (shared_list_spec st t) k v Hin) as [Hne Hv]. now apply SI_step.
    - split; [|split; [intros p []|now split]]. intros p Hp. cbn [sa_peers sa_sent mem_str st case_state r_peers].
      rewrite aget_init_peers. apply mem_str_In in Hp. now rewrite Hp.
  Qed.

  Lemma case_obs_eq : case_obs c cnt m =
    {| po_sent := flat_map (fun p => emsgs (fst p) (snd p)) (r_peers (fst (fst (fr_send_message st m))));
       po_drop := sa_drop a1; po_opts := sa_opts a1 |}.
  Proof.
    unfold a1. destruct (send_flags st m Hr) as [<- <-]. unfold case_obs. fold st. destruct (fr_send_message st m) as [[st' d] o]. cbn [fst snd].
    unfold pub_obs_of. rewrite new_events_init; [reflexivity|].
    intros x. cbn [st case_state r_peers]. rewrite aget_init_peers. now destruct (mem_str x (rc_peers c)).
  Qed.

  Lemma case_keys : map fst (r_peers (fst (fst (fr_send_message st m)))) = rc_peers c.
  Proof. rewrite (keys_send st m Hr). cbn [st case_state r_peers]. rewrite map_map. apply map_id. Qed.

  Lemma count_sent_case n : count_sent n (case_obs c cnt m) =
    N.of_nat (match aget n (r_peers (fst (fst (fr_send_message st m)))) with Some q => length (emsgs n q) | None => O end).
  Proof. rewrite case_obs_eq. unfold count_sent. cbn [po_sent]. rewrite count_flat; [reflexivity|]. rewrite case_keys. exact Hnd. Qed.

  Lemma case_queue p : In p (rc_peers c) ->
    aget p (r_peers (fst (fst (fr_send_message st m)))) =
    Some (if mem_str p (sa_sent a1) || mem_str p (fr_nonshared st t) then [ev] else []).
  Proof.
    intros Hp. destruct case_SI as (H1 & _). rewrite (send_queue st m p Hr). fold t a1. rewrite (H1 p Hp).
    destruct (mem_str p (sa_sent a1)); [now rewrite andb_false_r|]. now destruct (mem_str p (fr_nonshared st t)).
  Qed.

  Lemma case_count p : In p (rc_peers c) ->
    count_sent p (case_obs c cnt m) = if mem_str p (sa_sent a1) || mem_str p (fr_nonshared st t) then 1 else 0.
  Proof. intros Hp. rewrite count_sent_case, (case_queue p Hp). now destruct (_ || _). Qed.

  (* the origin's broker serves its shared subscribers iff nothing was sent for a group *)
  Lemma case_serves_shared :
    origin_serves_shared t (case_obs c cnt m) = match sa_sent a1 with [] => true | _ => false end.
  Proof.
    destruct case_SI as (_ & _ & H3). unfold origin_serves_shared. rewrite case_obs_eq. cbn [po_drop po_opts].
    destruct (sa_sent a1); [now destruct H3 as [-> ->]|].
    destruct (fr_local_plain st t); destruct H3 as [-> ->]; [|reflexivity]. cbn [negb andb q_match io_shared]. apply andb_false_r.
  Qed.
End Send.

(* outside the known-finding class a share group spanning nodes is served exactly once *)
Lemma fr_shared_one_partial c cnt m :
  wf_case c = true -> NoDup (rc_peers c) ->
  m_retained m = false -> m_topic m <> [] -> no_wild_levels (split (m_topic m)) = true ->
  kf_shared_span c m = false ->
  shared_ok c m (case_obs c cnt m) = true.
Proof.
  intros Hwf Hnd Hr Ht Hnw Hkf. unfold shared_ok. set (t := m_topic m) in *. set (st := case_state c cnt).
  unfold kf_shared_span in Hkf. rewrite Hr in Hkf. cbn [negb andb] in Hkf. fold t in Hkf.
  apply orb_false_iff in Hkf as [Hlen Hmix].
  destruct (groups t c) as [|G [|G' gs']] eqn:Hgs; [reflexivity| |cbn [length] in Hlen; discriminate].
  cbn [forallb]. rewrite andb_true_r. apply N.eqb_eq.
  (* a peer holding a member has no plain match *)
  assert (Hns : forall p, In p (rc_peers c) -> has_member t G (subs_of p c) = true -> mem_str p (fr_nonshared st t) = false).
  { intros p Hp Hm. apply not_true_iff_false. intros E. apply mem_str_In, (nonshared_case c cnt t Hwf Ht Hnw) in E as [_ Hpl].
    apply not_true_iff_false in Hmix. apply Hmix, existsb_exists. exists p. split; [exact Hp|].
    rewrite Hpl. cbn [existsb andb]. now rewrite Hm. }
  (* the shared list is [(G, v)] *)
  assert (Hsrc : forall k x, src_ok st t k x -> k = G).
  { intros k x H. apply (src_ok_case c cnt t Hwf Ht Hnw) in H.
    assert (Hk : In k (groups t c)) by (apply in_groups; now exists x). rewrite Hgs in Hk. now destruct Hk as [<-|[]]. }
  destruct (shared_list_spec st t) as [Hlnd Hlok].
  assert (Hkeys : forall k v, In (k, v) (fr_shared_list st t) -> k = G).
  { intros k v Hin. destruct (Hlok k v Hin) as [Hne Hv]. destruct v as [|x v']; [congruence|].
    exact (Hsrc k x (Hv x (or_introl eq_refl))). }
  destruct (single_key _ G Hlnd Hkeys) as [Hnil|[v Hlist]].
  { exfalso. assert (HG : In G (groups t c)) by (rewrite Hgs; now left). apply in_groups in HG as (n & Hn).
    apply (src_ok_case c cnt t Hwf Ht Hnw), shared_list_complete in Hn as (v & Hg & _). fold st in Hg. rewrite Hnil in Hg. discriminate. }
  destruct (Hlok G v) as [Hvne Hv]; [rewrite Hlist; now left|].
  (* the node whose turn it is *)
  set (x := turn cnt G v).
  destruct (proj1 (src_ok_case c cnt t Hwf Ht Hnw G x) (Hv x (turn_in cnt G v Hvne))) as [Hx Hmx].
  assert (Hsent : sa_sent (shared_acc st m) = if str_eqb x (rc_node c) then [] else [x]).
  { unfold shared_acc. fold t. rewrite Hlist. cbn [fold_left]. rewrite shared_step_sent.
    cbn [sa_sent sa_counters mem_str st case_state r_sent r_node]. fold x. now rewrite orb_false_r. }
  pose proof (case_count c cnt m Hwf Hnd Hr Ht Hnw) as Hcount. pose proof (case_serves_shared c cnt m Hwf Hr Ht Hnw) as Hserve.
  fold t st in Hcount, Hserve. rewrite Hsent in Hcount, Hserve. clearbody x.
  unfold group_deliveries. fold t. rewrite Hserve.
  destruct Hx as [<-|Hxp].
  - (* the origin's turn: nothing is sent for the group, the origin's broker serves its member *)
    rewrite str_eqb_refl in *. rewrite Hmx, fold_sum_zero; [reflexivity|].
    intros p Hp. destruct (has_member t G (subs_of p c)) eqn:Hm; [|reflexivity].
    now rewrite (Hcount p Hp), (Hns p Hp Hm).
  - (* a peer's turn: one event for that peer, the origin does not serve its shared subscribers *)
    assert (Hne : str_eqb x (rc_node c) = false).
    { destruct (str_eqb_spec x (rc_node c)) as [E|_]; [|reflexivity]. unfold wf_case in Hwf. apply andb_true_iff in Hwf as [Horig _].
      apply negb_true_iff in Horig. rewrite <- E in Horig. apply mem_str_In in Hxp. congruence. }
    rewrite Hne in *. rewrite andb_false_r. apply (fold_sum_one _ _ x Hnd Hxp).
    + rewrite Hmx, (Hcount x Hxp). cbn [mem_str]. now rewrite str_eqb_refl.
    + intros p Hp Hpx. destruct (has_member t G (subs_of p c)) eqn:Hm; [|reflexivity].
      rewrite (Hcount p Hp), (Hns p Hp Hm). cbn [mem_str]. now destruct (str_eqb_spec p x).
Qed.
