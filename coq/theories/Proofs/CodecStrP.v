(* utf8.DecodeRune by lead byte; ValidUTF8, ValidTopicName, ValidTopicFilter, ValidV5Topic never
   panic and never run out of fuel; readUTF8String is safe and reads back what writeBinary wrote. *)
From Coq Require Import List NArith ZArith Bool Lia ZifyN ZifyNat ZifyBool.
Import ListNotations.
From GM Require Import Base.Topic Base.Msg Model.CodecBase Model.CodecSpec Proofs.CodecBaseP.
Open Scope N_scope.

(* the second byte of a three- and of a four-byte sequence (Unicode table 3-7): E0 and F0 exclude
   overlong forms, ED the surrogates, F4 what lies above U+10FFFF *)
Definition r3 (a b : N) : bool :=
  if a =? 224 then (160 <=? b) && (b <=? 191) else if a =? 237 then (128 <=? b) && (b <=? 159) else cont b.
Definition r4 (a b : N) : bool :=
  if a =? 240 then (144 <=? b) && (b <=? 191) else if a =? 244 then (128 <=? b) && (b <=? 143) else cont b.

Lemma r3_range : forall a b c, r3 a b && cont c = true ->
  128 <= b <= 191 /\ 128 <= c <= 191 /\ (a = 224 -> 160 <= b) /\ (a = 237 -> b <= 159).
Proof. intros a b c. unfold r3, cont. destruct (N.eqb_spec a 224), (N.eqb_spec a 237); lia. Qed.
Lemma r4_range : forall a b c d, r4 a b && cont c && cont d = true ->
  128 <= b <= 191 /\ 128 <= c <= 191 /\ 128 <= d <= 191 /\ (a = 240 -> 144 <= b) /\ (a = 244 -> b <= 143).
Proof. intros a b c d. unfold r4, cont. destruct (N.eqb_spec a 240), (N.eqb_spec a 244); lia. Qed.

Lemma out_of_range : forall lo hi b, (b <? lo) || (hi <? b) = negb ((lo <=? b) && (b <=? hi)).
Proof. intros. now rewrite negb_andb, !N.ltb_antisym. Qed.

(* DecodeRune's bounds on the second byte, chosen by the lead byte, are cont / r3 / r4 *)
Lemma second_byte : forall p0 b1,
  (b1 <? (if p0 =? 224 then 160 else if p0 =? 240 then 144 else 128))
  || ((if p0 =? 237 then 159 else if p0 =? 244 then 143 else 191) <? b1)
  = negb (if p0 <? 224 then cont b1 else if p0 <? 240 then r3 p0 b1 else r4 p0 b1).
Proof.
  intros. rewrite out_of_range. unfold r3, r4, cont.
  destruct (N.eqb_spec p0 224) as [->|_]; [reflexivity|]. destruct (N.eqb_spec p0 237) as [->|_]; [reflexivity|].
  destruct (N.eqb_spec p0 240) as [->|_]; [reflexivity|]. destruct (N.eqb_spec p0 244) as [->|_]; [reflexivity|].
  destruct (p0 <? 224), (p0 <? 240); reflexivity.
Qed.

(* masking the low n bits of x takes off its high part q * 2^n *)
Lemma land_ones_sub : forall n q x, q * 2 ^ n <= x < (q + 1) * 2 ^ n -> N.land x (N.ones n) = x - q * 2 ^ n.
Proof. intros n q x H. rewrite N.land_ones. symmetry. apply (N.mod_unique x (2 ^ n) q); lia. Qed.
Lemma cont_mask : forall b, 128 <= b <= 191 -> N.land b 63 = b - 128.
Proof. intros b H. apply (land_ones_sub 6 2). cbn. lia. Qed.

(* DecodeRune by lead-byte range.  The payload bits are written as differences (p0 - 192 for
   p0 land 31 and so on), so that bounds on the rune are linear in the bytes. *)
Lemma decode_rune_eq : forall p0 t, decode_rune (p0 :: t) =
  if p0 <? 128 then (p0, 1)
  else if (p0 <? 194) || (244 <? p0) then (RUNE_ERROR, 1)
  else if p0 <? 224 then
    match t with
    | b1 :: _ => if cont b1 then ((p0 - 192) * 64 + (b1 - 128), 2) else (RUNE_ERROR, 1)
    | _ => (RUNE_ERROR, 1)
    end
  else if p0 <? 240 then
    match t with
    | b1 :: b2 :: _ =>
        if r3 p0 b1 && cont b2 then (((p0 - 224) * 64 + (b1 - 128)) * 64 + (b2 - 128), 3) else (RUNE_ERROR, 1)
    | _ => (RUNE_ERROR, 1)
    end
  else
    match t with
    | b1 :: b2 :: b3 :: _ =>
        if r4 p0 b1 && cont b2 && cont b3
        then ((((p0 - 240) * 64 + (b1 - 128)) * 64 + (b2 - 128)) * 64 + (b3 - 128), 4) else (RUNE_ERROR, 1)
    | _ => (RUNE_ERROR, 1)
    end.
Proof.
  intros p0 t. unfold decode_rune.
  destruct (N.ltb_spec p0 128); [reflexivity|].
  destruct (N.ltb_spec p0 194); [reflexivity|]. destruct (N.ltb_spec 244 p0); [reflexivity|]. cbn [orb]. cbv zeta.
  destruct t as [|b1 t1]; [destruct (p0 <? 224), (p0 <? 240); reflexivity|].
  rewrite second_byte.
  destruct (N.ltb_spec p0 224).
  { destruct (cont b1) eqn:E1; [|reflexivity]. unfold cont in E1. cbn [negb].
    rewrite (cont_mask b1), (land_ones_sub 5 6 p0 : _ -> N.land p0 31 = p0 - 192) by (cbn; lia). reflexivity. }
  destruct (N.ltb_spec p0 240).
  { destruct (r3 p0 b1) eqn:E1; [|destruct t1 as [|b2 t2]; reflexivity]. cbn [negb andb].
    destruct t1 as [|b2 t2]; [reflexivity|]. rewrite out_of_range. fold (cont b2).
    destruct (cont b2) eqn:E2; [|reflexivity]. cbn [negb].
    pose proof (r3_range _ _ _ (andb_true_intro (conj E1 E2))).
    rewrite (cont_mask b1), (cont_mask b2), (land_ones_sub 4 14 p0 : _ -> N.land p0 15 = p0 - 224) by (cbn; lia).
    reflexivity. }
  destruct (r4 p0 b1) eqn:E1; [|destruct t1 as [|b2 [|b3 t3]]; reflexivity]. cbn [negb andb].
  destruct t1 as [|b2 t2]; [reflexivity|]. rewrite out_of_range. fold (cont b2).
  destruct (cont b2) eqn:E2; [|destruct t2; reflexivity]. cbn [negb andb].
  destruct t2 as [|b3 t3]; [reflexivity|]. rewrite out_of_range. fold (cont b3).
  destruct (cont b3) eqn:E3; [|reflexivity]. cbn [negb].
  pose proof (r4_range _ _ _ _ (andb_true_intro (conj (andb_true_intro (conj E1 E2)) E3))).
  rewrite (cont_mask b1), (cont_mask b2), (cont_mask b3), (land_ones_sub 3 30 p0 : _ -> N.land p0 7 = p0 - 240)
    by (cbn; lia).
  reflexivity.
Qed.

Lemma decode_rune_size : forall p, p <> [] -> 1 <= snd (decode_rune p) /\ snd (decode_rune p) <= len p.
Proof.
  intros [|p0 t] Hp; [congruence|]. rewrite decode_rune_eq, len_cons.
  destruct (p0 <? 128); [cbn [snd]; lia|]. destruct (_ || _); [cbn [snd]; lia|].
  destruct (p0 <? 224); [destruct t as [|b1 t]; [|destruct (cont b1)]; cbn [snd]; rewrite ?len_cons; lia|].
  destruct (p0 <? 240); [destruct t as [|b1 [|b2 t]]; [| |destruct (_ && _)]; cbn [snd]; rewrite ?len_cons; lia|].
  destruct t as [|b1 [|b2 [|b3 t]]]; [| | |destruct (_ && _)]; cbn [snd]; rewrite ?len_cons; lia.
Qed.

(* a multi-byte rune consists of bytes >= 128 *)
Lemma rune_multi : forall p0 t ru size, decode_rune (p0 :: t) = (ru, size) -> size <> 1 ->
  128 <= p0 /\ forallb (fun x => 128 <=? x) (takeN size (p0 :: t)) = true.
Proof.
  intros p0 t ru size E. rewrite decode_rune_eq in E.
  destruct (N.ltb_spec p0 128); [congruence|]. destruct (_ || _); [congruence|]. intros Hs. split; [assumption|].
  destruct (p0 <? 224).
  { destruct t as [|b1 t]; [congruence|]. destruct (cont b1) eqn:Ec; [|congruence]. injection E as _ <-.
    unfold cont in Ec. cbn. rewrite takeN_0. cbn. lia. }
  destruct (p0 <? 240).
  { destruct t as [|b1 [|b2 t]]; try congruence. destruct (r3 p0 b1 && cont b2) eqn:Ec; [|congruence]. injection E as _ <-.
    apply r3_range in Ec. cbn. rewrite takeN_0. cbn. lia. }
  destruct t as [|b1 [|b2 [|b3 t]]]; try congruence.
  destruct (r4 p0 b1 && cont b2 && cont b3) eqn:Ec; [|congruence]. injection E as _ <-.
  apply r4_range in Ec. cbn. rewrite takeN_0. cbn. lia.
Qed.

(* DecodeRune yields U+0000 exactly for the byte 00 *)
Lemma decode_rune_zero : forall p0 t, (fst (decode_rune (p0 :: t)) =? 0) = (p0 =? 0).
Proof.
  intros p0 t. rewrite decode_rune_eq.
  destruct (N.ltb_spec p0 128); [reflexivity|]. replace (p0 =? 0) with false by lia.
  destruct (N.ltb_spec p0 194); [reflexivity|]. destruct (244 <? p0); [reflexivity|]. cbn [orb].
  destruct (N.ltb_spec p0 224).
  { destruct t as [|b1 t]; [reflexivity|]. destruct (cont b1); [|reflexivity]. cbn [fst]. lia. }
  destruct (N.ltb_spec p0 240).
  { destruct t as [|b1 [|b2 t]]; try reflexivity. destruct (r3 p0 b1 && cont b2) eqn:E; [|reflexivity].
    apply r3_range in E. cbn [fst]. lia. }
  destruct t as [|b1 [|b2 [|b3 t]]]; try reflexivity. destruct (r4 p0 b1 && cont b2 && cont b3) eqn:E; [|reflexivity].
  apply r4_range in E. cbn [fst]. lia.
Qed.

(* utf8.RuneError with a size above 1 is the genuine character U+FFFD (EF BF BD) *)
Lemma decode_rune_error3 : forall p, fst (decode_rune p) = RUNE_ERROR -> 1 < snd (decode_rune p) ->
  exists t, p = 239 :: 191 :: 189 :: t.
Proof.
  intros [|p0 t]; [cbn; lia|]. rewrite decode_rune_eq. unfold RUNE_ERROR.
  destruct (N.ltb_spec p0 128); [cbn; lia|].
  destruct (N.ltb_spec p0 194); [cbn; lia|]. destruct (244 <? p0); [cbn; lia|]. cbn [orb].
  destruct (N.ltb_spec p0 224).
  { destruct t as [|b1 t]; [cbn; lia|]. destruct (cont b1) eqn:E; cbn [fst snd]; unfold cont in E; lia. }
  destruct (N.ltb_spec p0 240).
  { destruct t as [|b1 [|b2 t]]; try (cbn; lia). destruct (r3 p0 b1 && cont b2) eqn:E; [|cbn; lia]. cbn [fst].
    intros Hr _. apply r3_range in E. assert (p0 = 239 /\ b1 = 191 /\ b2 = 189) as (-> & -> & ->) by lia. eauto. }
  destruct t as [|b1 [|b2 [|b3 t]]]; try (cbn; lia).
  destruct (r4 p0 b1 && cont b2 && cont b3) eqn:E; [|cbn; lia]. cbn [fst].
  intros Hr _. apply r4_range in E. lia.
Qed.

Lemma slice_from_ok : forall n p, n <= len p -> slice_from n p = Ok (dropN n p).
Proof. intros. unfold slice_from. rewrite shorter_spec. replace (len p <? n) with false by lia. reflexivity. Qed.

Lemma dropN_shrinks : forall (p : list N) n, 1 <= n -> p <> [] -> (length (dropN n p) < length p)%nat.
Proof.
  intros p n Hn Hp. rewrite dropN_skipn, skipn_length.
  destruct p; [congruence|]. cbn [length]. lia.
Qed.

(* p[size:] after DecodeRune never panics and is shorter *)
Lemma rune_step : forall p0 t ru size, decode_rune (p0 :: t) = (ru, size) ->
  1 <= size /\ slice_from size (p0 :: t) = Ok (dropN size (p0 :: t))
  /\ (length (dropN size (p0 :: t)) <= length t)%nat.
Proof.
  intros p0 t ru size E. destruct (decode_rune_size (p0 :: t)) as [H1 H2]; [discriminate|].
  rewrite E in H1, H2. cbn [snd] in H1, H2. split; [assumption|]. split; [now apply slice_from_ok|].
  pose proof (dropN_shrinks (p0 :: t) size H1) as Hl. cbn [length] in Hl. apply Nat.lt_succ_r, Hl. discriminate.
Qed.

(* the tests ValidUTF8 applies to a decoded rune *)
Definition good (ru size : N) : bool :=
  negb (ru <=? 31) && negb ((127 <=? ru) && (ru <=? 159)) && negb ((ru =? RUNE_ERROR) && (size <=? 1)) && valid_rune ru.

Lemma loop_step : forall k p0 t ru size, decode_rune (p0 :: t) = (ru, size) ->
  valid_utf8_loop (S k) (p0 :: t) = if good ru size then valid_utf8_loop k (dropN size (p0 :: t)) else Ok false.
Proof.
  intros k p0 t ru size E. cbn [valid_utf8_loop]. destruct (rune_step _ _ _ _ E) as (H1 & Hs & _).
  rewrite E. unfold good.
  destruct (ru <=? 31); [reflexivity|]. destruct ((127 <=? ru) && (ru <=? 159)); [reflexivity|].
  destruct ((ru =? RUNE_ERROR) && (size <=? 1)); [reflexivity|]. destruct (valid_rune ru); cbn [negb andb]; [|reflexivity].
  replace (size =? 0) with false by lia. rewrite Hs. reflexivity.
Qed.

Lemma valid_utf8_loop_safe : forall fuel p, (length p < fuel)%nat ->
  exists b, valid_utf8_loop fuel p = Ok b.
Proof.
  induction fuel; intros p Hf; [lia|]. destruct p as [|p0 t]; [eexists; reflexivity|].
  destruct (decode_rune (p0 :: t)) as [ru size] eqn:E. destruct (rune_step _ _ _ _ E) as (_ & _ & Hl).
  rewrite (loop_step _ _ _ _ _ E). destruct (good ru size); [|eexists; reflexivity].
  apply IHfuel. cbn [length] in Hf. lia.
Qed.
Lemma valid_utf8_impl_total : forall p, exists b, valid_utf8_impl p = Ok b.
Proof. intros. apply valid_utf8_loop_safe. lia. Qed.

Lemma valid_topic_name_loop_safe : forall fuel must p, (length p < fuel)%nat ->
  exists b, valid_topic_name_loop fuel must p = Ok b.
Proof.
  induction fuel; intros must p Hf; [lia|]. destruct p as [|p0 t]; [eexists; reflexivity|].
  cbn [valid_topic_name_loop length] in *.
  destruct (decode_rune (p0 :: t)) as [ru size] eqn:E. destruct (rune_step _ _ _ _ E) as (_ & Hs & Hl).
  repeat (match goal with |- context [if ?c then _ else _] => destruct c end; try (eexists; reflexivity)).
  rewrite Hs. cbn [bind]. apply IHfuel. lia.
Qed.
Lemma valid_topic_name_impl_total : forall must p, exists b, valid_topic_name_impl must p = Ok b.
Proof.
  intros. unfold valid_topic_name_impl. destruct p; [eexists; reflexivity|].
  apply valid_topic_name_loop_safe. lia.
Qed.

Lemma valid_topic_filter_loop_safe : forall fuel must prev p, (length p < fuel)%nat ->
  exists b, valid_topic_filter_loop fuel must prev p = Ok b.
Proof.
  induction fuel; intros must prev p Hf; [lia|]. destruct p as [|p0 t]; [eexists; reflexivity|].
  cbn [valid_topic_filter_loop length] in *.
  destruct (decode_rune (p0 :: t)) as [ru size] eqn:E. destruct (rune_step _ _ _ _ E) as (_ & Hs & Hl).
  destruct (must && (ru =? RUNE_ERROR) && (size <=? 1)); [eexists; reflexivity|].
  destruct (ru =? 0); [eexists; reflexivity|].
  destruct ((p0 =? HASH) && negb (is_empty t)); [eexists; reflexivity|].
  (* the prev-byte checks: p[1] is read only when plen > 1 *)
  match goal with |- exists b, bind ?c _ = _ => assert (Hchk : exists ok, c = Ok ok) end.
  { destruct prev as [pb|]; [|eexists; reflexivity].
    destruct (size =? 1); [|eexists; reflexivity].
    destruct (((p0 =? PLUS) || (p0 =? HASH)) && negb (pb =? SLASH)); [eexists; reflexivity|].
    destruct t as [|p1 t']; cbn [is_empty negb]; [eexists; reflexivity|].
    destruct (p0 =? PLUS); eexists; reflexivity. }
  destruct Hchk as [ok ->]. cbn [bind].
  destruct ok; cbn [negb]; [|eexists; reflexivity].
  rewrite Hs. cbn [bind]. apply IHfuel. lia.
Qed.
Lemma valid_topic_filter_impl_total : forall must p, exists b, valid_topic_filter_impl must p = Ok b.
Proof.
  intros. unfold valid_topic_filter_impl. destruct p; [eexists; reflexivity|].
  apply valid_topic_filter_loop_safe. lia.
Qed.

Lemma v5_share_loop_safe : forall fuel p, (length p < fuel)%nat -> exists b, v5_share_loop fuel p = Ok b.
Proof.
  induction fuel; intros p Hf; [lia|]. destruct p as [|p0 t]; [eexists; reflexivity|].
  cbn [v5_share_loop length] in *.
  destruct (decode_rune (p0 :: t)) as [ru size] eqn:E. destruct (rune_step _ _ _ _ E) as (_ & Hs & Hl).
  destruct ((ru =? RUNE_ERROR) && (size <=? 1)); [eexists; reflexivity|].
  destruct (ru =? 0); [eexists; reflexivity|].
  destruct ((size =? 1) && (p0 =? SLASH)).
  { rewrite slice_from_ok by (rewrite len_cons; lia). apply valid_topic_filter_impl_total. }
  destruct ((size =? 1) && ((p0 =? PLUS) || (p0 =? HASH))); [eexists; reflexivity|].
  rewrite Hs. cbn [bind]. apply IHfuel. lia.
Qed.
Lemma valid_v5_topic_impl_total : forall p, exists b, valid_v5_topic_impl p = Ok b.
Proof.
  intros. unfold valid_v5_topic_impl. destruct p as [|p0 t] eqn:Ep; [eexists; reflexivity|]. rewrite <- Ep.
  destruct (has_prefix SHARE_PREFIX p); [|apply valid_topic_filter_impl_total].
  rewrite shorter_spec. destruct (N.ltb_spec (len p) 9); [eexists; reflexivity|].
  assert (Hd : exists x r, dropN 7 p = x :: r).
  { rewrite dropN_skipn. unfold len in H.
    destruct (skipn (N.to_nat 7) p) eqn:E; [|eauto].
    apply (f_equal (@length N)) in E. rewrite skipn_length in E. cbn [length] in E. lia. }
  destruct Hd as [x [r Hd]]. unfold idx. rewrite Hd. cbn [bind].
  destruct (negb (x =? SLASH)); [|eexists; reflexivity].
  rewrite slice_from_ok by lia. cbn [bind]. apply v5_share_loop_safe. lia.
Qed.

(* readUTF8String starts as readUint16 does *)
Lemma read_utf8_string_eq : forall must b, read_utf8_string must b =
  do '(n, r) <- read_uint16 b;
  if shorter r n then Err MALFORMED
  else if must then do ok <- valid_utf8_impl (takeN n r); if ok then Ok (takeN n r, dropN n r) else Err MALFORMED
  else Ok (takeN n r, dropN n r).
Proof.
  intros. unfold read_utf8_string, read_uint16, buf_next. destruct (shorter b 2); [reflexivity|].
  destruct (be16 (takeN 2 b)); reflexivity.
Qed.

Lemma read_utf8_string_safe : forall must b, safe_rd1 b (read_utf8_string must b).
Proof.
  intros. rewrite read_utf8_string_eq. pose proof (read_uint16_safe b) as H.
  destruct (read_uint16 b) as [[n r]| | |]; cbn [bind safe_rd1] in *; try assumption.
  destruct (shorter r n); [exact I|]. pose proof (dropN_length _ r n) as Hl.
  destruct must; [|cbn; lia]. destruct (valid_utf8_impl_total (takeN n r)) as [[|] ->]; cbn; [lia|exact I].
Qed.

Lemma len_put_bin : forall s, len (put_bin s) = 2 + len s.
Proof. intros. unfold put_bin. rewrite len_app, len_put16. reflexivity. Qed.

(* writeBinary / writeUTF8String followed by readUTF8String *)
Lemma read_utf8_string_put_bin : forall must s rest,
  len s <= 65535 -> (must = true -> valid_utf8_impl s = Ok true) ->
  read_utf8_string must (put_bin s ++ rest) = Ok (s, rest).
Proof.
  intros must s rest Hl Hu. rewrite read_utf8_string_eq. unfold put_bin.
  rewrite N.mod_small, <- app_assoc, read_uint16_put16 by lia. cbn [bind].
  rewrite shorter_app_false, takeN_app_exact, dropN_app_exact.
  destruct must; [|reflexivity]. rewrite Hu by reflexivity. reflexivity.
Qed.

(* the same for EncodeUTF8String (Connect.Pack) *)
Lemma encode_utf8_string_ok : forall s, len s <= 65535 -> encode_utf8_string s = Ok (put_bin s).
Proof.
  intros. unfold encode_utf8_string, put_bin. replace (65535 <? len s) with false by lia.
  rewrite N.mod_small by lia. reflexivity.
Qed.
Lemma encode_utf8_string_safe : forall s, safe (encode_utf8_string s).
Proof. intros. unfold encode_utf8_string. destruct (_ <? _); exact I. Qed.
