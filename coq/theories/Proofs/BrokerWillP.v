(* C08: the will message is published exactly when, and only when, it should be - proved of the broker
   model Model/Broker.v.  Where can a will be published?  Only through send_will, which is called from
   unregister (at once), fire_wills (the delay timer), release_will (the session ended) and handle_connect
   (the old session is discarded).  Each call site is characterised first; then comes the ghost-state theorem:
   along any event list every registered will is handed to send_will at most once. *)
From Coq Require Import List NArith ZArith Bool Arith Lia ZifyN ZifyNat ZifyBool.
Import ListNotations.
From GM Require Import Base.Topic Base.Msg Model.SubTrie Model.RetTrie Model.Queue Model.Limiter Model.TopicMatch
  Model.Broker Proofs.TopicP Proofs.SubTrieP Proofs.LimiterP Proofs.BrokerBasicP Proofs.BrokerQos2P.
From GM Require Proofs.BrokerInvP.
Open Scope N_scope.

(* dframe without the retained store (a retained will replaces the retained message of its topic) *)
Definition wproj (s : st) :=
  (b_cfg s, b_hooks s, b_now s, b_rt s, (b_sessions s, b_online s, b_offline s, b_wills s), (b_subs s, b_unacks s, b_auto s)).

Definition wframe (s s' : st) : Prop := wproj s' = wproj s /\ forall c, cstat s' c = cstat s c.

Lemma wframe_refl s : wframe s s. Proof. split; reflexivity. Qed.
Lemma wframe_trans s1 s2 s3 : wframe s1 s2 -> wframe s2 s3 -> wframe s1 s3.
Proof. intros [A1 B1] [A2 B2]. split; [congruence|]. intros c. now rewrite B2, B1. Qed.
Lemma dframe_wframe s s' : dframe s s' -> wframe s s'.
Proof. intros [A B]. split; [|exact B]. unfold dproj in A. unfold wproj. congruence. Qed.

Section WframeFields.
  Variables s s' : st.
  Hypothesis H : wframe s s'.
  Lemma wf_now : b_now s' = b_now s. Proof. destruct H as [A _]. unfold wproj in A. congruence. Qed.
  Lemma wf_rt : b_rt s' = b_rt s. Proof. destruct H as [A _]. unfold wproj in A. congruence. Qed.
  Lemma wf_sessions : b_sessions s' = b_sessions s. Proof. destruct H as [A _]. unfold wproj in A. congruence. Qed.
  Lemma wf_online : b_online s' = b_online s. Proof. destruct H as [A _]. unfold wproj in A. congruence. Qed.
  Lemma wf_offline : b_offline s' = b_offline s. Proof. destruct H as [A _]. unfold wproj in A. congruence. Qed.
  Lemma wf_wills : b_wills s' = b_wills s. Proof. destruct H as [A _]. unfold wproj in A. congruence. Qed.
  Lemma wf_subs : b_subs s' = b_subs s. Proof. destruct H as [A _]. unfold wproj in A. congruence. Qed.
  Lemma wf_unacks : b_unacks s' = b_unacks s. Proof. destruct H as [A _]. unfold wproj in A. congruence. Qed.
  Lemma wf_cstat c : cstat s' c = cstat s c. Proof. destruct H as [_ B]. apply B. Qed.
End WframeFields.

(* the message send_will publishes: what the OnWillPublish hook returns *)
Definition will_effective (cid : str) (m : msg) (s : st) : option msg :=
  match will_action cid s with
  | MAccept => Some m
  | MRewrite t p q => Some (with_topic_payload_qos t p q m)
  | _ => None
  end.

Lemma send_will_eq cid m s :
  send_will cid m s =
  match will_effective cid m s with
  | Some m' => let '(s', o, _) := deliver cid m' (retain_update m' s) in (s', o)
  | None => (s, [])
  end.
Proof. unfold send_will, will_effective. destruct (will_action cid s); reflexivity. Qed.

Lemma send_will_frame cid m s : wframe s (fst (send_will cid m s)) /\ only_drops (snd (send_will cid m s)).
Proof.
  destruct (BrokerInvP.send_will_cases cid m s) as [->|[m' ->]]; [split; [apply wframe_refl|constructor]|].
  destruct (forward_frame cid m' s) as (r & F & D). split; [exact (dframe_wframe (set_ret r s) _ F)|exact D].
Qed.

(* the stages of unregister *)
Definition ur_expiry (k : conn) (se : session) (s : st) : N :=
  if negb (k_force_remove k) && (k_v k =? 5) && k_got_disconnect k
  then N.min (opt_or (k_disc_sei k) (se_expiry se)) (c_session_expiry (b_cfg s)) else se_expiry se.

Definition ur_store (k : conn) (se : session) (s : st) : bool :=
  negb (k_force_remove k) && negb (ur_expiry k se s =? 0).

(* min(will delay interval, session expiry interval) *)
Definition ur_delay (k : conn) (se : session) (s : st) : N :=
  if ur_expiry k se s <=? se_will_delay se then ur_expiry k se s else se_will_delay se.

Lemma ur_delay_min k se s : ur_delay k se s = N.min (se_will_delay se) (ur_expiry k se s).
Proof. unfold ur_delay. destruct (ur_expiry k se s <=? se_will_delay se) eqn:E; lia. Qed.

(* store the session as detached, or remove it *)
Definition ur_finish (cid : str) (se : session) (expiry : N) (store : bool) (s1 : st) (o1 : list out) : st * list out :=
  if store then
    (set_tables (aset cid {| se_will := se_will se; se_will_delay := se_will_delay se;
                             se_connected_at := se_connected_at se; se_expiry := expiry |} (b_sessions s1))
                (adel cid (b_online s1)) (aset cid (b_now s1 + expiry * 1000) (b_offline s1)) (b_wills s1)
                (b_queues s1) (b_unacks s1) s1, o1)
  else (remove_session cid s1, o1).

Definition ur_arm (cid : str) (w : msg) (at_ : N) (s : st) : st :=
  set_tables (b_sessions s) (b_online s) (b_offline s) (aset cid (w, at_) (b_wills s)) (b_queues s) (b_unacks s) s.

Lemma unregister_stages c k s :
  unregister c k s =
  let cid := k_cid k in
  match aget cid (b_sessions s) with
  | None => (remove_session cid s, [])
  | Some se =>
      let '(s1, o1) :=
        match se_will se with
        | Some w =>
            if k_clean_will k then (s, [])
            else if negb (ur_delay k se s =? 0) && ur_store k se s
                 then (ur_arm cid w (b_rt s + ur_delay k se s * 1000) s, [])
                 else send_will cid w s
        | None => (s, [])
        end in
      ur_finish cid se (ur_expiry k se s) (ur_store k se s) s1 o1
  end.
Proof. reflexivity. Qed.

Lemma ur_finish_wills cid se expiry store s1 o1 :
  b_wills (fst (ur_finish cid se expiry store s1 o1)) = b_wills s1 /\ snd (ur_finish cid se expiry store s1 o1) = o1.
Proof. unfold ur_finish. destruct store; split; reflexivity. Qed.

(* a suppressed will (k_clean_will) takes no part in unregister *)
Lemma unregister_clean_will c k s se :
  aget (k_cid k) (b_sessions s) = Some se -> k_clean_will k = true ->
  unregister c k s = ur_finish (k_cid k) se (ur_expiry k se s) (ur_store k se s) s [].
Proof. intros Hse Hcw. rewrite unregister_stages. cbv zeta. rewrite Hse, Hcw. now destruct (se_will se). Qed.

(* A DISCONNECT that suppresses the will (k_clean_will): unregister neither publishes nor arms it -
   send_will is not applied, nothing is written, the table of pending wills is as before; the state is the one a
   session without will would get (ur_finish applied to the untouched state) *)
Theorem will_suppressed_by_disconnect c k s se :
  aget (k_cid k) (b_sessions s) = Some se ->
  k_clean_will k = true ->
  unregister c k s = ur_finish (k_cid k) se (ur_expiry k se s) (ur_store k se s) s [] /\
  snd (unregister c k s) = [] /\ b_wills (fst (unregister c k s)) = b_wills s.
Proof.
  intros Hse Hcw. rewrite (unregister_clean_will c k s se Hse Hcw). split; [reflexivity|].
  destruct (ur_finish_wills (k_cid k) se (ur_expiry k se s) (ur_store k se s) s []) as [A B]. now split.
Qed.

Lemma adel_aset_same {V} (k : str) (v : V) l : adel k (aset k v l) = adel k l.
Proof.
  induction l as [|[k0 v0] r IH]; cbn [aset adel]; [now rewrite str_eqb_refl|].
  destruct (str_eqb k k0) eqn:E0; cbn [adel]; [now rewrite str_eqb_refl|]. now rewrite E0, IH.
Qed.

(* the same call on the same state with the will erased from the session gives the same outputs, the same
   pending wills, and the same state up to the will field of the stored session *)
Definition erase_will (cid : str) (s : st) : st :=
  match aget cid (b_sessions s) with
  | Some se => set_tables (aset cid {| se_will := None; se_will_delay := se_will_delay se;
                                       se_connected_at := se_connected_at se; se_expiry := se_expiry se |} (b_sessions s))
                          (b_online s) (b_offline s) (b_wills s) (b_queues s) (b_unacks s) s
  | None => s
  end.

Theorem will_suppressed_same_as_no_will c k s :
  k_clean_will k = true ->
  snd (unregister c k s) = snd (unregister c k (erase_will (k_cid k) s)) /\
  erase_will (k_cid k) (fst (unregister c k s)) = erase_will (k_cid k) (fst (unregister c k (erase_will (k_cid k) s))).
Proof.
  intros Hcw. unfold erase_will at 1 4.
  destruct (aget (k_cid k) (b_sessions s)) as [se|] eqn:Hse; [|split; reflexivity].
  set (se0 := {| se_will := None; se_will_delay := se_will_delay se; se_connected_at := se_connected_at se; se_expiry := se_expiry se |}).
  set (s0 := set_tables _ _ _ _ _ _ s).
  assert (Hse0 : aget (k_cid k) (b_sessions s0) = Some se0) by apply aget_aset_same.
  rewrite (unregister_clean_will c k s se Hse Hcw), (unregister_clean_will c k s0 se0 Hse0 Hcw).
  unfold ur_finish, ur_store, ur_expiry. cbn [se0 se_expiry se_will se_will_delay se_connected_at].
  change (b_cfg s0) with (b_cfg s).
  match goal with |- context [if ?b then (set_tables _ _ _ _ _ _ s, _) else _] => destruct b end; cbn [fst snd].
  - split; [reflexivity|]. unfold erase_will, s0. proj. rewrite !aget_aset_same. proj. now rewrite !aset_aset.
  - split; [reflexivity|]. unfold erase_will, s0, remove_session. proj. now rewrite !adel_aset_same.
Qed.

(* When is the DISCONNECT request recorded?  Always for a v3 client; for a v5 client unless the
   packet asks for a session expiry although the session had none (a protocol error: the handler gives up before
   it records anything) or the session is unknown. *)
Definition disc_recorded (k : conn) (props : list prop) (s : st) : bool :=
  if k_v k =? 5 then
    match aget (k_cid k) (b_sessions s) with
    | Some se => negb ((se_expiry se =? 0) && negb (opt_or (p_sei props) 0 =? 0))
    | None => false
    end
  else true.

(* k_clean_will is set iff not (v5 and reason code 4 = "Disconnect with Will Message") *)
Theorem disconnect_sets_clean_will c k code props s :
  disc_recorded k props s = true ->
  exists s' k',
    handle_packet c k (KDisconnect code props) s = HErr s' [] None /\
    nget c (b_conns s') = Some k' /\
    k_clean_will k' = negb ((k_v k =? 5) && (code =? 4)) /\
    k_got_disconnect k' = true /\ k_cid k' = k_cid k /\ k_phase k' = k_phase k /\ k_v k' = k_v k /\
    k_force_remove k' = k_force_remove k /\
    b_wills s' = b_wills s /\ b_online s' = b_online s /\
    (forall cid, option_map se_will (aget cid (b_sessions s')) = option_map se_will (aget cid (b_sessions s))).
Proof.
  unfold disc_recorded. intros H. cbn [handle_packet].
  destruct (k_v k =? 5) eqn:Ev.
  - destruct (aget (k_cid k) (b_sessions s)) as [se|] eqn:Hse; [|discriminate].
    apply negb_true_iff in H. rewrite H.
    eexists _, _. split; [reflexivity|]. rewrite b_conns_upd_conn, nget_nset_same.
    split; [reflexivity|]. cbn [andb]. rewrite k_clean_will_set_disc, k_got_disconnect_set_disc, k_cid_set_disc, k_phase_set_disc,
      k_v_set_disc, k_force_remove_set_disc.
    repeat (split; [reflexivity|]). proj.
    destruct (p_sei props) as [x|]; [|repeat split].
    destruct (x =? 0); [repeat split|]. proj.
    split; [reflexivity|]. split; [reflexivity|]. intros cid. rewrite aget_aset.
    destruct (str_eqb_spec cid (k_cid k)) as [->|_]; [|reflexivity]. now rewrite Hse.
  - eexists _, _. split; [reflexivity|]. rewrite b_conns_upd_conn, nget_nset_same.
    split; [reflexivity|]. repeat split.
Qed.

(* ... and when it is not recorded nothing changes: the will stays armed.  (The MQTT 5 DISCONNECT that asks for
   a session expiry after CONNECT asked for none is a protocol error, so publishing the will is what the
   specification wants; the v5 reason code 0 alone does not suppress the will in that case.) *)
Theorem disconnect_not_recorded c k code props s :
  disc_recorded k props s = false ->
  handle_packet c k (KDisconnect code props) s = HErr s [] None.
Proof.
  unfold disc_recorded. intros H. cbn [handle_packet].
  destruct (k_v k =? 5); [|discriminate].
  destruct (aget (k_cid k) (b_sessions s)) as [se|]; [|reflexivity].
  apply negb_false_iff in H. now rewrite H.
Qed.

(* the whole path: a recorded DISCONNECT (not "with will") on a connected socket, then the socket goes away -
   in whatever state the poll loops have left the broker - and nothing of the will is seen: the only output is
   the close of the socket, no pending will is armed *)
Theorem normal_disconnect_then_close_no_will c k code props s s1 o1 s1' :
  nget c (b_conns s) = Some k -> k_phase k = PhConnected ->
  disc_recorded k props s = true -> (k_v k =? 5) && (code =? 4) = false ->
  step_event s (ESend c (KDisconnect code props)) = (s1, o1) ->
  dframe s1 s1' ->
  o1 = [] /\ snd (conn_gone c s1') = [OClose c] /\ b_wills (fst (conn_gone c s1')) = b_wills s.
Proof.
  intros Hk Hph Hrec Hcode Hstep F.
  destruct (disconnect_sets_clean_will c k code props s Hrec)
    as (s' & k' & E & Hk' & Hcw & _ & Hcid & Hph' & _ & _ & Hw & _).
  cbn [step_event] in Hstep. rewrite Hk, Hph, E in Hstep.
  unfold fail_conn in Hstep. rewrite Hk', Hph', Hph in Hstep. cbn [orb] in Hstep.
  injection Hstep as <- <-. split; [reflexivity|].
  rewrite Hcode in Hcw. cbn [negb] in Hcw.
  set (kz := set_phase PhZombie k') in *.
  assert (Hkz : nget c (b_conns (upd_conn c kz s')) = Some kz) by (rewrite b_conns_upd_conn; apply nget_nset_same).
  destruct (df_conn _ _ F c kz Hkz) as (k2 & Hk2 & Hs2).
  assert (Hp2 : k_phase k2 = PhZombie) by (rewrite (ks_phase _ _ Hs2); reflexivity).
  assert (Hc2 : k_clean_will k2 = true) by (rewrite (ks_clean_will _ _ Hs2); exact Hcw).
  assert (Hw1 : b_wills s1' = b_wills s) by (rewrite (df_wills _ _ F); exact Hw).
  unfold conn_gone. rewrite Hk2, Hp2.
  set (s0 := match aget (k_cid k2) (b_queues s1') with Some q => _ | None => s1' end).
  assert (Hw0 : b_wills s0 = b_wills s1') by (unfold s0; destruct (aget (k_cid k2) (b_queues s1')); reflexivity).
  set (kc := set_phase PhClosed k2). set (sx := upd_conn c kc s0).
  assert (Hcc : k_clean_will kc = true) by exact Hc2.
  destruct (aget (k_cid kc) (b_sessions sx)) as [se|] eqn:Hse.
  - destruct (will_suppressed_by_disconnect c kc sx se Hse Hcc) as (_ & Ho & Hwl).
    destruct (unregister c kc sx) as [sy oy]. cbn [fst snd] in *. subst oy.
    split; [reflexivity|]. rewrite Hwl. unfold sx. proj. congruence.
  - rewrite unregister_stages. cbv zeta. rewrite Hse. cbn [fst snd app].
    split; [reflexivity|]. unfold sx. proj. congruence.
Qed.

(* The will is armed (no suppressing DISCONNECT): it is sent at once when the effective delay
   min(will delay, session expiry) is 0 or the session is not kept ... *)
Theorem will_immediate c k s se w :
  aget (k_cid k) (b_sessions s) = Some se -> se_will se = Some w -> k_clean_will k = false ->
  ur_delay k se s = 0 \/ ur_store k se s = false ->
  unregister c k s =
    (let '(s1, o1) := send_will (k_cid k) w s in
     ur_finish (k_cid k) se (ur_expiry k se s) (ur_store k se s) s1 o1) /\
  b_wills (fst (unregister c k s)) = b_wills s.
Proof.
  intros Hse Hw Hcw Hnow. rewrite unregister_stages. cbv zeta. rewrite Hse, Hw, Hcw.
  assert (E : negb (ur_delay k se s =? 0) && ur_store k se s = false).
  { destruct Hnow as [->| ->]; [reflexivity|apply andb_false_r]. }
  rewrite E. split; [reflexivity|].
  pose proof (send_will_frame (k_cid k) w s) as [F _].
  destruct (send_will (k_cid k) w s) as [s1 o1]. cbn [fst] in F.
  destruct (ur_finish_wills (k_cid k) se (ur_expiry k se s) (ur_store k se s) s1 o1) as [A _].
  rewrite A. apply (wf_wills _ _ F).
Qed.

(* ... otherwise nothing is sent and the will waits in b_wills until real time b_rt + delay *)
Theorem will_pending c k s se w :
  aget (k_cid k) (b_sessions s) = Some se -> se_will se = Some w -> k_clean_will k = false ->
  ur_delay k se s <> 0 -> ur_store k se s = true ->
  unregister c k s =
    ur_finish (k_cid k) se (ur_expiry k se s) true (ur_arm (k_cid k) w (b_rt s + ur_delay k se s * 1000) s) [] /\
  snd (unregister c k s) = [] /\
  b_wills (fst (unregister c k s)) = aset (k_cid k) (w, b_rt s + ur_delay k se s * 1000) (b_wills s).
Proof.
  intros Hse Hw Hcw Hd Hst. rewrite unregister_stages. cbv zeta. rewrite Hse, Hw, Hcw, Hst.
  apply N.eqb_neq in Hd. rewrite Hd. cbn [negb andb].
  split; [reflexivity|]. split; reflexivity.
Qed.

(* an accepted CONNECT for a client id that is not online: no take-over; the stages are those of hc_accept on hc_auto cn s *)
Lemma connect_offline_eq c cn s :
  connect_accepted cn s = true -> aget (hc_cid cn s) (b_online s) = None ->
  handle_connect c cn s =
  (let cf := b_cfg s in
   let cid := hc_cid cn s in
   let '(s2, o_will, resume) := hc_old cid cn (cn_ver cn =? 5) (BrokerInvP.hc_cmax cn) (hc_auto cn s) in
   let s3 := BrokerInvP.hc_fresh cid (cn_ver cn =? 5) (BrokerInvP.hc_cmax cn) cf resume s2 in
   let '(wdelay, expiry) := BrokerInvP.hc_wd_exp cn cf in
   let s4 := BrokerInvP.hc_register c cid (BrokerInvP.hc_session cn wdelay expiry (b_now s3)) (BrokerInvP.hc_conn cid cn cf) s3 in
   let '(s5, o_w) := BrokerInvP.hc_wills o_will s4 in
   (s5, [OSend c (KConnack resume 0 (BrokerInvP.hc_props cid cn cf))] ++ o_w)).
Proof.
  intros Hacc Hon. rewrite (accepted_connect_eq c cn s Hacc). unfold BrokerInvP.hc_accept, BrokerInvP.hc_takeover.
  change (BrokerInvP.hc_auto cn s) with (hc_auto cn s). change (BrokerInvP.hc_cid cn s) with (hc_cid cn s).
  rewrite (hc_auto_proj (fun s0 => aget (hc_cid cn s) (b_online s0))) by reflexivity. rewrite Hon. reflexivity.
Qed.

(* the session is detached (its connection is gone, the will waits): a CONNECT that resumes the session removes
   the pending entry and publishes nothing *)
Theorem pending_will_cancelled_by_resume c cn s se q u :
  connect_accepted cn s = true ->
  let cid := hc_cid cn s in
  aget cid (b_online s) = None ->
  aget cid (b_sessions s) = Some se -> hc_resume0 cid cn s = true ->
  aget cid (b_queues s) = Some q -> aget cid (b_unacks s) = Some u ->
  exists props s', handle_connect c cn s = (s', [OSend c (KConnack true 0 props)]) /\
                   b_wills s' = adel cid (b_wills s).
Proof.
  intros Hacc cid Hon Hse Hres Hq Hu. rewrite (connect_offline_eq c cn s Hacc Hon). cbv zeta. fold cid.
  unfold hc_old.
  rewrite (hc_auto_proj (fun s0 => aget cid (b_sessions s0))) by reflexivity. rewrite Hse.
  rewrite (hc_auto_proj (fun s0 => hc_resume0 cid cn s0)) by reflexivity. rewrite Hres.
  rewrite (hc_auto_proj (fun s0 => aget cid (b_queues s0))) by reflexivity. rewrite Hq.
  rewrite (hc_auto_proj (fun s0 => aget cid (b_unacks s0))) by reflexivity. rewrite Hu.
  destruct (BrokerInvP.hc_wd_exp cn (b_cfg s)) as [wdelay expiry]. cbn [BrokerInvP.hc_wills fold_left app].
  eexists _, _. split; [reflexivity|].
  exact (hc_auto_proj (fun s0 => adel cid (b_wills s0)) cn s (fun _ _ => eq_refl)).
Qed.

(* ... one that does not resume it (clean start, or the session has expired) sends the pending will exactly once,
   after the old session - and its subscriptions - are gone, and removes the entry *)
Theorem pending_will_sent_when_session_discarded c cn s se w t :
  connect_accepted cn s = true ->
  let cid := hc_cid cn s in
  aget cid (b_online s) = None ->
  aget cid (b_sessions s) = Some se -> hc_resume0 cid cn s = false ->
  aget cid (b_wills s) = Some (w, t) ->
  exists props s4,
    handle_connect c cn s = (let '(s5, o5) := send_will cid w s4 in (s5, [OSend c (KConnack false 0 props)] ++ o5)) /\
    b_wills s4 = adel cid (b_wills s) /\ b_subs s4 = db_unsubscribe_all cid (b_subs s) /\ b_ret s4 = b_ret s /\
    b_hooks s4 = b_hooks s /\
    b_wills (fst (handle_connect c cn s)) = adel cid (b_wills s).
Proof.
  intros Hacc cid Hon Hse Hres Hw. rewrite (connect_offline_eq c cn s Hacc Hon). cbv zeta. fold cid.
  unfold hc_old.
  rewrite (hc_auto_proj (fun s0 => aget cid (b_sessions s0))) by reflexivity. rewrite Hse.
  rewrite (hc_auto_proj (fun s0 => hc_resume0 cid cn s0)) by reflexivity. rewrite Hres.
  cbv zeta.
  replace (aget cid (b_wills (remove_session cid (hc_auto cn s)))) with (Some (w, t))
    by (symmetry; rewrite <- Hw; exact (hc_auto_proj (fun s0 => aget cid (b_wills s0)) cn s (fun _ _ => eq_refl))).
  destruct (BrokerInvP.hc_wd_exp cn (b_cfg s)) as [wdelay expiry].
  change (BrokerInvP.hc_wills [(cid, w)] ?s4) with (let '(s', o') := send_will cid w s4 in (s', [] ++ o')).
  match goal with |- context [send_will cid w ?X] => set (s4 := X) end.
  assert (W4 : b_wills s4 = adel cid (b_wills s))
    by exact (hc_auto_proj (fun s0 => adel cid (b_wills s0)) cn s (fun _ _ => eq_refl)).
  exists (BrokerInvP.hc_props cid cn (b_cfg s)), s4. split; [destruct (send_will cid w s4); reflexivity|].
  split; [exact W4|].
  split; [exact (hc_auto_proj (fun s0 => db_unsubscribe_all cid (b_subs s0)) cn s (fun _ _ => eq_refl))|].
  split; [exact (hc_auto_proj b_ret cn s (fun _ _ => eq_refl))|].
  split; [exact (hc_auto_proj b_hooks cn s (fun _ _ => eq_refl))|].
  pose proof (send_will_frame cid w s4) as [F _]. destruct (send_will cid w s4) as [s5 o5]. cbn [fst] in *.
  rewrite (wf_wills _ _ F). exact W4.
Qed.

Definition del_will (cid : str) (s : st) : st :=
  set_tables (b_sessions s) (b_online s) (b_offline s) (adel cid (b_wills s)) (b_queues s) (b_unacks s) s.

Definition due (rt : N) (e : str * (msg * N)) : bool := snd (snd e) <=? rt.

(* what fire_wills should do: for every due entry, in table order: take it out and send it - exactly once each *)
Definition fire_seq (l : list (str * (msg * N))) (s : st) (o : list out) : st * list out :=
  fold_left (fun acc e => let '(s0, o0) := acc in
                          let '(s2, o2) := send_will (fst e) (fst (snd e)) (del_will (fst e) s0) in (s2, o0 ++ o2))
            l (s, o).

Definition fire_step (acc : st * list out) (w : str * (msg * N)) : st * list out :=
  let '(s0, o0) := acc in
  let '(cid, (m, at_)) := w in
  if at_ <=? b_rt s0 then
    match aget cid (b_wills s0) with
    | Some _ =>
        let s1 := set_tables (b_sessions s0) (b_online s0) (b_offline s0) (adel cid (b_wills s0)) (b_queues s0) (b_unacks s0) s0 in
        let '(s2, o2) := send_will cid m s1 in (s2, o0 ++ o2)
    | None => (s0, o0)
    end
  else (s0, o0).

Lemma fire_wills_fold s : fire_wills s = fold_left fire_step (b_wills s) (s, []).
Proof. reflexivity. Qed.

Definition adel_all {V} (ks : list str) (w : list (str * V)) : list (str * V) := fold_left (fun w k => adel k w) ks w.

Lemma adel_all_cons_other {V} ks : forall (h : str * V) r, ~ In (fst h) ks -> adel_all ks (h :: r) = h :: adel_all ks r.
Proof.
  induction ks as [|k ks IH]; intros h r Hn; [reflexivity|].
  cbn [adel_all fold_left]. destruct h as [k0 v0]. cbn [adel].
  destruct (str_eqb_spec k k0) as [->|Hne]; [exfalso; apply Hn; now left|].
  apply IH. intros Hin. apply Hn. now right.
Qed.

Lemma adel_all_filter {V} (P : str * V -> bool) (w : list (str * V)) :
  NoDup (map fst w) -> adel_all (map fst (filter P w)) w = filter (fun e => negb (P e)) w.
Proof.
  induction w as [|[k v] r IH]; intros Hnd; [reflexivity|].
  inversion Hnd as [|x xs Hx Hnd']; subst. cbn [filter].
  destruct (P (k, v)) eqn:Ep; cbn [negb map fst].
  - cbn [adel_all fold_left adel]. rewrite str_eqb_refl. apply IH. exact Hnd'.
  - rewrite adel_all_cons_other.
    + f_equal. apply IH. exact Hnd'.
    + cbn [fst]. intros Hin. apply Hx. apply in_map_iff in Hin as [e [He Hin]]. apply filter_In in Hin as [Hin _].
      apply in_map_iff. exists e. now split.
Qed.

Lemma fire_step_due s0 o0 cid m at_ :
  fire_step (s0, o0) (cid, (m, at_)) =
  if at_ <=? b_rt s0 then
    match aget cid (b_wills s0) with
    | Some _ => let '(s2, o2) := send_will cid m (del_will cid s0) in (s2, o0 ++ o2)
    | None => (s0, o0)
    end
  else (s0, o0).
Proof. reflexivity. Qed.

Lemma fire_fold_spec : forall (l : list (str * (msg * N))) s0 o0,
  NoDup (map fst l) ->
  (forall e, In e l -> aget (fst e) (b_wills s0) <> None) ->
  fold_left fire_step l (s0, o0) = fire_seq (filter (due (b_rt s0)) l) s0 o0 /\
  b_wills (fst (fold_left fire_step l (s0, o0))) = adel_all (map fst (filter (due (b_rt s0)) l)) (b_wills s0) /\
  b_rt (fst (fold_left fire_step l (s0, o0))) = b_rt s0.
Proof.
  induction l as [|[cid [m at_]] r IH]; intros s0 o0 Hnd Hpres.
  - cbn. repeat split.
  - inversion Hnd as [|x xs Hx Hnd']; subst.
    cbn [fold_left filter]. rewrite fire_step_due.
    replace (due (b_rt s0) (cid, (m, at_))) with (at_ <=? b_rt s0) by reflexivity.
    destruct (at_ <=? b_rt s0) eqn:Ed.
    + assert (Hp : aget cid (b_wills s0) <> None) by (apply (Hpres (cid, (m, at_))); now left).
      destruct (aget cid (b_wills s0)) as [x|] eqn:Ea; [|congruence].
      pose proof (send_will_frame cid m (del_will cid s0)) as [F _].
      destruct (send_will cid m (del_will cid s0)) as [s2 o2] eqn:Es. cbn [fst] in F.
      assert (Hw2 : b_wills s2 = adel cid (b_wills s0)) by (rewrite (wf_wills _ _ F); reflexivity).
      assert (Hrt : b_rt s2 = b_rt s0) by (rewrite (wf_rt _ _ F); reflexivity).
      destruct (IH s2 (o0 ++ o2) Hnd') as (I1 & I2 & I3).
      { intros e He. rewrite Hw2. rewrite aget_adel_other.
        - apply Hpres. now right.
        - intros Heq. apply Hx. rewrite <- Heq. apply in_map. exact He. }
      rewrite Hrt in I1, I2, I3.
      split; [|split; [rewrite I2, Hw2; reflexivity|exact I3]].
      rewrite I1. unfold fire_seq. cbn [fold_left fst snd]. rewrite Es. reflexivity.
    + apply IH; [exact Hnd'|]. intros e He. apply Hpres. now right.
Qed.

(* The timer: every entry whose time has come is taken out of the table and sent, exactly once each;
   the entries not yet due stay as they are *)
Theorem pending_will_fires_once s :
  NoDup (map fst (b_wills s)) ->
  fire_wills s = fire_seq (filter (due (b_rt s)) (b_wills s)) s [] /\
  b_wills (fst (fire_wills s)) = filter (fun e => negb (due (b_rt s) e)) (b_wills s).
Proof.
  intros Hnd. rewrite fire_wills_fold.
  destruct (fire_fold_spec (b_wills s) s [] Hnd) as (A & B & _).
  - intros [cid [m t]] He. cbn [fst]. rewrite (In_aget cid (m, t) (b_wills s) Hnd He). discriminate.
  - split; [exact A|]. rewrite B. now apply adel_all_filter.
Qed.

(* nothing is due: nothing happens *)
Corollary no_will_before_its_time s :
  NoDup (map fst (b_wills s)) -> forallb (fun e => negb (due (b_rt s) e)) (b_wills s) = true ->
  fire_wills s = (s, []).
Proof.
  intros Hnd Hall. destruct (pending_will_fires_once s Hnd) as [A _]. rewrite A.
  assert (E : filter (due (b_rt s)) (b_wills s) = []).
  { apply filter_none. intros e He. rewrite forallb_forall in Hall. apply negb_true_iff, Hall, He. }
  rewrite E. reflexivity.
Qed.

(* The session ends (expiry / administrative termination) *)
Theorem release_will_spec cid s :
  release_will cid s =
    match aget cid (b_wills s) with
    | Some (w, _) => send_will cid w (del_will cid s)
    | None => (s, [])
    end /\
  b_wills (fst (release_will cid s)) = adel cid (b_wills s).
Proof.
  split; [reflexivity|]. unfold release_will.
  destruct (aget cid (b_wills s)) as [[w t]|] eqn:E.
  - pose proof (send_will_frame cid w (del_will cid s)) as [F _]. fold (del_will cid s).
    destruct (send_will cid w (del_will cid s)) as [s2 o2]. cbn [fst] in *. rewrite (wf_wills _ _ F). reflexivity.
  - cbn [fst]. symmetry. now apply adel_absent.
Qed.

Lemma hc_wills_wframe l s : wframe s (fst (BrokerInvP.hc_wills l s)).
Proof.
  apply (fold_inv (wframe s)); [|apply wframe_refl].
  intros s0 o0 cw F0. destruct (send_will_frame (fst cw) (snd cw) s0) as [F _].
  destruct (send_will (fst cw) (snd cw) s0) as [s' o']. exact (wframe_trans _ _ _ F0 F).
Qed.

(* the will registered at CONNECT is will_msg of the CONNECT packet's will *)
Theorem connect_registers_will c cn s s' o :
  connect_accepted cn s = true -> handle_connect c cn s = (s', o) ->
  exists se, aget (hc_cid cn s) (b_sessions s') = Some se /\
             se_will se = match cn_will cn with Some w => Some (will_msg w) | None => None end /\
             (cn_ver cn = 5 -> se_will_delay se = match cn_will cn with Some w => opt_or (p_willdelay (w_props w)) 0 | None => 0 end) /\
             (cn_ver cn <> 5 -> se_will_delay se = 0).
Proof.
  intros Hacc Hc. rewrite (accepted_connect_eq c cn s Hacc), BrokerInvP.hc_accept_eq in Hc. injection Hc as <- _.
  rewrite (wf_sessions _ _ (hc_wills_wframe _ _)). unfold BrokerInvP.hc_reg, BrokerInvP.hc_register.
  rewrite b_sessions_set_tables. change (BrokerInvP.hc_cid cn s) with (hc_cid cn s). rewrite aget_aset_same.
  eexists. split; [reflexivity|]. cbn [BrokerInvP.hc_session se_will se_will_delay]. split; [reflexivity|].
  unfold BrokerInvP.hc_wd_exp. split; intros Hv.
  - rewrite Hv. reflexivity.
  - apply N.eqb_neq in Hv. rewrite Hv. cbn [negb andb]. destruct (negb (cn_clean cn)); reflexivity.
Qed.

(* the fields of the registered will are those of the CONNECT packet *)
Theorem will_msg_fields w :
  m_topic (will_msg w) = w_topic w /\ m_payload (will_msg w) = w_payload w /\ m_qos (will_msg w) = w_qos w /\
  m_retained (will_msg w) = w_retain w /\
  m_ctype (will_msg w) = opt_or (p_ctype (w_props w)) [] /\ m_corr (will_msg w) = opt_or (p_corr (w_props w)) [] /\
  m_expiry (will_msg w) = opt_or (p_msgexpiry (w_props w)) 0 /\ m_pfmt (will_msg w) = opt_or (p_pfmt (w_props w)) 0 /\
  m_resp (will_msg w) = opt_or (p_resp (w_props w)) [] /\ m_uprops (will_msg w) = p_users (w_props w) /\
  m_dup (will_msg w) = false /\ m_subids (will_msg w) = [].
Proof. repeat split. Qed.

(* send_will delivers - to the subscribers matching at that moment - the registered will, or the
   hook's rewrite of its topic / payload / QoS / RETAIN flag; a retained will updates the retained store by retain_update, the
   function the publish handler applies for a retained PUBLISH (pub_fwd, Proofs/BrokerQos2P.v) *)
Theorem will_message_fields cid m s :
  match will_effective cid m s with
  | Some m' =>
      send_will cid m s = (let '(s', o, _) := deliver cid m' (retain_update m' s) in (s', o)) /\
      b_ret (fst (send_will cid m s)) = b_ret (retain_update m' s) /\
      (m' = m \/ exists t p q, m' = with_topic_payload_qos t p q m) /\
      m_retained m' = (match will_action cid s with MRewrite _ _ q => rw_retain q (m_retained m) | _ => m_retained m end) /\
      m_ctype m' = m_ctype m /\ m_corr m' = m_corr m /\ m_expiry m' = m_expiry m /\
      m_pfmt m' = m_pfmt m /\ m_resp m' = m_resp m /\ m_uprops m' = m_uprops m
  | None => send_will cid m s = (s, [])
  end.
Proof.
  rewrite send_will_eq. unfold will_effective.
  assert (R : forall m', b_ret (fst (let '(s', o, _) := deliver cid m' (retain_update m' s) in (s', o))) = b_ret (retain_update m' s)).
  { intros m'. destruct (deliver_frame cid m' (retain_update m' s)) as [F _].
    destruct (deliver cid m' (retain_update m' s)) as [[s' o] mt]. apply (df_ret _ _ F). }
  destruct (will_action cid s) as [|cd| |t p q]; try reflexivity; (split; [reflexivity|]; split; [apply R|]).
  - split; [now left|repeat split].
  - split; [right; exists t, p, q; reflexivity|repeat split].
Qed.

(* without an OnWillPublish hook the will is delivered as registered *)
Corollary will_delivered_as_registered cid m s :
  h_will_on (b_hooks s) = false ->
  send_will cid m s = (let '(s', o, _) := deliver cid m (retain_update m s) in (s', o)).
Proof. intros H. unfold send_will, will_action. rewrite H. reflexivity. Qed.

Lemma retain_update_ret m s :
  b_ret (retain_update m s) = if m_retained m then rdb_step (b_ret s) (retain_op m) else b_ret s.
Proof. unfold retain_update. destruct (m_retained m); reflexivity. Qed.

Definition attachedb (k : conn) : bool :=
  match k_phase k with PhConnected | PhZombie => true | _ => false end.

(* the client id a socket is attached to (its connection has not been unregistered yet) *)
Definition att (s : st) (c : N) : option str :=
  match nget c (b_conns s) with
  | Some k => if attachedb k then Some (k_cid k) else None
  | None => None
  end.

Definition swill (s : st) (cid : str) : option (option msg) := option_map se_will (aget cid (b_sessions s)).

(* w is ARMED on socket c: c is attached to a session whose will is w *)
Definition armed (w : msg) (s : st) (c : N) : Prop := exists cid, att s c = Some cid /\ swill s cid = Some (Some w).
(* w is PENDING for cid: it waits in b_wills for its delay *)
Definition pend (w : msg) (s : st) (cid : str) : Prop := exists t, aget cid (b_wills s) = Some (w, t).

Definition NoH (w : msg) (s : st) : Prop := (forall c, ~ armed w s c) /\ (forall cid, ~ pend w s cid).
Definition AMO (w : msg) (s : st) : Prop :=
  (forall c1 c2, armed w s c1 -> armed w s c2 -> c1 = c2) /\
  (forall a b, pend w s a -> pend w s b -> a = b) /\
  (forall c cid, armed w s c -> pend w s cid -> False).

(* "n + number of places where w lives <= 1" *)
Definition le1 (w : msg) (s : st) (n : nat) : Prop := (n = 0%nat /\ AMO w s) \/ (n = 1%nat /\ NoH w s).

Lemma NoH_AMO w s : NoH w s -> AMO w s.
Proof.
  intros [A B]. split; [|split].
  - intros c1 c2 H. now apply A in H.
  - intros a b H. now apply B in H.
  - intros c cid H. now apply A in H.
Qed.

Lemma le1_bound w s n : le1 w s n -> (n <= 1)%nat.
Proof. intros [[-> _]|[-> _]]; lia. Qed.

Lemma le1_NoH w s : NoH w s -> le1 w s 1. Proof. intros H. right. now split. Qed.
Lemma le1_1 w s : le1 w s 1 -> NoH w s. Proof. intros [[E _]|[_ H]]; [discriminate|exact H]. Qed.
Lemma le1_S w s n : le1 w s (S n) -> n = 0%nat /\ NoH w s.
Proof. intros [[E _]|[E H]]; [discriminate|]. split; [lia|exact H]. Qed.

(* the places where a will can live: armed on a socket, or pending for a client *)
Definition holds (w : msg) (s : st) (p : N + str) : Prop :=
  match p with inl c => armed w s c | inr cid => pend w s cid end.

Lemma NoH_holds w s : NoH w s <-> forall p, ~ holds w s p.
Proof.
  split; [intros [A B] [c|cid]; [apply A|apply B]|].
  intros H. split; [intros c; apply (H (inl c))|intros cid; apply (H (inr cid))].
Qed.

Lemma AMO_holds w s : AMO w s <-> forall p q, holds w s p -> holds w s q -> p = q.
Proof.
  split.
  - intros (A1 & A2 & A3) [c1|a] [c2|b] H1 H2; cbn [holds] in *;
      [f_equal; eauto|destruct (A3 _ _ H1 H2)|destruct (A3 _ _ H2 H1)|f_equal; eauto].
  - intros H. split; [|split].
    + intros c1 c2 H1 H2. specialize (H (inl c1) (inl c2) H1 H2). congruence.
    + intros a b H1 H2. specialize (H (inr a) (inr b) H1 H2). congruence.
    + intros c cid H1 H2. specialize (H (inl c) (inr cid) H1 H2). discriminate.
Qed.

(* the places where w lives can only disappear *)
Lemma le1_mono w s s' n : (forall p, holds w s' p -> holds w s p) -> le1 w s n -> le1 w s' n.
Proof.
  intros Hp [[-> A]|[-> Hn]]; [left|right]; (split; [reflexivity|]).
  - apply AMO_holds. intros p q H1 H2. apply (proj1 (AMO_holds w s) A); auto.
  - apply NoH_holds. intros p H. apply (proj1 (NoH_holds w s) Hn p). auto.
Qed.

(* the place p0 is emptied: w was handed to send_will *)
Lemma le1_consume w s s' n p0 :
  holds w s p0 -> (forall p, holds w s' p -> holds w s p /\ p <> p0) -> le1 w s n -> le1 w s' (n + 1).
Proof.
  intros H0 Hp [[-> A]|[-> Hn]]; [|destruct (proj1 (NoH_holds w s) Hn p0 H0)].
  right. split; [reflexivity|]. apply NoH_holds. intros p H. destruct (Hp p H) as [H1 Hne].
  apply Hne. apply (proj1 (AMO_holds w s) A); assumption.
Qed.

(* w moves from p0 to q0 *)
Lemma le1_move w s s' n p0 q0 :
  holds w s p0 -> (forall p, holds w s' p -> p = q0 \/ (holds w s p /\ p <> p0)) -> le1 w s n -> le1 w s' n.
Proof.
  intros H0 Hp [[-> A]|[-> Hn]]; [|destruct (proj1 (NoH_holds w s) Hn p0 H0)].
  left. split; [reflexivity|]. apply AMO_holds.
  assert (G : forall p, holds w s' p -> p = q0).
  { intros p H. destruct (Hp p H) as [E|[H1 Hne]]; [exact E|]. destruct Hne. apply (proj1 (AMO_holds w s) A); assumption. }
  intros p q H1 H2. now rewrite (G p H1), (G q H2).
Qed.

(* w is registered at q0 *)
Lemma le1_create w s s' n q0 :
  (forall p, holds w s' p -> p = q0 \/ holds w s p) -> le1 w s (n + 1) -> le1 w s' n.
Proof.
  intros Hp H. rewrite Nat.add_1_r in H. apply le1_S in H as [-> Hn]. left. split; [reflexivity|]. apply AMO_holds.
  assert (G : forall p, holds w s' p -> p = q0).
  { intros p H. destruct (Hp p H) as [E|H1]; [exact E|]. destruct (proj1 (NoH_holds w s) Hn p H1). }
  intros p q H1 H2. now rewrite (G p H1), (G q H2).
Qed.

(* the invariants that make "at most once" true *)
Record winv (s : st) : Prop := {
  wi_online : forall c cid, att s c = Some cid -> aget cid (b_online s) = Some c;
  wi_offline : forall c cid, att s c = Some cid -> aget cid (b_offline s) = None;
  wi_nd_off : NoDup (map fst (b_offline s));
  wi_nd_wills : NoDup (map fst (b_wills s));
  wi_nd_sess : NoDup (map fst (b_sessions s)) }.

(* a step that moves no will: nobody is attached or detached, the pending wills and the wills of the stored
   sessions stay *)
Definition sess_wills (s : st) := map (fun e => (fst e, se_will (snd e))) (b_sessions s).

Definition gframe (s s' : st) : Prop :=
  (forall c, att s' c = att s c) /\ b_online s' = b_online s /\ b_offline s' = b_offline s /\
  b_wills s' = b_wills s /\ sess_wills s' = sess_wills s.

Lemma gframe_refl s : gframe s s. Proof. repeat split. Qed.
Lemma gframe_trans s1 s2 s3 : gframe s1 s2 -> gframe s2 s3 -> gframe s1 s3.
Proof.
  intros (A1 & B1 & C1 & D1 & E1) (A2 & B2 & C2 & D2 & E2).
  split; [intros c; now rewrite A2, A1|]. repeat split; congruence.
Qed.

Lemma aget_map_will (l : list (str * session)) cid :
  aget cid (map (fun e => (fst e, se_will (snd e))) l) = option_map se_will (aget cid l).
Proof.
  induction l as [|[k0 v0] r IH]; cbn [map aget fst snd]; [reflexivity|].
  destruct (str_eqb cid k0); [reflexivity|exact IH].
Qed.

Lemma sess_wills_swill s s' : sess_wills s' = sess_wills s -> forall cid, swill s' cid = swill s cid.
Proof. intros E cid. unfold swill. rewrite <- !aget_map_will. fold (sess_wills s') (sess_wills s). now rewrite E. Qed.

Lemma sess_wills_keys s s' : sess_wills s' = sess_wills s -> map fst (b_sessions s') = map fst (b_sessions s).
Proof.
  intros E. apply (f_equal (map fst)) in E. unfold sess_wills in E. rewrite !map_map in E. exact E.
Qed.

Lemma gframe_swill s s' : gframe s s' -> forall cid, swill s' cid = swill s cid.
Proof. intros (_ & _ & _ & _ & E). now apply sess_wills_swill. Qed.

Lemma gframe_sess_keys s s' : gframe s s' -> map fst (b_sessions s') = map fst (b_sessions s).
Proof. intros (_ & _ & _ & _ & E). now apply sess_wills_keys. Qed.

Lemma gframe_winv s s' : gframe s s' -> winv s -> winv s'.
Proof.
  intros G [I1 I2 I3 I4 I5]. pose proof G as (A & B & C & D & E).
  constructor.
  - intros c cid H. rewrite A in H. rewrite B. now apply I1.
  - intros c cid H. rewrite A in H. rewrite C. now eapply I2; eauto.
  - now rewrite C.
  - now rewrite D.
  - now rewrite (gframe_sess_keys _ _ G).
Qed.

Lemma gframe_le1 w s s' n : gframe s s' -> le1 w s n -> le1 w s' n.
Proof.
  intros G. pose proof G as (A & _ & _ & D & _). apply le1_mono. intros [c|cid].
  - intros (x & H1 & H2). exists x. rewrite A in H1. rewrite (gframe_swill _ _ G) in H2. now split.
  - unfold holds, pend. now rewrite D.
Qed.

Lemma att_cstat s s' : (forall c, cstat s' c = cstat s c) -> forall c, att s' c = att s c.
Proof.
  intros H c. specialize (H c). unfold cstat, att in *.
  destruct (nget c (b_conns s')) as [k'|], (nget c (b_conns s)) as [k|]; cbn [option_map] in H; try discriminate; [|reflexivity].
  assert (H' : kstat k' = kstat k) by congruence. unfold attachedb. rewrite (ks_phase _ _ H'), (ks_cid _ _ H'). reflexivity.
Qed.

(* send_will, like deliver, does not even touch the stored sessions *)
Lemma wframe_obs s s' : wframe s s' ->
  (forall c, att s' c = att s c) /\ b_online s' = b_online s /\ b_offline s' = b_offline s /\ b_wills s' = b_wills s /\
  b_sessions s' = b_sessions s.
Proof.
  intros F. split; [apply att_cstat; intros c; apply (wf_cstat _ _ F)|].
  rewrite (wf_online _ _ F), (wf_offline _ _ F), (wf_wills _ _ F), (wf_sessions _ _ F). repeat split.
Qed.

Lemma wframe_gframe s s' : wframe s s' -> gframe s s'.
Proof. intros F. destruct (wframe_obs _ _ F) as (A & B & C & D & E). unfold gframe, sess_wills. now rewrite E. Qed.

Lemma dframe_gframe s s' : dframe s s' -> gframe s s'.
Proof. intros F. apply wframe_gframe. now apply dframe_wframe. Qed.

(* a setter that touches none of the will tables and no connection *)
Lemma gframe_same s s' :
  b_conns s' = b_conns s -> b_online s' = b_online s -> b_offline s' = b_offline s -> b_wills s' = b_wills s ->
  b_sessions s' = b_sessions s -> gframe s s'.
Proof. intros A B C D E. split; [intros c; unfold att; now rewrite A|]. unfold sess_wills. rewrite B, C, D, E. repeat split. Qed.

Lemma att_upd_conn c' c k s :
  att (upd_conn c k s) c' = if c' =? c then (if attachedb k then Some (k_cid k) else None) else att s c'.
Proof. unfold att. rewrite b_conns_upd_conn, nget_nset. destruct (c' =? c); reflexivity. Qed.

(* updating a connection record without changing whether - and to whom - it is attached *)
Lemma gframe_upd_conn c k s :
  att s c = (if attachedb k then Some (k_cid k) else None) -> gframe s (upd_conn c k s).
Proof.
  intros H. split; [|repeat split].
  intros c'. rewrite att_upd_conn. destruct (c' =? c) eqn:E; [|reflexivity]. apply N.eqb_eq in E. subst c'. now rewrite H.
Qed.

Lemma gframe_upd_self c k k' s :
  nget c (b_conns s) = Some k -> attachedb k' = attachedb k -> k_cid k' = k_cid k -> gframe s (upd_conn c k' s).
Proof. intros Hk Ha Hc. apply gframe_upd_conn. unfold att. rewrite Hk, Ha, Hc. reflexivity. Qed.

Lemma gframe_quota_back c s : gframe s (quota_back c s).
Proof.
  unfold quota_back. destruct (nget c (b_conns s)) as [k1|] eqn:E; [|apply gframe_refl].
  destruct (k_quota k1 <? k_recv_max k1); [|apply gframe_refl]. eapply gframe_upd_self; [exact E| |]; reflexivity.
Qed.

Definition msg_dec (a b : msg) : {a = b} + {a <> b}.
Proof.
  decide equality; try apply N.eq_dec; try apply bool_dec;
    try (apply list_eq_dec; apply N.eq_dec).
  apply list_eq_dec. intros [x1 x2] [y1 y2]. decide equality; apply list_eq_dec; apply N.eq_dec.
Defined.

Definition wlog := list (str * msg).

(* how often send_will was applied to the will w *)
Definition cnt (w : msg) (l : wlog) : nat := length (filter (fun e => if msg_dec (snd e) w then true else false) l).

Lemma cnt_app w a b : cnt w (a ++ b) = (cnt w a + cnt w b)%nat.
Proof. unfold cnt. now rewrite filter_app, app_length. Qed.
Lemma cnt_nil w : cnt w [] = 0%nat. Proof. reflexivity. Qed.
Lemma cnt_one_same w cid : cnt w [(cid, w)] = 1%nat.
Proof. unfold cnt. cbn [filter snd]. destruct (msg_dec w w); [reflexivity|congruence]. Qed.
Lemma cnt_one_other w w' cid : w' <> w -> cnt w [(cid, w')] = 0%nat.
Proof. intros H. unfold cnt. cbn [filter snd]. destruct (msg_dec w' w); [congruence|reflexivity]. Qed.

Lemma le1_add0 w s n : le1 w s n -> le1 w s (n + 0). Proof. now rewrite Nat.add_0_r. Qed.

(* what unregistering socket c, attached to cid, does to the tables the invariant reads - the pending wills aside:
   c is detached; cid's session is stored as detached or removed; the other sessions keep their wills *)
Record closes (c : N) (cid : str) (s s' : st) : Prop := {
  cl_att : forall c2, att s' c2 = if c2 =? c then None else att s c2;
  cl_on : b_online s' = adel cid (b_online s);
  cl_off : b_offline s' = adel cid (b_offline s) \/ exists d, b_offline s' = aset cid d (b_offline s);
  cl_sw : forall cid2, cid2 <> cid -> swill s' cid2 = swill s cid2;
  cl_nd : NoDup (map fst (b_sessions s)) -> NoDup (map fst (b_sessions s')) }.

Lemma closes_att c cid s s' :
  closes c cid s s' -> att s' c = None /\ forall c2 x, att s' c2 = Some x -> att s c2 = Some x.
Proof.
  intros C. split; [now rewrite (cl_att _ _ _ _ C), N.eqb_refl|].
  intros c2 x H. rewrite (cl_att _ _ _ _ C) in H. destruct (c2 =? c); [discriminate|exact H].
Qed.

(* the socket c, attached to cid, is unregistered: it is closed; the session is stored as detached or removed;
   the session's will is dropped (pw = sent = None), armed as pending (pw) or sent at once (sent) *)
Lemma close_transfer s s' c cid (pw : option (msg * N)) (sent : option msg) :
  winv s -> att s c = Some cid -> closes c cid s s' ->
  b_wills s' = match pw with Some e => aset cid e (b_wills s) | None => b_wills s end ->
  (forall w' t, pw = Some (w', t) -> swill s cid = Some (Some w')) ->
  (forall w', sent = Some w' -> swill s cid = Some (Some w')) ->
  (pw = None \/ sent = None) ->
  winv s' /\ forall w n, le1 w s n -> le1 w s' (n + cnt w (match sent with Some w' => [(cid, w')] | None => [] end)).
Proof.
  intros [I1 I2 I3 I4 I5] Hc [Hatt Hon Hoff Hsw Hnd] Hw Hpw Hsent Hex.
  (* no other socket is attached to cid *)
  assert (Huniq : forall c2, att s c2 = Some cid -> c2 = c).
  { intros c2 H2. pose proof (I1 _ _ H2) as E2. pose proof (I1 _ _ Hc) as E1. congruence. }
  assert (Hatt' : forall c2 cid2, att s' c2 = Some cid2 -> c2 <> c /\ att s c2 = Some cid2 /\ cid2 <> cid).
  { intros c2 cid2 H2. rewrite Hatt in H2. destruct (c2 =? c) eqn:E; [discriminate|]. apply N.eqb_neq in E.
    split; [exact E|]. split; [exact H2|]. intros ->. apply E. now apply Huniq. }
  split.
  - constructor.
    + intros c2 cid2 H2. apply Hatt' in H2 as (_ & H2 & Hne). rewrite Hon, aget_adel_other by exact Hne. now apply I1.
    + intros c2 cid2 H2. apply Hatt' in H2 as (_ & H2 & Hne).
      destruct Hoff as [->|[d ->]]; [rewrite aget_adel_other by exact Hne|rewrite aget_aset_other by exact Hne]; eapply I2; eauto.
    + destruct Hoff as [->|[d ->]]; [now apply NoDup_adel|now apply NoDup_aset].
    + rewrite Hw. destruct pw; [now apply NoDup_aset|exact I4].
    + exact (Hnd I5).
  - intros w n Hle.
    (* the places of s': those of s other than "armed on c", and the new pending entry *)
    assert (Hpl : forall p, holds w s' p -> (holds w s p /\ p <> inl c) \/ (p = inr cid /\ exists t, pw = Some (w, t))).
    { intros [c2|x] H.
      - left. destruct H as (cid2 & H2 & H3). apply Hatt' in H2 as (Hne & H2 & Hnc). split; [|congruence].
        exists cid2. split; [exact H2|]. now rewrite <- Hsw.
      - destruct H as [t Ht]. rewrite Hw in Ht. destruct pw as [[w' t']|]; [|left; split; [now exists t|discriminate]].
        rewrite aget_aset in Ht. destruct (str_eqb_spec x cid) as [->|Hne].
        + right. split; [reflexivity|]. exists t'. congruence.
        + left. split; [now exists t|discriminate]. }
    assert (Hc0 : forall w', swill s cid = Some (Some w') -> holds w' s (inl c)) by (intros w' H; exists cid; now split).
    destruct sent as [ws|].
    + (* sent at once *)
      assert (pw = None) by (destruct Hex as [H|H]; [exact H|discriminate]). subst pw.
      assert (Hpl' : forall p, holds w s' p -> holds w s p /\ p <> inl c).
      { intros p H. destruct (Hpl p H) as [H1|[_ [t E]]]; [exact H1|discriminate]. }
      destruct (msg_dec ws w) as [->|Hne].
      * rewrite cnt_one_same. apply (le1_consume w s s' n (inl c)); [now apply Hc0, Hsent|exact Hpl'|exact Hle].
      * rewrite cnt_one_other by exact Hne. apply le1_add0. eapply le1_mono; [|exact Hle]. intros p H. now apply Hpl'.
    + rewrite cnt_nil. apply le1_add0.
      destruct pw as [[w' t']|]; [destruct (msg_dec w' w) as [->|Hne]|].
      * (* the will moves from "armed on c" to "pending for cid" *)
        apply (le1_move w s s' n (inl c) (inr cid)); [apply Hc0; eapply Hpw; eauto| |exact Hle].
        intros p H. destruct (Hpl p H) as [H1|[E _]]; [now right|now left].
      * eapply le1_mono; [|exact Hle]. intros p H. destruct (Hpl p H) as [[H1 _]|[_ [t E]]]; [exact H1|congruence].
      * eapply le1_mono; [|exact Hle]. intros p H. destruct (Hpl p H) as [[H1 _]|[_ [t E]]]; [exact H1|discriminate].
Qed.

(* a pending entry is taken out of b_wills (and, when [sent], handed to send_will) *)
Lemma unpend_transfer s s' cid (sent : option (msg * N)) :
  winv s ->
  (forall c, att s' c = att s c) -> b_online s' = b_online s -> b_offline s' = b_offline s -> sess_wills s' = sess_wills s ->
  b_wills s' = adel cid (b_wills s) ->
  (forall w' t, sent = Some (w', t) -> aget cid (b_wills s) = Some (w', t)) ->
  winv s' /\ forall w n, le1 w s n -> le1 w s' (n + cnt w (match sent with Some (w', _) => [(cid, w')] | None => [] end)).
Proof.
  intros I Hatt Hon Hoff Hse Hw Hs. pose proof I as [I1 I2 I3 I4 I5].
  pose proof (sess_wills_swill _ _ Hse) as Hsw. pose proof (sess_wills_keys _ _ Hse) as Hkeys.
  split.
  - constructor.
    + intros c x H. rewrite Hatt in H. rewrite Hon. now apply I1.
    + intros c x H. rewrite Hatt in H. rewrite Hoff. eapply I2; eauto.
    + now rewrite Hoff.
    + rewrite Hw. now apply NoDup_adel.
    + now rewrite Hkeys.
  - intros w n Hle.
    assert (Hpl : forall p, holds w s' p -> holds w s p /\ p <> inr cid).
    { intros [c|x] H.
      - split; [|discriminate]. destruct H as (x & H1 & H2). exists x. rewrite Hatt in H1. rewrite Hsw in H2. now split.
      - destruct H as [tx Hx]. rewrite Hw, aget_adel in Hx by exact I4.
        destruct (str_eqb_spec x cid) as [->|Hne]; [discriminate|]. split; [now exists tx|congruence]. }
    destruct sent as [[w' t]|]; [destruct (msg_dec w' w) as [->|Hne]|].
    + rewrite cnt_one_same. apply (le1_consume w s s' n (inr cid)); [exists t; now apply Hs|exact Hpl|exact Hle].
    + rewrite cnt_one_other by exact Hne. apply le1_add0. eapply le1_mono; [|exact Hle]. intros p H. now apply Hpl.
    + rewrite cnt_nil. apply le1_add0. eapply le1_mono; [|exact Hle]. intros p H. now apply Hpl.
Qed.

(* the session of cid - to which no socket is attached - is removed *)
Lemma remove_transfer s s' cid :
  winv s -> (forall c, att s c <> Some cid) ->
  (forall c, att s' c = att s c) ->
  b_online s' = adel cid (b_online s) -> b_offline s' = adel cid (b_offline s) -> b_wills s' = b_wills s ->
  b_sessions s' = adel cid (b_sessions s) ->
  winv s' /\ forall w n, le1 w s n -> le1 w s' n.
Proof.
  intros [I1 I2 I3 I4 I5] Hno Hatt Hon Hoff Hw Hse.
  assert (Hne : forall c x, att s c = Some x -> x <> cid) by (intros c x H ->; now apply (Hno c)).
  split.
  - constructor.
    + intros c x H. rewrite Hatt in H. rewrite Hon, aget_adel_other by (eapply Hne; eauto). now apply I1.
    + intros c x H. rewrite Hatt in H. rewrite Hoff, aget_adel_other by (eapply Hne; eauto). eapply I2; eauto.
    + rewrite Hoff. now apply NoDup_adel.
    + now rewrite Hw.
    + rewrite Hse. now apply NoDup_adel.
  - intros w n. apply le1_mono. intros [c|x] H.
    + destruct H as (x & H1 & H2). rewrite Hatt in H1. exists x. split; [exact H1|].
      unfold swill in *. rewrite Hse, aget_adel_other in H2 by (eapply Hne; eauto). exact H2.
    + destruct H as [t H]. exists t. now rewrite <- Hw.
Qed.

(* CONNECT installs the session of cid on socket c (not attached before; no socket is attached to cid) *)
Lemma install_transfer s s' c cid (wn : option msg) :
  winv s -> att s c = None -> (forall c2, att s c2 <> Some cid) ->
  (forall c2, att s' c2 = if c2 =? c then Some cid else att s c2) ->
  b_online s' = aset cid c (b_online s) -> b_offline s' = adel cid (b_offline s) -> b_wills s' = b_wills s ->
  (forall x, swill s' x = if str_eqb x cid then Some wn else swill s x) ->
  NoDup (map fst (b_sessions s')) ->
  winv s' /\ forall w n, le1 w s (n + (if match wn with Some w' => if msg_dec w' w then true else false | None => false end then 1 else 0)) ->
                         le1 w s' n.
Proof.
  intros [I1 I2 I3 I4 I5] Hc Hno Hatt Hon Hoff Hw Hsw Hnd.
  assert (Hatt' : forall c2 x, att s' c2 = Some x -> (c2 = c /\ x = cid) \/ (c2 <> c /\ att s c2 = Some x /\ x <> cid)).
  { intros c2 x H. rewrite Hatt in H. destruct (c2 =? c) eqn:E.
    - apply N.eqb_eq in E. left. split; [exact E|congruence].
    - apply N.eqb_neq in E. right. split; [exact E|]. split; [exact H|]. intros ->. now apply (Hno c2). }
  split.
  - constructor.
    + intros c2 x H. apply Hatt' in H as [[-> ->]|(_ & H & Hne)].
      * rewrite Hon. apply aget_aset_same.
      * rewrite Hon, aget_aset_other by exact Hne. now apply I1.
    + intros c2 x H. apply Hatt' in H as [[-> ->]|(_ & H & Hne)].
      * rewrite Hoff, aget_adel by exact I3. now rewrite str_eqb_refl.
      * rewrite Hoff, aget_adel_other by exact Hne. eapply I2; eauto.
    + rewrite Hoff. now apply NoDup_adel.
    + now rewrite Hw.
    + exact Hnd.
  - intros w n Hle.
    (* the places of s': those of s, and "armed on c" when the CONNECT registers w *)
    assert (Hpl : forall p, holds w s' p -> (p = inl c /\ wn = Some w) \/ holds w s p).
    { intros [c2|x] H.
      - destruct H as (x & H1 & H2). apply Hatt' in H1 as [[-> ->]|(_ & H1 & Hne)].
        + left. split; [reflexivity|]. rewrite Hsw, str_eqb_refl in H2. congruence.
        + right. exists x. split; [exact H1|]. rewrite Hsw in H2. apply str_eqb_neq in Hne. now rewrite Hne in H2.
      - right. destruct H as [t H]. exists t. now rewrite <- Hw. }
    destruct wn as [w'|]; [destruct (msg_dec w' w) as [->|Hne]|].
    + apply (le1_create w s s' n (inl c)); [|exact Hle]. intros p H. destruct (Hpl p H) as [[E _]|H1]; [now left|now right].
    + rewrite Nat.add_0_r in Hle. eapply le1_mono; [|exact Hle].
      intros p H. destruct (Hpl p H) as [[_ E]|H1]; [congruence|exact H1].
    + rewrite Nat.add_0_r in Hle. eapply le1_mono; [|exact Hle].
      intros p H. destruct (Hpl p H) as [[_ E]|H1]; [discriminate|exact H1].
Qed.

(* one step of the broker as a relation on the invariants and the places of each will *)
Definition wstep (s s' : st) (l : wlog) : Prop :=
  winv s -> winv s' /\ forall w n, le1 w s n -> le1 w s' (n + cnt w l).

Lemma wstep_refl s : wstep s s [].
Proof. intros I. split; [exact I|]. intros w n H. now apply le1_add0. Qed.

Lemma wstep_gframe s s' : gframe s s' -> wstep s s' [].
Proof. intros G I. split; [eapply gframe_winv; eauto|]. intros w n H. apply le1_add0. eapply gframe_le1; eauto. Qed.

Lemma wstep_trans s1 s2 s3 l1 l2 : wstep s1 s2 l1 -> wstep s2 s3 l2 -> wstep s1 s3 (l1 ++ l2).
Proof.
  intros H1 H2 I. destruct (H1 I) as [I2 L1]. destruct (H2 I2) as [I3 L2]. split; [exact I3|].
  intros w n H. rewrite cnt_app, Nat.add_assoc. apply L2. now apply L1.
Qed.

Lemma wstep_l s1 s2 s3 l : wstep s1 s2 [] -> wstep s2 s3 l -> wstep s1 s3 l.
Proof. apply (wstep_trans s1 s2 s3 []). Qed.

(* the same for a step during which every will w is registered r w times *)
Definition tstep (r : msg -> nat) (s s' : st) (l : wlog) : Prop :=
  winv s -> winv s' /\ forall w n, le1 w s (n + r w) -> le1 w s' (n + cnt w l).

Lemma wstep_tstep s s' l : wstep s s' l -> tstep (fun _ => 0%nat) s s' l.
Proof. intros W I. destruct (W I) as [I' L]. split; [exact I'|]. intros w n H. rewrite Nat.add_0_r in H. now apply L. Qed.

Lemma tstep_trans r1 r2 s1 s2 s3 l1 l2 :
  tstep r1 s1 s2 l1 -> tstep r2 s2 s3 l2 -> tstep (fun w => r1 w + r2 w)%nat s1 s3 (l1 ++ l2).
Proof.
  intros H1 H2 I. destruct (H1 I) as [I2 L1]. destruct (H2 I2) as [I3 L2]. split; [exact I3|].
  intros w n H. rewrite cnt_app, Nat.add_assoc. apply L2.
  replace (n + cnt w l1 + r2 w)%nat with (n + r2 w + cnt w l1)%nat by lia. apply L1.
  replace (n + r2 w + r1 w)%nat with (n + (r1 w + r2 w))%nat by lia. exact H.
Qed.

Lemma tstep_gframe r s1 s2 s3 l : tstep r s1 s2 l -> gframe s2 s3 -> tstep r s1 s3 l.
Proof.
  intros H G I. destruct (H I) as [I2 L]. split; [eapply gframe_winv; eauto|].
  intros w n Hle. eapply gframe_le1; [exact G|]. now apply L.
Qed.

(* a fold that threads state, outputs and log: if every step is a wstep, so is the fold *)
Lemma fold_wstep {A} (f : st * list out * wlog -> A -> st * list out * wlog) (l : list A) :
  (forall s o lg a, exists l', snd (f (s, o, lg) a) = lg ++ l' /\ wstep s (fst (fst (f (s, o, lg) a))) l') ->
  forall sb s o lg, wstep sb s lg -> wstep sb (fst (fst (fold_left f l (s, o, lg)))) (snd (fold_left f l (s, o, lg))).
Proof.
  intros Hf. induction l as [|a r IH]; intros sb s o lg Hb; cbn [fold_left]; [exact Hb|].
  destruct (Hf s o lg a) as (l' & E & W). destruct (f (s, o, lg) a) as [[s1 o1] lg1]. cbn [fst snd] in E, W. subst lg1.
  apply IH. exact (wstep_trans _ _ _ _ _ Hb W).
Qed.

(* the instrumented functions: the model's text, with a log of the applications of send_will *)
Definition release_will_w (cid : str) (s : st) : (st * list out) * wlog :=
  match aget cid (b_wills s) with
  | Some (w, _) => (send_will cid w (del_will cid s), [(cid, w)])
  | None => ((s, []), [])
  end.

Lemma release_will_w_fst cid s : fst (release_will_w cid s) = release_will cid s.
Proof. unfold release_will_w, release_will. destruct (aget cid (b_wills s)) as [[w t]|]; reflexivity. Qed.

Definition unregister_w (c : N) (k : conn) (s : st) : (st * list out) * wlog :=
  let cid := k_cid k in
  match aget cid (b_sessions s) with
  | None => ((remove_session cid s, []), [])
  | Some se =>
      let '((s1, o1), l) :=
        match se_will se with
        | Some w =>
            if k_clean_will k then ((s, []), [])
            else if negb (ur_delay k se s =? 0) && ur_store k se s
                 then ((ur_arm cid w (b_rt s + ur_delay k se s * 1000) s, []), [])
                 else (send_will cid w s, [(cid, w)])
        | None => ((s, []), [])
        end in
      (ur_finish cid se (ur_expiry k se s) (ur_store k se s) s1 o1, l)
  end.

Lemma unregister_w_fst c k s : fst (unregister_w c k s) = unregister c k s.
Proof.
  rewrite unregister_stages. unfold unregister_w. cbv zeta.
  destruct (aget (k_cid k) (b_sessions s)) as [se|]; [|reflexivity].
  destruct (se_will se) as [w|]; [|reflexivity].
  destruct (k_clean_will k); [reflexivity|].
  destruct (negb (ur_delay k se s =? 0) && ur_store k se s); [reflexivity|].
  destruct (send_will (k_cid k) w s). reflexivity.
Qed.

Definition conn_gone_w (c : N) (s : st) : (st * list out) * wlog :=
  match nget c (b_conns s) with
  | None => ((s, []), [])
  | Some k =>
      match k_phase k with
      | PhClosed => ((s, []), [])
      | PhFresh | PhDead => ((upd_conn c (set_phase PhClosed k) s, [OClose c]), [])
      | PhConnected | PhZombie =>
          let k' := set_phase PhClosed k in
          let s0 := match aget (k_cid k) (b_queues s) with
                    | Some q => set_queues (aset (k_cid k) (q_close q) (b_queues s)) s
                    | None => s
                    end in
          let '((s', o'), l) := unregister_w c k' (upd_conn c k' s0) in
          ((s', [OClose c] ++ o'), l)
      end
  end.

Lemma conn_gone_w_fst c s : fst (conn_gone_w c s) = conn_gone c s.
Proof.
  unfold conn_gone_w, conn_gone. destruct (nget c (b_conns s)) as [k|]; [|reflexivity].
  destruct (k_phase k); try reflexivity; cbv zeta;
    match goal with |- context [unregister_w c ?a ?b] => rewrite <- (unregister_w_fst c a b); destruct (unregister_w c a b) as [[s' o'] l] end;
    reflexivity.
Qed.

Definition fail_conn_w (c : N) (code : option N) (by_reader : bool) (s : st) : (st * list out) * wlog :=
  match nget c (b_conns s) with
  | None => ((s, []), [])
  | Some k =>
      match k_phase k with
      | PhConnected =>
          let disc := match code with
                      | Some cd => if k_v k =? 5 then [OSend c (KDisconnect cd [])] else []
                      | None => []
                      end in
          if by_reader || match disc with [] => false | _ => true end
          then let '((s', o), l) := conn_gone_w c s in ((s', disc ++ o), l)
          else ((upd_conn c (set_phase PhZombie k) s, []), [])
      | _ => ((s, []), [])
      end
  end.

Lemma fail_conn_w_fst c code br s : fst (fail_conn_w c code br s) = fail_conn c code br s.
Proof.
  unfold fail_conn_w, fail_conn. destruct (nget c (b_conns s)) as [k|]; [|reflexivity].
  destruct (k_phase k); try reflexivity. cbv zeta.
  match goal with |- context [if ?b then _ else _] => destruct b end; [|reflexivity].
  rewrite <- conn_gone_w_fst. destruct (conn_gone_w c s) as [[s' o] l]. reflexivity.
Qed.

(* s1 has the will tables of s, and c is detached in it: ur_finish on s1 closes c *)
Lemma ur_finish_closes c cid s s1 se expiry store o1 :
  (forall c2, att s1 c2 = if c2 =? c then None else att s c2) ->
  b_online s1 = b_online s -> b_offline s1 = b_offline s -> sess_wills s1 = sess_wills s ->
  closes c cid s (fst (ur_finish cid se expiry store s1 o1)).
Proof.
  intros Hatt Hon Hoff Hse. pose proof (sess_wills_swill _ _ Hse) as Hsw. pose proof (sess_wills_keys _ _ Hse) as Hk.
  unfold ur_finish. destruct store; cbn [fst]; constructor; try exact Hatt; unfold swill; proj.
  - now rewrite Hon.
  - right. eexists. now rewrite Hoff.
  - intros cid2 Hne. rewrite aget_aset_other by exact Hne. apply Hsw.
  - intros Hnd. apply NoDup_aset. now rewrite Hk.
  - now rewrite Hon.
  - left. now rewrite Hoff.
  - intros cid2 Hne. rewrite aget_adel_other by exact Hne. apply Hsw.
  - intros Hnd. apply NoDup_adel. now rewrite Hk.
Qed.

(* unregister on a state sx that has the will tables of s and in which c - attached to k's client in s - is detached *)
Lemma unregister_w_step c k s sx :
  att s c = Some (k_cid k) ->
  (forall c2, att sx c2 = if c2 =? c then None else att s c2) ->
  b_online sx = b_online s -> b_offline sx = b_offline s -> b_wills sx = b_wills s -> sess_wills sx = sess_wills s ->
  let r := unregister_w c k sx in
  closes c (k_cid k) s (fst (fst r)) /\ wstep s (fst (fst r)) (snd r).
Proof.
  intros Hc Hax Xon Xoff Xw Xse. cbv zeta. set (cid := k_cid k) in *.
  unfold unregister_w. cbv zeta. fold cid.
  (* the fates of the will: each leaves a state s1 with the tables of sx, the pending wills aside *)
  assert (Hfin : forall se s1 o1 (pw : option (msg * N)) (sent : option msg),
            (forall c2, att s1 c2 = att sx c2) -> b_online s1 = b_online sx -> b_offline s1 = b_offline sx ->
            b_sessions s1 = b_sessions sx ->
            b_wills s1 = match pw with Some e => aset cid e (b_wills sx) | None => b_wills sx end ->
            (forall w' t, pw = Some (w', t) -> swill sx cid = Some (Some w')) ->
            (forall w', sent = Some w' -> swill sx cid = Some (Some w')) -> (pw = None \/ sent = None) ->
            forall expiry store,
            let s' := fst (ur_finish cid se expiry store s1 o1) in
            closes c cid s s' /\ wstep s s' (match sent with Some w' => [(cid, w')] | None => [] end)).
  { intros se s1 o1 pw sent Ha Hon Hoff Hses Hw Hpw Hsent Hex expiry store. cbv zeta.
    assert (C : closes c cid s (fst (ur_finish cid se expiry store s1 o1))).
    { apply ur_finish_closes; [intros c2; now rewrite Ha|congruence|congruence|unfold sess_wills; now rewrite Hses]. }
    split; [exact C|]. intros I. apply (close_transfer s _ c cid pw sent I Hc C).
    - rewrite (proj1 (ur_finish_wills cid se expiry store s1 o1)), Hw, Xw. reflexivity.
    - intros w' t E. rewrite <- (sess_wills_swill _ _ Xse). eapply Hpw; eauto.
    - intros w' E. rewrite <- (sess_wills_swill _ _ Xse). now apply Hsent.
    - exact Hex. }
  destruct (aget cid (b_sessions sx)) as [se|] eqn:Hse.
  - assert (Hswc : swill sx cid = Some (se_will se)) by (unfold swill; now rewrite Hse).
    destruct (se_will se) as [w|] eqn:Hwill.
    + destruct (k_clean_will k).
      * apply (Hfin se sx [] None None); auto; discriminate.
      * destruct (negb (ur_delay k se sx =? 0) && ur_store k se sx).
        -- apply (Hfin se _ [] (Some (w, b_rt sx + ur_delay k se sx * 1000)) None); auto; try discriminate.
           intros w' t E. congruence.
        -- destruct (send_will_frame cid w sx) as [F _]. destruct (send_will cid w sx) as [s1 o1]. cbn [fst] in F.
           destruct (wframe_obs _ _ F) as (O1 & O2 & O3 & O4 & O5).
           apply (Hfin se s1 o1 None (Some w)); auto; try discriminate. intros w' E. congruence.
    + apply (Hfin se sx [] None None); auto; discriminate.
  - (* no session: as ur_finish with nothing to store *)
    apply (Hfin {| se_will := None; se_will_delay := 0; se_connected_at := 0; se_expiry := 0 |} sx [] None None
             (fun _ => eq_refl) eq_refl eq_refl eq_refl eq_refl) with (expiry := 0) (store := false); auto; discriminate.
Qed.

Lemma conn_gone_w_step c s :
  let s' := fst (fst (conn_gone_w c s)) in
  wstep s s' (snd (conn_gone_w c s)) /\ att s' c = None /\ (forall c2 x, att s' c2 = Some x -> att s c2 = Some x).
Proof.
  unfold conn_gone_w.
  destruct (nget c (b_conns s)) as [k|] eqn:Hk.
  2:{ cbn [fst snd]. split; [apply wstep_refl|]. split; [unfold att; now rewrite Hk|auto]. }
  assert (Hattc : att s c = if attachedb k then Some (k_cid k) else None) by (unfold att; now rewrite Hk).
  assert (Hnot : attachedb k = false ->
                 let s' := upd_conn c (set_phase PhClosed k) s in
                 wstep s s' [] /\ att s' c = None /\ (forall c2 x, att s' c2 = Some x -> att s c2 = Some x)).
  { intros Hn. cbv zeta. rewrite Hn in Hattc.
    assert (G : gframe s (upd_conn c (set_phase PhClosed k) s)) by (apply gframe_upd_conn; now rewrite Hattc).
    split; [now apply wstep_gframe|]. destruct G as (A & _). split; [now rewrite A|]. intros c2 x. now rewrite A. }
  assert (Hyes : attachedb k = true ->
     let k' := set_phase PhClosed k in
     let s0 := match aget (k_cid k) (b_queues s) with
               | Some q => set_queues (aset (k_cid k) (q_close q) (b_queues s)) s
               | None => s
               end in
     let r := unregister_w c k' (upd_conn c k' s0) in
     wstep s (fst (fst r)) (snd r) /\ att (fst (fst r)) c = None /\ (forall c2 x, att (fst (fst r)) c2 = Some x -> att s c2 = Some x)).
  { intros Hy. cbv zeta. rewrite Hy in Hattc.
    set (s0 := match aget (k_cid k) (b_queues s) with Some q => _ | None => s end).
    assert (G0 : gframe s s0)
      by (unfold s0; destruct (aget (k_cid k) (b_queues s)); [apply gframe_same; reflexivity|apply gframe_refl]).
    destruct G0 as (A0 & Gon & Goff & Gw & Gse).
    destruct (unregister_w_step c (set_phase PhClosed k) s (upd_conn c (set_phase PhClosed k) s0) Hattc) as [C W]; auto.
    { intros c2. rewrite att_upd_conn. destruct (c2 =? c); [reflexivity|apply A0]. }
    split; [exact W|exact (closes_att _ _ _ _ C)]. }
  destruct (k_phase k) eqn:Hph.
  - apply Hnot. unfold attachedb. now rewrite Hph.
  - specialize (Hyes ltac:(unfold attachedb; now rewrite Hph)). cbv zeta in Hyes |- *.
    match goal with |- context [unregister_w c ?a ?b] => destruct (unregister_w c a b) as [[s' o'] l] end. exact Hyes.
  - specialize (Hyes ltac:(unfold attachedb; now rewrite Hph)). cbv zeta in Hyes |- *.
    match goal with |- context [unregister_w c ?a ?b] => destruct (unregister_w c a b) as [[s' o'] l] end. exact Hyes.
  - apply Hnot. unfold attachedb. now rewrite Hph.
  - cbn [fst snd]. split; [apply wstep_refl|]. split; [|auto]. rewrite Hattc. unfold attachedb. now rewrite Hph.
Qed.

Lemma att_same_conns s s' : b_conns s' = b_conns s -> forall c, att s' c = att s c.
Proof. intros E c. unfold att. now rewrite E. Qed.

(* the pending will of cid is taken out of the table and handed to send_will *)
Lemma send_pending_step cid w t s :
  aget cid (b_wills s) = Some (w, t) -> wstep s (fst (send_will cid w (del_will cid s))) [(cid, w)].
Proof.
  intros E I. destruct (send_will_frame cid w (del_will cid s)) as [F _].
  destruct (wframe_obs _ _ F) as (O1 & O2 & O3 & O4 & O5).
  apply (unpend_transfer s _ cid (Some (w, t)) I); auto.
  - unfold sess_wills. now rewrite O5.
  - intros w' t' Hs. now injection Hs as <- <-.
Qed.

Lemma release_will_w_step cid s : wstep s (fst (fst (release_will_w cid s))) (snd (release_will_w cid s)).
Proof.
  unfold release_will_w. destruct (aget cid (b_wills s)) as [[w t]|] eqn:E; [|apply wstep_refl].
  exact (send_pending_step cid w t s E).
Qed.

Lemma remove_session_step cid s : (forall c, att s c <> Some cid) -> wstep s (remove_session cid s) [].
Proof.
  intros Hno I. destruct (remove_transfer s (remove_session cid s) cid I Hno) as [I' L]; try reflexivity.
  split; [exact I'|]. intros w n H. apply le1_add0. now apply L.
Qed.

Definition fire_step_w (acc : (st * list out) * wlog) (w : str * (msg * N)) : (st * list out) * wlog :=
  let '((s0, o0), l0) := acc in
  let '(cid, (m, at_)) := w in
  if at_ <=? b_rt s0 then
    match aget cid (b_wills s0) with
    | Some _ => let '(s2, o2) := send_will cid m (del_will cid s0) in ((s2, o0 ++ o2), l0 ++ [(cid, m)])
    | None => acc
    end
  else acc.

Definition fire_wills_w (s : st) : (st * list out) * wlog := fold_left fire_step_w (b_wills s) ((s, []), []).

Lemma fold_erase {A B L} (fw : (B * L) -> A -> (B * L)) (f : B -> A -> B) l :
  (forall acc x, fst (fw acc x) = f (fst acc) x) -> forall a, fst (fold_left fw l a) = fold_left f l (fst a).
Proof. intros H. induction l as [|x r IH]; intros a; cbn [fold_left]; [reflexivity|]. now rewrite IH, H. Qed.

Lemma fire_wills_w_fst s : fst (fire_wills_w s) = fire_wills s.
Proof.
  rewrite fire_wills_fold. unfold fire_wills_w. rewrite (fold_erase fire_step_w fire_step); [reflexivity|].
  intros [[s0 o0] l0] [cid [m at_]]. cbn [fst]. rewrite fire_step_due. cbn [fire_step_w].
  destruct (at_ <=? b_rt s0); [|reflexivity].
  destruct (aget cid (b_wills s0)); [|reflexivity].
  destruct (send_will cid m (del_will cid s0)). reflexivity.
Qed.

(* the timer sends the message stored in the table entry; for the ghost theorem the table must be the one the
   entry was read from, which needs the entries to be read from the current table *)
Lemma fire_fold_w_step : forall (l : list (str * (msg * N))) s0 o0 l0,
  NoDup (map fst l) ->
  (forall e, In e l -> aget (fst e) (b_wills s0) = Some (snd e)) ->
  exists l', snd (fold_left fire_step_w l ((s0, o0), l0)) = l0 ++ l' /\
             wstep s0 (fst (fst (fold_left fire_step_w l ((s0, o0), l0)))) l'.
Proof.
  induction l as [|[cid [m at_]] r IH]; intros s0 o0 l0 Hnd Hpres.
  - exists []. cbn [fold_left fst snd]. rewrite app_nil_r. split; [reflexivity|apply wstep_refl].
  - inversion Hnd as [|x xs Hx Hnd']; subst. cbn [fold_left]. cbn [fire_step_w].
    assert (Hhd : aget cid (b_wills s0) = Some (m, at_)) by (apply (Hpres (cid, (m, at_))); now left).
    destruct (at_ <=? b_rt s0); [|apply IH; [exact Hnd'|]; intros e He; apply Hpres; now right].
    rewrite Hhd. pose proof (send_pending_step cid m at_ s0 Hhd) as W1.
    destruct (send_will_frame cid m (del_will cid s0)) as [F _].
    destruct (send_will cid m (del_will cid s0)) as [s2 o2]. cbn [fst] in F, W1.
    destruct (IH s2 (o0 ++ o2) (l0 ++ [(cid, m)]) Hnd') as (l' & E & W).
    { intros e He. rewrite (wf_wills _ _ F). unfold del_will. rewrite b_wills_set_tables, aget_adel_other.
      - apply Hpres. now right.
      - intros Heq. apply Hx. rewrite <- Heq. apply in_map. exact He. }
    exists ([(cid, m)] ++ l'). split; [exact (eq_trans E (eq_sym (app_assoc _ _ _)))|exact (wstep_trans _ _ _ _ _ W1 W)].
Qed.

Lemma fire_wills_w_step s : wstep s (fst (fst (fire_wills_w s))) (snd (fire_wills_w s)).
Proof.
  intros I. unfold fire_wills_w.
  destruct (fire_fold_w_step (b_wills s) s [] [] (wi_nd_wills _ I)) as (l' & E & W).
  - intros [cid e] He. apply In_aget; [apply I|exact He].
  - cbn [app] in E. subst l'. exact (W I).
Qed.

Lemma fail_conn_w_step c code br s :
  wstep s (fst (fst (fail_conn_w c code br s))) (snd (fail_conn_w c code br s)).
Proof.
  unfold fail_conn_w. destruct (nget c (b_conns s)) as [k|] eqn:Hk; [|apply wstep_refl].
  destruct (k_phase k) eqn:Hph; try apply wstep_refl.
  cbv zeta. match goal with |- context [if ?b then _ else _] => destruct b end.
  - destruct (conn_gone_w_step c s) as (W & _). destruct (conn_gone_w c s) as [[s' o] l]. exact W.
  - apply wstep_gframe. eapply gframe_upd_self; [exact Hk| |reflexivity].
    unfold attachedb. rewrite k_phase_set_phase, Hph. reflexivity.
Qed.

Definition hc_takeover_w (cid : str) (s : st) : (st * list out) * wlog :=
  match aget cid (b_online s) with
  | Some oldc => conn_gone_w oldc s
  | None => ((s, []), [])
  end.

Lemma hc_takeover_w_fst cid s : fst (hc_takeover_w cid s) = BrokerInvP.hc_takeover cid s.
Proof.
  unfold hc_takeover_w, BrokerInvP.hc_takeover. destruct (aget cid (b_online s)); [apply conn_gone_w_fst|reflexivity].
Qed.

(* the send_will applications of handle_connect: those of the take-over of an online duplicate, then the pending
   will of a discarded session (o_will, which hc_wills hands to send_will entry by entry: BrokerInvP.hc_accept) *)
Definition hc_log (c : N) (cn : connect) (s : st) : wlog :=
  if connect_accepted cn s then
    let v5 := cn_ver cn =? 5 in
    let cid := hc_cid cn s in
    let cmax := if v5 then opt_or (p_maxpkt (cn_props cn)) U32MAX else U32MAX in
    let '((s1, _), l1) := hc_takeover_w cid (hc_auto cn s) in
    let '(_, o_will, _) := hc_old cid cn v5 cmax s1 in
    l1 ++ o_will
  else [].

Definition handle_connect_w (c : N) (cn : connect) (s : st) : (st * list out) * wlog :=
  (handle_connect c cn s, hc_log c cn s).

Definition cn_willmsg (cn : connect) : option msg := match cn_will cn with Some w => Some (will_msg w) | None => None end.
Definition registers (w : msg) (cn : connect) : bool :=
  match cn_willmsg cn with Some w' => if msg_dec w' w then true else false | None => false end.

(* the log of an accepted CONNECT over the stages of BrokerInvP.hc_accept_eq *)
Lemma hc_log_eq c cn s :
  connect_accepted cn s = true ->
  hc_log c cn s = snd (hc_takeover_w (hc_cid cn s) (hc_auto cn s)) ++ snd (fst (BrokerInvP.hc_prev cn s)).
Proof.
  intros Hacc. unfold hc_log, BrokerInvP.hc_prev, BrokerInvP.hc_dup. rewrite Hacc. cbv zeta.
  change (BrokerInvP.hc_takeover (BrokerInvP.hc_cid cn s) (BrokerInvP.hc_auto cn s))
    with (BrokerInvP.hc_takeover (hc_cid cn s) (hc_auto cn s)).
  rewrite <- hc_takeover_w_fst. destruct (hc_takeover_w (hc_cid cn s) (hc_auto cn s)) as [[s1 o1] l1]. cbn [fst snd].
  rewrite hc_old_eq. now destruct (BrokerInvP.hc_old _ _ _ _ s1) as [[s2 o_will] resume].
Qed.

(* the take-over of an online duplicate closes its socket: afterwards no socket is attached to cid *)
Lemma hc_takeover_w_step cid c s :
  winv s -> att s c = None ->
  let r := hc_takeover_w cid s in
  wstep s (fst (fst r)) (snd r) /\ att (fst (fst r)) c = None /\ (forall c2, att (fst (fst r)) c2 <> Some cid).
Proof.
  intros I Hc. cbv zeta. unfold hc_takeover_w. destruct (aget cid (b_online s)) as [oldc|] eqn:Eon.
  - pose proof (conn_gone_w_step oldc s) as (W & A0 & A1). cbv zeta in W, A0, A1. split; [exact W|]. split.
    + destruct (att (fst (fst (conn_gone_w oldc s))) c) as [x|] eqn:Ex; [|reflexivity]. apply A1 in Ex. congruence.
    + intros c2 H2. pose proof (wi_online _ I _ _ (A1 _ _ H2)) as H4. rewrite Eon in H4. injection H4 as ->. congruence.
  - cbn [fst snd]. split; [apply wstep_refl|]. split; [exact Hc|].
    intros c2 H2. pose proof (wi_online _ I _ _ H2) as H4. congruence.
Qed.

Lemma hc_old_step cid v5 cmax r0 s1 :
  (forall c2, att s1 c2 <> Some cid) ->
  let r := BrokerInvP.hc_old cid v5 cmax r0 s1 in
  wstep s1 (fst (fst r)) (snd (fst r)) /\ (forall c2, att (fst (fst r)) c2 = att s1 c2).
Proof.
  intros Hno. cbv zeta. unfold BrokerInvP.hc_old.
  destruct (aget cid (b_sessions s1)) as [se|]; [|cbn [fst snd]; split; [apply wstep_refl|reflexivity]].
  destruct r0.
  - destruct (aget cid (b_queues s1)) as [q|]; [|cbn [fst snd]; split; [apply wstep_refl|reflexivity]].
    destruct (aget cid (b_unacks s1)) as [u|]; [|cbn [fst snd]; split; [apply wstep_refl|reflexivity]].
    cbn [fst snd]. split; [|reflexivity].
    intros J. apply (unpend_transfer s1 _ cid None J); try reflexivity. intros w' t Hs. discriminate.
  - cbv zeta. set (s1' := remove_session cid s1).
    pose proof (remove_session_step cid s1 Hno) as Wr. fold s1' in Wr.
    destruct (aget cid (b_wills s1')) as [[w t]|] eqn:Ew; cbn [fst snd].
    + split; [|reflexivity].
      change [(cid, w)] with ([] ++ [(cid, w)]). eapply wstep_trans; [exact Wr|].
      intros J. apply (unpend_transfer s1' _ cid (Some (w, t)) J); try reflexivity.
      intros w' t' Hs. injection Hs as <- <-. exact Ew.
    + split; [exact Wr|reflexivity].
Qed.

Lemma handle_connect_w_step c cn s :
  att s c = None ->
  tstep (fun w => if registers w cn then 1 else 0)%nat s (fst (handle_connect c cn s)) (hc_log c cn s).
Proof.
  intros Hc I.
  destruct (connect_accepted cn s) eqn:Hacc.
  2:{ (* refused *)
    unfold hc_log. rewrite Hacc.
    destruct (connect_refused c cn s Hacc) as (k & code & E & _ & Hph). rewrite E. cbn [fst].
    assert (G : gframe s (upd_conn c k s)).
    { apply gframe_upd_conn. rewrite Hc. unfold attachedb. now rewrite Hph. }
    split; [eapply gframe_winv; eauto|]. intros w n H. rewrite cnt_nil. apply le1_add0.
    eapply gframe_le1; [exact G|]. destruct (registers w cn).
    - rewrite Nat.add_1_r in H. apply le1_S in H as [-> H]. left. split; [reflexivity|now apply NoH_AMO].
    - now rewrite Nat.add_0_r in H. }
  rewrite (hc_log_eq c cn s Hacc), (accepted_connect_eq c cn s Hacc), BrokerInvP.hc_accept_eq. cbn [fst].
  set (cid := hc_cid cn s).
  assert (Ga : gframe s (hc_auto cn s))
    by (unfold hc_auto; destruct (is_empty (cn_cid cn)); [apply gframe_same; reflexivity|apply gframe_refl]).
  (* the take-over, then the old session: wills move only as the log says *)
  destruct (hc_takeover_w_step cid c (hc_auto cn s)) as (W1 & Hc1 & Hno1);
    [eapply gframe_winv; eauto|destruct Ga as (A & _); now rewrite A|].
  rewrite hc_takeover_w_fst in W1, Hc1, Hno1.
  change (BrokerInvP.hc_takeover cid (hc_auto cn s)) with (BrokerInvP.hc_dup cn s) in W1, Hc1, Hno1.
  destruct (hc_old_step cid (cn_ver cn =? 5) (BrokerInvP.hc_cmax cn)
              (BrokerInvP.hc_resume0 cid cn (fst (BrokerInvP.hc_dup cn s))) _ Hno1) as [W2 A2].
  change (BrokerInvP.hc_old cid _ _ _ _) with (BrokerInvP.hc_prev cn s) in W2, A2.
  (* a fresh queue and unack store, unless the session is resumed *)
  assert (G3 : gframe (fst (fst (BrokerInvP.hc_prev cn s))) (BrokerInvP.hc_new cn s))
    by (unfold BrokerInvP.hc_new, BrokerInvP.hc_fresh; destruct (snd (BrokerInvP.hc_prev cn s));
        [apply gframe_refl|apply gframe_same; reflexivity]).
  assert (W3 : wstep s (BrokerInvP.hc_new cn s) (snd (hc_takeover_w cid (hc_auto cn s)) ++ snd (fst (BrokerInvP.hc_prev cn s)))).
  { eapply wstep_l; [apply wstep_gframe; exact Ga|]. eapply wstep_trans; [exact W1|].
    rewrite <- (app_nil_r (snd (fst _))). eapply wstep_trans; [exact W2|apply wstep_gframe; exact G3]. }
  destruct (W3 I) as [I3 _].
  assert (A3 : forall c2, att (BrokerInvP.hc_new cn s) c2 = att (fst (BrokerInvP.hc_dup cn s)) c2)
    by (intros c2; destruct G3 as (A & _); now rewrite A, A2).
  (* the new session is installed on c: this registers the will of the CONNECT *)
  assert (T4 : tstep (fun w => if registers w cn then 1 else 0)%nat (BrokerInvP.hc_new cn s) (BrokerInvP.hc_reg c cn s) []).
  { intros _. unfold BrokerInvP.hc_reg, BrokerInvP.hc_register. change (BrokerInvP.hc_cid cn s) with cid.
    match goal with |- winv ?s4 /\ _ =>
      destruct (install_transfer (BrokerInvP.hc_new cn s) s4 c cid (cn_willmsg cn) I3) as [I4 L4];
        [..|split; [exact I4|]; intros w n H; apply le1_add0; now apply L4] end.
    - now rewrite A3.
    - intros c2. rewrite A3. apply Hno1.
    - intros c2. unfold att. rewrite b_conns_set_tables. fold (att (upd_conn c (BrokerInvP.hc_conn cid cn (b_cfg s)) (BrokerInvP.hc_new cn s)) c2).
      now rewrite att_upd_conn.
    - reflexivity.
    - reflexivity.
    - reflexivity.
    - intros x. unfold swill. rewrite b_sessions_set_tables, aget_aset. destruct (str_eqb x cid); reflexivity.
    - rewrite b_sessions_set_tables. apply NoDup_aset. apply I3. }
  rewrite <- (app_nil_r (_ ++ _)).
  exact (tstep_gframe _ _ _ _ _ (tstep_trans _ _ _ _ _ _ _ (wstep_tstep _ _ _ W3) T4)
           (wframe_gframe _ _ (hc_wills_wframe _ _)) I).
Qed.

(* the packet handlers move no will *)
Definition hres_st (r : hres) : st := match r with HOk s _ => s | HErr s _ _ => s | HErrRead s _ => s end.

Lemma pub_mark_gframe c k v5 qos pid s : gframe s (fst (pub_mark c k v5 qos pid s)).
Proof.
  unfold pub_mark. destruct (qos =? 2); [|apply gframe_refl].
  destruct (unack_set pid (opt_or (aget (k_cid k) (b_unacks s)) [])) as [u' ex]. cbn [fst].
  set (s1 := set_unacks _ s). assert (G1 : gframe s s1) by (apply gframe_same; reflexivity).
  destruct (ex && v5); [|exact G1].
  eapply gframe_trans; [exact G1|]. apply (gframe_quota_back c s1).
Qed.

Lemma pub_fwd_gframe k m isdup s : gframe s (fst (fst (fst (pub_fwd k m isdup s)))).
Proof.
  rewrite pub_fwd_eq. destruct isdup; [apply gframe_refl|].
  destruct (fwd_msg (pub_action m s) m) as [m'|]; [|apply gframe_refl].
  destruct (forward_frame (k_cid k) m' s) as (r & F & _). exact (dframe_gframe (set_ret r s) _ F).
Qed.

Lemma pub_finish_gframe c k v5 qos pid s o mt err : gframe s (hres_st (pub_finish c k v5 qos pid (s, o, mt, err))).
Proof.
  rewrite pub_finish_eq. cbv zeta. cbn [hres_st].
  set (s1 := if (qos =? 2) && _ then _ else s).
  assert (G1 : gframe s s1) by (unfold s1; destruct ((qos =? 2) && _); [apply gframe_same; reflexivity|apply gframe_refl]).
  destruct (v5 && _); [|exact G1]. eapply gframe_trans; [exact G1|apply gframe_quota_back].
Qed.

Lemma charge_att k qos : attachedb (charge k qos) = attachedb k /\ k_cid (charge k qos) = k_cid k.
Proof. unfold charge. destruct ((k_v k =? 5) && (0 <? qos)); split; reflexivity. Qed.

Lemma replay_retained_gframe c k sb s : gframe s (fst (replay_retained c k sb s)).
Proof.
  unfold replay_retained.
  apply (fold_left_inv (fun acc : st * list out => gframe s (fst acc))); [|apply gframe_refl].
  intros [s0 o0] m G. cbn [fst] in G.
  destruct (aget (k_cid k) (b_queues s0)) as [q|]; [|exact G].
  match goal with |- context [q_add ?a ?b ?c] => destruct (q_add a b c) as [[q' evs]| | |] end; try exact G.
  cbn [fst]. eapply gframe_trans; [exact G|].
  eapply gframe_trans; [|apply dframe_gframe, release_dropped_frame]. apply gframe_same; reflexivity.
Qed.

Lemma handle_subscribe_gframe c k pid props topics s : gframe s (hres_st (handle_subscribe c k pid props topics s)).
Proof.
  unfold handle_subscribe.
  match goal with |- context [if ?b then HErr s [] (Some 161) else _] => destruct b end; [apply gframe_refl|].
  destruct (h_sub_all (b_hooks s)); [apply gframe_refl|].
  match goal with |- context [fold_left ?f topics ?a] =>
    assert (G : (fun acc : st * list out * list N => gframe s (fst (fst acc))) (fold_left f topics a));
      [|destruct (fold_left f topics a) as [[s1 o1] cs]; exact G] end.
  apply fold_left_inv; [|apply gframe_refl].
  intros [[s0 o0] cs] t G. cbn [fst] in G |- *.
  match goal with |- context [if ?b then _ else (s0, o0, cs ++ [?x])] => destruct b end; [|exact G].
  match goal with |- context [db_subscribe ?a ?b ?d] => destruct (db_subscribe a b d) as [d' existed] end.
  match goal with |- context [if ?b then replay_retained c k ?sb ?s1 else _] =>
    pose proof (replay_retained_gframe c k sb s1) as Gr; destruct b; [destruct (replay_retained c k sb s1) as [s2 o2]|] end;
    cbn [fst] in *.
  - eapply gframe_trans; [exact G|]. eapply gframe_trans; [|exact Gr]. apply gframe_same; reflexivity.
  - eapply gframe_trans; [exact G|]. apply gframe_same; reflexivity.
Qed.

Lemma release_id_gframe c pid s : gframe s (release_id c pid s).
Proof.
  unfold release_id. destruct (nget c (b_conns s)) as [k|] eqn:E; [|apply gframe_refl].
  eapply gframe_upd_self; [exact E| |]; reflexivity.
Qed.

Lemma queue_op_gframe cid f s : gframe s (queue_op cid f s).
Proof. unfold queue_op. destruct (aget cid (b_queues s)); [apply gframe_same; reflexivity|apply gframe_refl]. Qed.

Lemma sess_wills_aset_same cid se se' l :
  aget cid l = Some se -> se_will se' = se_will se ->
  map (fun e : str * session => (fst e, se_will (snd e))) (aset cid se' l) = map (fun e => (fst e, se_will (snd e))) l.
Proof.
  intros H E. induction l as [|[k0 v0] r IH]; cbn [aget] in H; [discriminate|].
  cbn [aset]. destruct (str_eqb_spec cid k0) as [->|Hne]; cbn [map fst snd].
  - injection H as ->. now rewrite E.
  - now rewrite IH.
Qed.

Theorem handle_packet_gframe c k p s :
  nget c (b_conns s) = Some k -> gframe s (hres_st (handle_packet c k p s)).
Proof.
  intros Hk. destruct p; try apply gframe_refl.
  - (* PUBLISH *)
    destruct (charge_att k qos) as [Ha Hc].
    assert (Gq : gframe s (upd_conn c (charge k qos) s)) by (eapply gframe_upd_self; eauto).
    destruct (pub_accepts k qos retain topic props) eqn:Hacc.
    2:{ destruct (handle_packet_publish_rejected c k dup qos retain topic payload pid props s Hacc) as [[cd ->]|[cd ->]];
          [apply gframe_refl|exact Gq]. }
    destruct (handle_packet_publish c k dup qos retain topic payload pid props s Hacc) as (k' & m & Hal & ->). cbv zeta.
    apply pub_alias_cid in Hal as (Hc' & _ & _ & _ & Hp' & _).
    set (s_b := upd_conn c k' (upd_conn c (charge k qos) s)).
    assert (Gb : gframe s s_b).
    { eapply gframe_trans; [exact Gq|]. eapply gframe_upd_self; [apply nget_nset_same| |exact Hc'].
      unfold attachedb. now rewrite Hp'. }
    pose proof (pub_mark_gframe c k' (k_v k =? 5) qos pid s_b) as Gm.
    destruct (pub_mark c k' (k_v k =? 5) qos pid s_b) as [s1 isdup]. cbn [fst] in Gm.
    pose proof (pub_fwd_gframe k' m isdup s1) as Gf.
    destruct (pub_fwd k' m isdup s1) as [[[s2 o2] mt] err]. cbn [fst] in Gf.
    eapply gframe_trans; [exact Gb|]. eapply gframe_trans; [exact Gm|].
    eapply gframe_trans; [exact Gf|apply pub_finish_gframe].
  - (* PUBACK *) cbn [handle_packet hres_st]. eapply gframe_trans; [apply queue_op_gframe|apply release_id_gframe].
  - (* PUBREC *)
    cbn [handle_packet]. destruct ((k_v k =? 5) && (128 <=? code)); cbn [hres_st].
    + eapply gframe_trans; [apply queue_op_gframe|apply release_id_gframe].
    + apply queue_op_gframe.
  - (* PUBREL *)
    rewrite pubrel_eq. cbv zeta. cbn [hres_st]. set (s1 := set_unacks _ s).
    assert (G1 : gframe s s1) by (apply gframe_same; reflexivity).
    destruct (k_v k =? 5); [|exact G1]. eapply gframe_trans; [exact G1|apply gframe_quota_back].
  - (* PUBCOMP *) cbn [handle_packet hres_st]. eapply gframe_trans; [apply queue_op_gframe|apply release_id_gframe].
  - (* SUBSCRIBE *)
    cbn [handle_packet]. match goal with |- context [if ?b then handle_subscribe _ _ _ _ _ _ else _] => destruct b end;
      [apply handle_subscribe_gframe|apply gframe_refl].
  - (* UNSUBSCRIBE *) cbn [handle_packet]. unfold handle_unsubscribe. cbn [hres_st]. apply gframe_same; reflexivity.
  - (* DISCONNECT *)
    cbn [handle_packet]. destruct (k_v k =? 5).
    + destruct (aget (k_cid k) (b_sessions s)) as [se|] eqn:Hse; [|apply gframe_refl].
      match goal with |- context [if ?b then HErr s [] None else _] => destruct b end; [apply gframe_refl|].
      cbn [hres_st].
      set (s1 := match p_sei props with Some x => _ | None => s end).
      assert (G1 : gframe s s1).
      { unfold s1. destruct (p_sei props) as [x|]; [|apply gframe_refl]. destruct (x =? 0); [apply gframe_refl|].
        split; [intros c'; reflexivity|]. repeat split. unfold sess_wills. rewrite b_sessions_set_tables.
        now apply (sess_wills_aset_same (k_cid k) se). }
      eapply gframe_trans; [exact G1|].
      assert (Hk1 : nget c (b_conns s1) = Some k).
      { unfold s1. destruct (p_sei props) as [x|]; [|exact Hk]. destruct (x =? 0); exact Hk. }
      eapply gframe_upd_self; [exact Hk1| |]; reflexivity.
    + cbn [hres_st]. eapply gframe_upd_self; [exact Hk| |]; reflexivity.
Qed.

(* a packet larger than the server's maximum: the same frame (nothing is handled) *)
Lemma handle_packet_sz_gframe c k p n s :
  nget c (b_conns s) = Some k -> gframe s (hres_st (handle_packet_sz c k p n s)).
Proof.
  intros Hk. destruct (too_big k n s) eqn:Hb; [|rewrite handle_packet_sz_small by exact Hb; now apply handle_packet_gframe].
  destruct (handle_packet_sz_big c k p n s Hb) as [code| |q]; cbn [hres_st]; try apply gframe_refl.
  eapply gframe_upd_self; [exact Hk| |]; reflexivity.
Qed.

(* what the read loop does with the handler's result *)
Definition finish_w (c : N) (r : hres) : (st * list out) * wlog :=
  match r with
  | HOk s' o => ((s', o), [])
  | HErr s' o code => let '((s'', o'), l) := fail_conn_w c code false s' in ((s'', o ++ o'), l)
  | HErrRead s' code => fail_conn_w c code true s'
  end.

Definition send_unconnected_w (c : N) (k : conn) (p : pkt) (s : st) : (st * list out) * wlog :=
  match k_phase k with
  | PhFresh => ((upd_conn c (set_phase PhDead k) s, [OSend c (KConnack false 129 [])]), [])
  | PhZombie =>
      match p with
      | KPublish _ qos _ _ _ _ _ =>
          if (k_v k =? 5) && (0 <? qos) then
            if k_quota k =? 0 then conn_gone_w c s
            else ((upd_conn c (set_quota (k_quota k - 1) k) s, []), [])
          else ((s, []), [])
      | _ => ((s, []), [])
      end
  | PhDead =>
      match p with
      | KPublish _ qos _ _ _ _ _ => if (k_v k =? 5) && (0 <? qos) then conn_gone_w c s else ((s, []), [])
      | _ => ((s, []), [])
      end
  | _ => ((s, []), [])
  end.

Definition step_event_w (s : st) (e : event) : (st * list out) * wlog :=
  match e with
  | EConnect c cn =>
      let '((s0, o0), l0) := conn_gone_w c s in
      let '((s1, o1), l1) := handle_connect_w c cn s0 in
      ((s1, filter (fun x => match x with OClose c' => negb (c' =? c) | _ => true end) o0 ++ o1), l0 ++ l1)
  | EOpen c => let '((s0, o0), l0) := conn_gone_w c s in ((upd_conn c (fresh_conn [] 0) s0, o0), l0)
  | ESend c p =>
      match nget c (b_conns s) with
      | Some k =>
          match k_phase k with
          | PhConnected => finish_w c (handle_packet c k p s)
          | _ => send_unconnected_w c k p s
          end
      | None => ((s, []), [])
      end
  | ESendSz c p n =>
      match nget c (b_conns s) with
      | Some k =>
          match k_phase k with
          | PhConnected => finish_w c (handle_packet_sz c k p n s)
          | _ => send_unconnected_w c k p s
          end
      | None => ((s, []), [])
      end
  | EClose c => let '((s', o), l) := conn_gone_w c s in
                ((s', filter (fun x => match x with OClose _ => false | _ => true end) o), l)
  | EApiPublish m => (let '(s', o, _) := deliver [] m s in (s', o), [])
  | ETerminate cid =>
      match aget cid (b_online s) with
      | Some c =>
          match nget c (b_conns s) with
          | Some k => conn_gone_w c (upd_conn c (set_force k) s)
          | None => ((s, []), [])
          end
      | None => if ahas cid (b_offline s) then release_will_w cid (remove_session cid s) else ((s, []), [])
      end
  | EAdvance ms => ((set_time (b_now s + ms) (b_rt s) s, []), [])
  | EExpireCheck =>
      let expired := filter (fun cd => snd cd <? b_now s) (b_offline s) in
      let s1 := fold_left (fun s0 cd => remove_session (fst cd) s0) expired s in
      fold_left (fun acc cd => let '((s0, o0), l0) := acc in
                               let '((s', o'), l') := release_will_w (fst cd) s0 in ((s', o0 ++ o'), l0 ++ l'))
                expired ((s1, []), [])
  | ESleep ms =>
      let s0 := set_time (b_now s + ms) (b_rt s + ms) s in
      let '((s1, o1), l1) :=
        fold_left (fun acc ck => let '((sa, oa), la) := acc in
                                 let k := snd ck in
                                 match k_phase k with
                                 | PhConnected | PhZombie =>
                                     if (0 <? k_keepalive k) && ((k_keepalive k / 2 + k_keepalive k) * 1000 <? ms)
                                     then let '((sb, ob), lb) := conn_gone_w (fst ck) sa in ((sb, oa ++ ob), la ++ lb)
                                     else ((sa, oa), la)
                                 | _ => ((sa, oa), la)
                                 end) (b_conns s0) ((s0, []), []) in
      let '((s2, o2), l2) := fire_wills_w s1 in ((s2, o1 ++ o2), l1 ++ l2)
  | EInspect => ((s, []), [])
  end.

Lemma finish_w_fst c r :
  fst (finish_w c r) = match r with
                       | HOk s' o => (s', o)
                       | HErr s' o code => let '(s'', o') := fail_conn c code false s' in (s'', o ++ o')
                       | HErrRead s' code => fail_conn c code true s'
                       end.
Proof.
  destruct r as [s' o|s' o code|s' code]; cbn [finish_w]; try reflexivity.
  - rewrite <- fail_conn_w_fst. destruct (fail_conn_w c code false s') as [[s'' o'] l]. reflexivity.
  - apply fail_conn_w_fst.
Qed.

Lemma send_unconnected_w_fst c k p s : fst (send_unconnected_w c k p s) = send_unconnected c k p s.
Proof.
  unfold send_unconnected_w, send_unconnected. destruct (k_phase k); try reflexivity.
  - destruct p; try reflexivity. destruct ((k_v k =? 5) && (0 <? qos)); [|reflexivity].
    destruct (k_quota k =? 0); [apply conn_gone_w_fst|reflexivity].
  - destruct p; try reflexivity. destruct ((k_v k =? 5) && (0 <? qos)); [apply conn_gone_w_fst|reflexivity].
Qed.

Lemma step_event_w_erase s e : fst (step_event_w s e) = step_event s e.
Proof.
  destruct e; cbn [step_event_w step_event]; try reflexivity.
  - rewrite <- conn_gone_w_fst. destruct (conn_gone_w c s) as [[s0 o0] l0]. cbn [fst handle_connect_w].
    destruct (handle_connect c cn s0). reflexivity.
  - rewrite <- conn_gone_w_fst. destruct (conn_gone_w c s) as [[s0 o0] l0]. reflexivity.
  - destruct (nget c (b_conns s)) as [k|]; [|reflexivity].
    destruct (k_phase k); try apply send_unconnected_w_fst. apply finish_w_fst.
  - destruct (nget c (b_conns s)) as [k|]; [|reflexivity].
    destruct (k_phase k); try apply send_unconnected_w_fst. apply finish_w_fst.
  - rewrite <- conn_gone_w_fst. destruct (conn_gone_w c s) as [[s0 o0] l0]. reflexivity.
  - destruct (aget cid (b_online s)) as [c|].
    + destruct (nget c (b_conns s)); [apply conn_gone_w_fst|reflexivity].
    + destruct (ahas cid (b_offline s)); [apply release_will_w_fst|reflexivity].
  - match goal with |- fst (fold_left ?fw ?l ?a) = fold_left ?f ?l ?b => rewrite (fold_erase fw f) end; [reflexivity|].
    intros [[s0 o0] l0] cd. cbn [fst]. rewrite <- release_will_w_fst. destruct (release_will_w (fst cd) s0) as [[s' o'] l']. reflexivity.
  - match goal with |- context [fold_left ?fw (b_conns ?s0) (?s0, [], [])] =>
      match goal with |- context [fold_left ?f (b_conns s0) (s0, [])] =>
        pose proof (fold_erase fw f (b_conns s0)) as Hf end end.
    match type of Hf with ?P -> _ => assert (Hp : P) end.
    { intros [[sa oa] la] ck. cbn [fst]. destruct (k_phase (snd ck)); try reflexivity;
        (match goal with |- context [if ?b then _ else _] => destruct b end; [|reflexivity]);
        rewrite <- conn_gone_w_fst; destruct (conn_gone_w (fst ck) sa) as [[sb ob] lb]; reflexivity. }
    specialize (Hf Hp ((set_time (b_now s + ms) (b_rt s + ms) s, []), [])). cbn [fst] in Hf. rewrite <- Hf.
    match goal with |- context [fold_left ?fw ?l ?a] => destruct (fold_left fw l a) as [[s1 o1] l1] end. cbn [fst].
    rewrite <- fire_wills_w_fst. destruct (fire_wills_w s1) as [[s2 o2] l2]. reflexivity.
Qed.

Definition step_w (s : st) (e : event) : (st * list out) * wlog :=
  let '((s1, o1), l) := step_event_w s e in
  let '(s2, o2) := poll_all s1 in
  ((s2, o1 ++ o2), l).

Fixpoint run_w (s : st) (es : list event) : (st * list (list out)) * wlog :=
  match es with
  | [] => ((s, []), [])
  | e :: r => let '((s', o), l1) := step_w s e in
              let '((s'', os), l2) := run_w s' r in ((s'', o :: os), l1 ++ l2)
  end.

Lemma step_w_erase s e : fst (step_w s e) = step s e.
Proof.
  unfold step_w, step. rewrite <- step_event_w_erase. destruct (step_event_w s e) as [[s1 o1] l]. cbn [fst].
  destruct (poll_all s1). reflexivity.
Qed.

Theorem run_w_erase es : forall s, fst (run_w s es) = run s es.
Proof.
  induction es as [|e r IH]; intros s; cbn [run_w run]; [reflexivity|].
  rewrite <- step_w_erase. destruct (step_w s e) as [[s' o] l1]. cbn [fst].
  rewrite <- IH. destruct (run_w s' r) as [[s'' os] l2]. reflexivity.
Qed.

Definition ev_registers (w : msg) (e : event) : nat :=
  match e with EConnect _ cn => if registers w cn then 1%nat else 0%nat | _ => 0%nat end.

Definition estep (e : event) : st -> st -> wlog -> Prop := tstep (fun w => ev_registers w e).

Lemma estep_of_wstep e s s' l : (forall w, ev_registers w e = 0%nat) -> wstep s s' l -> estep e s s' l.
Proof. intros He W I. destruct (W I) as [I' L]. split; [exact I'|]. intros w n H. rewrite He, Nat.add_0_r in H. now apply L. Qed.

Lemma finish_w_step c s r :
  gframe s (hres_st r) -> wstep s (fst (fst (finish_w c r))) (snd (finish_w c r)).
Proof.
  intros G. destruct r as [s' o|s' o code|s' code]; cbn [hres_st finish_w] in *.
  - cbn [fst snd]. now apply wstep_gframe.
  - pose proof (fail_conn_w_step c code false s') as W.
    destruct (fail_conn_w c code false s') as [[s'' o'] l]. exact (wstep_l _ _ _ _ (wstep_gframe _ _ G) W).
  - exact (wstep_l _ _ _ _ (wstep_gframe _ _ G) (fail_conn_w_step c code true s')).
Qed.

Lemma send_unconnected_w_step c k p s :
  nget c (b_conns s) = Some k ->
  wstep s (fst (fst (send_unconnected_w c k p s))) (snd (send_unconnected_w c k p s)).
Proof.
  intros Hk. unfold send_unconnected_w. destruct (k_phase k) eqn:Hph; try apply wstep_refl.
  - cbn [fst snd]. apply wstep_gframe. eapply gframe_upd_self; [exact Hk| |reflexivity].
    unfold attachedb. rewrite k_phase_set_phase, Hph. reflexivity.
  - destruct p; try apply wstep_refl.
    destruct ((k_v k =? 5) && (0 <? qos)); [|apply wstep_refl].
    destruct (k_quota k =? 0).
    + pose proof (conn_gone_w_step c s) as (W0 & _). exact W0.
    + cbn [fst snd]. apply wstep_gframe. eapply gframe_upd_self; [exact Hk| |]; reflexivity.
  - destruct p; try apply wstep_refl.
    destruct ((k_v k =? 5) && (0 <? qos)); [|apply wstep_refl].
    pose proof (conn_gone_w_step c s) as (W0 & _). exact W0.
Qed.

Lemma step_event_w_estep s e : estep e s (fst (fst (step_event_w s e))) (snd (step_event_w s e)).
Proof.
  (* only CONNECT registers a will *)
  destruct e; cbn [step_event_w]; try (apply estep_of_wstep; [reflexivity|]).
  - (* CONNECT *)
    destruct (conn_gone_w_step c s) as (W0 & A0 & _).
    destruct (conn_gone_w c s) as [[s0 o0] l0]. cbn [fst snd] in W0, A0.
    pose proof (handle_connect_w_step c cn s0 A0) as H1. cbn [handle_connect_w].
    destruct (handle_connect c cn s0) as [s1 o1]. exact (tstep_trans _ _ _ _ _ _ _ (wstep_tstep _ _ _ W0) H1).
  - (* OPEN *)
    pose proof (conn_gone_w_step c s) as (W0 & A0 & _). cbv zeta in W0, A0.
    destruct (conn_gone_w c s) as [[s0 o0] l0]. cbn [fst snd] in *.
    rewrite <- (app_nil_r l0). eapply wstep_trans; [exact W0|]. apply wstep_gframe.
    apply gframe_upd_conn. rewrite A0. reflexivity.
  - (* a packet *)
    destruct (nget c (b_conns s)) as [k|] eqn:Hk; [|apply wstep_refl].
    destruct (k_phase k) eqn:Hph; try (now apply send_unconnected_w_step).
    apply finish_w_step. now apply handle_packet_gframe.
  - (* a packet with its size *)
    destruct (nget c (b_conns s)) as [k|] eqn:Hk; [|apply wstep_refl].
    destruct (k_phase k) eqn:Hph; try (now apply send_unconnected_w_step).
    apply finish_w_step. now apply handle_packet_sz_gframe.
  - (* CLOSE *)
    pose proof (conn_gone_w_step c s) as (W0 & _). cbv zeta in W0.
    destruct (conn_gone_w c s) as [[s0 o0] l0]. exact W0.
  - (* API publish *)
    pose proof (deliver_frame [] m s) as [F _]. destruct (deliver [] m s) as [[s' o] mt]. cbn [fst snd] in *.
    apply wstep_gframe. now apply dframe_gframe.
  - (* terminate *)
    destruct (aget cid (b_online s)) as [c|] eqn:Eon.
    + destruct (nget c (b_conns s)) as [k|] eqn:Hk; [|apply wstep_refl].
      destruct (conn_gone_w_step c (upd_conn c (set_force k) s)) as (W0 & _).
      eapply wstep_l; [|exact W0]. apply wstep_gframe. eapply gframe_upd_self; [exact Hk| |]; reflexivity.
    + destruct (ahas cid (b_offline s)) eqn:Eoff; [|apply wstep_refl].
      intros I. revert I. eapply wstep_l; [|apply release_will_w_step].
      intros I. apply (remove_session_step cid s); [|exact I].
      intros c Hc. pose proof (wi_offline _ I _ _ Hc) as H. unfold ahas in Eoff. rewrite H in Eoff. discriminate.
  - (* advance *) cbn [fst snd]. apply wstep_gframe. apply gframe_same; reflexivity.
  - (* expiry check: no socket is attached to an expired session, so removing it moves no will; then the pending
       wills of the removed sessions are released *)
    cbv zeta. set (expired := filter (fun cd => snd cd <? b_now s) (b_offline s)). intros I.
    assert (W1 : (fun s0 => wstep s s0 [] /\ forall c, att s0 c = att s c)
                   (fold_left (fun s0 cd => remove_session (fst cd) s0) expired s)).
    { apply fold_left_In_inv; [|split; [apply wstep_refl|reflexivity]].
      intros s0 [cid d] Hin [W A]. split; [|exact A]. eapply wstep_l; [exact W|].
      apply remove_session_step. intros c Hc. rewrite A in Hc. apply filter_In in Hin as [Hin _].
      pose proof (wi_offline _ I _ _ Hc) as H. apply aget_none in H. apply H. apply in_map_iff. now exists (cid, d). }
    revert I. apply fold_wstep; [|apply W1]. intros s0 o0 l0 cd.
    pose proof (release_will_w_step (fst cd) s0) as W. destruct (release_will_w (fst cd) s0) as [[s' o'] l']. exists l'. now split.
  - (* sleep: keep-alive timeouts, then the will timer *)
    cbv zeta. set (s0 := set_time (b_now s + ms) (b_rt s + ms) s).
    match goal with |- context [fold_left ?f (b_conns s0) ?a] => set (F := fold_left f (b_conns s0) a) end.
    assert (W1 : wstep s (fst (fst F)) (snd F)).
    { apply fold_wstep; [|apply wstep_gframe, gframe_same; reflexivity]. intros sa oa la ck. cbv zeta.
      assert (Hn : exists l', snd (sa, oa, la) = la ++ l' /\ wstep sa (fst (fst (sa, oa, la))) l')
        by (exists []; rewrite app_nil_r; split; [reflexivity|apply wstep_refl]).
      destruct (k_phase (snd ck)); try exact Hn;
        (destruct ((0 <? k_keepalive (snd ck)) && _); [|exact Hn]);
        destruct (conn_gone_w_step (fst ck) sa) as (W & _); destruct (conn_gone_w (fst ck) sa) as [[sb' ob] lb];
        exists lb; now split. }
    clearbody F. destruct F as [[s1 o1] l1]. cbn [fst snd] in W1.
    pose proof (fire_wills_w_step s1) as W2. destruct (fire_wills_w s1) as [[s2 o2] l2]. cbn [fst snd] in *.
    exact (wstep_trans _ _ _ _ _ W1 W2).
  - apply wstep_refl.
Qed.

Lemma step_w_estep s e : estep e s (fst (fst (step_w s e))) (snd (step_w s e)).
Proof.
  unfold step_w. pose proof (step_event_w_estep s e) as H.
  destruct (step_event_w s e) as [[s1 o1] l]. cbn [fst snd] in H.
  pose proof (poll_all_frame s1) as [F _]. destruct (poll_all s1) as [s2 o2]. cbn [fst snd] in *.
  exact (tstep_gframe _ _ _ _ _ H (dframe_gframe _ _ F)).
Qed.

(* the number of CONNECT packets in the history that carry the will w *)
Fixpoint reg_count (w : msg) (es : list event) : nat :=
  match es with [] => 0%nat | e :: r => (ev_registers w e + reg_count w r)%nat end.

Theorem run_w_inv : forall es s,
  winv s ->
  winv (fst (fst (run_w s es))) /\
  forall w n, le1 w s (n + reg_count w es) -> le1 w (fst (fst (run_w s es))) (n + cnt w (snd (run_w s es))).
Proof.
  induction es as [|e r IH]; intros s; cbn [run_w reg_count].
  - intros I. split; [exact I|]. intros w n H. exact H.
  - pose proof (step_w_estep s e) as H1. destruct (step_w s e) as [[s' o] l1].
    specialize (IH s'). destruct (run_w s' r) as [[s'' os] l2]. exact (tstep_trans _ _ _ _ _ _ _ H1 IH).
Qed.

(* Along any event list, from any state that satisfies the invariants and in which the will w lives
   nowhere: if at most one CONNECT of the history registers w, then send_will is applied to w at most once;
   and if none does, never. *)
Theorem C08_at_most_once es s w :
  winv s -> NoH w s -> (reg_count w es <= 1)%nat -> (cnt w (snd (run_w s es)) <= 1)%nat.
Proof.
  intros I Hn Hr. destruct (run_w_inv es s I) as [_ L].
  assert (H0 : le1 w s (0 + reg_count w es)).
  { destruct (reg_count w es) as [|[|k]]; [left; split; [reflexivity|now apply NoH_AMO]|right; now split|lia]. }
  apply L in H0. apply le1_bound in H0. exact H0.
Qed.

Theorem C08_never_unregistered es s w :
  winv s -> NoH w s -> reg_count w es = 0%nat -> cnt w (snd (run_w s es)) = 0%nat.
Proof.
  intros I Hn Hr. destruct (run_w_inv es s I) as [_ L].
  assert (H1 : le1 w s (1 + reg_count w es)) by (rewrite Hr; right; now split).
  apply L in H1. apply le1_bound in H1. lia.
Qed.

Lemma winv_init cfg h picks : winv (st_init cfg h picks).
Proof. constructor; cbn; try constructor; intros c cid H; discriminate. Qed.

Lemma NoH_init w cfg h picks : NoH w (st_init cfg h picks).
Proof. split; [intros c (cid & H & _); discriminate|intros cid [t H]; discriminate]. Qed.

Corollary C08_at_most_once_from_start cfg h picks es w :
  (reg_count w es <= 1)%nat -> (cnt w (snd (run_w (st_init cfg h picks) es)) <= 1)%nat.
Proof. intros H. apply C08_at_most_once; [apply winv_init|apply NoH_init|exact H]. Qed.

Definition ex_W : str := [119].      (* "w": the client with a will *)
Definition ex_will (payload : str) (props : list prop) : willspec :=
  {| w_topic := ex_T; w_payload := payload; w_qos := 1; w_retain := false; w_props := props |}.

Definition ex_sub_events : list event :=
  [EConnect 1 (ex_connect 4 ex_S true None []);
   ESend 1 (KSubscribe 1 [] [{| tq_name := ex_T; tq_qos := 1; tq_nl := false; tq_rap := false; tq_rh := 0 |}])].

(* a v5 client with a will of delay 5 s and a session of 100 s *)
Definition ex_will_connect : event :=
  EConnect 2 (ex_connect 5 ex_W false (Some (ex_will [7] [PWillDelay 5])) [PSei 100]).
(* a v3 client with a will (no delay, no stored session when clean) *)
Definition ex_will_connect3 : event := EConnect 2 (ex_connect 4 ex_W true (Some (ex_will [8] [])) []).

Definition ex_wstate : st := fst (run (st_init ex_cfg no_hooks []) (ex_sub_events ++ [ex_will_connect])).
Definition ex_wstate3 : st := fst (run (st_init ex_cfg no_hooks []) (ex_sub_events ++ [ex_will_connect3])).
Definition ex_wmsg : msg := will_msg (ex_will [7] [PWillDelay 5]).
Definition ex_wmsg3 : msg := will_msg (ex_will [8] []).

Definition count_to_sub (o : list (list out)) : nat :=
  length (filter (fun x => match x with OSend 1 (KPublish _ _ _ _ _ _ _) => true | _ => false end) (concat o)).

(* the hypotheses of will_pending hold for the v5 client when its socket is lost, those of will_immediate for the
   v3 client *)
Example ex_will_pending_hyps :
  exists k se, nget 2 (b_conns ex_wstate) = Some k /\ aget (k_cid k) (b_sessions ex_wstate) = Some se /\
               se_will se = Some ex_wmsg /\ k_clean_will k = false /\ ur_delay k se ex_wstate = 5 /\ ur_store k se ex_wstate = true.
Proof. eexists _, _. split; [vm_compute; reflexivity|]. split; [vm_compute; reflexivity|]. vm_compute. repeat split. Qed.

Example ex_will_immediate_hyps :
  exists k se, nget 2 (b_conns ex_wstate3) = Some k /\ aget (k_cid k) (b_sessions ex_wstate3) = Some se /\
               se_will se = Some ex_wmsg3 /\ k_clean_will k = false /\ ur_store k se ex_wstate3 = false.
Proof. eexists _, _. split; [vm_compute; reflexivity|]. split; [vm_compute; reflexivity|]. vm_compute. repeat split. Qed.

(* the socket is lost: nothing yet; 6 s later the will is published once; later sleeps publish nothing more *)
Example ex_delayed_will :
  map count_to_sub [snd (run ex_wstate [EClose 2]); snd (run ex_wstate [EClose 2; ESleep 4000]);
                    snd (run ex_wstate [EClose 2; ESleep 4000; ESleep 2000]);
                    snd (run ex_wstate [EClose 2; ESleep 4000; ESleep 2000; ESleep 10000])] = [0; 0; 1; 1]%nat.
Proof. vm_compute. reflexivity. Qed.

(* the client comes back within the delay and resumes its session: the will is never published *)
Example ex_resume_cancels :
  count_to_sub (snd (run ex_wstate [EClose 2; ESleep 4000; EConnect 3 (ex_connect 5 ex_W false None [PSei 100]);
                                    ESleep 10000; ESleep 10000])) = 0%nat /\
  aget ex_W (b_wills (fst (run ex_wstate [EClose 2]))) <> None /\
  aget ex_W (b_wills (fst (run ex_wstate [EClose 2; ESleep 4000; EConnect 3 (ex_connect 5 ex_W false None [PSei 100])]))) = None.
Proof. vm_compute. repeat split. discriminate. Qed.

(* a clean start discards the session: the pending will is published at once, exactly once *)
Example ex_clean_start_sends :
  count_to_sub (snd (run ex_wstate [EClose 2; ESleep 1000; EConnect 3 (ex_connect 5 ex_W true None []);
                                    ESleep 10000])) = 1%nat.
Proof. vm_compute. reflexivity. Qed.

(* a normal DISCONNECT suppresses the will, DISCONNECT with reason code 4 does not *)
Example ex_disconnect :
  count_to_sub (snd (run ex_wstate [ESend 2 (KDisconnect 0 []); EClose 2; ESleep 10000])) = 0%nat /\
  count_to_sub (snd (run ex_wstate [ESend 2 (KDisconnect 4 []); EClose 2; ESleep 10000])) = 1%nat /\
  count_to_sub (snd (run ex_wstate3 [ESend 2 (KDisconnect 0 []); EClose 2])) = 0%nat /\
  count_to_sub (snd (run ex_wstate3 [EClose 2])) = 1%nat.
Proof. vm_compute. repeat split. Qed.

(* the instrumented run on the whole history: the will is registered once and handed to send_will once *)
Definition ex_whist : list event :=
  ex_sub_events ++ [ex_will_connect; EClose 2; ESleep 4000; ESleep 2000; EConnect 3 (ex_connect 5 ex_W false None [PSei 100]);
                    EClose 3; ESleep 100000].
Example ex_ghost :
  reg_count ex_wmsg ex_whist = 1%nat /\ cnt ex_wmsg (snd (run_w (st_init ex_cfg no_hooks []) ex_whist)) = 1%nat.
Proof. vm_compute. split; reflexivity. Qed.

(* the protocol-error DISCONNECT (session expiry asked for after CONNECT asked for none) is not recorded: the
   handler returns before it stores anything, the will stays armed and is published when the socket goes *)
Definition ex_will_connect0 : event := EConnect 2 (ex_connect 5 ex_W true (Some (ex_will [9] [])) []).
Definition ex_wstate0 : st := fst (run (st_init ex_cfg no_hooks []) (ex_sub_events ++ [ex_will_connect0])).
Example ex_disconnect_not_recorded :
  (exists k, nget 2 (b_conns ex_wstate0) = Some k /\ disc_recorded k [PSei 10] ex_wstate0 = false) /\
  count_to_sub (snd (run ex_wstate0 [ESend 2 (KDisconnect 0 [PSei 10]); EClose 2])) = 1%nat.
Proof. split; [eexists; split; vm_compute; reflexivity|vm_compute; reflexivity]. Qed.
