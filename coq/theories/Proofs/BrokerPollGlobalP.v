(* C03 over whole runs of the broker model (Model/Broker.v): the invariant PollInv of Proofs/BrokerPollP.v
   (packet id limiter = in-flight part of the session queue, ids distinct and non-zero, bounded window) holds
   for every attached connection of every state reached by a well-behaved run.
   The global invariant GInv joins the structural invariant BInv (Proofs/BrokerInvP.v), AllPoll, the queue
   shape QInv of every stored queue (so that a resume finds what connect needs), and "stored messages carry
   no packet id" for retained messages and wills. *)
From Coq Require Import List NArith ZArith Bool Arith Lia.
Import ListNotations.
From GM Require Import Base.Topic Base.Msg Model.SubTrie Model.RetTrie Model.Queue Model.Limiter
                       Model.TopicMatch Model.Broker Proofs.ListP Proofs.AssocP Proofs.TopicP Proofs.SubTrieP Proofs.LimiterP Proofs.QueueP
                       Proofs.BrokerBasicP Proofs.BrokerInvP Proofs.BrokerPollP.
From GM Require Proofs.BrokerQos2P.
Open Scope N_scope.

(* `attached` is BrokerPollP.attached (conn -> Prop); the boolean on phases is BrokerInvP.attached *)
Notation pattached := BrokerPollP.attached.
Notation battached := BrokerInvP.attached.

Lemma pattached_b k : pattached k <-> battached (k_phase k) = true.
Proof. unfold BrokerPollP.attached, BrokerInvP.attached. destruct (k_phase k); split; intros H; try tauto; try discriminate; destruct H; discriminate. Qed.

Lemma BInv_ndo s : BInv s -> NoDup (map fst (b_online s)).
Proof. intros H. apply (bi_nd_on _ _ H). Qed.

Lemma aget_None_notin {V} k (v : V) l : aget k l = None -> ~ In (k, v) l.
Proof.
  induction l as [|[k0 v0] r IH]; cbn [aget In]; [tauto|].
  destruct (str_eqb_spec k k0) as [E|E]; [discriminate|]. intros H [H1|H1]; [congruence|now apply IH].
Qed.

(* the parts of a connection record the invariant CQ reads (and the client id) *)
Definition cqe (k k' : conn) : Prop :=
  k_cid k' = k_cid k /\ k_lim k' = k_lim k /\ k_held k' = k_held k /\ k_drained k' = k_drained k /\
  k_max_inflight k' = k_max_inflight k /\ k_client_max_packet k' = k_client_max_packet k /\ k_v k' = k_v k /\
  k_client_alias_max k' = k_client_alias_max k /\ am_max (k_alias_out k') = am_max (k_alias_out k).

Lemma cqe_refl k : cqe k k.
Proof. unfold cqe. auto 10. Qed.

Lemma CQ_cqe w k k' q b inf que : cqe k k' -> CQ w k q b inf que -> CQ w k' q b inf que.
Proof. intros (_ & Hl & Hh & Hd & Hmi & Hmp & Hv & Ham & Hamx). now apply CQ_fields. Qed.

Lemma cqe_set_quota q k : cqe k (set_quota q k). Proof. unfold cqe; cbn; auto 10. Qed.
Lemma cqe_set_alias_in a k : cqe k (set_alias_in a k). Proof. unfold cqe; cbn; auto 10. Qed.
Lemma cqe_set_disc cw sei k : cqe k (set_disc cw sei k). Proof. unfold cqe; cbn; auto 10. Qed.
Lemma cqe_set_force k : cqe k (set_force k). Proof. unfold cqe; cbn; auto 10. Qed.
Lemma cqe_set_zombie k : cqe k (set_phase PhZombie k). Proof. unfold cqe; cbn; auto 10. Qed.

Lemma CQ_close w k q b inf que : CQ w k q b inf que -> CQ w k (q_close q) b inf que.
Proof.
  intros [H1 H2 H3 H4 H5 H6 H7 H8 H9 H10 H11 H12]. constructor; auto. now apply QInv_close.
Qed.

(* every stored queue has the queue shape (for the tag counter of the state) *)
Definition QS (s : st) : Prop :=
  forall cid q, In (cid, q) (b_queues s) -> exists inf que, QInv q (b_tag s) inf que.

(* stored messages carry no packet id: retained messages, the wills of the sessions, delayed wills *)
Definition ret_pz (d : rdb) : Prop := forall m, In m (rdb_all d) -> m_pid m = 0.
Definition sess_pz (l : list (str * session)) : Prop :=
  forall cid se w, In (cid, se) l -> se_will se = Some w -> m_pid w = 0.
Definition wills_pz (l : list (str * (msg * N))) : Prop :=
  forall cid w t, In (cid, (w, t)) l -> m_pid w = 0.
Definition PZ (s : st) : Prop := ret_pz (b_ret s) /\ sess_pz (b_sessions s) /\ wills_pz (b_wills s).

(* the window of an attached connection never exceeds the configured max_inflight *)
Definition KW (s : st) : Prop :=
  forall c k, nget c (b_conns s) = Some k -> pattached k -> k_max_inflight k <= c_max_inflight (b_cfg s).

Record J (w : bool) (s : st) : Prop := {
  j_poll : AllPoll w s;
  j_qs : QS s;
  j_pz : PZ s;
  j_tag : b_tag s <> 0;
  j_cfg : c_max_inflight (b_cfg s) <= MAXPID;
  j_kw : KW s }.

Lemma KW_same s s' : b_conns s' = b_conns s -> b_cfg s' = b_cfg s -> KW s -> KW s'.
Proof. unfold KW. now intros -> ->. Qed.

Lemma KW_upd_conn c k k' s :
  KW s -> nget c (b_conns s) = Some k -> k_max_inflight k' = k_max_inflight k -> (pattached k' -> pattached k) ->
  KW (upd_conn c k' s).
Proof.
  intros HK Hk He Hat c2 k2 Hk2 Hat2. proj. destruct (N.eq_dec c2 c) as [->|Hne].
  - rewrite nget_upd_eq in Hk2. inversion Hk2; subst k2. rewrite He. eapply HK; eauto.
  - rewrite nget_upd_ne in Hk2 by exact Hne. eapply HK; eauto.
Qed.

Lemma KW_upd_detached c k' s : KW s -> ~ pattached k' -> KW (upd_conn c k' s).
Proof.
  intros HK Hn c2 k2 Hk2 Hat2. proj. destruct (N.eq_dec c2 c) as [->|Hne].
  - rewrite nget_upd_eq in Hk2. inversion Hk2; subst k2. contradiction.
  - rewrite nget_upd_ne in Hk2 by exact Hne. eapply HK; eauto.
Qed.

Definition GInv (w : bool) (s : st) : Prop := BInv s /\ J w s.

(* PollInv reads only these parts of the state *)
Lemma PollInv_same w s s' c :
  b_conns s' = b_conns s -> b_queues s' = b_queues s -> b_online s' = b_online s -> b_tag s' = b_tag s ->
  PollInv w s c -> PollInv w s' c.
Proof. unfold PollInv. now intros -> -> -> ->. Qed.

Lemma AllPoll_same w s s' :
  b_conns s' = b_conns s -> b_queues s' = b_queues s -> b_online s' = b_online s -> b_tag s' = b_tag s ->
  AllPoll w s -> AllPoll w s'.
Proof.
  intros Hc Hq Ho Ht HA c k Hk Hat. rewrite Hc in Hk. eapply PollInv_same; eauto.
Qed.

Lemma QS_same s s' : b_queues s' = b_queues s -> b_tag s' = b_tag s -> QS s -> QS s'.
Proof. unfold QS. now intros -> ->. Qed.

Lemma PZ_same s s' :
  b_ret s' = b_ret s -> b_sessions s' = b_sessions s -> b_wills s' = b_wills s -> PZ s -> PZ s'.
Proof. unfold PZ. now intros -> -> ->. Qed.

Lemma J_same w s s' :
  b_conns s' = b_conns s -> b_queues s' = b_queues s -> b_online s' = b_online s -> b_tag s' = b_tag s ->
  b_ret s' = b_ret s -> b_sessions s' = b_sessions s -> b_wills s' = b_wills s -> b_cfg s' = b_cfg s ->
  J w s -> J w s'.
Proof.
  intros Hc Hq Ho Ht Hr Hs Hw Hcf [H1 H2 H3 H4 H5 H6]. constructor.
  - eapply AllPoll_same; eauto.
  - eapply QS_same; eauto.
  - eapply PZ_same; eauto.
  - now rewrite Ht.
  - now rewrite Hcf.
  - eapply KW_same; eauto.
Qed.

(* a connection record is rewritten without touching what CQ reads *)
Lemma PollInv_upd_self w c k k' s :
  PollInv w s c -> nget c (b_conns s) = Some k -> cqe k k' -> PollInv w (upd_conn c k' s) c.
Proof.
  intros HP Hk He. destruct (PollInv_at w s c k HP Hk) as (q & inf & que & Hq & Hon & Hun & Htag & HCQ).
  pose proof He as (Hcid & _).
  exists k', q, inf, que. proj. rewrite nget_nset_same, Hcid.
  split; [reflexivity|]. split; [exact Hq|]. split; [exact Hon|]. split; [exact Hun|]. split; [exact Htag|].
  eapply CQ_cqe; eauto.
Qed.

Lemma PollInv_upd_other w c c2 k' s : c2 <> c -> PollInv w s c2 -> PollInv w (upd_conn c k' s) c2.
Proof.
  intros Hne (k0 & q & inf & que & Hk0 & Hq & Hon & Hun & Htag & HCQ).
  exists k0, q, inf, que. proj. rewrite nget_nset_other by exact Hne. auto 10.
Qed.

Lemma AllPoll_upd_conn w c k k' s :
  AllPoll w s -> nget c (b_conns s) = Some k -> cqe k k' -> (pattached k' -> pattached k) -> AllPoll w (upd_conn c k' s).
Proof.
  intros HA Hk He Hat c2 k2 Hk2 Hat2. destruct (N.eq_dec c2 c) as [->|Hne].
  - rewrite nget_upd_eq in Hk2. inversion Hk2; subst k2. eapply PollInv_upd_self; eauto.
  - rewrite nget_upd_ne in Hk2 by exact Hne. apply PollInv_upd_other; [exact Hne|]. eapply HA; eauto.
Qed.

Lemma AllPoll_upd_detached w c k' s : AllPoll w s -> ~ pattached k' -> AllPoll w (upd_conn c k' s).
Proof.
  intros HA Hn c2 k2 Hk2 Hat2. destruct (N.eq_dec c2 c) as [->|Hne].
  - rewrite nget_upd_eq in Hk2. inversion Hk2; subst k2. contradiction.
  - rewrite nget_upd_ne in Hk2 by exact Hne. apply PollInv_upd_other; [exact Hne|]. eapply HA; eauto.
Qed.

Lemma J_upd_conn w c k k' s :
  J w s -> nget c (b_conns s) = Some k -> cqe k k' -> (pattached k' -> pattached k) -> J w (upd_conn c k' s).
Proof.
  intros [H1 H2 H3 H4 H5 H6] Hk He Hat. constructor; auto; [eapply AllPoll_upd_conn; eauto|].
  eapply KW_upd_conn; eauto. apply He.
Qed.

Lemma J_upd_detached w c k' s : J w s -> ~ pattached k' -> J w (upd_conn c k' s).
Proof. intros [H1 H2 H3 H4 H5 H6] Hn. constructor; auto; [now apply AllPoll_upd_detached|now apply KW_upd_detached]. Qed.

(* the receive-quota bump of the PUBLISH / PUBREL handlers *)
Lemma J_bump_quota w c s (b : conn -> bool) :
  J w s -> J w (match nget c (b_conns s) with
                | Some k1 => if b k1 then upd_conn c (set_quota (k_quota k1 + 1) k1) s else s
                | None => s
                end).
Proof.
  intros HJ. destruct (nget c (b_conns s)) as [k1|] eqn:E; [|exact HJ]. destruct (b k1); [|exact HJ].
  eapply J_upd_conn; eauto using cqe_set_quota.
Qed.

(* closing the queue store of a session *)
Lemma J_closed_q w cid s : J w s -> J w (closed_q cid s).
Proof.
  intros [HA HQ HP HT HC HK]. unfold closed_q. destruct (aget cid (b_queues s)) as [q|] eqn:Eq; [|constructor; auto].
  constructor; auto.
  - intros c k Hk Hat. proj_in Hk.
    destruct (PollInv_at w s c k (HA c k Hk Hat) Hk) as (q0 & inf & que & Hq0 & Hon & Hun & Htag & HCQ).
    exists k. destruct (str_eqb_spec (k_cid k) cid) as [E|E].
    + exists (q_close q), inf, que. proj. rewrite E, aget_aset_same. rewrite E, Eq in Hq0. injection Hq0 as <-.
      rewrite <- E. auto 10 using CQ_close.
    + exists q0, inf, que. proj. rewrite aget_aset_other by exact E. auto 10.
  - intros cid' q' Hin. proj_in Hin. proj.
    apply in_aset in Hin. destruct Hin as [Hin|Hin].
    + inversion Hin; subst. destruct (HQ cid q (aget_In _ _ _ Eq)) as (inf & que & H). exists inf, que. now apply QInv_close.
    + eauto.
Qed.

(* what add_to_queue and replay_retained do once Add has succeeded *)
Definition enq (cid : str) (q' : queue) (evs : list qev) (s : st) : st :=
  release_dropped cid evs (set_picks_tag (b_picks s) (b_tag s + 1) (set_queues (aset cid q' (b_queues s)) s)).

Lemma enq_proj cid q' evs s :
  b_queues (enq cid q' evs s) = aset cid q' (b_queues s) /\ b_online (enq cid q' evs s) = b_online s /\
  b_tag (enq cid q' evs s) = b_tag s + 1 /\ b_ret (enq cid q' evs s) = b_ret s /\
  b_sessions (enq cid q' evs s) = b_sessions s /\ b_wills (enq cid q' evs s) = b_wills s /\
  b_cfg (enq cid q' evs s) = b_cfg s.
Proof. unfold enq. repeat split; now rewrite release_dropped_field. Qed.

(* a connection record of the new state is one of the old state, up to its limiter *)
Lemma enq_conn cid q' evs s c k' : nget c (b_conns (enq cid q' evs s)) = Some k' ->
  exists k, nget c (b_conns s) = Some k /\ k_phase k' = k_phase k /\ k_max_inflight k' = k_max_inflight k.
Proof.
  intros H. change (nget c (b_conns (release_dropped cid evs (DeliverP.enq cid q' s))) = Some k') in H.
  destruct (release_dropped_conn cid evs (DeliverP.enq cid q' s) c) as [E|(k & _ & Hk & E)]; rewrite E in H.
  - exists k'. auto.
  - exists k. injection H as <-. auto.
Qed.

Lemma enq_AllPoll w cid q e q' evs now s :
  AllPoll w s -> b_tag s <> 0 -> aget cid (b_queues s) = Some q -> quedok e -> e_tag e = b_tag s ->
  q_add now e q = QOk (q', evs) -> AllPoll w (enq cid q' evs s).
Proof.
  intros HA Htag Hq He Het Hqa c2 k2 Hk2 Hat2. destruct (enq_conn _ _ _ _ _ _ Hk2) as (k & Hk & Hph & _).
  eapply enq_inv; eauto. apply (HA c2 k Hk). unfold BrokerPollP.attached in *. now rewrite <- Hph.
Qed.

Lemma enq_QS cid q e q' evs now s :
  QS s -> b_tag s <> 0 -> aget cid (b_queues s) = Some q -> quedok e -> e_tag e = b_tag s ->
  q_add now e q = QOk (q', evs) -> QS (enq cid q' evs s).
Proof.
  intros HQ Htag Hq He Het Hqa cid' q1 Hin.
  destruct (enq_proj cid q' evs s) as (Pq & _ & Pt & _). rewrite Pq in Hin. rewrite Pt.
  apply in_aset in Hin. destruct Hin as [Hin|Hin].
  - inversion Hin; subst cid' q1. destruct (HQ cid q (aget_In _ _ _ Hq)) as (inf & que & HI).
    destruct (q_add_inv now e q (b_tag s) inf que q' evs HI He Het Htag Hqa) as (_ & _ & [(que' & HI' & _)|(i & d & que' & _ & HI' & _)]); eauto.
  - destruct (HQ cid' q1 Hin) as (inf & que & HI). exists inf, que. eapply QInv_mono; [|exact HI]. lia.
Qed.

Lemma enq_J w cid q e q' evs now s :
  J w s -> aget cid (b_queues s) = Some q -> quedok e -> e_tag e = b_tag s ->
  q_add now e q = QOk (q', evs) -> J w (enq cid q' evs s).
Proof.
  intros [HA HQ HP HT HC HK] Hq He Het Hqa.
  destruct (enq_proj cid q' evs s) as (_ & _ & Pt & Pr & Ps & Pw & Pc).
  constructor.
  - eapply enq_AllPoll; eauto.
  - eapply enq_QS; eauto.
  - eapply PZ_same; eauto.
  - rewrite Pt. lia.
  - now rewrite Pc.
  - intros c k' Hk' Hat'. destruct (enq_conn _ _ _ _ _ _ Hk') as (k & Hk & Hph & Hmi).
    rewrite Pc, Hmi. apply (HK c k Hk). unfold BrokerPollP.attached in *. now rewrite <- Hph.
Qed.

Lemma add_to_queue_J w cid m sb ids s : J w s -> m_pid m = 0 -> J w (fst (add_to_queue cid m sb ids s)).
Proof.
  intros HJ Hpid. destruct (DeliverP.add_to_queue_cases cid m sb ids s) as [->|(q & q' & evs & Hq & _ & Hqa & ->)]; [exact HJ|].
  exact (enq_J w cid q _ q' evs _ s HJ Hq (aq_elem_quedok _ _ _ _ _ Hpid) eq_refl Hqa).
Qed.

Lemma J_count_pick w s : J w s -> J w (count_pick s).
Proof. apply J_same; reflexivity. Qed.
Lemma J_set_picks w r s : J w s -> J w (set_picks_tag r (b_tag s) s).
Proof. apply J_same; reflexivity. Qed.

Lemma deliver_J w src m s : J w s -> m_pid m = 0 -> J w (fst (fst (deliver src m s))).
Proof.
  intros HJ Hpid. apply (deliver_inv (J w)); auto using J_count_pick, J_set_picks.
  intros cid sb ids s0 H0. now apply add_to_queue_J.
Qed.

Definition ch_msgs (ch : list (level * rnode)) : list msg :=
  flat_map (fun p : level * rnode => let '(_, c) := p in r_traverse c) ch.

Lemma traverse_unfold n :
  r_traverse n = (match r_msg n with Some x => [x] | None => [] end) ++ ch_msgs (r_children n).
Proof. destruct n; reflexivity. Qed.

Lemma in_ch_msgs m ch : In m (ch_msgs ch) <-> exists lv c, In (lv, c) ch /\ In m (r_traverse c).
Proof.
  unfold ch_msgs. rewrite in_flat_map. split.
  - intros ([lv c] & H1 & H2). eauto.
  - intros (lv & c & H1 & H2). exists (lv, c). auto.
Qed.

Lemma in_traverse_child m n lv c : In (lv, c) (r_children n) -> In m (r_traverse c) -> In m (r_traverse n).
Proof. intros H1 H2. rewrite traverse_unfold. apply in_or_app. right. apply in_ch_msgs. eauto. Qed.

Lemma in_traverse_msg m n : r_msg n = Some m -> In m (r_traverse n).
Proof. intros H. rewrite traverse_unfold, H. now left. Qed.

Lemma in_traverse_add m m0 : forall p n, In m (r_traverse (r_add p m0 n)) -> m = m0 \/ In m (r_traverse n).
Proof.
  induction p as [|lv rest IH]; intros n H; cbn [r_add] in H; rewrite traverse_unfold in H; cbn [r_msg r_children] in H.
  - apply in_app_or in H. destruct H as [[H|[]]|H]; [now left|right].
    rewrite traverse_unfold. apply in_or_app. now right.
  - apply in_app_or in H. destruct H as [H|H].
    + right. rewrite traverse_unfold. apply in_or_app. now left.
    + apply in_ch_msgs in H. destruct H as (lv' & c' & Hin & Hm). apply in_aset in Hin. destruct Hin as [Hin|Hin].
      * inversion Hin; subst lv' c'. apply IH in Hm. destruct Hm as [Hm|Hm]; [now left|right].
        unfold r_child in Hm. destruct (aget lv (r_children n)) as [x|] eqn:E.
        -- eapply in_traverse_child; [eapply aget_In; exact E|exact Hm].
        -- destruct Hm.
      * right. exact (in_traverse_child m n lv' c' Hin Hm).
Qed.

Lemma in_traverse_remove m : forall p n, In m (r_traverse (r_remove p n)) -> In m (r_traverse n).
Proof.
  induction p as [|lv rest IH]; intros n H; cbn [r_remove] in H; [exact H|].
  unfold r_child in H. destruct (aget lv (r_children n)) as [ch|] eqn:E; [|exact H].
  assert (Hch : In (lv, ch) (r_children n)) by (eapply aget_In; exact E).
  assert (Hgen : forall X, (In m (r_traverse X) -> In m (r_traverse ch)) ->
                 In m (r_traverse (RNode (r_msg n) (aset lv X (r_children n)))) -> In m (r_traverse n)).
  { intros X HX H0. rewrite traverse_unfold in H0. cbn [r_msg r_children] in H0. apply in_app_or in H0. destruct H0 as [H0|H0].
    - rewrite traverse_unfold. apply in_or_app. now left.
    - apply in_ch_msgs in H0. destruct H0 as (lv' & c' & Hin & Hm). apply in_aset in Hin. destruct Hin as [Hin|Hin].
      + inversion Hin; subst lv' c'. eapply in_traverse_child; [exact Hch|auto].
      + exact (in_traverse_child m n lv' c' Hin Hm). }
  destruct rest as [|a r'].
  - destruct (r_children ch) as [|x xs] eqn:Ec.
    + rewrite traverse_unfold in H. cbn [r_msg r_children] in H. apply in_app_or in H. destruct H as [H|H].
      * rewrite traverse_unfold. apply in_or_app. now left.
      * apply in_ch_msgs in H. destruct H as (lv' & c' & Hin & Hm). apply in_adel in Hin. exact (in_traverse_child m n lv' c' Hin Hm).
    + apply (Hgen (RNode None (x :: xs))); [|exact H]. intros H0. rewrite traverse_unfold in H0. cbn [r_msg r_children app] in H0.
      rewrite traverse_unfold, Ec. apply in_or_app. now right.
  - apply (Hgen (r_remove (a :: r') ch)); [|exact H]. apply IH.
Qed.

Lemma in_match_traverse m : forall fs n, In m (r_match fs n) -> In m (r_traverse n).
Proof.
  induction fs as [|f rest IH]; intros n H; cbn [r_match] in H; [destruct H|].
  assert (Hsub : forall v, In m (match rest with [] => opt_list (r_msg v) | _ :: _ => r_match rest v end) -> In m (r_traverse v)).
  { intros v Hv. destruct rest as [|a r'].
    - unfold opt_list in Hv. destruct (r_msg v) as [x|] eqn:E; [|destruct Hv]. destruct Hv as [<-|[]]. now apply in_traverse_msg.
    - now apply IH. }
  destruct (is_hash f); [exact H|]. destruct (is_plus f).
  - apply in_flat_map in H. destruct H as ([lv v] & Hin & Hv). eapply in_traverse_child; [exact Hin|now apply Hsub].
  - unfold r_child in H. destruct (aget f (r_children n)) as [v|] eqn:E; [|destruct H].
    eapply in_traverse_child; [eapply aget_In; exact E|now apply Hsub].
Qed.

Lemma ret_pz_init : ret_pz rdb_init.
Proof. intros m H. destruct H. Qed.

Lemma rdb_all_set m name T d :
  In m (rdb_all (rdb_set name T d)) -> In m (r_traverse T) \/ In m (rdb_all d).
Proof.
  unfold rdb_all, rdb_set. destruct (starts_dollar name); cbn [r_user r_sys]; intros H; apply in_app_or in H;
    destruct H as [H|H]; auto; right; apply in_or_app; auto.
Qed.

Lemma in_trie_all m name d : In m (r_traverse (rdb_trie name d)) -> In m (rdb_all d).
Proof. unfold rdb_trie, rdb_all. intros H. apply in_or_app. destruct (starts_dollar name); auto. Qed.

Lemma ret_pz_step d (o : rop) : ret_pz d -> (forall m, o = RetTrie.RAdd m -> m_pid m = 0) -> ret_pz (rdb_step d o).
Proof.
  intros Hd Ho m Hin. destruct o as [m0|t|]; cbn [rdb_step] in Hin.
  - apply rdb_all_set in Hin. destruct Hin as [Hin|Hin]; [|now apply Hd].
    apply in_traverse_add in Hin. destruct Hin as [->|Hin]; [now apply Ho|]. apply Hd. eapply in_trie_all; eauto.
  - apply rdb_all_set in Hin. destruct Hin as [Hin|Hin]; [|now apply Hd].
    apply in_traverse_remove in Hin. apply Hd. eapply in_trie_all; eauto.
  - destruct Hin.
Qed.

Lemma ret_pz_matched d f m : ret_pz d -> In m (rdb_matched f d) -> m_pid m = 0.
Proof. intros Hd Hin. apply Hd. unfold rdb_matched in Hin. apply in_match_traverse in Hin. eapply in_trie_all; eauto. Qed.

Lemma retain_update_J w m s : J w s -> m_pid m = 0 -> J w (retain_update m s).
Proof.
  intros [HA HQ (HP1 & HP2 & HP3) HT HC HK] Hpid. unfold retain_update. destruct (m_retained m); [|constructor; auto; repeat split; auto].
  constructor; [eapply AllPoll_same; eauto; reflexivity|exact HQ| |exact HT|exact HC|exact HK].
  split; [|split; auto]. rewrite BrokerQos2P.b_ret_set_ret. apply ret_pz_step; [exact HP1|].
    unfold retain_op. intros m1 E. destruct (m_payload m); inversion E; subst; exact Hpid.
Qed.

(* the will of a session that ends (sendWillLocked) *)
Lemma send_will_J w cid m s : J w s -> m_pid m = 0 -> J w (fst (send_will cid m s)).
Proof.
  intros HJ Hpid. unfold send_will. destruct (will_action cid s) as [|code| |t p q]; try exact HJ.
  - pose proof (deliver_J w cid m (retain_update m s) (retain_update_J w m s HJ Hpid) Hpid) as H.
    destruct (deliver cid m (retain_update m s)) as [[s' o] b]. exact H.
  - set (m' := with_topic_payload_qos t p q m).
    assert (Hp' : m_pid m' = 0) by exact Hpid.
    pose proof (deliver_J w cid m' (retain_update m' s) (retain_update_J w m' s HJ Hp') Hp') as H.
    destruct (deliver cid m' (retain_update m' s)) as [[s' o] b]. exact H.
Qed.

Lemma wills_pz_adel cid l : wills_pz l -> wills_pz (adel cid l).
Proof. intros H c w t Hin. apply in_adel in Hin. eauto. Qed.
Lemma wills_pz_aset cid w t l : wills_pz l -> m_pid w = 0 -> wills_pz (aset cid (w, t) l).
Proof. intros H Hw c w' t' Hin. apply in_aset in Hin. destruct Hin as [Hin|Hin]; [inversion Hin; subst; exact Hw|eauto]. Qed.
Lemma sess_pz_adel cid l : sess_pz l -> sess_pz (adel cid l).
Proof. intros H c se w Hin. apply in_adel in Hin. eauto. Qed.
Lemma sess_pz_aset cid se l : sess_pz l -> (forall w, se_will se = Some w -> m_pid w = 0) -> sess_pz (aset cid se l).
Proof. intros H Hs c se' w' Hin. apply in_aset in Hin. destruct Hin as [Hin|Hin]; [inversion Hin; subst; apply Hs|eauto]. Qed.

Lemma J_set_wills w wl s : J w s -> wills_pz wl ->
  J w (set_tables (b_sessions s) (b_online s) (b_offline s) wl (b_queues s) (b_unacks s) s).
Proof.
  intros [HA HQ (HP1 & HP2 & HP3) HT HC HK] Hw.
  constructor; [eapply AllPoll_same; eauto; reflexivity|exact HQ| |exact HT|exact HC|exact HK].
  repeat split; auto.
Qed.

Lemma J_wills_pz w s : J w s -> wills_pz (b_wills s).
Proof. intros [_ _ (_ & _ & H) _ _]. exact H. Qed.
Lemma J_sess_pz w s : J w s -> sess_pz (b_sessions s).
Proof. intros [_ _ (_ & H & _) _ _]. exact H. Qed.
Lemma J_ret_pz w s : J w s -> ret_pz (b_ret s).
Proof. intros [_ _ (H & _ & _) _ _]. exact H. Qed.

Lemma release_will_J w cid s : J w s -> J w (fst (release_will cid s)).
Proof.
  intros HJ. unfold release_will. destruct (aget cid (b_wills s)) as [[wm t]|] eqn:E; [|exact HJ].
  apply send_will_J.
  - apply J_set_wills; [exact HJ|]. apply wills_pz_adel. now apply (J_wills_pz w).
  - eapply (J_wills_pz w s HJ). eapply aget_In; exact E.
Qed.

(* the registration tables change, the connections do not *)
Lemma AllPoll_tables w s s' :
  AllPoll w s -> b_conns s' = b_conns s -> b_tag s' = b_tag s ->
  (forall c k, nget c (b_conns s) = Some k -> pattached k ->
     aget (k_cid k) (b_queues s') = aget (k_cid k) (b_queues s) /\
     aget (k_cid k) (b_online s') = aget (k_cid k) (b_online s)) ->
  (forall cid' c k, nget c (b_conns s) = Some k -> pattached k ->
     aget cid' (b_online s') = Some c -> aget cid' (b_online s) = Some c) ->
  AllPoll w s'.
Proof.
  intros HA Hc Ht H1 H2 c k Hk Hat. rewrite Hc in Hk.
  destruct (PollInv_at w s c k (HA c k Hk Hat) Hk) as (q & inf & que & Hq & Hon & Hun & Htag & HCQ).
  destruct (H1 c k Hk Hat) as [E1 E2].
  exists k, q, inf, que. rewrite Hc, Ht, E1, E2.
  split; [exact Hk|]. split; [exact Hq|]. split; [exact Hon|]. split; [|split; [exact Htag|exact HCQ]].
  intros cid' Hc'. apply Hun. eapply H2; eauto.
Qed.

(* no attached connection belongs to client id cid *)
Definition NoAtt (cid : str) (s : st) : Prop :=
  forall c k, nget c (b_conns s) = Some k -> pattached k -> k_cid k <> cid.

Lemma NoAtt_offline w cid s : AllPoll w s -> aget cid (b_online s) = None -> NoAtt cid s.
Proof.
  intros HA Hoff c k Hk Hat E. destruct (PollInv_at w s c k (HA c k Hk Hat) Hk) as (q & inf & que & _ & Hon & _).
  rewrite E in Hon. congruence.
Qed.

Lemma NoAtt_closed w cid c0 k0 s :
  AllPoll w s -> aget cid (b_online s) = Some c0 -> nget c0 (b_conns s) = Some k0 -> ~ pattached k0 -> NoAtt cid s.
Proof.
  intros HA Hon0 Hk0 Hn c k Hk Hat E. destruct (PollInv_at w s c k (HA c k Hk Hat) Hk) as (q & inf & que & _ & Hon & _).
  rewrite E, Hon0 in Hon. injection Hon as ->. rewrite Hk in Hk0. injection Hk0 as <-. contradiction.
Qed.

Lemma aget_adel_Some {V} k k' (v : V) l : NoDup (map fst l) -> aget k' (adel k l) = Some v -> k' <> k /\ aget k' l = Some v.
Proof.
  intros Hnd H. rewrite aget_adel in H by exact Hnd. destruct (str_eqb_spec k' k) as [E|E]; [discriminate|]. auto.
Qed.

Lemma remove_session_J w cid s :
  J w s -> NoDup (map fst (b_online s)) -> NoAtt cid s -> J w (remove_session cid s).
Proof.
  intros [HA HQ (HP1 & HP2 & HP3) HT HC HK] Hnd Hna.
  constructor; [| | |exact HT|exact HC|exact HK].
  - apply (AllPoll_tables w s); [exact HA|reflexivity|reflexivity| |].
    + intros c k Hk Hat. pose proof (Hna c k Hk Hat) as Hne. cbn [remove_session set_subs set_tables b_queues b_online].
      rewrite !aget_adel_other by exact Hne. auto.
    + intros cid' c k Hk Hat H. cbn [remove_session set_subs set_tables b_online] in H.
      apply aget_adel_Some in H; [tauto|exact Hnd].
  - intros cid' q Hin. cbn [remove_session set_subs set_tables b_queues] in Hin. apply in_adel in Hin.
    destruct (HQ cid' q Hin) as (inf & que & HI). exists inf, que. exact HI.
  - split; [exact HP1|]. split; [|exact HP3]. cbn [remove_session set_subs set_tables b_sessions]. now apply sess_pz_adel.
Qed.

Lemma store_tables_J w cid se expiry s :
  J w s -> NoDup (map fst (b_online s)) -> NoAtt cid s -> (forall w0, se_will se = Some w0 -> m_pid w0 = 0) ->
  J w (store_tables cid se expiry s).
Proof.
  intros [HA HQ (HP1 & HP2 & HP3) HT HC HK] Hnd Hna Hse.
  constructor; [| | |exact HT|exact HC|exact HK].
  - apply (AllPoll_tables w s); [exact HA|reflexivity|reflexivity| |].
    + intros c k Hk Hat. pose proof (Hna c k Hk Hat) as Hne. cbn [store_tables set_tables b_queues b_online].
      rewrite aget_adel_other by exact Hne. auto.
    + intros cid' c k Hk Hat H. cbn [store_tables set_tables b_online] in H.
      apply aget_adel_Some in H; [tauto|exact Hnd].
  - exact HQ.
  - split; [exact HP1|]. split; [|exact HP3]. cbn [store_tables set_tables b_sessions]. apply sess_pz_aset; [exact HP2|exact Hse].
Qed.

Lemma ur_will_J w cid k se expiry store s :
  J w s -> (forall w0, se_will se = Some w0 -> m_pid w0 = 0) -> J w (fst (ur_will cid k se expiry store s)).
Proof.
  intros HJ Hse. unfold ur_will. destruct (se_will se) as [wm|]; [|exact HJ].
  destruct (k_clean_will k); [exact HJ|]. cbv zeta.
  match goal with |- context [if ?b then (set_tables _ _ _ _ _ _ _, []) else _] => destruct b end.
  - cbn [fst]. apply J_set_wills; [exact HJ|]. apply wills_pz_aset; [now apply (J_wills_pz w)|now apply Hse].
  - apply send_will_J; [exact HJ|now apply Hse].
Qed.

Lemma not_attached_closed k : ~ pattached (set_phase PhClosed k).
Proof. intros [H|H]; discriminate. Qed.

Lemma kview_phase k k' : kview k' = kview k -> k_phase k' = k_phase k.
Proof. unfold kview. congruence. Qed.

Lemma conn_gone_J w c s : NoDup (map fst (b_online s)) -> J w s -> J w (fst (conn_gone c s)).
Proof.
  intros Hnd HJ. destruct (nget c (b_conns s)) as [k|] eqn:Hk; [|unfold conn_gone; now rewrite Hk].
  destruct (battached (k_phase k)) eqn:Ha.
  - rewrite (conn_gone_att c k s Hk Ha). cbn [fst].
    set (k' := set_phase PhClosed k). set (cid := k_cid k).
    set (s0 := upd_conn c k' (closed_q cid s)).
    assert (HJ0 : J w s0) by (apply J_upd_detached; [now apply J_closed_q|apply not_attached_closed]).
    assert (Hat : pattached k) by (now apply pattached_b).
    destruct (PollInv_at w s c k (j_poll w s HJ c k Hk Hat) Hk) as (q & inf & que & _ & Hon & _).
    assert (Hon0 : aget cid (b_online s0) = Some c) by (unfold s0; proj; rewrite closed_q_online; exact Hon).
    assert (Hk0 : nget c (b_conns s0) = Some k') by (unfold s0; apply nget_upd_eq).
    assert (Hnd0 : NoDup (map fst (b_online s0))) by (unfold s0; proj; rewrite closed_q_online; exact Hnd).
    rewrite unregister_eq. cbv zeta. change (k_cid k') with cid.
    destruct (aget cid (b_sessions s0)) as [se|] eqn:Es.
    + assert (Hse : forall w0, se_will se = Some w0 -> m_pid w0 = 0).
      { intros w0 Hw0. eapply (J_sess_pz w s0 HJ0); [eapply aget_In; exact Es|exact Hw0]. }
      match goal with |- context [ur_will cid k' se ?ex ?st s0] =>
        pose proof (ur_will_J w cid k' se ex st s0 HJ0 Hse) as HJ1;
        destruct (ur_will_quiet cid k' se ex st s0) as [F _];
        destruct (ur_will cid k' se ex st s0) as [s1 o1] eqn:Eu end.
      cbn [fst] in HJ1, F.
      assert (Hon1 : aget cid (b_online s1) = Some c) by (rewrite (fr_on _ _ F); exact Hon0).
      assert (Hnd1 : NoDup (map fst (b_online s1))) by (rewrite (fr_on _ _ F); exact Hnd0).
      assert (Hna : NoAtt cid s1).
      { pose proof (fr_pv _ _ F c) as Hpv. rewrite (pv_of _ _ _ Hk0) in Hpv. apply pv_some in Hpv. destruct Hpv as (k1 & Hk1 & Hv).
        apply (NoAtt_closed w cid c k1 s1 (j_poll w s1 HJ1) Hon1 Hk1).
        apply kview_phase in Hv. intros [H|H]; rewrite Hv in H; discriminate. }
      match goal with |- context [if ?b then _ else _] => destruct b end; cbn [fst].
      * now apply store_tables_J.
      * now apply remove_session_J.
    + cbn [fst]. apply remove_session_J; [exact HJ0|exact Hnd0|].
      apply (NoAtt_closed w cid c k' s0 (j_poll w s0 HJ0) Hon0 Hk0). apply not_attached_closed.
  - unfold conn_gone. rewrite Hk. destruct (k_phase k) eqn:Ep; try discriminate; cbn [fst]; try exact HJ;
      (apply J_upd_detached; [exact HJ|apply not_attached_closed]).
Qed.

Lemma fail_conn_J w c code br s : NoDup (map fst (b_online s)) -> J w s -> J w (fst (fail_conn c code br s)).
Proof.
  intros Hnd HJ. destruct (fail_conn_cases c code br s) as [|k Hk Ep|k disc Hk Ep _]; cbn [fst].
  - exact HJ.
  - eapply J_upd_conn; [exact HJ|exact Hk|apply cqe_set_zombie|]. intros _. left. exact Ep.
  - now apply conn_gone_J.
Qed.

(* the session queue as CONNECT leaves it for the new connection: well-shaped, cursor at 0, limits installed *)
Definition QReady (cid : str) (v5 : bool) (cmax : N) (s : st) (inf : list elem) : Prop :=
  exists q que, aget cid (b_queues s) = Some q /\ QInv q (b_tag s) inf que /\ q_cur q = 0%nat /\
                q_limit q = cmax /\ q_v5 q = v5.

(* the window side condition (w = true): what CONNECT left in flight fits the window of the new connection *)
Definition cwin (s' : st) (c : N) : bool :=
  match nget c (b_conns s') with
  | Some k => match k_phase k with
              | PhConnected => match aget (k_cid k) (b_queues s') with
                               | Some q => N.of_nat (length (q_inf q)) <=? k_max_inflight k
                               | None => true
                               end
              | _ => true
              end
  | None => true
  end.

Lemma J_set_queue_offline w cid q' inf que u s :
  J w s -> aget cid (b_online s) = None -> QInv q' (b_tag s) inf que ->
  J w (set_tables (b_sessions s) (b_online s) (b_offline s) (b_wills s) (aset cid q' (b_queues s)) u s).
Proof.
  intros HJ Hoff HI. pose proof HJ as [HA HQ HP HT HC HK].
  constructor; [| |exact HP|exact HT|exact HC|exact HK].
  - apply (AllPoll_tables w s); [exact HA|reflexivity|reflexivity| |].
    + intros c k Hk Hat. pose proof (NoAtt_offline w cid s HA Hoff c k Hk Hat) as Hne.
      cbn [set_tables b_queues b_online]. rewrite aget_aset_other by exact Hne. auto.
    + intros cid' c k Hk Hat H. exact H.
  - intros cid' q Hin. cbn [set_tables b_queues b_tag] in *. apply in_aset in Hin. destruct Hin as [Hin|Hin].
    + inversion Hin; subst. eauto.
    + eauto.
Qed.

Lemma hc_old_J w cid v5 cmax r0 s :
  J w s -> NoDup (map fst (b_online s)) -> aget cid (b_online s) = None ->
  J w (fst (fst (hc_old cid v5 cmax r0 s))) /\
  Forall (fun cw => m_pid (snd cw) = 0) (snd (fst (hc_old cid v5 cmax r0 s))) /\
  (snd (hc_old cid v5 cmax r0 s) = true ->
   snd (fst (hc_old cid v5 cmax r0 s)) = [] /\ exists inf, QReady cid v5 cmax (fst (fst (hc_old cid v5 cmax r0 s))) inf).
Proof.
  intros HJ Hnd Hoff. unfold hc_old. destruct (aget cid (b_sessions s)) as [se|] eqn:Es.
  2:{ cbn [fst snd]. split; [exact HJ|]. split; [constructor|discriminate]. }
  destruct r0.
  - destruct (aget cid (b_queues s)) as [q|] eqn:Eq; [|cbn [fst snd]; split; [exact HJ|]; split; [constructor|discriminate]].
    destruct (aget cid (b_unacks s)) as [u|] eqn:Eu; [|cbn [fst snd]; split; [exact HJ|]; split; [constructor|discriminate]].
    cbn [fst snd].
    destruct (j_qs w s HJ cid q (aget_In _ _ _ Eq)) as (inf & que & HI).
    pose proof (QInv_init q (b_tag s) inf que v5 cmax HI) as HI'.
    split; [|split; [constructor|]].
    + pose proof (J_set_queue_offline w cid (q_init false v5 cmax q) inf que (b_unacks s) s HJ Hoff HI') as H1.
      pose proof (J_set_wills w (adel cid (b_wills s)) _ H1) as H2. cbn [set_tables b_sessions b_online b_offline b_queues b_unacks] in H2.
      apply H2. apply wills_pz_adel. now apply (J_wills_pz w).
    + intros _. split; [reflexivity|]. exists inf, (q_init false v5 cmax q), que.
      cbn [set_tables b_queues b_tag]. rewrite aget_aset_same. auto.
  - cbv zeta.
    assert (HJ1 : J w (remove_session cid s)).
    { apply remove_session_J; [exact HJ|exact Hnd|]. eapply NoAtt_offline; [apply (j_poll w s HJ)|exact Hoff]. }
    destruct (aget cid (b_wills (remove_session cid s))) as [[wm t]|] eqn:Ew; cbn [fst snd].
    + split; [|split; [|discriminate]].
      * apply J_set_wills; [exact HJ1|]. apply wills_pz_adel. now apply (J_wills_pz w).
      * constructor; [|constructor]. cbn [snd]. eapply (J_wills_pz w _ HJ1). eapply aget_In; exact Ew.
    + split; [exact HJ1|]. split; [constructor|discriminate].
Qed.

Lemma hc_fresh_J w cid v5 cmax cf resume s :
  J w s -> aget cid (b_online s) = None ->
  J w (hc_fresh cid v5 cmax cf resume s) /\
  (resume = false -> QReady cid v5 cmax (hc_fresh cid v5 cmax cf resume s) []).
Proof.
  intros HJ Hoff. unfold hc_fresh. destruct resume; [split; [exact HJ|discriminate]|].
  pose proof (QInv_new (b_tag s) (c_max_queued cf) (c_inflight_expiry cf * 1000) v5 cmax) as HI.
  split.
  - eapply J_set_queue_offline; eauto.
  - intros _. eexists. exists []. cbn [set_tables b_queues b_tag]. rewrite aget_aset_same.
    split; [reflexivity|]. split; [exact HI|]. auto.
Qed.

Lemma hc_conn_fresh cid cn cf : fresh_attached cf cn (hc_conn cid cn cf).
Proof. unfold fresh_attached, hc_conn, connect_window, hc_max_inflight, connect_maxpkt, hc_cmax, connect_aliasmax, hc_camax. cbn. auto 10. Qed.

Lemma hc_max_inflight_le cn cf : hc_max_inflight cn cf <= c_max_inflight cf.
Proof.
  unfold hc_max_inflight. destruct (cn_ver cn =? 5); [|lia]. destruct (p_recvmax (cn_props cn)) as [r|]; [|lia].
  destruct (r <? c_max_inflight cf) eqn:E; lia.
Qed.

Lemma hc_register_J w c cid cn cf se s inf :
  J w s -> b_cfg s = cf -> c_max_inflight cf <= MAXPID ->
  (forall cid', ~ In (cid', c) (b_online s)) -> aget cid (b_online s) = None ->
  QReady cid (cn_ver cn =? 5) (hc_cmax cn) s inf ->
  (w = true -> N.of_nat (length inf) <= hc_max_inflight cn cf) ->
  (forall w0, se_will se = Some w0 -> m_pid w0 = 0) ->
  J w (hc_register c cid se (hc_conn cid cn cf) s).
Proof.
  intros HJ Hcf Hmax Hnc Hoff (q & que & Hq & HI & Hcur & Hlim & Hv5) Hwin Hse. pose proof HJ as [HA HQ (HP1 & HP2 & HP3) HT HC HK].
  constructor; [| | |exact HT|exact HC|].
  - intros c2 k2 Hk2 Hat2. destruct (N.eq_dec c2 c) as [->|Hne].
    + unfold hc_register.
      apply (connect_end w c cid (hc_conn cid cn cf) se s q inf que cf cn); auto using hc_conn_fresh.
    + unfold hc_register in Hk2 |- *. cbn [set_tables b_conns] in Hk2. rewrite nget_upd_ne in Hk2 by exact Hne.
      destruct (PollInv_at w s c2 k2 (HA c2 k2 Hk2 Hat2) Hk2) as (q0 & inf0 & que0 & Hq0 & Hon & Hun & Htag & HCQ).
      assert (Hcid : k_cid k2 <> cid) by (intros E; rewrite E in Hon; congruence).
      exists k2, q0, inf0, que0. proj. rewrite nget_nset_other by exact Hne.
      rewrite aget_aset_other by exact Hcid.
      split; [exact Hk2|]. split; [exact Hq0|]. split; [exact Hon|]. split; [|split; [exact Htag|exact HCQ]].
      intros cid' H. destruct (str_eqb_spec cid' cid) as [->|E].
      * rewrite aget_aset_same in H. congruence.
      * rewrite aget_aset_other in H by exact E. now apply Hun.
  - exact HQ.
  - split; [exact HP1|]. split; [|exact HP3]. unfold hc_register. cbn [set_tables b_sessions]. now apply sess_pz_aset.
  - intros c2 k2 Hk2 Hat2. unfold hc_register in Hk2 |- *. proj_in Hk2. proj.
    destruct (N.eq_dec c2 c) as [->|Hne].
    + rewrite nget_nset_same in Hk2. injection Hk2 as <-. cbn [hc_conn k_max_inflight]. rewrite Hcf. apply hc_max_inflight_le.
    + rewrite nget_nset_other in Hk2 by exact Hne. eapply HK; eauto.
Qed.

Lemma hc_wills_J w l s : J w s -> Forall (fun cw => m_pid (snd cw) = 0) l -> J w (fst (hc_wills l s)).
Proof.
  intros HJ Hl. unfold hc_wills. apply (fold_in_inv (J w)); [|exact HJ].
  intros s0 o0 cw Hin H0. rewrite Forall_forall in Hl. pose proof (send_will_J w (fst cw) (snd cw) s0 H0 (Hl cw Hin)) as H.
  destruct (send_will (fst cw) (snd cw) s0). exact H.
Qed.

Lemma not_online_of_cv s c : BInv s -> cv s c = None -> forall cid', ~ In (cid', c) (b_online s).
Proof.
  intros HI Hc cid' Hin. apply In_aget in Hin; [|apply (bi_nd_on _ _ HI)].
  destruct (bi_on _ _ HI cid' c Hin) as [f Hf]; [discriminate|]. congruence.
Qed.

Lemma hc_accept_J w c cn s :
  BInv s -> cv s c = None -> J w s -> (w = true -> cwin (fst (hc_accept c cn s)) c = true) ->
  J w (fst (hc_accept c cn s)).
Proof.
  intros HI Hc HJ Hwin. rewrite hc_accept_eq in *. cbn [fst] in *.
  destruct (hc_stages c cn s HI Hc) as (HI1 & Hon1 & HI2 & Hon2 & Hc2 & Hcf2 & _).
  apply ahas_false in Hon1, Hon2.
  assert (HJ1 : J w (fst (hc_dup cn s))).
  { assert (HJ0 : J w (hc_auto cn s)).
    { unfold hc_auto. destruct (is_empty (cn_cid cn)); [|exact HJ]. eapply J_same; [..|exact HJ]; reflexivity. }
    unfold hc_dup, hc_takeover. destruct (aget (hc_cid cn s) (b_online (hc_auto cn s))); [|exact HJ0].
    apply conn_gone_J; [apply BInv_ndo; now apply hc_auto_inv|exact HJ0]. }
  destruct (hc_old_J w (hc_cid cn s) (cn_ver cn =? 5) (hc_cmax cn) (hc_resume0 (hc_cid cn s) cn (fst (hc_dup cn s))) _ HJ1 (BInv_ndo _ HI1) Hon1)
    as (HJ2 & Hpz2 & Hres2). fold (hc_prev cn s) in HJ2, Hpz2, Hres2.
  destruct (hc_fresh_J w (hc_cid cn s) (cn_ver cn =? 5) (hc_cmax cn) (b_cfg s) (snd (hc_prev cn s)) _ HJ2 Hon2) as [HJ3 Hfr3].
  pose proof (hc_fresh_frame (hc_cid cn s) (cn_ver cn =? 5) (hc_cmax cn) (b_cfg s) (snd (hc_prev cn s)) (fst (fst (hc_prev cn s)))) as F3.
  fold (hc_new cn s) in HJ3, Hfr3, F3.
  apply hc_wills_J; [|exact Hpz2]. unfold hc_reg. set (cid := hc_cid cn s) in *.
  assert (Hnc : forall cid', ~ In (cid', c) (b_online (hc_new cn s))).
  { apply not_online_of_cv; [eapply BInvG_cframe; [apply wframe_cframe; exact F3|exact HI2]|].
    now rewrite (cf_cv _ _ (wframe_cframe _ _ F3)). }
  assert (Hon3 : aget cid (b_online (hc_new cn s)) = None) by (now rewrite (wf_on _ _ F3)).
  assert (Hcf3 : b_cfg (hc_new cn s) = b_cfg s) by (rewrite (wf_cfg _ _ F3); exact Hcf2).
  assert (Hse : forall wd ex now w0, se_will (hc_session cn wd ex now) = Some w0 -> m_pid w0 = 0).
  { unfold hc_session. cbn [se_will]. intros wd ex now w0 H. destruct (cn_will cn); inversion H. reflexivity. }
  destruct (snd (hc_prev cn s)) eqn:Eres.
  - destruct (Hres2 eq_refl) as (Hnil & inf & HR).
    assert (Es3 : hc_new cn s = fst (fst (hc_prev cn s))) by (unfold hc_new, hc_fresh; now rewrite Eres).
    rewrite <- Es3 in HR.
    apply (hc_register_J w c cid cn (b_cfg s) _ _ inf HJ3 Hcf3 (j_cfg w s HJ) Hnc Hon3 HR); [|apply Hse].
    intros Hw. specialize (Hwin Hw). rewrite Hnil in Hwin. cbn [hc_wills fold_left fst] in Hwin.
    destruct HR as (q & que & Hq & HQI & _). unfold cwin, hc_reg, hc_register in Hwin. proj_in Hwin.
    rewrite nget_nset_same in Hwin. cbn [hc_conn k_phase k_cid k_max_inflight] in Hwin. fold cid in Hwin.
    rewrite Hq, (q_inf_eq _ _ _ _ HQI) in Hwin. lia.
  - apply (hc_register_J w c cid cn (b_cfg s) _ _ [] HJ3 Hcf3 (j_cfg w s HJ) Hnc Hon3 (Hfr3 eq_refl)); [|apply Hse].
    intros _. cbn [length]. lia.
Qed.

Lemma not_attached_dead k : ~ pattached (set_phase PhDead k).
Proof. intros [H|H]; discriminate. Qed.

Lemma handle_connect_J w c cn s :
  BInv s -> cv s c = None -> J w s -> (w = true -> cwin (fst (handle_connect c cn s)) c = true) ->
  J w (fst (handle_connect c cn s)).
Proof.
  intros HI Hc HJ Hwin. rewrite handle_connect_eq in *.
  destruct (negb (c_allow_zero_len (b_cfg s)) && is_empty (cn_cid cn)).
  - cbn [fst]. apply J_upd_detached; [exact HJ|apply not_attached_dead].
  - destruct (negb (hc_code cn s =? 0)).
    + cbn [fst]. apply J_upd_detached; [exact HJ|apply not_attached_dead].
    + now apply hc_accept_J.
Qed.

Lemma QS_aset cid q' s s' :
  QS s -> b_queues s' = aset cid q' (b_queues s) -> b_tag s' = b_tag s ->
  (exists inf que, QInv q' (b_tag s) inf que) -> QS s'.
Proof.
  intros HQ Eq Et HI cid' q Hin. rewrite Eq in Hin. rewrite Et. apply in_aset in Hin. destruct Hin as [Hin|Hin].
  - inversion Hin; subst. exact HI.
  - eauto.
Qed.

(* a step that touches one attached connection and the queue of its session only *)
Lemma J_one_conn w c k s s' :
  J w s -> nget c (b_conns s) = Some k -> pattached k ->
  (forall c2, c2 <> c -> nget c2 (b_conns s') = nget c2 (b_conns s)) ->
  (forall cid2, cid2 <> k_cid k -> aget cid2 (b_queues s') = aget cid2 (b_queues s)) ->
  b_online s' = b_online s -> b_tag s' = b_tag s -> b_ret s' = b_ret s -> b_sessions s' = b_sessions s ->
  b_wills s' = b_wills s -> b_cfg s' = b_cfg s ->
  (forall k', nget c (b_conns s') = Some k' -> k_max_inflight k' = k_max_inflight k) ->
  PollInv w s' c -> QS s' -> J w s'.
Proof.
  intros [HA HQ HP HT HC HK] Hk Hat Hco Hqo Eo Et Er Es Ew Ec Hmi HP' HQ'.
  constructor; [|exact HQ'|eapply PZ_same; eauto|now rewrite Et|now rewrite Ec|].
  2:{ intros c2 k2 Hk2 Hat2. rewrite Ec. destruct (N.eq_dec c2 c) as [->|Hne].
      - rewrite (Hmi k2 Hk2). eapply HK; eauto.
      - rewrite (Hco c2 Hne) in Hk2. eapply HK; eauto. }
  intros c2 k2 Hk2 Hat2. destruct (N.eq_dec c2 c) as [->|Hne]; [exact HP'|].
  rewrite (Hco c2 Hne) in Hk2.
  destruct (PollInv_at w s c2 k2 (HA c2 k2 Hk2 Hat2) Hk2) as (q0 & inf0 & que0 & Hq0 & Hon & Hun & Htag & HCQ).
  destruct (PollInv_at w s c k (HA c k Hk Hat) Hk) as (q1 & inf1 & que1 & _ & Hon1 & _).
  assert (Hcid : k_cid k2 <> k_cid k) by (intros E; rewrite E in Hon; congruence).
  exists k2, q0, inf0, que0. rewrite (Hco c2 Hne), (Hqo _ Hcid), Eo, Et. auto 10.
Qed.

Lemma ack_remove_J w c k pid s :
  J w s -> nget c (b_conns s) = Some k -> pattached k -> ~ In pid (held_ids k) ->
  J w (release_id c pid (queue_op (k_cid k) (fun q => fst (q_remove pid q)) s)).
Proof.
  intros HJ Hk Hat Hnh. pose proof (j_poll w s HJ c k Hk Hat) as HP.
  pose proof (ack_remove_inv w c s k pid HP Hk Hnh) as HP'.
  destruct (PollInv_at w s c k HP Hk) as (q & inf & que & Hq & _ & _ & _ & HCQ).
  revert HP'. rewrite (queue_op_some _ _ _ _ Hq). unfold release_id. proj. rewrite Hk. intros HP'.
  eapply (J_one_conn w c k s); eauto; try reflexivity.
  - intros c2 Hne. now rewrite nget_upd_ne.
  - intros cid2 Hne. proj. now apply aget_aset_other.
  - intros k' Hk'. rewrite nget_upd_eq in Hk'. inversion Hk'. reflexivity.
  - eapply (QS_aset (k_cid k) (fst (q_remove pid q)) s); [apply (j_qs w s HJ)|reflexivity|reflexivity|].
    destruct (q_remove_inv pid q (b_tag s) inf que (cq_q _ _ _ _ _ _ HCQ)) as (_ & _ & [(i & d & _ & _ & _ & HI & _)|(E & _)]).
    + eauto.
    + rewrite E. exists inf, que. apply (cq_q _ _ _ _ _ _ HCQ).
Qed.

Lemma ack_replace_J w c k pid now s :
  J w s -> nget c (b_conns s) = Some k -> pattached k ->
  J w (queue_op (k_cid k) (fun q => fst (q_replace {| e_tag := 0; e_at := now; e_expiry := None; e_body := QRel pid |} q)) s).
Proof.
  intros HJ Hk Hat. pose proof (j_poll w s HJ c k Hk Hat) as HP.
  pose proof (ack_replace_inv w c s k pid now HP Hk) as HP'.
  destruct (PollInv_at w s c k HP Hk) as (q & inf & que & Hq & _ & _ & _ & HCQ).
  revert HP'. rewrite (queue_op_some _ _ _ _ Hq). intros HP'.
  set (e := {| e_tag := 0; e_at := now; e_expiry := None; e_body := QRel pid |}) in *.
  eapply (J_one_conn w c k s); eauto; try reflexivity.
  - intros cid2 Hne. proj. now apply aget_aset_other.
  - intros k' Hk'. proj_in Hk'. rewrite Hk in Hk'. inversion Hk'. reflexivity.
  - eapply (QS_aset (k_cid k) (fst (q_replace e q)) s); [apply (j_qs w s HJ)|reflexivity|reflexivity|].
    destruct (q_replace_inv e pid q (b_tag s) inf que (cq_q _ _ _ _ _ _ HCQ) eq_refl eq_refl)
      as (_ & _ & _ & [(i & d & _ & _ & _ & HI & _)|(E & _)]).
    + eauto.
    + rewrite E. exists inf, que. apply (cq_q _ _ _ _ _ _ HCQ).
Qed.

(* the retained messages replayed to a new subscription *)
Lemma replay_retained_J w c k sb s : J w s -> J w (fst (replay_retained c k sb s)).
Proof.
  intros HJ. unfold replay_retained. apply (fold_in_inv (J w)); [|exact HJ].
  intros s0 o0 m Hin H0. cbv beta iota zeta.
  assert (Hpid : m_pid m = 0) by (eapply ret_pz_matched; [apply (J_ret_pz w s HJ)|exact Hin]).
  destruct (aget (k_cid k) (b_queues s0)) as [q|] eqn:Eq; [|exact H0].
  match goal with |- context [q_add ?n ?e0 q] => set (e := e0); set (now := n) end.
  destruct (q_add now e q) as [[q' evs]| | |] eqn:Hqa; try exact H0.
  cbn [fst]. apply (enq_J w (k_cid k) q e q' evs now s0 H0 Eq); auto.
  unfold quedok, e. cbn [e_body]. destruct (s_id sb =? 0); cbn; auto.
Qed.

Lemma hs_body_J w c k v5 subid all acc t : J w (fst (fst acc)) -> J w (fst (fst (hs_body c k v5 subid all acc t))).
Proof.
  destruct acc as [[s0 o0] cs]. cbn [fst]. intros HJ. unfold hs_body. cbv zeta.
  match goal with |- context [if ?b <? 128 then _ else _] => destruct (b <? 128) end; [|exact HJ].
  match goal with |- context [db_subscribe ?a ?b ?d] => destruct (db_subscribe a b d) as [d' existed]; set (sb := b) in * end.
  assert (HJ1 : J w (set_subs d' s0)) by (eapply J_same; [..|exact HJ]; reflexivity).
  match goal with |- context [if ?b then replay_retained c k sb ?S else _] => destruct b end.
  - pose proof (replay_retained_J w c k sb _ HJ1) as H. destruct (replay_retained c k sb (set_subs d' s0)) as [s2 o2]. exact H.
  - exact HJ1.
Qed.

Lemma hs_fold_J w c k v5 subid all topics : forall acc,
  J w (fst (fst acc)) -> J w (fst (fst (fold_left (hs_body c k v5 subid all) topics acc))).
Proof.
  induction topics as [|t r IH]; intros acc H; cbn [fold_left]; [exact H|]. apply IH. now apply hs_body_J.
Qed.

Lemma handle_subscribe_J w c k pid props topics s : J w s -> J w (hres_st (handle_subscribe c k pid props topics s)).
Proof.
  intros HJ. rewrite handle_subscribe_eq. cbv zeta.
  match goal with |- context [if ?b then HErr s [] (Some 161) else _] => destruct b end; [exact HJ|].
  destruct (h_sub_all (b_hooks s)); [exact HJ|].
  match goal with |- context [fold_left (hs_body c k ?v ?sid topics) topics ?a] =>
    pose proof (hs_fold_J w c k v sid topics topics a HJ) as H; destruct (fold_left (hs_body c k v sid topics) topics a) as [[s' o] codes] end.
  exact H.
Qed.

Lemma hp_alias_cqe k v5 topic props m0 k2 m :
  hp_alias k v5 topic props m0 = inl (Some (k2, m)) -> cqe k k2 /\ k_phase k2 = k_phase k /\ m_pid m = m_pid m0.
Proof.
  unfold hp_alias. destruct (if v5 then p_alias props else None) as [a|].
  2:{ intros H. inversion H; subst. auto using cqe_refl. }
  destruct ((a =? 0) || (k_server_alias_max k <? a)); [discriminate|].
  destruct topic as [|x t].
  - destruct (nget a (k_alias_in k)) as [[|y n]|]; try discriminate. intros H. inversion H; subst. auto using cqe_refl.
  - intros H. inversion H; subst. split; [apply cqe_set_alias_in|auto].
Qed.

Lemma J_set_unacks w u s : J w s -> J w (set_unacks u s).
Proof. apply J_same; reflexivity. Qed.

Lemma hp_dupcheck_J w c k v5 qos pid s : J w s -> J w (fst (hp_dupcheck c k v5 qos pid s)).
Proof.
  intros HJ. unfold hp_dupcheck. destruct (qos =? 2); [|exact HJ]. cbv zeta.
  destruct (unack_set pid (opt_or (aget (k_cid k) (b_unacks s)) [])) as [u' ex]. cbn [fst].
  destruct (ex && v5); [|now apply J_set_unacks].
  apply (J_bump_quota w c _ (fun k1 => k_quota k1 <? k_recv_max k1)). now apply J_set_unacks.
Qed.

Lemma hp_deliver_J w k m isdup action s :
  J w s -> m_pid m = 0 -> J w (fst (fst (fst (hp_deliver k m isdup action s)))).
Proof.
  intros HJ Hpid. unfold hp_deliver. destruct isdup; [exact HJ|].
  destruct action as [|code| |t p q]; try exact HJ.
  - pose proof (deliver_J w (k_cid k) m (retain_update m s) (retain_update_J w m s HJ Hpid) Hpid) as H.
    destruct (deliver (k_cid k) m (retain_update m s)) as [[s' o] b]. exact H.
  - cbv zeta. set (m' := rewrite_msg t p q m).
    assert (Hp' : m_pid m' = 0) by exact Hpid.
    pose proof (deliver_J w (k_cid k) m' (retain_update m' s) (retain_update_J w m' s HJ Hp') Hp') as H.
    destruct (deliver (k_cid k) m' (retain_update m' s)) as [[s' o] b]. exact H.
Qed.

Lemma hp_finish_J w c k v5 qos pid o matched err s : J w s -> J w (hres_st (hp_finish c k v5 qos pid o matched err s)).
Proof.
  intros HJ. unfold hp_finish. cbv zeta. cbn [hres_st].
  match goal with |- context [if ?b then set_unacks ?u s else s] =>
    assert (H1 : J w (if b then set_unacks u s else s)) by (destruct b; [now apply J_set_unacks|exact HJ]);
    set (s1 := if b then set_unacks u s else s) in * end.
  match goal with |- context [if ?v && ?x && _ then _ else _] =>
    apply (J_bump_quota w c s1 (fun k1 => v && x && (k_quota k1 <? k_recv_max k1))) end.
  exact H1.
Qed.

Lemma handle_publish_J w c k dup qos retain topic payload pid props s :
  J w s -> nget c (b_conns s) = Some k ->
  J w (hres_st (handle_publish c k dup qos retain topic payload pid props s)).
Proof.
  intros HJ Hk. rewrite handle_publish_eq. cbv zeta.
  destruct (negb (k_retain_avail k) && retain); [exact HJ|].
  destruct (hp_alias k (k_v k =? 5) topic props _) as [[[k2 m]|]|code] eqn:EA; try exact HJ.
  apply hp_alias_cqe in EA. destruct EA as (He & Hph & Hpid). cbn [msg_of_publish m_pid] in Hpid.
  assert (HJ1 : J w (upd_conn c k2 s)).
  { eapply J_upd_conn; [exact HJ|exact Hk|exact He|]. unfold BrokerPollP.attached. now rewrite Hph. }
  pose proof (hp_dupcheck_J w c k2 (k_v k =? 5) qos pid _ HJ1) as HJ2.
  destruct (hp_dupcheck c k2 (k_v k =? 5) qos pid (upd_conn c k2 s)) as [s1 isdup]. cbn [fst] in HJ2.
  pose proof (hp_deliver_J w k2 m isdup (hp_action m s1) s1 HJ2 Hpid) as HJ3.
  destruct (hp_deliver k2 m isdup (hp_action m s1) s1) as [[[s2 o] matched] err]. cbn [fst] in HJ3.
  now apply hp_finish_J.
Qed.

Lemma handle_packet_J w c k p s :
  J w s -> nget c (b_conns s) = Some k -> pattached k ->
  (forall pid, is_ack p = Some pid -> ~ In pid (held_ids k)) ->
  J w (hres_st (handle_packet c k p s)).
Proof.
  intros HJ Hk Hat Hack.
  destruct p; cbn [handle_packet]; try exact HJ.
  - (* PUBLISH *)
    destruct (has_wild topic); [exact HJ|].
    match goal with |- context [if ?b then HErrRead s (Some 148) else _] => destruct b end; [exact HJ|].
    match goal with |- context [if ?b then HErrRead s (Some 130) else _] => destruct b end; [exact HJ|].
    match goal with |- context [if ?b then HErrRead s (Some 147) else _] => destruct b end; [exact HJ|].
    match goal with |- context [handle_publish c ?K] => set (k' := K) end.
    assert (He : cqe k k') by (unfold k'; destruct ((k_v k =? 5) && (0 <? qos)); [apply cqe_set_quota|apply cqe_refl]).
    assert (Hph : k_phase k' = k_phase k) by (unfold k'; destruct ((k_v k =? 5) && (0 <? qos)); reflexivity).
    apply handle_publish_J; [|apply nget_upd_eq].
    eapply J_upd_conn; [exact HJ|exact Hk|exact He|]. unfold BrokerPollP.attached. now rewrite Hph.
  - (* PUBACK *)
    cbn [hres_st]. apply ack_remove_J; auto.
  - (* PUBREC *)
    destruct ((k_v k =? 5) && (128 <=? code)); cbn [hres_st].
    + apply ack_remove_J; auto.
    + eapply ack_replace_J; eauto.
  - (* PUBREL *)
    cbv zeta. cbn [hres_st].
    match goal with |- J w (match nget c (b_conns ?S) with _ => _ end) =>
      apply (J_bump_quota w c S (fun k1 => (k_v k =? 5) && (k_quota k1 <? k_recv_max k1))) end.
    now apply J_set_unacks.
  - (* PUBCOMP *)
    cbn [hres_st]. apply ack_remove_J; auto.
  - (* SUBSCRIBE *)
    match goal with |- context [if ?b then handle_subscribe _ _ _ _ _ _ else _] => destruct b end; [|exact HJ].
    now apply handle_subscribe_J.
  - (* UNSUBSCRIBE *)
    unfold handle_unsubscribe. cbn [hres_st]. eapply J_same; [..|exact HJ]; reflexivity.
  - (* DISCONNECT *)
    destruct (k_v k =? 5).
    + cbv zeta. destruct (aget (k_cid k) (b_sessions s)) as [se|] eqn:Es; [|exact HJ].
      match goal with |- context [if ?b then HErr s [] None else _] => destruct b end; [exact HJ|].
      cbn [hres_st].
      match goal with |- J w (upd_conn c ?K ?S) => set (s1 := S) end.
      assert (HJ1 : J w s1).
      { unfold s1. destruct (p_sei props) as [x|]; [|exact HJ]. destruct (x =? 0); [exact HJ|].
        pose proof HJ as [HA HQ (HP1 & HP2 & HP3) HT HC HK].
        constructor; [eapply AllPoll_same; eauto; reflexivity|exact HQ| |exact HT|exact HC|exact HK].
        split; [exact HP1|]. split; [|exact HP3]. cbn [set_tables b_sessions]. apply sess_pz_aset; [exact HP2|].
        cbn [se_will]. intros w0 Hw0. eapply HP2; [eapply aget_In; exact Es|exact Hw0]. }
      eapply J_upd_conn; [exact HJ1| |apply cqe_set_disc|intros H; exact Hat].
      unfold s1. destruct (p_sei props) as [x|]; [|exact Hk]. destruct (x =? 0); exact Hk.
    + cbn [hres_st]. eapply J_upd_conn; [exact HJ|exact Hk|apply cqe_set_disc|intros H; exact Hat].
Qed.

(* well-behaved: (a) an acknowledgement names no packet id that the poll loop of the connection merely holds
   (held_ack_breaks_inv); (b) a message handed to the publish API carries no packet id (api_pid_breaks_shape) *)
Definition ack_ok (s : st) (c : N) (p : pkt) : bool :=
  match is_ack p with
  | Some pid => match nget c (b_conns s) with
                | Some k => match k_phase k with
                            | PhConnected => negb (memN pid (held_ids k))
                            | _ => true
                            end
                | None => true
                end
  | None => true
  end.

Definition ev_ok (s : st) (e : event) : bool :=
  match e with
  | ESend c p => ack_ok s c p
  | ESendSz c p _ => ack_ok s c p
  | EApiPublish m => m_pid m =? 0
  | _ => true
  end.

(* the window side condition: after a CONNECT (before the poll loops run) what the session has in flight fits the
   window of the new connection *)
Definition ev_win (s : st) (e : event) : bool :=
  match e with
  | EConnect c cn => cwin (fst (step_event s e)) c
  | _ => true
  end.

Definition wb (w : bool) (s : st) (e : event) : bool := ev_ok s e && (negb w || ev_win s e).

Fixpoint run_wb (w : bool) (s : st) (es : list event) : bool :=
  match es with
  | [] => true
  | e :: r => wb w s e && run_wb w (fst (step s e)) r
  end.

Lemma send_unconnected_J w c k p s :
  BInv s -> J w s -> nget c (b_conns s) = Some k -> k_phase k <> PhConnected -> J w (fst (send_unconnected c k p s)).
Proof.
  intros HI HJ Hk Hn. destruct (send_unconnected_cases c k p s) as [|Ep|Ep|_]; cbn [fst].
  - exact HJ.
  - apply J_upd_detached; [exact HJ|apply not_attached_dead].
  - eapply J_upd_conn; [exact HJ|exact Hk|apply cqe_set_quota|]. intros _. right. exact Ep.
  - apply conn_gone_J; [now apply BInv_ndo|exact HJ].
Qed.

Lemma fire_wills_J w s : J w s -> J w (fst (fire_wills s)).
Proof.
  intros HJ. unfold fire_wills. apply (fold_in_inv (J w)); [|exact HJ].
  intros s0 o0 [cid [m at_]] Hin H0. cbv beta iota zeta.
  assert (Hpid : m_pid m = 0) by (eapply (J_wills_pz w s HJ); exact Hin).
  destruct (at_ <=? b_rt s0); [|exact H0].
  destruct (aget cid (b_wills s0)); [|exact H0].
  match goal with |- context [send_will cid m ?S] =>
    assert (H1 : J w S) by (apply J_set_wills; [exact H0|]; apply wills_pz_adel; now apply (J_wills_pz w));
    pose proof (send_will_J w cid m S H1 Hpid) as H2; destruct (send_will cid m S) as [s2 o2] end.
  exact H2.
Qed.

Lemma expire_J w : forall (l : list (str * N)) s0,
  (forall cd, In cd l -> ahas (fst cd) (b_online s0) = false) -> BInv s0 -> J w s0 ->
  J w (fold_left (fun s0 cd => remove_session (fst cd) s0) l s0).
Proof.
  induction l as [|cd r IH]; intros s0 Hl HI HJ; cbn [fold_left]; [exact HJ|]. apply IH.
  - intros cd' Hin. cbn [remove_session set_subs set_tables b_online].
    rewrite ahas_adel by apply (bi_nd_on _ _ HI). rewrite (Hl cd') by now right. apply andb_false_r.
  - apply BInv_remove_offline; [exact HI|]. apply Hl. now left.
  - apply remove_session_J; [exact HJ|now apply BInv_ndo|].
    eapply NoAtt_offline; [apply (j_poll w s0 HJ)|]. apply ahas_false. apply Hl. now left.
Qed.

Lemma not_attached_fresh cid v : ~ pattached (fresh_conn cid v).
Proof. intros [H|H]; discriminate. Qed.

Lemma step_event_connect_fst s c cn :
  fst (step_event s (EConnect c cn)) = fst (handle_connect c cn (fst (conn_gone c s))).
Proof. cbn [step_event]. destruct (conn_gone c s) as [s0 o0]. cbn [fst]. now destruct (handle_connect c cn s0). Qed.

Lemma step_event_J w s e : BInv s -> J w s -> wb w s e = true -> J w (fst (step_event s e)).
Proof.
  intros HI HJ Hwb. unfold wb in Hwb. apply andb_true_iff in Hwb. destruct Hwb as [Hok Hwin].
  refine (step_event_preserves_under BInv (fun a r => J w a -> J w (fst r)) s e (BInv_step_closed s e) _ HI HJ).
  constructor; cbn [fst]; auto.
  - intros c a Ha. apply conn_gone_J. now apply BInv_ndo.
  - intros c cn -> HI0 HJ0. apply handle_connect_J; [exact HI0|apply conn_gone_cv_self|exact HJ0|].
    intros ->. cbn [ev_win] in Hwin. now rewrite step_event_connect_fst in Hwin.
  - intros c _ _ HJ0. apply J_upd_detached; [exact HJ0|apply not_attached_fresh].
  - intros c p k He Hk Ep _ _. apply (handle_packet_J w c k p s HJ Hk); [left; exact Ep|].
    intros pid Hp. assert (Hack : ack_ok s c p = true) by (destruct He as [->|[n ->]]; exact Hok).
    unfold ack_ok in Hack. rewrite Hp, Hk, Ep in Hack. apply negb_true_iff in Hack. now apply memN_notIn.
  - intros c p code br a _ Ha. apply fail_conn_J. now apply BInv_ndo.
  - intros c p k _ Hk Hn _ _. now apply send_unconnected_J.
  - intros c p k q _ Hk Ep _ _. eapply J_upd_conn; [exact HJ|exact Hk|apply cqe_set_quota|]. intros _. left. exact Ep.
  - intros m -> _ _. cbn [ev_ok] in Hok. apply N.eqb_eq in Hok. now apply deliver_J.
  - intros cid c k _ _ Hk _ _. apply conn_gone_J; [exact (BInv_ndo s HI)|].
    eapply J_upd_conn; [exact HJ|exact Hk|apply cqe_set_force|]. intros H; exact H.
  - intros cid _ Eo _ _ _. apply remove_session_J; [exact HJ|now apply BInv_ndo|].
    eapply NoAtt_offline; [apply (j_poll w s HJ)|exact Eo].
  - intros cid a _. apply release_will_J.
  - intros now rt _ _. eapply J_same; [..|exact HJ]; reflexivity.
  - intros _ _. apply expire_J; [|exact HI|exact HJ]. intros [cid dl] Hin. apply filter_In in Hin as [Hin _]. cbn [fst].
    destruct (ahas cid (b_online s)) eqn:E; [|reflexivity].
    apply (bi_disj _ _ HI) in E. assert (ahas cid (b_offline s) = true); [|congruence].
    apply ahas_in_keys. apply in_map_iff. now exists (cid, dl).
  - intros a _. apply fire_wills_J.
Qed.

Lemma poll_once_QS w c s s' o :
  BInv s -> AllPoll w s -> QS s -> poll_once c s = Some (s', o) -> BInv s' /\ QS s' /\ b_tag s' = b_tag s.
Proof.
  intros HI HA HQ Hp.
  assert (HI' : BInv s') by (eapply BInvG_frame; [apply (BrokerInvP.poll_once_frame c s s' o Hp)|exact HI]).
  destruct (nget c (b_conns s)) as [k|] eqn:Hk; [|rewrite (poll_once_absent c s Hk) in Hp; discriminate].
  destruct (attached_dec k) as [Hat|Hna]; [|rewrite (poll_once_detached c s k Hk Hna) in Hp; discriminate].
  destruct (PollInv_at w s c k (HA c k Hk Hat) Hk) as (q & inf & que & Hq & _ & _ & _ & HCQ).
  destruct (poll_once_cases w c s s' o k q inf que Hk Hq HCQ Hp) as (_ & Ht & _ & _ & Hqueues & Hcase).
  destruct (poll_case_next _ _ _ _ _ _ _ _ _ Hcase) as (k' & q' & inf' & que' & _ & _ & Hq' & HCQ').
  split; [exact HI'|]. split; [|exact Ht].
  intros cid' q1 Hin. apply In_aget in Hin; [|apply (bi_nd_q _ _ HI')].
  destruct (str_eqb_spec cid' (k_cid k)) as [->|Hne].
  - rewrite Hq' in Hin. inversion Hin; subst q1. exists inf', que'. apply (cq_q _ _ _ _ _ _ HCQ').
  - rewrite (Hqueues _ Hne) in Hin. rewrite Ht. apply (HQ cid' q1). now apply aget_In.
Qed.

Definition PQ (w : bool) (b : N) (s : st) : Prop := BInv s /\ AllPoll w s /\ QS s /\ b_tag s = b.

Lemma poll_all_PQ w b s : PQ w b s -> PQ w b (fst (poll_all s)).
Proof.
  apply poll_all_inv. intros c s0 s' o (HI & HA & HQ & Ht) Hp.
  destruct (poll_once_QS w c s0 s' o HI HA HQ Hp) as (HI' & HQ' & Ht').
  split; [exact HI'|split; [eapply poll_once_AllPoll; eauto|split; [exact HQ'|congruence]]].
Qed.

Lemma poll_all_J w s : BInv s -> J w s -> J w (fst (poll_all s)).
Proof.
  intros HI [HA HQ HP HT HC HK].
  destruct (poll_all_PQ w (b_tag s) s) as (_ & HA' & HQ' & Ht'); [split; [exact HI|split; [exact HA|split; [exact HQ|reflexivity]]]|].
  destruct (BrokerQos2P.poll_all_frame s) as [F _].
  constructor.
  - exact HA'.
  - exact HQ'.
  - eapply PZ_same; [apply (BrokerQos2P.df_ret _ _ F)|apply (BrokerQos2P.df_sessions _ _ F)|apply (BrokerQos2P.df_wills _ _ F)|exact HP].
  - now rewrite Ht'.
  - now rewrite (BrokerQos2P.df_cfg _ _ F).
  - intros c k' Hk' Hat'. rewrite (BrokerQos2P.df_cfg _ _ F).
    pose proof (BrokerQos2P.df_cstat _ _ F c) as E. unfold BrokerQos2P.cstat in E. rewrite Hk' in E.
    destruct (nget c (b_conns s)) as [k|] eqn:Hk; cbn [option_map] in E; [|discriminate].
    assert (Es : BrokerQos2P.kstat k' = BrokerQos2P.kstat k) by congruence.
    unfold BrokerQos2P.kstat in Es.
    assert (E1 : k_max_inflight k' = k_max_inflight k) by congruence.
    assert (E2 : k_phase k' = k_phase k) by congruence.
    rewrite E1. apply (HK c k Hk). unfold BrokerPollP.attached in *. now rewrite <- E2.
Qed.

Theorem step_GInv w s e : GInv w s -> wb w s e = true -> GInv w (fst (step s e)).
Proof.
  intros [HI HJ] Hwb. split; [now apply step_inv|].
  pose proof (step_event_inv s e HI) as HI1. pose proof (step_event_J w s e HI HJ Hwb) as HJ1.
  unfold step. destruct (step_event s e) as [s1 o1]. cbn [fst] in *.
  pose proof (poll_all_J w s1 HI1 HJ1) as H. destruct (poll_all s1) as [s2 o2]. exact H.
Qed.

Theorem run_GInv w : forall es s, GInv w s -> run_wb w s es = true -> GInv w (fst (run s es)).
Proof.
  induction es as [|e r IH]; intros s HG Hwb; cbn [run]; [exact HG|].
  cbn [run_wb] in Hwb. apply andb_true_iff in Hwb. destruct Hwb as [H1 H2].
  pose proof (step_GInv w s e HG H1) as HG1. destruct (step s e) as [s' o]. cbn [fst] in *.
  specialize (IH s' HG1 H2). destruct (run s' r) as [s'' os]. exact IH.
Qed.

Lemma GInv_init w c h p : c_max_inflight c <= MAXPID -> GInv w (st_init c h p).
Proof.
  intros Hc. split; [apply BInv_init|]. constructor.
  - intros c0 k Hk. discriminate.
  - intros cid q Hin. destruct Hin.
  - split; [intros m H; destruct H|split; [intros ? ? ? H; destruct H|intros ? ? ? H; destruct H]].
  - cbn. discriminate.
  - exact Hc.
  - intros c0 k Hk. discriminate.
Qed.

Lemma run_wb_app w a : forall s b, run_wb w s (a ++ b) = run_wb w s a && run_wb w (fst (run s a)) b.
Proof.
  induction a as [|e r IH]; intros s b; cbn [app run_wb run fst]; [reflexivity|].
  rewrite IH. destruct (step s e) as [s' o]. cbn [fst]. destruct (run s' r) as [s'' os]. cbn [fst]. now rewrite andb_assoc.
Qed.

Lemma run_wb_weaken : forall es s, run_wb true s es = true -> run_wb false s es = true.
Proof.
  induction es as [|e r IH]; intros s H; cbn [run_wb] in *; [reflexivity|].
  apply andb_true_iff in H. destruct H as [H1 H2]. apply andb_true_iff. split; [|now apply IH].
  unfold wb in *. apply andb_true_iff in H1. destruct H1 as [H1 _]. now rewrite H1.
Qed.

(* the global invariant holds in every state a well-behaved run reaches *)
Theorem reachable_GInv w c h p es :
  c_max_inflight c <= MAXPID -> run_wb w (st_init c h p) es = true -> GInv w (fst (run (st_init c h p) es)).
Proof. intros Hc Hwb. apply run_GInv; [now apply GInv_init|exact Hwb]. Qed.

(* C03_all_runs: every attached socket of the reached state satisfies the invariant of Proofs/BrokerPollP.v *)
Theorem C03_all_runs w c h p es :
  c_max_inflight c <= MAXPID -> run_wb w (st_init c h p) es = true ->
  forall sock k, nget sock (b_conns (fst (run (st_init c h p) es))) = Some k -> pattached k ->
                 PollInv w (fst (run (st_init c h p) es)) sock.
Proof. intros Hc Hwb. destruct (reachable_GInv w c h p es Hc Hwb) as [_ HJ]. apply (j_poll _ _ HJ). Qed.

(* ... and so does every state on the way *)
Theorem C03_all_prefixes w c h p pre post :
  c_max_inflight c <= MAXPID -> run_wb w (st_init c h p) (pre ++ post) = true ->
  AllPoll w (fst (run (st_init c h p) pre)).
Proof.
  intros Hc Hwb. rewrite run_wb_app in Hwb. apply andb_true_iff in Hwb. destruct Hwb as [Hwb _].
  destruct (reachable_GInv w c h p pre Hc Hwb) as [_ HJ]. apply (j_poll _ _ HJ).
Qed.

(* the stored queue of every session - attached or not - has the queue shape: a resume finds what it needs *)
Theorem C03_stored_queues w c h p es :
  c_max_inflight c <= MAXPID -> run_wb w (st_init c h p) es = true ->
  forall cid q, aget cid (b_queues (fst (run (st_init c h p) es))) = Some q ->
    exists inf que, QInv q (b_tag (fst (run (st_init c h p) es))) inf que.
Proof.
  intros Hc Hwb cid q Hq. destruct (reachable_GInv w c h p es Hc Hwb) as [_ HJ].
  apply (j_qs _ _ HJ cid q). now apply aget_In.
Qed.

(* no stored message carries a packet id *)
Theorem C03_stored_pid0 w c h p es :
  c_max_inflight c <= MAXPID -> run_wb w (st_init c h p) es = true ->
  PZ (fst (run (st_init c h p) es)).
Proof. intros Hc Hwb. destruct (reachable_GInv w c h p es Hc Hwb) as [_ HJ]. apply (j_pz _ _ HJ). Qed.

(* the ids of the in-flight entries of every attached connection: non-zero, pairwise distinct, locked *)
Theorem C03_ids_all_runs c h p es :
  c_max_inflight c <= MAXPID -> run_wb false (st_init c h p) es = true ->
  forall sock k, nget sock (b_conns (fst (run (st_init c h p) es))) = Some k -> pattached k ->
    exists q, aget (k_cid k) (b_queues (fst (run (st_init c h p) es))) = Some q /\
      NoDup (inflight_ids q) /\ (forall i, In i (inflight_ids q) -> 1 <= i <= MAXPID) /\ ~ In 0 (inflight_ids q) /\
      (forall i, In i (inflight_ids q) -> In i (l_locked (k_lim k))).
Proof.
  intros Hc Hwb sock k Hk Hat. pose proof (C03_all_runs false c h p es Hc Hwb sock k Hk Hat) as HP.
  destruct (PollInv_at _ _ sock k HP Hk) as (q & inf & que & Hq & _).
  exists q. split; [exact Hq|]. exact (C03_ids_distinct_nonzero false _ sock k q HP Hk Hq).
Qed.

(* the window.  In a run in which no CONNECT leaves more in flight than the new window allows,
   the in-flight entries (and, after the replay, the ids held by the poll loop) never outnumber the window of
   the connection, which is at most the configured max_inflight (and, by window_at_connect, the client's
   Receive Maximum) *)
Theorem C03_window_all_runs c h p es :
  c_max_inflight c <= MAXPID -> run_wb true (st_init c h p) es = true ->
  forall sock k, nget sock (b_conns (fst (run (st_init c h p) es))) = Some k -> pattached k ->
    exists q, aget (k_cid k) (b_queues (fst (run (st_init c h p) es))) = Some q /\
      N.of_nat (length (inflight_ids q)) <= k_max_inflight k /\
      (k_drained k = true -> N.of_nat (length (inflight_ids q) + length (held_ids k)) <= k_max_inflight k) /\
      l_used (k_lim k) <= l_limit (k_lim k) /\
      k_max_inflight k <= c_max_inflight c.
Proof.
  intros Hc Hwb sock k Hk Hat. pose proof (C03_all_runs true c h p es Hc Hwb sock k Hk Hat) as HP.
  destruct (PollInv_at _ _ sock k HP Hk) as (q & inf & que & Hq & _).
  exists q. split; [exact Hq|].
  destruct (C03_window _ sock k q HP Hk Hq) as (H1 & _ & H3 & H4).
  split; [exact H1|]. split; [exact H3|]. split; [exact H4|].
  destruct (reachable_GInv true c h p es Hc Hwb) as [_ HJ].
  pose proof (j_kw _ _ HJ sock k Hk Hat) as H5. now rewrite (proj1 (run_cfg_hooks es _)) in H5.
Qed.

(* a subscriber with Receive Maximum 2 and a persistent session; QoS 1 and 2 traffic, PUBACK and PUBREC, the
   connection closes, messages are queued for the stored session, the session is resumed (PUBREL and the QoS 1
   message are retransmitted), PUBCOMP, more traffic *)
Definition gx_run : list event :=
  wx_pre ++ [wx_pub 1 11 [1]; wx_pub 2 12 [2]; wx_pub 1 13 [3]; ESend 1 (KPuback 1 0 []); ESend 1 (KPubrec 3 0 []);
             EClose 1; wx_pub 1 14 [4]; wx_pub 2 15 [5];
             EConnect 1 (wx_connect 5 wx_S false [PSei 100; PRecvMax 2]); ESend 1 (KPubcomp 3 0 []); wx_pub 1 16 [6]].

Example gx_well_behaved :
  c_max_inflight (wx_cfg 0 100) <= MAXPID /\ run_wb true wx_init gx_run = true /\ run_wb false wx_init gx_run = true /\
  let s := fst (run wx_init gx_run) in
  pollinv_b true s 1 = true /\ pollinv_b true s 2 = true /\
  option_map inflight_ids (aget wx_S (b_queues s)) = Some [4; 1] /\
  option_map (fun q => length (q_l q)) (aget wx_S (b_queues s)) = Some 4%nat /\
  option_map k_max_inflight (nget 1 (b_conns s)) = Some 2.
Proof. vm_compute. repeat split; discriminate. Qed.

(* what socket 1 is sent after the resume: the PUBREL and the unacknowledged QoS 1 message again, first *)
Example gx_resume_output :
  map (filter (fun x => match x with OSend 1 (KConnack _ _ _) => false | OSend 1 _ => true | _ => false end))
      (skipn 11 (snd (run wx_init gx_run))) =
  [[OSend 1 (KPubrel 3 0 []); OSend 1 (KPublish true 1 false wx_T [3] 4 [])];
   [OSend 1 (KPublish false 1 false wx_T [4] 1 [])]; []].
Proof. vm_compute. reflexivity. Qed.

(* the window side condition cannot be dropped (kf_replay_exceeds_smaller_recvmax): the session comes back with
   Receive Maximum 1 while two messages are in flight; the run is well-behaved for w = false, the invariant
   without the window clause holds, with it it does not: two messages are in flight under window 1 *)
Definition gx_small_window : list event :=
  wx_pre ++ [wx_pub 1 11 [1]; wx_pub 2 12 [2]; wx_pub 1 13 [3]; EClose 1;
             EConnect 1 (wx_connect 5 wx_S false [PSei 100; PRecvMax 1])].

Example C03_window_needs_side_condition :
  run_wb false wx_init gx_small_window = true /\ run_wb true wx_init gx_small_window = false /\
  let s := fst (run wx_init gx_small_window) in
  pollinv_b false s 1 = true /\ pollinv_b true s 1 = false /\
  option_map inflight_ids (aget wx_S (b_queues s)) = Some [1; 3] /\
  option_map k_max_inflight (nget 1 (b_conns s)) = Some 1.
Proof. vm_compute. repeat split. Qed.

(* hypothesis (a) cannot be dropped: a PUBACK for an id the poll loop merely holds *)
Example C03_held_ack_not_well_behaved :
  let es := wx_pre ++ [ESend 1 (KPuback 1 0 [])] in
  run_wb false wx_init es = false /\ run_wb false wx_init wx_pre = true /\
  pollinv_b false (fst (run wx_init es)) 1 = false.
Proof. vm_compute. repeat split. Qed.

(* hypothesis (b) cannot be dropped: a message with a packet id handed to the publish API *)
Example C03_api_pid_not_well_behaved :
  let pre := wx_pre ++ [wx_pub 1 11 [1]; wx_pub 1 12 [2]; wx_pub 1 13 [3]] in
  let es := pre ++ [EApiPublish (set_pid 7 (msg_of_publish false false 1 false wx_T [9] 0 []))] in
  run_wb false wx_init es = false /\ run_wb false wx_init pre = true /\
  pollinv_b false (fst (run wx_init es)) 1 = false.
Proof. vm_compute. repeat split. Qed.

(* the configuration hypothesis cannot be dropped: with max_inflight above 65535 (not representable in the
   implementation: config.MQTT.MaxInflight is a uint16) the window of a connection exceeds the id space *)
Definition gx_bigcfg : cfg :=
  {| c_onlyonce := false; c_max_inflight := 70000; c_max_queued := 100; c_queue_qos0 := true;
     c_session_expiry := 3600; c_message_expiry := 0; c_recv_max := 100; c_alias_max := 10; c_max_packet := 0;
     c_max_qos := 2; c_retain_avail := true; c_wildcard := true; c_subid := true; c_shared := true;
     c_max_keepalive := 60; c_allow_zero_len := true; c_inflight_expiry := 0 |}.

Example C03_max_inflight_bound_needed :
  let es := [EConnect 1 (wx_connect 4 wx_S true [])] in
  run_wb false (st_init gx_bigcfg no_hooks []) es = true /\
  pollinv_b false (fst (run (st_init gx_bigcfg no_hooks []) es)) 1 = false.
Proof. vm_compute. repeat split. Qed.

(* messages received from clients and wills are built without packet id *)
Lemma msg_of_publish_pid0 v5 dup qos retain topic payload pid props :
  m_pid (msg_of_publish v5 dup qos retain topic payload pid props) = 0.
Proof. reflexivity. Qed.
Lemma will_msg_pid0 ws : m_pid (will_msg ws) = 0.
Proof. reflexivity. Qed.

(* the client acknowledges only packet ids that are in flight on its connection.  This implies ack_ok (an id
   in flight is not among the ids the poll loop merely holds); ack_ok is weaker: it also allows acknowledgements
   of unknown ids, which change nothing *)
Definition ack_inflight (s : st) (c : N) (p : pkt) : bool :=
  match is_ack p with
  | Some pid => match nget c (b_conns s) with
                | Some k => match k_phase k with
                            | PhConnected => match aget (k_cid k) (b_queues s) with
                                             | Some q => memN pid (inflight_ids q)
                                             | None => false
                                             end
                            | _ => true
                            end
                | None => true
                end
  | None => true
  end.

Lemma ack_inflight_ok w s c p : J w s -> ack_inflight s c p = true -> ack_ok s c p = true.
Proof.
  intros HJ. unfold ack_inflight, ack_ok. destruct (is_ack p) as [pid|]; [|auto].
  destruct (nget c (b_conns s)) as [k|] eqn:Hk; [|auto]. destruct (k_phase k) eqn:Ep; auto.
  assert (Hat : pattached k) by (left; exact Ep).
  destruct (PollInv_at w s c k (j_poll w s HJ c k Hk Hat) Hk) as (q & inf & que & Hq & _ & _ & _ & HCQ).
  rewrite Hq. intros Hin. apply memN_In in Hin.
  apply negb_true_iff. apply memN_notIn. intros Hh.
  rewrite (inflight_ids_inf _ _ _ _ (cq_q _ _ _ _ _ _ HCQ)) in Hin.
  apply in_map_iff in Hin. destruct Hin as (e & He & Hin). apply In_firstn in Hin.
  eapply (NoDup_app_disj _ _ pid (cq_nd _ _ _ _ _ _ HCQ)); [|exact Hh]. rewrite <- He. now apply in_map.
Qed.

Definition ev_ok_strict (s : st) (e : event) : bool :=
  match e with
  | ESend c p => ack_inflight s c p
  | ESendSz c p _ => ack_inflight s c p
  | EApiPublish m => m_pid m =? 0
  | _ => true
  end.

Definition wb_strict (w : bool) (s : st) (e : event) : bool := ev_ok_strict s e && (negb w || ev_win s e).

Fixpoint run_wb_strict (w : bool) (s : st) (es : list event) : bool :=
  match es with
  | [] => true
  | e :: r => wb_strict w s e && run_wb_strict w (fst (step s e)) r
  end.

Lemma wb_strict_wb w s e : J w s -> wb_strict w s e = true -> wb w s e = true.
Proof.
  intros HJ H. unfold wb_strict, wb in *. apply andb_true_iff in H. destruct H as [H1 H2]. rewrite H2, andb_true_r.
  destruct e; cbn [ev_ok_strict ev_ok] in *; auto; eapply ack_inflight_ok; eauto.
Qed.

Theorem run_wb_strict_wb w : forall es s, GInv w s -> run_wb_strict w s es = true -> run_wb w s es = true.
Proof.
  induction es as [|e r IH]; intros s HG H; cbn [run_wb_strict run_wb] in *; [reflexivity|].
  apply andb_true_iff in H. destruct H as [H1 H2].
  pose proof (wb_strict_wb w s e (proj2 HG) H1) as H1'. rewrite H1'. cbn [andb].
  apply IH; [now apply step_GInv|exact H2].
Qed.

Theorem C03_all_runs_strict w c h p es :
  c_max_inflight c <= MAXPID -> run_wb_strict w (st_init c h p) es = true ->
  AllPoll w (fst (run (st_init c h p) es)).
Proof.
  intros Hc H. pose proof (run_wb_strict_wb w es _ (GInv_init w c h p Hc) H) as Hwb.
  destruct (reachable_GInv w c h p es Hc Hwb) as [_ HJ]. apply (j_poll _ _ HJ).
Qed.

Example gx_strict : run_wb_strict true wx_init gx_run = true.
Proof. vm_compute. reflexivity. Qed.

(* every stored queue keeps its in-flight entries (as the retransmission shows them: rkey), possibly with
   new ones appended *)
Definition inflight_ext (s s' : st) : Prop :=
  forall cid q, aget cid (b_queues s) = Some q ->
    exists q' l, aget cid (b_queues s') = Some q' /\ map rkey (q_inf q') = map rkey (q_inf q) ++ l.

Lemma inflight_ext_refl s : inflight_ext s s.
Proof. intros cid q Hq. exists q, []. now rewrite app_nil_r. Qed.

Lemma inflight_ext_trans a b c : inflight_ext a b -> inflight_ext b c -> inflight_ext a c.
Proof.
  intros H1 H2 cid q Hq. destruct (H1 cid q Hq) as (q1 & l1 & Hq1 & E1). destruct (H2 cid q1 Hq1) as (q2 & l2 & Hq2 & E2).
  exists q2, (l1 ++ l2). split; [exact Hq2|]. now rewrite E2, E1, app_assoc.
Qed.

Lemma poll_once_inflight_ext w c s s' o : AllPoll w s -> poll_once c s = Some (s', o) -> inflight_ext s s'.
Proof.
  intros HA Hp.
  destruct (nget c (b_conns s)) as [k|] eqn:Hk; [|rewrite (poll_once_absent c s Hk) in Hp; discriminate].
  destruct (attached_dec k) as [Hat|Hna]; [|rewrite (poll_once_detached c s k Hk Hna) in Hp; discriminate].
  pose proof (HA c k Hk Hat) as HP.
  destruct (PollInv_at w s c k HP Hk) as (q & inf & que & Hq & _ & _ & _ & HCQ).
  destruct (poll_once_cases w c s s' o k q inf que Hk Hq HCQ Hp) as (_ & _ & _ & _ & Hqueues & _).
  intros cid q1 Hq1. destruct (str_eqb_spec cid (k_cid k)) as [->|Hne].
  - rewrite Hq in Hq1. inversion Hq1; subst q1. exact (C03_until_acked_poll w s c k q s' o HP Hk Hq Hp).
  - exists q1, []. rewrite (Hqueues _ Hne), app_nil_r. auto.
Qed.

Theorem poll_all_inflight_ext w s : AllPoll w s -> inflight_ext s (fst (poll_all s)).
Proof.
  intros HA. apply (poll_all_inv_rel (AllPoll w) inflight_ext inflight_ext_refl inflight_ext_trans); [|exact HA].
  intros c s0 s' o H0 Hp. split; [eapply poll_once_AllPoll|eapply poll_once_inflight_ext]; eauto.
Qed.

(* in every state of a well-behaved run, the poll phase of the next step keeps every in-flight entry *)
Theorem C03_poll_keeps_inflight w c h p es e :
  c_max_inflight c <= MAXPID -> run_wb w (st_init c h p) (es ++ [e]) = true ->
  inflight_ext (fst (step_event (fst (run (st_init c h p) es)) e)) (fst (step (fst (run (st_init c h p) es)) e)).
Proof.
  intros Hc Hwb. rewrite run_wb_app in Hwb. apply andb_true_iff in Hwb. destruct Hwb as [Hwb1 Hwb2].
  cbn [run_wb] in Hwb2. rewrite andb_true_r in Hwb2.
  destruct (reachable_GInv w c h p es Hc Hwb1) as [HI HJ].
  pose proof (step_event_J w _ e HI HJ Hwb2) as HJ1.
  unfold step. destruct (step_event (fst (run (st_init c h p) es)) e) as [s1 o1]. cbn [fst] in *.
  pose proof (poll_all_inflight_ext w s1 (j_poll _ _ HJ1)) as H. destruct (poll_all s1) as [s2 o2]. exact H.
Qed.

Example gx_poll_keeps_inflight :
  let s := fst (step_event (fst (run wx_init (firstn 11 gx_run))) (nth 11 gx_run EInspect)) in
  let s' := fst (step (fst (run wx_init (firstn 11 gx_run))) (nth 11 gx_run EInspect)) in
  option_map (fun q => (q_cur q, map rkey (q_inf q))) (aget wx_S (b_queues s)) =
    Some (0%nat, [inr 3; inl (1, false, wx_T, [3], 4)]) /\
  option_map (fun q => (q_cur q, map rkey (q_inf q))) (aget wx_S (b_queues s')) =
    Some (2%nat, [inr 3; inl (1, false, wx_T, [3], 4)]).
Proof. vm_compute. split; reflexivity. Qed.
