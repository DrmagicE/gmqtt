(* C11 (wire level) - shared subscriptions in the broker model Model/Broker.v: what LEAVING a
   share group does, for all reachable states.

   A member leaves by UNSUBSCRIBE (`handle_unsubscribe`) or by the end of its session
   (`remove_session`: clean-start CONNECT, close with expiry 0, DISCONNECT then close with expiry 0,
   take-over with clean start, ETerminate, EExpireCheck after the deadline).  Every one of these
   steps appends `OUnsub` / `OUnsubAll` operations of the leaver - and nothing else - to the history
   of the subscription store (`hist_ext`, `leaving`, `leaving_hist`).
   From the store refinement (Proofs/SubTrieP.v) the flat specification then changes at the leaver's
   keys only (`leave_spec`, `leaving_spec`), the leaver is no longer found by `deliver`
   (`found_sound`, `not_member_not_selected`, `leaver_not_selected`), and the lists `deliver` works on
   are the old ones with the leaver's entries filtered out, in the same order
   (`found_after_leave`, `groups_filter`, `leaving_groups`).
   A connection that ends while the session persists leaves the store alone (`close_step_stored`).
   A SUBSCRIBE to a shared filter replays no retained message (`shared_subscribe_no_replay`); the copy queued for the
   picked member has that member's granted QoS cap and subscription identifier
   (`picked_member_copy`). *)
From Coq Require Import List NArith ZArith Bool Arith Lia ZifyN ZifyNat ZifyBool.
Import ListNotations.
From GM Require Import Base.Topic Base.Msg Model.SubTrie Model.SubSpec Model.RetTrie Model.Queue Model.Limiter
  Model.TopicMatch Model.Broker Proofs.TopicP Proofs.SubTrieP Proofs.BrokerBasicP Proofs.BrokerRetainP
  Proofs.DeliverP Proofs.BrokerInvP.
From GM Require Proofs.BrokerQos2P Proofs.BrokerHooksP.
Open Scope N_scope.

(* the store of s is the result of the well-formed history ops *)
Definition sub_hist (s : st) (ops : list op) : Prop := wf_ops ops = true /\ b_subs s = db_run ops.

(* the store of s' is the store of s after the operations extra *)
Definition hist_ext (s s' : st) (extra : list op) : Prop :=
  wf_ops extra = true /\ b_subs s' = fold_left db_step extra (b_subs s).

Lemma spec_run_app a b : spec_run (a ++ b) = fold_left spec_step b (spec_run a).
Proof. exact (SubTrieP.spec_run_app a b). Qed.

Lemma hist_ext_hist s s' extra ops : hist_ext s s' extra -> sub_hist s ops -> sub_hist s' (ops ++ extra).
Proof.
  intros [Hw He] [Hwf Hd]. split; [now rewrite wf_ops_app, Hwf, Hw|]. now rewrite db_run_app, He, Hd.
Qed.

Lemma hist_ext_refl s : hist_ext s s [].
Proof. split; reflexivity. Qed.

Lemma hist_ext_same s s' : b_subs s' = b_subs s -> hist_ext s s' [].
Proof. intros H. split; [reflexivity|exact H]. Qed.

Lemma hist_ext_trans a b c e1 e2 : hist_ext a b e1 -> hist_ext b c e2 -> hist_ext a c (e1 ++ e2).
Proof.
  intros [W1 E1] [W2 E2]. split; [now rewrite wf_ops_app, W1, W2|]. now rewrite fold_left_app, <- E1.
Qed.

Lemma hist_ext_subs_l a a' b e : b_subs a' = b_subs a -> hist_ext a b e -> hist_ext a' b e.
Proof. intros H [W E]. split; [exact W|]. now rewrite H. Qed.

Lemma hist_ext_subs_r a b b' e : b_subs b' = b_subs b -> hist_ext a b e -> hist_ext a b' e.
Proof. intros H [W E]. split; [exact W|]. now rewrite H. Qed.

Lemma hist_ext_frame_r a b b' e : frame b b' -> hist_ext a b e -> hist_ext a b' e.
Proof. intros F. apply hist_ext_subs_r. apply (fr_subs _ _ F). Qed.

Lemma SubsInv_hist s : SubsInv s -> exists ops, sub_hist s ops.
Proof. intros (ops & H1 & H2 & _). exists ops. now split. Qed.

Definition key_of (e : cid * sub) : skey := (fst e, s_share (snd e), s_filter (snd e)).

Definition op_removes (o : op) (key : skey) : bool :=
  match o with
  | OSub _ _ => false
  | OUnsub c t => skey_eqb key (c, fst (split_topic t), snd (split_topic t))
  | OUnsubAll c => str_eqb c (fst (fst key))
  end.
Definition removes (extra : list op) (key : skey) : bool := existsb (fun o => op_removes o key) extra.

Definition is_leave (o : op) : bool := match o with OSub _ _ => false | _ => true end.
Definition leave_only (extra : list op) : bool := forallb is_leave extra.

Lemma spec_step_leave sp o key :
  is_leave o = true -> NoDup (map fst sp) ->
  sp_get key (spec_step sp o) = if op_removes o key then None else sp_get key sp.
Proof.
  intros Hl Hnd. destruct o as [c sb|c t|c]; [discriminate| |].
  - rewrite spec_step_unsub. cbn [op_removes]. now apply sp_get_del.
  - cbn [spec_step op_removes]. unfold sp_del_client.
    rewrite (sp_get_filter (fun k => negb (str_eqb c (fst (fst k))))).
    destruct (str_eqb c (fst (fst key))); reflexivity.
Qed.

Lemma spec_nodup ops : wf_ops ops = true -> NoDup (map fst (spec_run ops)).
Proof. intros H. apply (inv_ok _ _ (Inv_run ops H)). Qed.

(* leaving operations remove exactly the keys they name *)
Theorem leave_spec ops extra key :
  wf_ops (ops ++ extra) = true -> leave_only extra = true ->
  sp_get key (spec_run (ops ++ extra)) = if removes extra key then None else sp_get key (spec_run ops).
Proof.
  revert ops. induction extra as [|o r IH]; intros ops Hwf Hl.
  - now rewrite app_nil_r.
  - cbn [leave_only forallb] in Hl. apply andb_true_iff in Hl as [Ho Hr].
    replace (ops ++ o :: r) with ((ops ++ [o]) ++ r) in * by now rewrite <- app_assoc.
    rewrite IH by assumption. cbn [removes existsb]. fold (removes r key).
    rewrite spec_run_snoc.
    assert (Hwf0 : wf_ops ops = true).
    { rewrite !wf_ops_app in Hwf. now apply andb_true_iff in Hwf as [Hwf _]; apply andb_true_iff in Hwf as [Hwf _]. }
    rewrite (spec_step_leave _ o key Ho (spec_nodup ops Hwf0)).
    destruct (op_removes o key); cbn [orb]; [now destruct (removes r key)|reflexivity].
Qed.

Lemma removes_unsub_all c n key : removes (repeat (OUnsubAll c) (S n)) key = str_eqb c (fst (fst key)).
Proof.
  induction n as [|n IH]; cbn [repeat removes existsb op_removes] in *.
  - apply orb_false_r.
  - fold (removes (repeat (OUnsubAll c) n) key) in *. rewrite IH. apply orb_diag.
Qed.

Lemma leave_only_repeat c n : leave_only (repeat (OUnsubAll c) n) = true.
Proof. induction n; [reflexivity|exact IHn]. Qed.

Lemma leave_only_unsubs c topics : leave_only (map (OUnsub c) topics) = true.
Proof. induction topics; [reflexivity|assumption]. Qed.

Lemma leave_only_app a b : leave_only (a ++ b) = leave_only a && leave_only b.
Proof. apply forallb_app. Qed.

Lemma removes_app a b key : removes (a ++ b) key = removes a key || removes b key.
Proof. apply existsb_app. Qed.

Lemma removes_unsubs c topics key :
  removes (map (OUnsub c) topics) key =
  existsb (fun t => skey_eqb key (c, fst (split_topic t), snd (split_topic t))) topics.
Proof. induction topics as [|t r IH]; [reflexivity|]. cbn [map removes existsb op_removes]. now rewrite <- IH. Qed.

Lemma node_entry_get k sp T p c sb :
  spec_ok sp -> TInv k (fun key => sp_get key sp) T -> In (c, sb) (set_rs (nd p T)) ->
  p = split (s_filter sb) /\ kind_of (s_share sb) (s_filter sb) = k /\
  sp_get (c, s_share sb, s_filter sb) sp = Some sb.
Proof. intros Hok [_ HN] Hin. exact (entry_sound k sp Hok p _ c sb (HN p) Hin). Qed.

Lemma iterate_sound topic d sp l :
  Inv d sp -> db_iterate (deliver_opts topic) d = IOk l ->
  forall c x, In (c, x) l -> exists sb, x = Some sb /\ sp_get (c, s_share sb, s_filter sb) sp = Some sb.
Proof.
  intros HI. pose proof (inv_ok _ _ HI) as Hok.
  assert (HT : forall k e, (In e (traverse (trie_of k d)) \/ In e (tmatch_top topic (trie_of k d))) ->
               sp_get (fst e, s_share (snd e), s_filter (snd e)) sp = Some (snd e)).
  { intros k [c sb] [Hin|Hin]; cbn [fst snd].
    - destruct (traverse_sound _ _ (proj1 (inv_trie _ _ HI k)) Hin) as [p Hp].
      now destruct (node_entry_get k sp _ p c sb Hok (inv_trie _ _ HI k) Hp) as (_ & _ & H).
    - destruct (tmatch_top_sound _ _ _ Hin) as [p Hp].
      now destruct (node_entry_get k sp _ p c sb Hok (inv_trie _ _ HI k) Hp) as (_ & _ & H). }
  assert (HS : forall k (L : list (cid * sub)),
            (forall e, In e L -> In e (traverse (trie_of k d)) \/ In e (tmatch_top topic (trie_of k d))) ->
            forall c x, In (c, x) (some_ents L) ->
              exists sb, x = Some sb /\ sp_get (c, s_share sb, s_filter sb) sp = Some sb).
  { intros k L HL c x Hin. unfold some_ents in Hin. apply in_map_iff in Hin as ([c' sb] & E & Hin).
    injection E as <- <-. exists sb. split; [reflexivity|]. apply (HT k (c', sb)). now apply HL. }
  unfold db_iterate, deliver_opts. cbn [io_shared io_nonshared io_sys io_topic].
  unfold iterate_shared, iterate_nonshared. cbn [io_client io_topic io_mt is_empty negb].
  change (sharedT d) with (trie_of KShared d). change (userT d) with (trie_of KUser d).
  change (sysT d) with (trie_of KSys d).
  destruct (is_empty topic) eqn:Et; cbn [negb andb].
  - intros [= <-] c x Hin. apply in_app_or in Hin as [Hin|Hin]; [|apply in_app_or in Hin as [Hin|Hin]].
    + apply (HS KShared _ (fun e H => or_introl H) c x Hin).
    + apply (HS KUser _ (fun e H => or_introl H) c x Hin).
    + apply (HS KSys _ (fun e H => or_introl H) c x Hin).
  - intros [= <-] c x Hin. apply in_app_or in Hin as [Hin|Hin]; [|apply in_app_or in Hin as [Hin|Hin]].
    + apply (HS KShared _ (fun e H => or_intror H) c x Hin).
    + destruct (starts_dollar topic); cbn [negb] in Hin; [destruct Hin|].
      apply (HS KUser _ (fun e H => or_intror H) c x Hin).
    + destruct (starts_dollar topic); cbn [negb] in Hin; [|destruct Hin].
      apply (HS KSys _ (fun e H => or_intror H) c x Hin).
Qed.

(* every entry `deliver` looks at is the entry of the specification at its own key *)
Theorem found_sound m s ops (c : str) sb :
  sub_hist s ops -> In (c, sb) (d_found m s) -> sp_get (c, s_share sb, s_filter sb) (spec_run ops) = Some sb.
Proof.
  intros [Hwf Hd] Hin. unfold d_found in Hin. rewrite Hd in Hin.
  destruct (db_iterate (deliver_opts (m_topic m)) (db_run ops)) as [l|] eqn:El; [|destruct Hin].
  apply in_flat_map in Hin as ([c' x] & Hl & Hin). cbn [fst snd] in Hin.
  destruct (iterate_sound _ _ _ l (Inv_run ops Hwf) El c' x Hl) as (sb' & -> & Hget).
  destruct Hin as [E|[]]. injection E as <- <-. exact Hget.
Qed.

Lemma shared_in_found src m s e : In e (d_shared src m s) -> In e (d_found m s) /\ s_share (snd e) <> [].
Proof.
  unfold d_shared, d_ents. intros H. apply filter_In in H as [H Hs]. apply filter_In in H as [H _].
  split; [exact H|]. unfold is_plain in Hs. apply negb_true_iff in Hs. now apply is_empty_false.
Qed.

(* the call is made for client cid through its shared subscription (g, f) *)
Definition call_through (cid g f : str) (cl : call) : Prop :=
  call_cid cl = cid /\ s_share (call_sub cl) = g /\ s_filter (call_sub cl) = f.

Lemma not_member_not_in_groups src m s ops (cid g f : str) :
  sub_hist s ops -> sp_get (cid, g, f) (spec_run ops) = None ->
  forall k members, In (k, members) (d_groups src m s) ->
  forall sb, In (cid, sb) members -> ~ (s_share sb = g /\ s_filter sb = f).
Proof.
  intros Hh Hnone k members Hg sb Hin [<- <-].
  apply d_groups_spec in Hg as [-> _]. apply filter_In in Hin as [Hin _].
  apply shared_in_found in Hin as [Hin _].
  rewrite (found_sound m s ops cid sb Hh Hin) in Hnone. discriminate.
Qed.

(* in any state whose specification has no entry (cid, g, f): `deliver`, for any message and any pick
   values, is a sequence of add_to_queue calls none of which is for cid through (g, f) *)
Theorem not_member_not_selected src m s ops (cid g f : str) :
  sub_hist s ops -> g <> [] -> sp_get (cid, g, f) (spec_run ops) = None ->
  exists cl1 picked cl3 p n,
    deliver src m s = (set_pk p n (fst (run_calls m (cl1 ++ picked ++ cl3) (s, []))),
                       snd (run_calls m (cl1 ++ picked ++ cl3) (s, [])), nonnil (d_ents src m s)) /\
    Forall2 group_call (d_groups src m s) picked /\
    Forall (fun cl => ~ call_through cid g f cl) (cl1 ++ picked ++ cl3).
Proof.
  intros Hh Hg Hnone.
  destruct (C11_one_member_per_group_l src m s) as (cl1 & picked & cl3 & p & n & E & F2 & Fs & Fp).
  exists cl1, picked, cl3, p, n. split; [exact E|]. split; [exact F2|].
  assert (Hpk : Forall (fun cl => ~ call_through cid g f cl) picked).
  { eapply Forall_impl; [|exact Fs]. cbn beta. intros cl Hin (<- & <- & <-).
    apply shared_in_found in Hin as [Hin _].
    rewrite (found_sound m s ops _ _ Hh Hin) in Hnone. discriminate. }
  apply Forall_app in Fp as [Fp1 Fp3].
  assert (Hplain : forall l, Forall (fun cl => is_empty (s_share (call_sub cl)) = true) l ->
                             Forall (fun cl => ~ call_through cid g f cl) l).
  { intros l Hl. eapply Forall_impl; [|exact Hl]. cbn beta. intros cl He (_ & Hs & _).
    apply is_empty_true in He. congruence. }
  apply Forall_app. split; [now apply Hplain|]. apply Forall_app. split; [exact Hpk|now apply Hplain].
Qed.

(* the same for a client that has no entry at all: it is in no group, and its queue is not touched *)
Theorem no_entry_not_selected src m s ops (cid : str) :
  sub_hist s ops -> (forall g f, sp_get (cid, g, f) (spec_run ops) = None) ->
  (forall k members, In (k, members) (d_groups src m s) -> forall sb, ~ In (cid, sb) members) /\
  aget cid (b_queues (fst (fst (deliver src m s)))) = aget cid (b_queues s).
Proof.
  intros Hh Hnone. split.
  - intros k members Hg sb Hin.
    exact (not_member_not_in_groups src m s ops cid _ _ Hh (Hnone _ _) k members Hg sb Hin (conj eq_refl eq_refl)).
  - apply deliver_frame. unfold of_cl.
    match goal with |- filter ?p ?l = [] => destruct (filter p l) as [|[c sb] r] eqn:E; [reflexivity|] end.
    assert (Hin : In (c, sb) (filter (fun e : str * sub => str_eqb cid (fst e)) (d_ents src m s))) by (rewrite E; now left).
    apply filter_In in Hin as [Hin Hc]. cbn [fst] in Hc. apply str_eqb_eq in Hc. subst c.
    unfold d_ents in Hin. apply filter_In in Hin as [Hin _].
    pose proof (found_sound m s ops cid sb Hh Hin) as Hf. rewrite Hnone in Hf. discriminate.
Qed.

Lemma wf_unsub_all_repeat (cid : str) n : cid <> [] -> wf_ops (repeat (OUnsubAll cid) n) = true.
Proof.
  intros H. apply is_empty_false in H. unfold wf_ops. induction n as [|n IH]; [reflexivity|].
  cbn [repeat forallb wf_op]. now rewrite H, IH.
Qed.

Lemma wf_unsub_all (cid : str) : cid <> [] -> wf_ops [OUnsubAll cid] = true.
Proof. apply (wf_unsub_all_repeat cid 1). Qed.

Lemma wf_unsubs (cid : str) topics : cid <> [] -> wf_ops (map (OUnsub cid) topics) = true.
Proof.
  intros H. apply is_empty_false in H. unfold wf_ops. induction topics as [|t r IH]; [reflexivity|].
  cbn [map forallb wf_op]. now rewrite H, IH.
Qed.

Lemma remove_session_hist (cid : str) s : cid <> [] -> hist_ext s (remove_session cid s) [OUnsubAll cid].
Proof. intros H. split; [now apply wf_unsub_all|reflexivity]. Qed.

Lemma fold_unsub_ops (cid : str) topics : forall d,
  fold_left (fun d t => db_unsubscribe cid t d) topics d = fold_left db_step (map (OUnsub cid) topics) d.
Proof. induction topics as [|t r IH]; intros d; [reflexivity|]. cbn [fold_left map db_step]. apply IH. Qed.

Lemma handle_unsubscribe_hist c k pid topics s :
  k_cid k <> [] -> hist_ext s (hres_st (handle_unsubscribe c k pid topics s)) (map (OUnsub (k_cid k)) topics).
Proof.
  intros H. split; [now apply wf_unsubs|]. unfold handle_unsubscribe. cbn [hres_st]. proj. apply fold_unsub_ops.
Qed.

(* the end of a connection: the session ends with it iff the expiry in force is 0 (or the client was
   terminated by the administrator) *)
Definition ends_session (k : conn) (se : session) (cf : cfg) : bool :=
  k_force_remove k || (ur_expiry k se cf =? 0).

Lemma unreg_res_hist (cid : str) k sess cf s1 s' se :
  unreg_res cid k sess cf s1 s' -> aget cid sess = Some se -> cid <> [] ->
  hist_ext s1 s' (if ends_session k se cf then [OUnsubAll cid] else []) /\
  (if ends_session k se cf then s' = remove_session cid s1
   else s' = store_tables cid se (ur_expiry k se cf) s1).
Proof.
  intros [H ->|se' Hs Hf He ->] Hse Hne.
  - assert (E : ends_session k se cf = true).
    { unfold ends_session. destruct H as [H|(se' & H & [Hf|He])]; [congruence| |];
        rewrite Hse in H; injection H as <-.
      - now rewrite Hf.
      - rewrite He. apply orb_true_r. }
    rewrite E. split; [now apply remove_session_hist|reflexivity].
  - rewrite Hse in Hs. injection Hs as <-.
    assert (E : ends_session k se cf = false).
    { unfold ends_session. rewrite Hf. cbn [orb]. now apply N.eqb_neq. }
    rewrite E. split; [now apply hist_ext_same|reflexivity].
Qed.

Lemma conn_gone_att_res c k s se :
  nget c (b_conns s) = Some k -> attached (k_phase k) = true ->
  aget (k_cid k) (b_sessions s) = Some se -> k_cid k <> [] ->
  exists s1, frame (upd_conn c (set_phase PhClosed k) s) s1 /\
    hist_ext s (fst (conn_gone c s)) (if ends_session k se (b_cfg s) then [OUnsubAll (k_cid k)] else []) /\
    (if ends_session k se (b_cfg s) then fst (conn_gone c s) = remove_session (k_cid k) s1
     else fst (conn_gone c s) = store_tables (k_cid k) se (ur_expiry k se (b_cfg s)) s1).
Proof.
  intros Hk Ha Hse Hne. destruct (conn_gone_att_spec c k s Hk Ha) as (s1 & o' & _ & _ & F & R).
  destruct (unreg_res_hist _ _ _ _ _ _ se R Hse Hne) as [H1 H2].
  change (ends_session (set_phase PhClosed k) se (b_cfg s)) with (ends_session k se (b_cfg s)) in *.
  change (ur_expiry (set_phase PhClosed k) se (b_cfg s)) with (ur_expiry k se (b_cfg s)) in *.
  exists s1. split; [exact F|]. split; [|exact H2].
  eapply hist_ext_subs_l; [|exact H1]. now rewrite (fr_subs _ _ F).
Qed.

Lemma conn_gone_att_hist c k s se :
  nget c (b_conns s) = Some k -> attached (k_phase k) = true ->
  aget (k_cid k) (b_sessions s) = Some se -> k_cid k <> [] ->
  hist_ext s (fst (conn_gone c s)) (if ends_session k se (b_cfg s) then [OUnsubAll (k_cid k)] else []).
Proof. intros Hk Ha Hse Hne. now destruct (conn_gone_att_res c k s se Hk Ha Hse Hne) as (s1 & _ & H & _). Qed.

(* the session table after the connection has gone *)
Lemma conn_gone_att_sessions c k s se (cid' : str) :
  NoDup (keys (b_sessions s)) ->
  nget c (b_conns s) = Some k -> attached (k_phase k) = true ->
  aget (k_cid k) (b_sessions s) = Some se -> k_cid k <> [] ->
  ahas cid' (b_sessions (fst (conn_gone c s))) =
  if ends_session k se (b_cfg s) then negb (str_eqb cid' (k_cid k)) && ahas cid' (b_sessions s)
  else ahas cid' (b_sessions s).
Proof.
  intros Hnd Hk Ha Hse Hne. destruct (conn_gone_att_res c k s se Hk Ha Hse Hne) as (s1 & F & _ & H).
  pose proof (fr_sess _ _ F) as Es. proj_in Es.
  destruct (ends_session k se (b_cfg s)); rewrite H.
  - proj. rewrite Es. now apply ahas_adel.
  - unfold store_tables. proj. rewrite Es, ahas_aset.
    destruct (str_eqb_spec cid' (k_cid k)) as [->|E]; [|reflexivity].
    cbn [orb]. symmetry. eapply ahas_some; eauto.
Qed.

(* a connection that goes away, seen from a client id: nothing, or that client's session ends *)
Lemma conn_gone_hist_for (cid : str) c s :
  BInv s -> (forall cid' f, cv s c = Some (cid', f) -> cid' = cid) ->
  exists n, hist_ext s (fst (conn_gone c s)) (repeat (OUnsubAll cid) n) /\
            ahas cid (b_sessions (fst (conn_gone c s))) =
            match n with O => ahas cid (b_sessions s) | S _ => false end.
Proof.
  intros HI Hc. destruct (cv s c) as [[cid' f]|] eqn:Ec.
  - specialize (Hc cid' f eq_refl). subst cid'.
    pose proof (bi_conn _ _ HI _ _ _ Ec) as Hon.
    apply cv_some in Ec as (k & Hk & Hcid & Ha & _).
    destruct (bi_has _ _ HI cid) as (Hs & _); [now rewrite (ahas_some _ _ _ Hon)|].
    pose proof (bi_ne _ _ HI _ Hs) as Hne. apply ahas_true in Hs as [se Hse].
    rewrite <- Hcid in Hse, Hne.
    pose proof (conn_gone_att_hist c k s se Hk Ha Hse Hne) as HH.
    pose proof (conn_gone_att_sessions c k s se cid (bi_nd_sess _ _ HI) Hk Ha Hse Hne) as HS.
    rewrite Hcid in *. destruct (ends_session k se (b_cfg s)).
    + exists 1%nat. split; [exact HH|]. rewrite HS, str_eqb_refl. reflexivity.
    + exists 0%nat. split; [exact HH|exact HS].
  - exists 0%nat. destruct (conn_gone_unatt c s Ec) as [->|(k & Hk & ->)]; cbn [fst repeat];
      (split; [now apply hist_ext_same|reflexivity]).
Qed.

Lemma hc_old_hist (cid : str) v5 cmax r0 s :
  cid <> [] ->
  hist_ext s (fst (fst (hc_old cid v5 cmax r0 s))) (if ahas cid (b_sessions s) && negb r0 then [OUnsubAll cid] else []).
Proof.
  intros Hne. unfold hc_old, ahas. destruct (aget cid (b_sessions s)) as [se|]; cbn [andb].
  - destruct r0; cbn [negb].
    + destruct (aget cid (b_queues s)); [|apply hist_ext_refl].
      destruct (aget cid (b_unacks s)); [|apply hist_ext_refl]. cbn [fst]. now apply hist_ext_same.
    + cbv zeta. pose proof (remove_session_hist cid s Hne) as HR.
      destruct (aget cid (b_wills (remove_session cid s))) as [[w t]|]; cbn [fst]; [|exact HR].
      revert HR. now apply hist_ext_subs_r.
  - apply hist_ext_refl.
Qed.

Lemma hc_resume0_clean (cid : str) cn s : cn_clean cn = true -> hc_resume0 cid cn s = false.
Proof.
  intros H. unfold hc_resume0. destruct (aget cid (b_sessions s)); [|reflexivity]. rewrite H. apply andb_false_r.
Qed.

Lemma repeat_app_unsub (cid : str) a b : repeat (OUnsubAll cid) a ++ repeat (OUnsubAll cid) b = repeat (OUnsubAll cid) (a + b).
Proof. symmetry. apply repeat_app. Qed.

(* the take-over of a client id that is online: its old connection goes away *)
Lemma hc_takeover_hist (cid : str) s :
  BInv s ->
  exists n, hist_ext s (fst (hc_takeover cid s)) (repeat (OUnsubAll cid) n) /\
            ahas cid (b_sessions (fst (hc_takeover cid s))) =
            match n with O => ahas cid (b_sessions s) | S _ => false end.
Proof.
  intros HI. unfold hc_takeover. destruct (aget cid (b_online s)) as [oldc|] eqn:Eo.
  - apply conn_gone_hist_for; [exact HI|]. intros cid' f Hcv.
    pose proof (bi_conn _ _ HI _ _ _ Hcv) as Hon'.
    destruct (bi_on _ _ HI cid oldc Eo) as [f' Hf']; [discriminate|]. congruence.
  - exists 0%nat. cbn [fst repeat]. split; [apply hist_ext_refl|reflexivity].
Qed.

Lemma hc_accept_hist c cn s :
  BInv s -> cv s c = None -> cn_clean cn = true ->
  exists n, hist_ext s (fst (hc_accept c cn s)) (repeat (OUnsubAll (hc_cid cn s)) n) /\
            (ahas (hc_cid cn s) (b_sessions s) = true -> (1 <= n)%nat).
Proof.
  intros HI Hc Hclean. unfold hc_accept. cbv zeta. set (cid := hc_cid cn s).
  pose proof (hc_cid_ne cn s) as Hne. fold cid in Hne.
  assert (HI0 : BInv (hc_auto cn s)) by (eapply BInvG_cframe; [apply wframe_cframe, hc_auto_frame|exact HI]).
  assert (Hsub0 : b_subs (hc_auto cn s) = b_subs s) by (unfold hc_auto; now destruct (is_empty (cn_cid cn))).
  assert (Hses0 : b_sessions (hc_auto cn s) = b_sessions s) by (unfold hc_auto; now destruct (is_empty (cn_cid cn))).
  destruct (hc_takeover_hist cid (hc_auto cn s) HI0) as (n1 & HT1 & HT2).
  destruct (hc_takeover cid (hc_auto cn s)) as [s1 o_dup]. cbn [fst] in *.
  pose proof (hc_old_hist cid (cn_ver cn =? 5) (hc_cmax cn) (hc_resume0 cid cn s1) s1 Hne) as HO.
  rewrite (hc_resume0_clean cid cn s1 Hclean) in *. cbn [negb] in HO. rewrite andb_true_r in HO.
  destruct (hc_old cid (cn_ver cn =? 5) (hc_cmax cn) false s1) as [[s2 o_will] resume].
  cbn [fst] in *. destruct (hc_wd_exp cn (b_cfg s)) as [wd ex].
  match goal with |- context [hc_wills o_will ?S] =>
    pose proof (hc_wills_quiet o_will S) as [F5 _]; set (s4 := S) in *; destruct (hc_wills o_will s4) as [s5 o_w] end.
  cbn [fst] in *.
  assert (E4 : b_subs s4 = b_subs s2) by (unfold s4, hc_register, hc_fresh; destruct resume; reflexivity).
  exists (n1 + (if ahas cid (b_sessions s1) then 1 else 0))%nat. split.
  - eapply hist_ext_frame_r; [exact F5|]. eapply hist_ext_subs_r; [exact E4|].
    rewrite <- repeat_app_unsub. eapply hist_ext_trans; [eapply hist_ext_subs_l; [symmetry; exact Hsub0|exact HT1]|].
    destruct (ahas cid (b_sessions s1)); exact HO.
  - intros Hs. rewrite HT2, Hses0 in *. destruct n1 as [|n1]; [|lia]. rewrite Hs. cbn. lia.
Qed.

Lemma handle_connect_hist c cn s :
  BInv s -> cv s c = None -> hc_rejected cn s = false -> cn_clean cn = true ->
  exists n, hist_ext s (fst (handle_connect c cn s)) (repeat (OUnsubAll (hc_cid cn s)) n) /\
            (ahas (hc_cid cn s) (b_sessions s) = true -> (1 <= n)%nat).
Proof. intros HI Hc Hr Hcl. rewrite (handle_connect_accepted c cn s Hr). now apply hc_accept_hist. Qed.

Lemma step_hist s e extra : hist_ext s (fst (step_event s e)) extra -> hist_ext s (fst (step s e)) extra.
Proof. apply hist_ext_frame_r, step_frame_poll. Qed.

Lemma attached_session s c k :
  BInv s -> nget c (b_conns s) = Some k -> attached (k_phase k) = true ->
  k_cid k <> [] /\ ahas (k_cid k) (b_sessions s) = true /\ k_force_remove k = false.
Proof.
  intros HI Hk Ha. pose proof (BInv_attached_online s c k HI Hk Ha) as Hon.
  destruct (bi_has _ _ HI (k_cid k)) as (Hs & _); [now rewrite (ahas_some _ _ _ Hon)|].
  split; [now apply (bi_ne _ _ HI)|]. split; [exact Hs|].
  apply (bi_force _ _ HI c (k_cid k)); [|discriminate]. apply cv_some. now exists k.
Qed.

(* (a) UNSUBSCRIBE *)
Theorem unsubscribe_step_hist s c k pid props topics :
  BInv s -> nget c (b_conns s) = Some k -> k_phase k = PhConnected ->
  hist_ext s (fst (step s (ESend c (KUnsubscribe pid props topics)))) (map (OUnsub (k_cid k)) topics).
Proof.
  intros HI Hk Hp. apply step_hist. cbn [step_event]. rewrite Hk, Hp. cbn [handle_packet handle_unsubscribe fst].
  assert (Ha : attached (k_phase k) = true) by now rewrite Hp.
  destruct (attached_session s c k HI Hk Ha) as (Hne & _).
  exact (handle_unsubscribe_hist c k pid topics s Hne).
Qed.

(* (b) the connection ends (closed by the peer, or by the broker after an error): the session ends
   with it iff the Session Expiry Interval in force is 0 *)
Theorem close_step_hist s c k se :
  BInv s -> nget c (b_conns s) = Some k -> attached (k_phase k) = true ->
  aget (k_cid k) (b_sessions s) = Some se ->
  hist_ext s (fst (step s (EClose c))) (if ur_expiry k se (b_cfg s) =? 0 then [OUnsubAll (k_cid k)] else []).
Proof.
  intros HI Hk Ha Hse. apply step_hist. cbn [step_event].
  destruct (attached_session s c k HI Hk Ha) as (Hne & _ & Hf).
  pose proof (conn_gone_att_hist c k s se Hk Ha Hse Hne) as H.
  unfold ends_session in H. rewrite Hf in H. cbn [orb] in H.
  destruct (conn_gone c s) as [s' o]. exact H.
Qed.

(* (c) ETerminate: the administrator removes the client, online or offline *)
Theorem terminate_step_hist s (cid : str) :
  BInv s -> ahas cid (b_sessions s) = true ->
  hist_ext s (fst (step s (ETerminate cid))) [OUnsubAll cid].
Proof.
  intros HI Hs. apply step_hist. cbn [step_event].
  pose proof (bi_ne _ _ HI _ Hs) as Hne.
  destruct (aget cid (b_online s)) as [c|] eqn:Eo.
  - destruct (BInv_online_attached s cid c HI Eo) as (k & Hk & Hcid & Ha & _). rewrite Hk.
    apply ahas_true in Hs as [se Hse].
    pose proof (conn_gone_att_hist c (set_force k) (upd_conn c (set_force k) s) se) as H.
    change (k_cid (set_force k)) with (k_cid k) in H. rewrite Hcid in H.
    change (ends_session (set_force k) se (b_cfg (upd_conn c (set_force k) s))) with true in H.
    eapply hist_ext_subs_l; [|apply H]; [reflexivity|proj; apply nget_nset_same|exact Ha|exact Hse|exact Hne].
  - pose proof (bi_sess _ _ HI _ Hs) as Hoo. rewrite (ahas_none _ _ Eo) in Hoo. cbn [orb] in Hoo. rewrite Hoo.
    destruct (release_will_quiet cid (remove_session cid s)) as [F _].
    eapply hist_ext_frame_r; [exact F|]. now apply remove_session_hist.
Qed.

(* (d) EExpireCheck: the sessions whose deadline has passed end *)
Definition expired_now (s : st) : list (str * N) := filter (fun cd => snd cd <? b_now s) (b_offline s).

Lemma fold_remove_subs (l : list (str * N)) : forall s,
  b_subs (fold_left (fun s0 cd => remove_session (fst cd) s0) l s) =
  fold_left db_step (map (fun cd => OUnsubAll (fst cd)) l) (b_subs s).
Proof. induction l as [|cd r IH]; intros s; [reflexivity|]. cbn [fold_left map]. rewrite IH. reflexivity. Qed.

Theorem expire_step_hist s :
  BInv s -> hist_ext s (fst (step s EExpireCheck)) (map (fun cd => OUnsubAll (fst cd)) (expired_now s)).
Proof.
  intros HI. apply step_hist. cbn [step_event]. fold (expired_now s).
  set (s1 := fold_left (fun s0 cd => remove_session (fst cd) s0) (expired_now s) s).
  assert (H1 : hist_ext s s1 (map (fun cd => OUnsubAll (fst cd)) (expired_now s))).
  { split; [|apply fold_remove_subs]. unfold wf_ops. rewrite forallb_forall. intros o Ho.
    apply in_map_iff in Ho as ([cid dl] & <- & Hin). cbn [wf_op fst].
    apply filter_In in Hin as [Hin _].
    assert (Hoff : ahas cid (b_offline s) = true) by (apply ahas_in_keys; apply in_map_iff; now exists (cid, dl)).
    apply negb_true_iff, is_empty_false. apply (bi_ne _ _ HI). apply (bi_has _ _ HI). rewrite Hoff. apply orb_true_r. }
  apply (fold_inv (fun s0 => hist_ext s s0 (map (fun cd => OUnsubAll (fst cd)) (expired_now s)))); [|exact H1].
  intros s0 o0 cd H0. destruct (release_will_quiet (fst cd) s0) as [F _].
  destruct (release_will (fst cd) s0) as [s' o']. cbn [fst] in *. eapply hist_ext_frame_r; eauto.
Qed.

(* (e) CONNECT with Clean Start (take-over included) on a socket that is not in use by another client *)
Theorem clean_connect_step_hist s c cn :
  BInv s -> (forall cid' f, cv s c = Some (cid', f) -> cid' = cn_cid cn) ->
  hc_rejected cn s = false -> cn_cid cn <> [] -> cn_clean cn = true ->
  ahas (cn_cid cn) (b_sessions s) = true ->
  exists n, hist_ext s (fst (step s (EConnect c cn))) (repeat (OUnsubAll (cn_cid cn)) (S n)).
Proof.
  intros HI Hsock Hrej Hne Hclean Hs.
  assert (Hcid : forall s0, hc_cid cn s0 = cn_cid cn).
  { intros s0. unfold hc_cid. apply is_empty_false in Hne. now rewrite Hne. }
  destruct (conn_gone_hist_for (cn_cid cn) c s HI Hsock) as (n0 & H0 & S0).
  pose proof (conn_gone_inv c s HI) as HI0. pose proof (conn_gone_cv_self c s) as Hc0.
  pose proof (conn_gone_misc c s) as (Hcfg & Hhooks & _ & _).
  assert (Hex : exists m, hist_ext s (fst (step_event s (EConnect c cn))) (repeat (OUnsubAll (cn_cid cn)) m) /\ (1 <= m)%nat).
  { cbn [step_event]. destruct (conn_gone c s) as [s0 o0]. cbn [fst] in *.
    assert (Hrej0 : hc_rejected cn s0 = false) by now rewrite (hc_rejected_ext cn s s0 Hhooks Hcfg).
    destruct (handle_connect_hist c cn s0 HI0 Hc0 Hrej0 Hclean) as (n1 & H1 & S1). rewrite Hcid in *.
    destruct (handle_connect c cn s0) as [s1 o1]. cbn [fst] in *.
    exists (n0 + n1)%nat. split; [rewrite <- repeat_app_unsub; eapply hist_ext_trans; eauto|].
    destruct n0 as [|n0]; [|lia]. rewrite Hs in S0. specialize (S1 S0). lia. }
  destruct Hex as (m & Hm & Hle). destruct m as [|m]; [lia|]. exists m. now apply step_hist.
Qed.

(* what `deliver` finds depends on the store only *)
Lemma d_found_ext m s s' : b_subs s' = b_subs s -> d_found m s' = d_found m s.
Proof. intros H. unfold d_found. now rewrite H. Qed.

Lemma d_shared_ext src m s s' : b_subs s' = b_subs s -> d_shared src m s' = d_shared src m s.
Proof. intros H. unfold d_shared, d_ents. now rewrite (d_found_ext m s s' H). Qed.

Lemma d_groups_ext src m s s' : b_subs s' = b_subs s -> d_groups src m s' = d_groups src m s.
Proof. intros H. unfold d_groups. now rewrite (d_shared_ext src m s s' H). Qed.

(* unregisterClient with a session that is kept: the store is not touched, the session, its queue
   and its offline deadline are there *)
Theorem unregister_stored c k s se :
  aget (k_cid k) (b_sessions s) = Some se -> ends_session k se (b_cfg s) = false ->
  let s' := fst (unregister c k s) in
  b_subs s' = b_subs s /\
  aget (k_cid k) (b_sessions s') = Some (stored_session se (ur_expiry k se (b_cfg s))) /\
  ahas (k_cid k) (b_offline s') = true /\
  (ahas (k_cid k) (b_queues s) = true -> ahas (k_cid k) (b_queues s') = true).
Proof.
  intros Hse He. cbv zeta. destruct (unregister_spec c k s) as (s1 & F & _ & R).
  unfold ends_session in He. apply orb_false_iff in He as [Hf He]. apply N.eqb_neq in He.
  destruct R as [H E|se' Hs' Hf' He' E].
  - exfalso. destruct H as [H|(se' & H & [H1|H1])]; [congruence| |]; rewrite Hse in H; injection H as <-; congruence.
  - rewrite Hse in Hs'. injection Hs' as <-. rewrite E. unfold store_tables. proj.
    split; [apply (fr_subs _ _ F)|]. split; [apply aget_aset_same|].
    split; [now rewrite ahas_aset, str_eqb_refl|]. apply (proj2 (fr_q _ _ F)).
Qed.

(* the same for a connection that goes away *)
Theorem conn_gone_stored c k s se :
  nget c (b_conns s) = Some k -> attached (k_phase k) = true ->
  aget (k_cid k) (b_sessions s) = Some se -> ends_session k se (b_cfg s) = false ->
  let s' := fst (conn_gone c s) in
  b_subs s' = b_subs s /\
  (forall src m, d_groups src m s' = d_groups src m s) /\
  aget (k_cid k) (b_sessions s') = Some (stored_session se (ur_expiry k se (b_cfg s))) /\
  ahas (k_cid k) (b_offline s') = true /\
  (ahas (k_cid k) (b_queues s) = true -> ahas (k_cid k) (b_queues s') = true).
Proof.
  intros Hk Ha Hse He. cbv zeta. rewrite (conn_gone_att c k s Hk Ha). cbn [fst].
  set (s0 := upd_conn c (set_phase PhClosed k) (closed_q (k_cid k) s)).
  assert (Hse0 : aget (k_cid (set_phase PhClosed k)) (b_sessions s0) = Some se).
  { unfold s0. proj. now rewrite closed_q_sessions. }
  assert (He0 : ends_session (set_phase PhClosed k) se (b_cfg s0) = false).
  { unfold s0. proj. now rewrite closed_q_cfg. }
  destruct (unregister_stored c (set_phase PhClosed k) s0 se Hse0 He0) as (U1 & U2 & U3 & U4).
  change (k_cid (set_phase PhClosed k)) with (k_cid k) in *.
  change (ur_expiry (set_phase PhClosed k) se (b_cfg s0)) with (ur_expiry k se (b_cfg s0)) in U2.
  assert (Es : b_subs s0 = b_subs s) by (unfold s0; proj; apply (fr_subs _ _ (closed_q_frame (k_cid k) s))).
  assert (Ec : b_cfg s0 = b_cfg s) by (unfold s0; proj; apply closed_q_cfg).
  rewrite Ec in U2. rewrite Es in U1.
  split; [exact U1|]. split; [intros src m; now apply d_groups_ext|]. split; [exact U2|]. split; [exact U3|].
  intros Hq. apply U4. unfold s0. proj. apply (proj2 (fr_q _ _ (closed_q_frame (k_cid k) s))). exact Hq.
Qed.

(* wire level: the peer closes the connection of a client whose Session Expiry Interval in force is
   not 0.  The store, hence every group list, is what it was; the client is offline with its session
   and its queue: `deliver` still picks among the same members, and a copy for this member goes to
   the stored queue (C01_add_to_queue) *)
Theorem close_step_stored s c k se :
  BInv s -> nget c (b_conns s) = Some k -> attached (k_phase k) = true ->
  aget (k_cid k) (b_sessions s) = Some se -> ur_expiry k se (b_cfg s) <> 0 ->
  let s' := fst (step s (EClose c)) in
  b_subs s' = b_subs s /\
  (forall src m, d_groups src m s' = d_groups src m s) /\
  ahas (k_cid k) (b_sessions s') = true /\ ahas (k_cid k) (b_online s') = false /\
  ahas (k_cid k) (b_offline s') = true /\ ahas (k_cid k) (b_queues s') = true.
Proof.
  intros HI Hk Ha Hse He. cbv zeta.
  destruct (attached_session s c k HI Hk Ha) as (Hne & Hs & Hf).
  assert (Hends : ends_session k se (b_cfg s) = false).
  { unfold ends_session. rewrite Hf. cbn [orb]. now apply N.eqb_neq. }
  pose proof (step_frame_poll s (EClose c)) as F.
  pose proof (step_inv s (EClose c) HI) as HI'.
  assert (E0 : fst (step_event s (EClose c)) = fst (conn_gone c s)).
  { cbn [step_event]. now destruct (conn_gone c s). }
  rewrite E0 in F.
  destruct (conn_gone_stored c k s se Hk Ha Hse Hends) as (C1 & C2 & C3 & C4 & C5).
  assert (Esub : b_subs (fst (step s (EClose c))) = b_subs s) by now rewrite (fr_subs _ _ F).
  split; [exact Esub|]. split; [intros src m; now apply d_groups_ext|].
  assert (Hoff : ahas (k_cid k) (b_offline (fst (step s (EClose c)))) = true) by now rewrite (fr_off _ _ F).
  destruct (bi_has _ _ HI' (k_cid k)) as (B1 & B2 & _); [rewrite Hoff; apply orb_true_r|].
  split; [exact B1|]. split; [|split; [exact Hoff|exact B2]].
  destruct (ahas (k_cid k) (b_online (fst (step s (EClose c))))) eqn:Eon; [|reflexivity].
  apply (bi_disj _ _ HI') in Eon. congruence.
Qed.

(* the topic name of a SUBSCRIBE entry is a shared one: "$share/<group>/<filter>", group not empty *)
Definition shared_name (name : str) : bool := negb (is_empty (fst (split_topic name))).

Lemma entry_sub_share k subid topics t s :
  s_share (entry_sub k subid topics t s) = fst (split_topic (tq_name t)).
Proof.
  unfold entry_sub. cbv zeta.
  assert (E : s_share (sub_of_req (last_with_name (tq_name t) topics t) subid) = fst (split_topic (tq_name t))).
  { rewrite (proj1 (BrokerHooksP.sub_of_req_key _ _)). now rewrite (BrokerHooksP.last_with_name_name (tq_name t) topics t eq_refl). }
  destruct (sub_action_of k t s); cbn [s_share]; exact E.
Qed.

(* one entry with a shared name: it is refused, or it is subscribed; in neither case is
   `replay_retained` called (v3 and v5 alike: k is arbitrary) *)
Theorem shared_entry_no_replay c k subid topics s0 o0 cs t :
  shared_name (tq_name t) = true ->
  let sb := entry_sub k subid topics t s0 in
  let code := entry_code k subid topics t s0 in
  sub_entry_step c k subid topics (s0, o0, cs) t =
  if code <? 128 then (set_subs (fst (db_subscribe (k_cid k) sb (b_subs s0))) s0, o0, cs ++ [code])
  else (s0, o0, cs ++ [code]).
Proof.
  intros Hsh. cbv zeta.
  pose proof (replay_gate_entry c k subid topics s0 o0 cs t) as G. cbv zeta in G.
  destruct G as (Gref & _ & Gclosed & _).
  destruct (entry_code k subid topics t s0 <? 128) eqn:Ec.
  - apply Gclosed; [lia|].
    match goal with |- replay_gate ?a ?b ?r = false => destruct (replay_gate_clauses a b r) as (Hc1 & _) end.
    apply Hc1. rewrite entry_sub_share. exact Hsh.
  - apply Gref. lia.
Qed.

Lemma set_subs_same s : set_subs (b_subs s) s = s.
Proof. now destruct s. Qed.

(* a SUBSCRIBE all of whose entries are shared: the only output is the SUBACK, the state changes in the
   subscription store only - nothing is queued, whatever the retained store holds *)
Theorem shared_subscribe_no_replay c k pid props topics s :
  forallb (fun t => shared_name (tq_name t)) topics = true ->
  handle_subscribe c k pid props topics s = HErr s [] (Some 161) \/
  exists d codes, handle_subscribe c k pid props topics s = HOk (set_subs d s) [OSend c (KSuback pid codes [])].
Proof.
  intros Hall. rewrite handle_subscribe_unfold. cbv zeta.
  match goal with |- context [if ?b then HErr s [] (Some 161) else _] => destruct b end; [now left|]. right.
  destruct (h_sub_all (b_hooks s)) as [code|].
  - exists (b_subs s). eexists. rewrite set_subs_same. reflexivity.
  - assert (G : forall l, forallb (fun t => shared_name (tq_name t)) l = true ->
              forall d o cs, exists d' cs',
                fold_left (sub_entry_step c k (sub_subid k props) topics) l (set_subs d s, o, cs) = (set_subs d' s, o, cs')).
    { induction l as [|t r IH]; intros Hl d o cs; [now exists d, cs|].
      cbn [forallb] in Hl. apply andb_true_iff in Hl as [Ht Hr]. cbn [fold_left].
      rewrite (shared_entry_no_replay c k _ topics (set_subs d s) o cs t Ht).
      match goal with |- context [if ?b then _ else _] => destruct b end; [|now apply IH].
      match goal with |- context [set_subs ?D (set_subs d s)] => change (set_subs D (set_subs d s)) with (set_subs D s) end.
      now apply IH. }
    destruct (G topics Hall (b_subs s) [] []) as (d' & cs' & E). rewrite set_subs_same in E. rewrite E.
    exists d', cs'. reflexivity.
Qed.

(* when nothing is dropped (every addressed queue has room and the queue_qos0 rule does not apply):
   for every share group with a matching member `deliver` picks one member; it is a member of the
   specification with a matching shared subscription; its queue is extended, and one of the new
   elements is the copy made through THAT member's subscription: QoS min(published, granted), that
   subscription's identifier (if it has one), RETAIN only under Retain-As-Published, never DUP *)
Theorem picked_member_copy src m s ops :
  sub_hist s ops -> nodrop_ok src m s = true ->
  exists picked,
    Forall2 group_call (d_groups src m s) picked /\
    Forall (fun cl =>
      let c := call_cid cl in let sb := call_sub cl in
      s_share sb <> [] /\ sp_get (c, s_share sb, s_filter sb) (spec_run ops) = Some sb /\
      forall q, aget c (b_queues s) = Some q ->
        exists app e m',
          aget c (b_queues (fst (fst (deliver src m s)))) = Some (q_extend app q) /\
          In e app /\ e_body e = QPub m' /\
          m_qos m' = N.min (m_qos m) (s_qos sb) /\
          m_subids m' = m_subids m ++ (if s_id sb =? 0 then [] else [s_id sb]) /\
          m_retained m' = m_retained m && s_rap sb /\ m_dup m' = false /\
          m_topic m' = m_topic m /\ m_payload m' = m_payload m) picked.
Proof.
  intros Hh Hn. destruct (deliver_nodrop src m s Hn) as (cl1 & cl2 & cl3 & [H1 H2 H3] & _ & _ & _ & D).
  exists cl2. split; [exact H2|].
  assert (Hmem : Forall (fun cl => In (call_cid cl, call_sub cl) (d_shared src m s) /\ call_ids cl = [s_id (call_sub cl)]) cl2).
  { eapply Forall2_right; [exact H2|]. intros g cl Hg Hc. cbn beta.
    split; [now destruct (group_call_member src m s g cl Hg Hc)|apply Hc]. }
  rewrite Forall_forall in Hmem. apply Forall_forall. intros cl Hcl. cbv zeta.
  destruct (Hmem cl Hcl) as [Hin Hids]. apply shared_in_found in Hin as [Hin Hsh]. cbn [snd] in Hsh.
  split; [exact Hsh|]. split; [exact (found_sound m s ops _ _ Hh Hin)|].
  intros q Hq. set (c := call_cid cl). set (calls := cl1 ++ cl2 ++ cl3).
  assert (Hhas : ahas c (b_queues s) = true) by (eapply ahas_some; eauto).
  assert (Hcf : In cl (calls_for c calls)).
  { unfold calls_for. apply filter_In. split; [|unfold c; apply str_eqb_refl].
    unfold calls. apply in_or_app. right. apply in_or_app. now left. }
  pose proof (appended_bodies m s c calls (b_tag s) Hhas) as Hb.
  assert (Hbody : In (call_body m cl) (map e_body (appended m s c calls (b_tag s)))).
  { rewrite Hb. now apply in_map. }
  apply in_map_iff in Hbody as (e & He & Hein).
  exists (appended m s c calls (b_tag s)), e, (copy_of m (call_sub cl) (call_ids cl)).
  split; [rewrite D; fold calls; unfold c; rewrite Hq; reflexivity|]. split; [exact Hein|]. split; [exact He|].
  split; [apply copy_qos|]. split; [|repeat split].
  rewrite copy_subids, Hids. cbn [filter]. unfold nz. now destruct (s_id (call_sub cl) =? 0).
Qed.

Definition client_key (cid : str) (key : skey) : bool := str_eqb cid (fst (fst key)).

(* `leaving s e rm`: in state s the event e makes a member leave; rm tells the keys (client, group,
   filter) of the specification that are removed.
   - UNSUBSCRIBE of a connected client: the named keys of that client;
   - the connection of a client ends (EClose: the peer closes; after a DISCONNECT the connection is in
     PhZombie and `ur_expiry` is the interval the DISCONNECT asked for) while the Session Expiry Interval
     in force is 0: all keys of that client;
   - accepted CONNECT with Clean Start of a client id that has a session (online on another socket: the
     take-over; offline; or online on this very socket): all keys of that client;
   - ETerminate of a client id that has a session: all its keys;
   - EExpireCheck: all keys of the offline sessions whose deadline has passed. *)
Inductive leaving (s : st) : event -> (skey -> bool) -> Prop :=
| L_unsubscribe c k pid props topics :
    nget c (b_conns s) = Some k -> k_phase k = PhConnected ->
    leaving s (ESend c (KUnsubscribe pid props topics))
            (fun key => existsb (fun t => skey_eqb key (k_cid k, fst (split_topic t), snd (split_topic t))) topics)
| L_unsubscribe_sz c k pid props topics n :          (* the same packet with its wire size, not too big *)
    nget c (b_conns s) = Some k -> k_phase k = PhConnected -> too_big k n s = false ->
    leaving s (ESendSz c (KUnsubscribe pid props topics) n)
            (fun key => existsb (fun t => skey_eqb key (k_cid k, fst (split_topic t), snd (split_topic t))) topics)
| L_close c k se :
    nget c (b_conns s) = Some k -> attached (k_phase k) = true ->
    aget (k_cid k) (b_sessions s) = Some se -> ur_expiry k se (b_cfg s) = 0 ->
    leaving s (EClose c) (client_key (k_cid k))
| L_clean_connect c cn :
    (forall cid' f, cv s c = Some (cid', f) -> cid' = cn_cid cn) ->
    hc_rejected cn s = false -> cn_cid cn <> [] -> cn_clean cn = true ->
    ahas (cn_cid cn) (b_sessions s) = true ->
    leaving s (EConnect c cn) (client_key (cn_cid cn))
| L_terminate (cid : str) :
    ahas cid (b_sessions s) = true -> leaving s (ETerminate cid) (client_key cid)
| L_expire :
    leaving s EExpireCheck (fun key => existsb (fun cd : str * N => client_key (fst cd) key) (expired_now s)).

Lemma removes_expired (l : list (str * N)) key :
  removes (map (fun cd => OUnsubAll (fst cd)) l) key = existsb (fun cd : str * N => client_key (fst cd) key) l.
Proof. induction l as [|cd r IH]; [reflexivity|]. cbn [map removes existsb op_removes]. now rewrite <- IH. Qed.

Lemma leave_only_expired (l : list (str * N)) : leave_only (map (fun cd => OUnsubAll (fst cd)) l) = true.
Proof. induction l as [|cd r IH]; [reflexivity|exact IH]. Qed.

(* every leaving step appends leaving operations - and nothing else - to the history of the store *)
Theorem leaving_hist s e rm :
  BInv s -> leaving s e rm ->
  exists extra, hist_ext s (fst (step s e)) extra /\ leave_only extra = true /\
                forall key, removes extra key = rm key.
Proof.
  intros HI [c k pid props topics Hk Hp|c k pid props topics n Hk Hp Hb|c k se Hk Ha Hse He|c cn Hsock Hrej Hne Hcl Hs|cid Hs|].
  - exists (map (OUnsub (k_cid k)) topics). split; [now apply unsubscribe_step_hist|].
    split; [apply leave_only_unsubs|]. intros key. apply removes_unsubs.
  - exists (map (OUnsub (k_cid k)) topics). split.
    + destruct (step_sz_small s c (KUnsubscribe pid props topics) n) as [_ E].
      { intros k0 Hk0 _. rewrite Hk in Hk0. injection Hk0 as <-. exact Hb. }
      rewrite E. now apply unsubscribe_step_hist.
    + split; [apply leave_only_unsubs|]. intros key. apply removes_unsubs.
  - exists [OUnsubAll (k_cid k)]. split.
    + pose proof (close_step_hist s c k se HI Hk Ha Hse) as H. now rewrite He in H.
    + split; [reflexivity|]. intros key. apply (removes_unsub_all (k_cid k) 0).
  - destruct (clean_connect_step_hist s c cn HI Hsock Hrej Hne Hcl Hs) as (n & H).
    exists (repeat (OUnsubAll (cn_cid cn)) (S n)). split; [exact H|]. split; [apply leave_only_repeat|].
    intros key. apply removes_unsub_all.
  - exists [OUnsubAll cid]. split; [now apply terminate_step_hist|]. split; [reflexivity|].
    intros key. apply (removes_unsub_all cid 0).
  - exists (map (fun cd => OUnsubAll (fst cd)) (expired_now s)). split; [now apply expire_step_hist|].
    split; [apply leave_only_expired|]. intros key. apply removes_expired.
Qed.

(* after a leaving step the specification is the old one without the removed keys: every
   other key - other members of the same group, other groups and filters, plain subscriptions - has
   the entry it had *)
Theorem leaving_spec s e rm ops :
  BInv s -> sub_hist s ops -> leaving s e rm ->
  exists ops', sub_hist (fst (step s e)) ops' /\
    forall key, sp_get key (spec_run ops') = if rm key then None else sp_get key (spec_run ops).
Proof.
  intros HI Hh HL. destruct (leaving_hist s e rm HI HL) as (extra & HE & Hlo & Hrm).
  exists (ops ++ extra). pose proof (hist_ext_hist _ _ _ _ HE Hh) as Hh'. split; [exact Hh'|].
  intros key. rewrite (leave_spec ops extra key (proj1 Hh') Hlo). now rewrite Hrm.
Qed.

Corollary others_unaffected s e rm ops :
  BInv s -> sub_hist s ops -> leaving s e rm ->
  exists ops', sub_hist (fst (step s e)) ops' /\
    (forall key, rm key = false -> sp_get key (spec_run ops') = sp_get key (spec_run ops)) /\
    (forall key, rm key = true -> sp_get key (spec_run ops') = None).
Proof.
  intros HI Hh HL. destruct (leaving_spec s e rm ops HI Hh HL) as (ops' & Hh' & Hsp).
  exists ops'. split; [exact Hh'|]. split; intros key Hk; rewrite Hsp, Hk; reflexivity.
Qed.

(* after a leaving step that removes (cid, g, f), in the resulting state - and in any state
   with the same store, whatever its pick values, queues, connections - `deliver` of any message
   makes no add_to_queue call for cid through the shared subscription (g, f) *)
Theorem leaver_not_selected s e rm ops (cid g f : str) :
  BInv s -> sub_hist s ops -> leaving s e rm -> rm (cid, g, f) = true -> g <> [] ->
  forall s'' src m, b_subs s'' = b_subs (fst (step s e)) ->
  exists cl1 picked cl3 p n,
    deliver src m s'' = (set_pk p n (fst (run_calls m (cl1 ++ picked ++ cl3) (s'', []))),
                         snd (run_calls m (cl1 ++ picked ++ cl3) (s'', [])), nonnil (d_ents src m s'')) /\
    Forall2 group_call (d_groups src m s'') picked /\
    Forall (fun cl => ~ call_through cid g f cl) (cl1 ++ picked ++ cl3).
Proof.
  intros HI Hh HL Hrm Hg s'' src m Hs''.
  destruct (leaving_spec s e rm ops HI Hh HL) as (ops' & [Hw' Hd'] & Hsp).
  apply (not_member_not_selected src m s'' ops' cid g f); [split; [exact Hw'|congruence]|exact Hg|].
  now rewrite Hsp, Hrm.
Qed.

(* ... and the leaver is in no member list *)
Theorem leaver_not_member s e rm ops (cid g f : str) :
  BInv s -> sub_hist s ops -> leaving s e rm -> rm (cid, g, f) = true ->
  forall s'' src m, b_subs s'' = b_subs (fst (step s e)) ->
  forall k members, In (k, members) (d_groups src m s'') ->
  forall sb, In (cid, sb) members -> ~ (s_share sb = g /\ s_filter sb = f).
Proof.
  intros HI Hh HL Hrm s'' src m Hs''.
  destruct (leaving_spec s e rm ops HI Hh HL) as (ops' & [Hw' Hd'] & Hsp).
  apply (not_member_not_in_groups src m s'' ops' cid g f); [split; [exact Hw'|congruence]|].
  now rewrite Hsp, Hrm.
Qed.

(* the same for the states the broker can reach *)
Lemma reachable_hist cf h pk es : exists ops, sub_hist (fst (run (st_init cf h pk) es)) ops.
Proof. apply SubsInv_hist, reachable_subsinv. Qed.

Lemma skey_eqb_same_gf (c' c g f : str) : skey_eqb (c', g, f) (c, g, f) = str_eqb c' c.
Proof. cbn [skey_eqb]. now rewrite !str_eqb_refl, !andb_true_r. Qed.

Definition keep1 (key : skey) (e : cid * sub) : bool := negb (skey_eqb (key_of e) key).

Lemma obs_entry_gf k sp (Hok : spec_ok sp) q x (g' c' : str) s (f : str) :
  NInv k (fun key => sp_get key sp) q x -> q = split f -> In (c', s) (obs g' x) ->
  s_share s = g' /\ s_filter s = f.
Proof.
  intros HN Hq Hin. destruct (obs_entry k sp Hok q x g' c' s HN Hin) as (H1 & H2 & _).
  split; [exact H1|]. apply split_inj. congruence.
Qed.

(* the node reached by tunsubscribe: its entries are the old ones without (c, g, f), in order *)
Lemma leave_res_set_rs k sp (Hok : spec_ok sp) q x (c g f : str) :
  NInv k (fun key => sp_get key sp) q x -> kind_of g f = k -> q = split f ->
  set_rs (leave_res c g x) = filter (keep1 (c, g, f)) (set_rs x).
Proof.
  intros HN Hk Hq.
  (* on the members of group g the filter is adel c; it keeps the members of every other group *)
  assert (Hkeep_g : forall l, (forall e, In e l -> In e (obs g x)) -> NoDup (map fst l) ->
                              adel c l = filter (keep1 (c, g, f)) l).
  { intros l Hl Hnd. rewrite (adel_filter c l Hnd). apply filter_ext_in. intros [c' s] Hin.
    destruct (obs_entry_gf k sp Hok q x g c' s f HN Hq (Hl _ Hin)) as [E1 E2].
    unfold keep1, key_of. cbn [fst snd]. rewrite E1, E2, skey_eqb_same_gf. now rewrite str_eqb_sym. }
  destruct g as [|a g0].
  - (* plain *)
    assert (Hs : n_shared x = []).
    { pose proof (ni_pure _ _ _ _ HN) as Hp. destruct k; [exact Hp|exact Hp|now apply kind_of_nil_ns in Hk]. }
    destruct (leave_res_plain c x Hs) as [Hc' Hs']. unfold set_rs. rewrite Hc', Hs', Hs. cbn [flat_map].
    rewrite !app_nil_r. apply Hkeep_g; [intros e He; now rewrite obs_nil|]. rewrite <- obs_nil. apply (ni_nd _ _ _ _ HN).
  - (* shared *)
    assert (Hne : a :: g0 <> []) by discriminate. set (g := a :: g0) in *.
    rewrite (kind_of_shared _ f Hne) in Hk. subst k.
    destruct (ni_pure _ _ _ _ HN) as [Hcl _]. pose proof (ni_shnd _ _ _ _ HN) as Hshnd.
    assert (Hother : forall g' l', In (g', l') (n_shared x) -> g' <> g -> filter (keep1 (c, g, f)) l' = l').
    { intros g' l' Hin Hg'. apply filter_all. intros [c' s] He.
      assert (Hl' : l' <> []) by (intros E; rewrite E in He; destruct He).
      destruct (in_shared_obs KShared sp q x g' l' HN Hin Hl') as [_ Ho]. rewrite <- Ho in He.
      destruct (obs_entry_gf KShared sp Hok q x g' c' s f HN Hq He) as [E1 _].
      unfold keep1, key_of. cbn [fst snd skey_eqb]. rewrite E1.
      apply str_eqb_neq in Hg'. now rewrite Hg', andb_false_r. }
    assert (Ex : set_rs x = flat_map snd (n_shared x)) by (unfold set_rs; now rewrite Hcl).
    rewrite Ex. unfold leave_res, leave_node. change (is_empty g) with false. cbn iota.
    destruct (aget g (n_shared x)) as [l|] eqn:El.
    + assert (Hl : adel c l = filter (keep1 (c, g, f)) l).
      { pose proof (ni_nd _ _ _ _ HN g) as Hnd. rewrite obs_ne in Hnd by exact Hne. unfold grp in Hnd. rewrite El in Hnd.
        apply Hkeep_g; [|exact Hnd]. intros e He. rewrite obs_ne by exact Hne. unfold grp. now rewrite El. }
      set (sh' := match adel c l with [] => adel g (n_shared x) | _ :: _ => aset g (adel c l) (n_shared x) end).
      assert (G : flat_map snd sh' = filter (keep1 (c, g, f)) (flat_map snd (n_shared x))).
      { unfold sh'. rewrite Hl. now apply flat_map_snd_filter. }
      refine (eq_trans _ G).
      destruct (is_nil sh' && is_nil (n_children (Node (n_clients x) sh' (n_tname x) (n_children x)))) eqn:Epr.
      * apply andb_true_iff in Epr as [E1 _]. apply is_nil_true in E1. now rewrite E1.
      * unfold set_rs. cbn [n_clients n_shared]. now rewrite Hcl.
    + cbn iota. rewrite Ex, filter_flat_map. apply flat_map_ext_in. intros [g' l'] Hin. symmetry.
      apply (Hother g' l' Hin). intros ->. pose proof (In_aget g l' (n_shared x) Hshnd Hin) as El'.
      discriminate (eq_trans (eq_sym El') El).
Qed.

(* T' holds, at every path, the entries of T that `keep` keeps, in the same order *)
Definition FiltT (keep : cid * sub -> bool) (T T' : node) : Prop :=
  forall p, set_rs (nd p T') = filter keep (set_rs (nd p T)).

Lemma FiltT_trans k1 k2 T T' T'' :
  FiltT k1 T T' -> FiltT k2 T' T'' -> FiltT (fun e => k1 e && k2 e) T T''.
Proof. intros H1 H2 p. now rewrite H2, H1, filter_filter. Qed.

Lemma FiltT_ext k1 k2 T T' :
  (forall p e, In e (set_rs (nd p T)) -> k1 e = k2 e) -> FiltT k1 T T' -> FiltT k2 T T'.
Proof. intros He H p. rewrite H. apply filter_ext_in. intros e. apply He. Qed.

Lemma FiltT_id keep T : (forall p e, In e (set_rs (nd p T)) -> keep e = true) -> FiltT keep T T.
Proof. intros H p. symmetry. apply filter_all. apply H. Qed.

Lemma FiltT_tmatch_top keep T T' t : FiltT keep T T' -> tmatch_top t T' = filter keep (tmatch_top t T).
Proof.
  intros H. unfold tmatch_top. destruct (starts_dollar t).
  - rewrite !tmatch_lit_cands, filter_flat_map. apply flat_map_ext. intros p. apply H.
  - rewrite !tmatch_cands, filter_flat_map. apply flat_map_ext. intros p. apply H.
Qed.

Lemma set_rs_same3 a b : same3 a b -> set_rs a = set_rs b.
Proof. intros (H1 & H2 & _). unfold set_rs. now rewrite H1, H2. Qed.

Lemma keep1_other (key : skey) (e : cid * sub) : key_of e <> key -> keep1 key e = true.
Proof. intros H. unfold keep1. destruct (skey_eqb_spec (key_of e) key); [contradiction|reflexivity]. Qed.

Lemma tunsub_filt k sp T (c g f : str) :
  spec_ok sp -> TInv k (fun key => sp_get key sp) T -> kind_of g f = k ->
  FiltT (keep1 (c, g, f)) T (tunsubscribe (split f) c g T).
Proof.
  intros Hok [Hwf HN] Hk p. destruct (path_eq_dec p (split f)) as [->|Hne].
  - rewrite nd_tunsub_same; [|apply split_nonempty|exact Hwf].
    now apply (leave_res_set_rs k sp Hok (split f)).
  - rewrite (set_rs_same3 _ _ (nd_tunsub_other (split f) c g p T Hne Hwf)).
    symmetry. apply filter_all. intros [c' s] Hin. apply keep1_other.
    destruct (entry_sound k sp Hok p _ c' s (HN p) Hin) as (Hp & _).
    unfold key_of. cbn [fst snd]. intros E. injection E as _ _ E. subst f. contradiction.
Qed.

Lemma spec_ok_del key sp : spec_ok sp -> spec_ok (sp_del key sp).
Proof.
  intros [Hnd Hgood]. split; [now apply NoDup_sp_del|]. intros e Hin. apply Hgood. now apply in_sp_del in Hin.
Qed.

Lemma TInv_unsub_sp k sp T (c g f : str) :
  spec_ok sp -> TInv k (fun key => sp_get key sp) T -> kind_of g f = k ->
  TInv k (fun key => sp_get key (sp_del (c, g, f) sp)) (tunsubscribe (split f) c g T).
Proof.
  intros Hok HT Hk. apply (TInv_ext k (get_del (c, g, f) (fun key0 => sp_get key0 sp))).
  - intros c' g' f' _. unfold get_del. rewrite sp_get_del by apply Hok. reflexivity.
  - now apply TInv_unsub.
Qed.

(* the index entries of one client, one kind, one after the other (unsubscribeAll) *)
Lemma fold_unsub_filt k (c : str) : forall (L : list skey) sp T,
  spec_ok sp -> (forall c' g f, In (c', g, f) L -> kind_of g f = k /\ no_slash g = true /\ c' = c) ->
  TInv k (fun key => sp_get key sp) T ->
  FiltT (fun e => negb (existsb (skey_eqb (key_of e)) L)) T
        (fold_left (fun t key => unsub_entry (is_shared_kind k) c key t) (map ikey L) T).
Proof.
  induction L as [|[[c0 g] f] L IH]; intros sp T Hok HL HT.
  - cbn [map fold_left existsb negb]. now apply FiltT_id.
  - cbn [map fold_left ikey]. destruct (HL c0 g f (or_introl eq_refl)) as (Hk & Hg & ->).
    rewrite (unsub_entry_key k c g f T Hk Hg).
    pose proof (tunsub_filt k sp T c g f Hok HT Hk) as F1.
    assert (F2 := IH (sp_del (c, g, f) sp) (tunsubscribe (split f) c g T) (spec_ok_del _ _ Hok)
                     (fun c' g' f' Hin => HL c' g' f' (or_intror Hin)) (TInv_unsub_sp k sp T c g f Hok HT Hk)).
    eapply FiltT_ext; [|exact (FiltT_trans _ _ _ _ _ F1 F2)].
    intros p e _. cbn [existsb]. unfold keep1. now rewrite negb_orb.
Qed.

Lemma unsub_all_kind_other k k' (c : str) d : k' <> k -> trie_of k' (db_unsub_all_kind k c d) = trie_of k' d.
Proof.
  intros H. rewrite db_unsub_all_kind_nf, trie_of_upd. destruct (kind_eqb_spec k' k); [contradiction|reflexivity].
Qed.

Lemma unsub_all_kind_filt k (c : str) d sp :
  Inv d sp ->
  FiltT (fun e => negb (str_eqb c (fst e))) (trie_of k d) (trie_of k (db_unsub_all_kind k c d)).
Proof.
  intros HI. pose proof (inv_ok _ _ HI) as Hok. pose proof (inv_trie _ _ HI k) as HT.
  rewrite db_unsub_all_kind_nf, trie_of_upd, kind_eqb_refl, (inv_idx _ _ HI k c). unfold keys_of.
  eapply FiltT_ext; [|apply (fold_unsub_filt k c _ sp _ Hok); [|exact HT]].
  - intros p [c' s] Hin. cbn [fst]. f_equal.
    destruct (entry_sound k sp Hok p _ c' s (proj2 HT p) Hin) as (_ & Hk & Hget).
    apply sp_get_some_in in Hget.
    destruct (str_eqb_spec c c') as [->|E].
    + apply existsb_skey. apply filter_In. split; [exact Hget|].
      unfold key_of. cbn [fst snd selk]. now rewrite str_eqb_refl, Hk, kind_eqb_refl.
    + destruct (existsb (skey_eqb (key_of (c', s))) (filter (selk k c) (map fst sp))) eqn:Ee; [|reflexivity].
      apply existsb_skey in Ee. apply filter_In in Ee as [_ Ee]. unfold key_of in Ee. cbn [fst snd selk] in Ee.
      apply andb_true_iff in Ee as [Ee _]. apply str_eqb_eq in Ee. contradiction.
  - intros c' g f Hin. apply filter_In in Hin as [Hin Hs]. cbn [selk] in Hs.
    apply andb_true_iff in Hs as [Hc Hk]. apply str_eqb_eq in Hc.
    destruct (kind_eqb_spec (kind_of g f) k) as [Hk'|]; [|discriminate].
    split; [exact Hk'|]. split; [now apply (in_keys_good c' g f sp)|now symmetry].
Qed.

(* one leaving operation, any of the three tries *)
Lemma db_step_filt d sp o k' :
  Inv d sp -> is_leave o = true ->
  FiltT (fun e => negb (op_removes o (key_of e))) (trie_of k' d) (trie_of k' (db_step d o)).
Proof.
  intros HI Hl. pose proof (inv_ok _ _ HI) as Hok. destruct o as [c sb|c t|c]; [discriminate| |]; cbn [db_step op_removes].
  - rewrite db_unsubscribe_nf. cbv zeta. rewrite trie_of_upd.
    set (g := fst (split_topic t)). set (f := snd (split_topic t)).
    destruct (kind_eqb_spec k' (kind_of g f)) as [->|E].
    + exact (tunsub_filt _ sp _ c g f Hok (inv_trie _ _ HI _) eq_refl).
    + apply FiltT_id. intros p [c' s] Hin. apply (keep1_other (c, g, f)).
      destruct (entry_sound k' sp Hok p _ c' s (proj2 (inv_trie _ _ HI k') p) Hin) as (_ & Hk & _).
      unfold key_of. cbn [fst snd]. intros E1. injection E1 as _ E2 E3. apply E. now rewrite <- Hk, E2, E3.
  - unfold db_unsubscribe_all.
    set (d1 := db_unsub_all_kind KUser c d). set (d2 := db_unsub_all_kind KSys c d1).
    pose proof (Inv_unsub_all_kind d sp KUser c HI) as HI1. fold d1 in HI1.
    pose proof (Inv_unsub_all_kind d1 _ KSys c HI1) as HI2. fold d2 in HI2.
    assert (Hkey : forall e : cid * sub, fst (fst (key_of e)) = fst e) by reflexivity.
    destruct k'.
    + replace (trie_of KUser (db_unsub_all_kind KShared c d2)) with (trie_of KUser d1)
        by (unfold d2; now rewrite !unsub_all_kind_other by discriminate).
      exact (unsub_all_kind_filt KUser c d sp HI).
    + replace (trie_of KSys (db_unsub_all_kind KShared c d2)) with (trie_of KSys d2)
        by (now rewrite !unsub_all_kind_other by discriminate).
      replace (trie_of KSys d) with (trie_of KSys d1)
        by (unfold d1; now rewrite !unsub_all_kind_other by discriminate).
      exact (unsub_all_kind_filt KSys c d1 _ HI1).
    + replace (trie_of KShared d) with (trie_of KShared d2)
        by (unfold d2, d1; now rewrite !unsub_all_kind_other by discriminate).
      exact (unsub_all_kind_filt KShared c d2 _ HI2).
Qed.

(* what deliverMessage's store lookup returns for a non-empty topic: the shared trie, then the user or
   the system trie *)
Definition found_db (t : str) (d : db) : list (cid * sub) :=
  tmatch_top t (trie_of KShared d) ++
  (if starts_dollar t then [] else tmatch_top t (trie_of KUser d)) ++
  (if starts_dollar t then tmatch_top t (trie_of KSys d) else []).

Lemma d_found_db m s : m_topic m <> [] -> d_found m s = found_db (m_topic m) (b_subs s).
Proof.
  intros Hne. unfold d_found, found_db, db_iterate, deliver_opts. cbn [io_shared io_nonshared io_sys io_topic].
  unfold iterate_shared, iterate_nonshared. cbn [io_client io_topic io_mt is_empty negb].
  apply is_empty_false in Hne. rewrite Hne. cbn [negb andb trie_of].
  destruct (starts_dollar (m_topic m)); cbn [negb app];
    rewrite ?app_nil_r, <- ?some_ents_app; apply unsome_some_ents.
Qed.

Lemma found_db_step t d sp o :
  Inv d sp -> is_leave o = true ->
  found_db t (db_step d o) = filter (fun e => negb (op_removes o (key_of e))) (found_db t d).
Proof.
  intros HI Hl. unfold found_db.
  rewrite !(FiltT_tmatch_top _ _ _ t (db_step_filt d sp o _ HI Hl)).
  destruct (starts_dollar t); now rewrite !filter_app.
Qed.

Lemma found_db_leave t : forall extra d sp,
  Inv d sp -> leave_only extra = true -> wf_ops extra = true ->
  found_db t (fold_left db_step extra d) = filter (fun e => negb (removes extra (key_of e))) (found_db t d).
Proof.
  induction extra as [|o r IH]; intros d sp HI Hl Hwf.
  - cbn [fold_left removes existsb negb]. symmetry. now apply filter_all.
  - cbn [leave_only forallb] in Hl. apply andb_true_iff in Hl as [Ho Hr].
    unfold wf_ops in Hwf. cbn [forallb] in Hwf. apply andb_true_iff in Hwf as [Hwo Hwr].
    cbn [fold_left]. rewrite (IH (db_step d o) (spec_step sp o) (Inv_step d sp o HI Hwo) Hr Hwr).
    rewrite (found_db_step t d sp o HI Ho), filter_filter. apply filter_ext. intros e.
    cbn [removes existsb]. now rewrite negb_orb.
Qed.

(* after leaving operations the entries `deliver` finds for a message
   are the old ones without the removed keys, in the old order *)
Theorem found_after_leave s s' extra ops m :
  sub_hist s ops -> hist_ext s s' extra -> leave_only extra = true -> m_topic m <> [] ->
  d_found m s' = filter (fun e => negb (removes extra (key_of e))) (d_found m s).
Proof.
  intros [Hwf Hd] [Hwe He] Hl Ht. rewrite !d_found_db by exact Ht. rewrite He, Hd.
  exact (found_db_leave (m_topic m) extra _ _ (Inv_run ops Hwf) Hl Hwe).
Qed.

Lemma shared_plain_filter keep src m s s' :
  d_found m s' = filter keep (d_found m s) ->
  d_shared src m s' = filter keep (d_shared src m s) /\ d_plain src m s' = filter keep (d_plain src m s).
Proof.
  intros H. unfold d_shared, d_plain, d_ents. rewrite H.
  split; now rewrite (filter_comm (nl_keep src) keep), (filter_comm _ keep).
Qed.

(* the share groups after the step: each group keeps its name and its remaining members, in the old
   order; a group none of whose members remains is gone; there is no new group *)
Theorem groups_filter keep src m s s' :
  d_shared src m s' = filter keep (d_shared src m s) ->
  (forall k members', In (k, members') (d_groups src m s') <->
     members' = filter keep (filter (fun e : cid * sub => str_eqb (full_name (snd e)) k) (d_shared src m s)) /\
     members' <> []) /\
  (forall k members, In (k, members) (d_groups src m s) -> filter keep members <> [] ->
     In (k, filter keep members) (d_groups src m s')) /\
  (forall k members', In (k, members') (d_groups src m s') ->
     exists members, In (k, members) (d_groups src m s) /\ members' = filter keep members).
Proof.
  intros H.
  assert (H1 : forall k members', In (k, members') (d_groups src m s') <->
     members' = filter keep (filter (fun e : cid * sub => str_eqb (full_name (snd e)) k) (d_shared src m s)) /\
     members' <> []).
  { intros k members'. rewrite d_groups_spec, H, filter_comm. reflexivity. }
  split; [exact H1|]. split.
  - intros k members Hin Hne. apply d_groups_spec in Hin as [-> _]. apply H1. now split.
  - intros k members' Hin. apply H1 in Hin as [-> Hne].
    exists (filter (fun e : cid * sub => str_eqb (full_name (snd e)) k) (d_shared src m s)). split; [|reflexivity].
    apply d_groups_spec. split; [reflexivity|]. intros E. rewrite E in Hne. now apply Hne.
Qed.

(* for any message (with a topic), what `deliver` finds after a leaving step - the
   matching entries, the shared ones, the plain ones, the member list of every group - is what it found
   before with the leaver's removed entries taken out; nothing else moves *)
Theorem leaving_groups s e rm ops src m :
  BInv s -> sub_hist s ops -> leaving s e rm -> m_topic m <> [] ->
  let s' := fst (step s e) in
  let keep := fun en : cid * sub => negb (rm (key_of en)) in
  d_found m s' = filter keep (d_found m s) /\
  d_shared src m s' = filter keep (d_shared src m s) /\
  d_plain src m s' = filter keep (d_plain src m s) /\
  (forall k members, In (k, members) (d_groups src m s) -> filter keep members <> [] ->
     In (k, filter keep members) (d_groups src m s')) /\
  (forall k members', In (k, members') (d_groups src m s') ->
     exists members, In (k, members) (d_groups src m s) /\ members' = filter keep members).
Proof.
  intros HI Hh HL Ht. cbv zeta.
  destruct (leaving_hist s e rm HI HL) as (extra & HE & Hlo & Hrm).
  assert (Hf : d_found m (fst (step s e)) = filter (fun en : cid * sub => negb (rm (key_of en))) (d_found m s)).
  { rewrite (found_after_leave s _ extra ops m Hh HE Hlo Ht). apply filter_ext. intros en. now rewrite Hrm. }
  destruct (shared_plain_filter _ src m s _ Hf) as [Hs Hp].
  destruct (groups_filter _ src m s _ Hs) as (_ & G2 & G3).
  repeat split; assumption.
Qed.

(* the statements above for the states the broker reaches from its initial state *)
Theorem reachable_leaving_spec cf h pk es e rm :
  let s := fst (run (st_init cf h pk) es) in
  leaving s e rm ->
  exists ops ops', sub_hist s ops /\ sub_hist (fst (step s e)) ops' /\
    forall key, sp_get key (spec_run ops') = if rm key then None else sp_get key (spec_run ops).
Proof.
  cbv zeta. intros HL. destruct (reachable_hist cf h pk es) as [ops Hh].
  destruct (leaving_spec _ e rm ops (reachable_inv cf h pk es) Hh HL) as (ops' & Hh' & Hsp).
  now exists ops, ops'.
Qed.

Theorem reachable_leaver_not_selected cf h pk es e rm (cid g f : str) :
  let s := fst (run (st_init cf h pk) es) in
  leaving s e rm -> rm (cid, g, f) = true -> g <> [] ->
  forall s'' src m, b_subs s'' = b_subs (fst (step s e)) ->
  exists cl1 picked cl3 p n,
    deliver src m s'' = (set_pk p n (fst (run_calls m (cl1 ++ picked ++ cl3) (s'', []))),
                         snd (run_calls m (cl1 ++ picked ++ cl3) (s'', [])), nonnil (d_ents src m s'')) /\
    Forall2 group_call (d_groups src m s'') picked /\
    Forall (fun cl => ~ call_through cid g f cl) (cl1 ++ picked ++ cl3).
Proof.
  cbv zeta. intros HL Hrm Hg. destruct (reachable_hist cf h pk es) as [ops Hh].
  exact (leaver_not_selected _ e rm ops cid g f (reachable_inv cf h pk es) Hh HL Hrm Hg).
Qed.

Theorem reachable_leaving_groups cf h pk es e rm src m :
  let s := fst (run (st_init cf h pk) es) in
  leaving s e rm -> m_topic m <> [] ->
  let s' := fst (step s e) in
  let keep := fun en : cid * sub => negb (rm (key_of en)) in
  d_found m s' = filter keep (d_found m s) /\
  d_shared src m s' = filter keep (d_shared src m s) /\
  d_plain src m s' = filter keep (d_plain src m s) /\
  (forall k members, In (k, members) (d_groups src m s) -> filter keep members <> [] ->
     In (k, filter keep members) (d_groups src m s')) /\
  (forall k members', In (k, members') (d_groups src m s') ->
     exists members, In (k, members) (d_groups src m s) /\ members' = filter keep members).
Proof.
  cbv zeta. intros HL Ht. destruct (reachable_hist cf h pk es) as [ops Hh].
  exact (leaving_groups _ e rm ops src m (reachable_inv cf h pk es) Hh HL Ht).
Qed.

(* "DISCONNECT then close with expiry 0": a v5 DISCONNECT that asks for Session Expiry Interval 0 leaves the
   store alone and turns the connection into a zombie that remembers the request; when the socket is then
   closed, `ur_expiry` of that zombie is min(0, configured) = 0 and `L_close` applies *)
Lemma disconnect_zero_step_event c k s code props se :
  nget c (b_conns s) = Some k -> k_phase k = PhConnected -> k_v k = 5 ->
  aget (k_cid k) (b_sessions s) = Some se -> p_sei props = Some 0 ->
  step_event s (ESend c (KDisconnect code props)) =
  (upd_conn c (set_phase PhZombie (set_disc (negb (code =? 4)) (Some 0) k))
     (upd_conn c (set_disc (negb (code =? 4)) (Some 0) k) s), []).
Proof.
  intros Hk Hp Hv Hs Hx.
  cbn [step_event]. rewrite Hk, Hp. cbn [handle_packet]. rewrite Hv. cbn [N.eqb Pos.eqb]. cbv zeta.
  rewrite Hs, Hx. cbn [opt_or N.eqb negb]. rewrite andb_false_r.
  unfold fail_conn. proj. rewrite nget_nset_same. cbn [set_disc k_phase]. rewrite Hp. cbn [orb app].
  reflexivity.
Qed.

Lemma ur_expiry_disconnect_zero k se cf clean_will :
  k_v k = 5 -> k_force_remove k = false ->
  ur_expiry (set_phase PhZombie (set_disc clean_will (Some 0) k)) se cf = 0.
Proof.
  intros Hv Hf. unfold ur_expiry. cbn [set_phase set_disc k_v k_got_disconnect k_disc_sei k_force_remove opt_or].
  rewrite Hv, Hf. cbn [negb andb N.eqb Pos.eqb]. apply N.min_0_l.
Qed.

(* the session expiry in force reads only the part of a connection the poll loops leave alone *)
Lemma ur_expiry_kstat k k' se cf : BrokerQos2P.kstat k' = BrokerQos2P.kstat k -> ur_expiry k' se cf = ur_expiry k se cf.
Proof.
  intros H. unfold ur_expiry.
  now rewrite (BrokerQos2P.ks_force_remove _ _ H), (BrokerQos2P.ks_v _ _ H), (BrokerQos2P.ks_got_disconnect _ _ H),
    (BrokerQos2P.ks_disc_sei _ _ H).
Qed.

(* the two steps together: after the DISCONNECT step the store is what it was, and the close of the socket
   is a leaving step of that client *)
Theorem disconnect_then_close s c k code props se :
  BInv s -> nget c (b_conns s) = Some k -> k_phase k = PhConnected -> k_v k = 5 ->
  aget (k_cid k) (b_sessions s) = Some se -> p_sei props = Some 0 ->
  let s1 := fst (step s (ESend c (KDisconnect code props))) in
  b_subs s1 = b_subs s /\ leaving s1 (EClose c) (client_key (k_cid k)).
Proof.
  intros HI Hk Hp Hv Hse Hx. cbv zeta.
  assert (Ha : attached (k_phase k) = true) by now rewrite Hp.
  destruct (attached_session s c k HI Hk Ha) as (_ & _ & Hf).
  assert (F : BrokerQos2P.dframe (fst (step_event s (ESend c (KDisconnect code props))))
                                 (fst (step s (ESend c (KDisconnect code props))))).
  { unfold step. destruct (step_event s (ESend c (KDisconnect code props))) as [sz oz].
    pose proof (BrokerQos2P.poll_all_frame sz) as [F _]. now destruct (poll_all sz). }
  rewrite (disconnect_zero_step_event c k s code props se Hk Hp Hv Hse Hx) in F. cbn [fst] in F.
  set (kz := set_phase PhZombie (set_disc (negb (code =? 4)) (Some 0) k)) in *.
  destruct (BrokerQos2P.df_conn _ _ F c kz) as (k1 & Hk1 & Hks); [proj; apply nget_nset_same|].
  split; [now rewrite (BrokerQos2P.df_subs _ _ F)|].
  change (k_cid k) with (k_cid kz). rewrite <- (BrokerQos2P.ks_cid _ _ Hks).
  apply (L_close _ c k1 se); [exact Hk1|now rewrite (BrokerQos2P.ks_phase _ _ Hks)| |].
  - rewrite (BrokerQos2P.ks_cid _ _ Hks), (BrokerQos2P.df_sessions _ _ F). exact Hse.
  - rewrite (ur_expiry_kstat _ _ _ _ Hks). now apply ur_expiry_disconnect_zero.
Qed.

(* examples: three members in two groups; one leaves by each mechanism; then a publish *)

Definition sx_cfg : cfg :=
  {| c_onlyonce := false; c_max_inflight := 10; c_max_queued := 100; c_queue_qos0 := true;
     c_session_expiry := 100; c_message_expiry := 0; c_recv_max := 10; c_alias_max := 0; c_max_packet := 0;
     c_max_qos := 2; c_retain_avail := true; c_wildcard := true; c_subid := true; c_shared := true;
     c_max_keepalive := 0; c_allow_zero_len := true; c_inflight_expiry := 0 |}.

(* a v5 client with Session Expiry Interval sei; a v3.1.1 client (session kept unless clean) *)
Definition sx_cn5 (id : str) (clean : bool) (sei : N) : connect :=
  {| cn_ver := 5; cn_cid := id; cn_clean := clean; cn_keepalive := 0; cn_user := None; cn_pass := None;
     cn_will := None; cn_props := [PSei sei] |}.
Definition sx_cn3 (id : str) (clean : bool) : connect :=
  {| cn_ver := 4; cn_cid := id; cn_clean := clean; cn_keepalive := 0; cn_user := None; cn_pass := None;
     cn_will := None; cn_props := [] |}.
Definition sx_tq (name : str) (q : N) : topic_req := {| tq_name := name; tq_qos := q; tq_nl := false; tq_rap := false; tq_rh := 0 |}.

Definition sx_A : str := [97].          (* "a" *)
Definition sx_B : str := [98].          (* "b" *)
Definition sx_C : str := [99].          (* "c" *)
Definition sx_P : str := [112].         (* "p", the publisher *)
Definition sx_t : str := [116].         (* "t" *)
Definition sx_g1_t : str := SHARE_PREFIX ++ [103; 49; 47; 116].   (* "$share/g1/t" *)
Definition sx_g2_t : str := SHARE_PREFIX ++ [103; 50; 47; 116].   (* "$share/g2/t" *)
Definition sx_g1 : str := [103; 49].
Definition sx_g2 : str := [103; 50].

(* a (v5, expiry 0) and b (v5, expiry 50) are the members of g1/t, c (v3, session kept) the member of g2/t
   and - second subscription - of g1/t too; p publishes.  Sockets 1, 2, 3, 4. *)
Definition sx_events (sei_a : N) : list event :=
  [EConnect 1 (sx_cn5 sx_A true sei_a); EConnect 2 (sx_cn5 sx_B true 50); EConnect 3 (sx_cn3 sx_C false);
   EConnect 4 (sx_cn5 sx_P true 0);
   ESend 1 (KSubscribe 1 [PSubId 7] [sx_tq sx_g1_t 1]);
   ESend 2 (KSubscribe 1 [] [sx_tq sx_g1_t 2]);
   ESend 3 (KSubscribe 1 [] [sx_tq sx_g2_t 1; sx_tq sx_g1_t 0])].
Definition sx_state (sei_a : N) (picks : list nat) : st := fst (run (st_init sx_cfg no_hooks picks) (sx_events sei_a)).

Definition sx_pub : pkt := KPublish false 2 false sx_t [120] 9 [].
Definition sx_msg : msg := msg_of_publish true false 2 false sx_t [120] 9 [].
Definition sx_sub (g : str) (id q : N) : sub :=
  {| s_share := g; s_filter := sx_t; s_id := id; s_qos := q; s_nl := false; s_rap := false; s_rh := 0 |}.

(* who is in which group, as `deliver` sees it *)
Definition sx_groups (s : st) : list (str * list (cid * sub)) := d_groups sx_P sx_msg s.
Definition grp_names (s : st) : list (str * list cid) := map (fun g => (fst g, map fst (snd g))) (sx_groups s).
(* the PUBLISH packets of an output trace: (socket, qos, subscription identifiers) *)
Definition sx_pubs (o : list (list out)) : list (N * N * list prop) :=
  flat_map (fun x => match x with OSend c (KPublish _ q _ _ _ _ pr) => [(c, q, pr)] | _ => [] end) (concat o).

(* the start: g1/t = [a; b; c], g2/t = [c] *)
Example sx_start :
  sx_groups (sx_state 0 []) =
  [(sx_g1_t, [(sx_A, sx_sub sx_g1 7 1); (sx_B, sx_sub sx_g1 0 2); (sx_C, sx_sub sx_g1 0 0)]);
   (sx_g2_t, [(sx_C, sx_sub sx_g2 0 1)])].
Proof. vm_compute. reflexivity. Qed.

(* the connection / the session of a socket / a client in a concrete state (examples) *)
Definition sx_conn (c : N) (s : st) : conn := match nget c (b_conns s) with Some k => k | None => fresh_conn [] 0 end.
Definition sx_sess (cid : str) (s : st) : session :=
  match aget cid (b_sessions s) with
  | Some se => se
  | None => {| se_will := None; se_will_delay := 0; se_connected_at := 0; se_expiry := 0 |}
  end.

(* the same broker with queue_qos0 = false (QoS 0 messages are not queued for offline sessions) *)
Definition sx_cfg0 : cfg :=
  {| c_onlyonce := false; c_max_inflight := 10; c_max_queued := 100; c_queue_qos0 := false;
     c_session_expiry := 100; c_message_expiry := 0; c_recv_max := 10; c_alias_max := 0; c_max_packet := 0;
     c_max_qos := 2; c_retain_avail := true; c_wildcard := true; c_subid := true; c_shared := true;
     c_max_keepalive := 0; c_allow_zero_len := true; c_inflight_expiry := 0 |}.
Definition sx_state0 (picks : list nat) : st := fst (run (st_init sx_cfg0 no_hooks picks) (sx_events 0)).
Definition sx_pub0 : pkt := KPublish false 0 false sx_t [120] 0 [].
