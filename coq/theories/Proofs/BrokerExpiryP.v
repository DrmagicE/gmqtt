(* C12 at the level of the broker model (Model/Broker.v + Model/Queue.v): the deadline an element is
   queued with, the expiry check of the first transmission (Read), its lifting to the poll loop, the
   Message Expiry Interval forwarded to the subscriber; and what is NOT checked: the replay of the
   in-flight messages (ReadInflight), an interval of 0. *)
From Coq Require Import List NArith ZArith Bool Arith Lia ZifyN ZifyNat ZifyBool.
Import ListNotations.
From GM Require Import Base.Topic Base.Msg Model.SubTrie Model.RetTrie Model.Queue Model.Limiter Model.TopicMatch Model.Broker.
From GM Require Import Proofs.TopicP Proofs.QueueP Proofs.BrokerBasicP.
From GM Require Proofs.ListP Proofs.AssocP Proofs.DeliverP Proofs.BrokerPollP Proofs.BrokerInvP Proofs.BrokerQos2P Proofs.BrokerRetainP.
Open Scope N_scope.

Lemma release_dropped_tag cid evs s : b_tag (release_dropped cid evs s) = b_tag s.
Proof. now apply (BrokerPollP.release_dropped_field b_tag). Qed.

(* the lifetime (seconds) of a message published with interval pe (0 = none given) under the configured
   maximum ce (0 = none configured), as addMsgToQueueLocked computes it; 0 = the message never expires *)
Definition eff_lifetime (ce pe : N) : N :=
  if ce =? 0 then pe else if (pe =? 0) || (ce <? pe) then ce else pe.

Definition deadline_of (now L : N) : option N := if L =? 0 then None else Some (now + L * 1000).

Lemma eff_lifetime_publisher ce pe : 0 < pe -> ce = 0 \/ pe <= ce -> eff_lifetime ce pe = pe.
Proof. unfold eff_lifetime. intros Hp H. destruct (ce =? 0) eqn:E1; [reflexivity|]. destruct ((pe =? 0) || (ce <? pe)) eqn:E2; lia. Qed.

Lemma eff_lifetime_capped ce pe : 0 < ce -> ce < pe -> eff_lifetime ce pe = ce.
Proof. unfold eff_lifetime. intros Hc H. destruct (ce =? 0) eqn:E1; [lia|]. destruct ((pe =? 0) || (ce <? pe)) eqn:E2; lia. Qed.

Lemma eff_lifetime_default ce : eff_lifetime ce 0 = ce.
Proof. unfold eff_lifetime. destruct (ce =? 0) eqn:E1; [lia|]. reflexivity. Qed.

Lemma eff_lifetime_zero ce pe : eff_lifetime ce pe = 0 <-> ce = 0 /\ pe = 0.
Proof. unfold eff_lifetime. destruct (ce =? 0) eqn:E1; [lia|]. destruct ((pe =? 0) || (ce <? pe)) eqn:E2; lia. Qed.

(* min (publisher, maximum), each taken as "infinite" when 0 *)
Lemma eff_lifetime_le ce pe : (0 < pe -> eff_lifetime ce pe <= pe) /\ (0 < ce -> eff_lifetime ce pe <= ce).
Proof. unfold eff_lifetime. destruct (ce =? 0) eqn:E1; [lia|]. destruct ((pe =? 0) || (ce <? pe)) eqn:E2; lia. Qed.

Lemma deadline_of_none now L : deadline_of now L = None <-> L = 0.
Proof. unfold deadline_of. destruct (L =? 0) eqn:E; split; intros H; try discriminate; try reflexivity; lia. Qed.

Lemma deadline_of_some now L : 0 < L -> deadline_of now L = Some (now + L * 1000).
Proof. unfold deadline_of. intros H. destruct (L =? 0) eqn:E; [lia|reflexivity]. Qed.

(* the message and the element addMsgToQueueLocked builds *)
Definition atq_msg (m : msg) (s_ : sub) (ids : list N) : msg :=
  with_qos_etc m (if s_qos s_ <? m_qos m then s_qos s_ else m_qos m) (filter (fun i => negb (i =? 0)) ids) (m_retained m && s_rap s_).

Definition atq_elem (m : msg) (s_ : sub) (ids : list N) (s : st) : elem :=
  {| e_tag := b_tag s; e_at := b_now s;
     e_expiry := deadline_of (b_now s) (eff_lifetime (c_message_expiry (b_cfg s)) (m_expiry m));
     e_body := QPub (atq_msg m s_ ids) |}.

Lemma atq_expiry_eq now ce pe :
  (if negb (ce =? 0) then
     if negb (pe =? 0) && (pe <=? ce) then Some (now + pe * 1000) else Some (now + ce * 1000)
   else if negb (pe =? 0) then Some (now + pe * 1000) else None) = deadline_of now (eff_lifetime ce pe).
Proof.
  unfold deadline_of, eff_lifetime.
  destruct (ce =? 0) eqn:E1; cbn [negb].
  - destruct (pe =? 0) eqn:E2; reflexivity.
  - destruct (pe =? 0) eqn:E2; cbn [negb andb orb].
    + rewrite E1. reflexivity.
    + destruct (pe <=? ce) eqn:E3; destruct (ce <? pe) eqn:E4; try lia.
      * rewrite E2. reflexivity.
      * rewrite E1. reflexivity.
Qed.

(* add_to_queue with the element named *)
Lemma add_to_queue_eq cid m s_ ids s :
  add_to_queue cid m s_ ids s =
  if DeliverP.aq_skip cid m s then (s, []) else BrokerRetainP.offer cid (atq_elem m s_ ids s) s.
Proof.
  rewrite BrokerRetainP.add_to_queue_offer. destruct (DeliverP.aq_skip cid m s); [reflexivity|].
  f_equal. unfold atq_elem, DeliverP.aq_elem. f_equal. apply atq_expiry_eq.
Qed.

(* what Add does with the newcomer: it is the one sacrificed (the queue is unchanged), or it is the last
   element of the new queue, whose other elements are elements of the old one *)
Lemma q_add_shape now e q q' evs : q_add now e q = QOk (q', evs) ->
  (exists r, q' = q /\ evs = [EvDropped e r]) \/
  (exists l0, q_l q' = l0 ++ [e] /\ subseq l0 (q_l q) /\ forall d r, In (EvDropped d r) evs -> In d (q_l q)).
Proof.
  unfold q_add. destruct (q_max q <=? length (q_l q))%nat.
  - destruct (add_victim now e q) as [|r|i r]; [discriminate| |].
    + intros H. inversion H; subst. left. now exists r.
    + destruct (nth_error (q_l q) i) as [d|] eqn:Hn; [|discriminate].
      intros H. inversion H; subst. right. exists (remove_nth i (q_l q)). cbn [q_set q_l].
      split; [reflexivity|]. split; [apply subseq_remove_nth|].
      intros d0 r0 Hin. apply in_app_or in Hin. destruct Hin as [Hin|Hin].
      * destruct r; cbn in Hin; try contradiction. destruct Hin as [Hin|[]]. discriminate.
      * destruct Hin as [Hin|[]]. inversion Hin; subst. eapply nth_error_In; eauto.
  - intros H. inversion H; subst. right. exists (q_l q). cbn [q_set q_l].
    split; [reflexivity|]. split; [apply subseq_refl|].
    intros d r [Hin|[]]. discriminate.
Qed.

(* an element e offered to the queue q of cid: nothing happens, or Add has run, with the clock and the
   configuration left alone *)
Lemma offer_account cid e s s' o q :
  aget cid (b_queues s) = Some q -> BrokerRetainP.offer cid e s = (s', o) ->
  (s' = s /\ o = []) \/
  exists q' evs, q_add (b_now s) e q = QOk (q', evs) /\ aget cid (b_queues s') = Some q' /\ o = drops_of cid evs /\
                 b_now s' = b_now s /\ b_cfg s' = b_cfg s /\
                 ((exists r, q' = q /\ evs = [EvDropped e r]) \/
                  (exists l0, q_l q' = l0 ++ [e] /\ subseq l0 (q_l q) /\ forall d r, In (EvDropped d r) evs -> In d (q_l q))).
Proof.
  intros Hq H. pose proof (BrokerRetainP.offer_dframe cid e s) as F. rewrite H in F. cbn [fst] in F.
  destruct (BrokerRetainP.offer_cases cid e s) as [E|(q0 & q' & evs & Hq0 & Ha & E)]; rewrite E in H; injection H as <- <-.
  { now left. }
  rewrite Hq in Hq0. injection Hq0 as <-. right. exists q', evs. split; [exact Ha|].
  split. { rewrite BrokerInvP.release_dropped_queues. cbn. apply AssocP.aget_aset_same. }
  split; [reflexivity|]. split; [exact (BrokerQos2P.df_now _ _ F)|]. split; [exact (BrokerQos2P.df_cfg _ _ F)|].
  exact (q_add_shape _ _ _ _ _ Ha).
Qed.

(* C12_deadline: the element add_to_queue appends *)
Theorem add_to_queue_deadline cid m s_ ids s s' o q :
  aget cid (b_queues s) = Some q ->
  add_to_queue cid m s_ ids s = (s', o) ->
  let e := atq_elem m s_ ids s in
  e_at e = b_now s /\ e_tag e = b_tag s /\
  e_expiry e = deadline_of (b_now s) (eff_lifetime (c_message_expiry (b_cfg s)) (m_expiry m)) /\
  (exists m', e_body e = QPub m' /\ m_expiry m' = m_expiry m /\ m_dup m' = false /\ m_payload m' = m_payload m /\ m_topic m' = m_topic m) /\
  ((s' = s /\ o = []) \/
   exists q' evs, q_add (b_now s) e q = QOk (q', evs) /\ aget cid (b_queues s') = Some q' /\ o = drops_of cid evs /\
                  b_now s' = b_now s /\ b_cfg s' = b_cfg s /\
                  ((exists r, q' = q /\ evs = [EvDropped e r]) \/
                   (exists l0, q_l q' = l0 ++ [e] /\ subseq l0 (q_l q) /\ forall d r, In (EvDropped d r) evs -> In d (q_l q)))).
Proof.
  intros Hq H e. split; [reflexivity|]. split; [reflexivity|]. split; [reflexivity|].
  split. { exists (atq_msg m s_ ids). repeat split. }
  rewrite add_to_queue_eq in H. destruct (DeliverP.aq_skip cid m s). { injection H as <- <-. now left. }
  exact (offer_account _ _ _ _ _ _ Hq H).
Qed.

Corollary atq_deadline_publisher m s_ ids s :
  0 < m_expiry m -> c_message_expiry (b_cfg s) = 0 \/ m_expiry m <= c_message_expiry (b_cfg s) ->
  e_expiry (atq_elem m s_ ids s) = Some (b_now s + m_expiry m * 1000).
Proof. intros Hp H. cbn [atq_elem e_expiry]. rewrite eff_lifetime_publisher by assumption. now apply deadline_of_some. Qed.

Corollary atq_deadline_capped m s_ ids s :
  0 < c_message_expiry (b_cfg s) -> c_message_expiry (b_cfg s) < m_expiry m ->
  e_expiry (atq_elem m s_ ids s) = Some (b_now s + c_message_expiry (b_cfg s) * 1000).
Proof. intros Hc H. cbn [atq_elem e_expiry]. rewrite eff_lifetime_capped by assumption. now apply deadline_of_some. Qed.

Corollary atq_deadline_default m s_ ids s :
  m_expiry m = 0 -> 0 < c_message_expiry (b_cfg s) ->
  e_expiry (atq_elem m s_ ids s) = Some (b_now s + c_message_expiry (b_cfg s) * 1000).
Proof. intros Hp Hc. cbn [atq_elem e_expiry]. rewrite Hp, eff_lifetime_default. now apply deadline_of_some. Qed.

Corollary atq_deadline_none m s_ ids s :
  e_expiry (atq_elem m s_ ids s) = None <-> (m_expiry m = 0 /\ c_message_expiry (b_cfg s) = 0).
Proof. cbn [atq_elem e_expiry]. rewrite deadline_of_none, eff_lifetime_zero. tauto. Qed.

Lemma no_deadline_never_expired e : e_expiry e = None -> forall now, expired now e = false.
Proof. intros H now. unfold expired. now rewrite H. Qed.

(* the retained messages replayed to a new subscription *)
Definition rr_msg (sb : sub) (m : msg) : msg :=
  let qos := if s_qos sb <? m_qos m then s_qos sb else m_qos m in
  if s_id sb =? 0 then with_qos_etc m qos [] (m_retained m && s_rap sb)
  else with_qos_etc (as_dup m) qos [s_id sb] (m_retained m && s_rap sb).

(* the configured maximum is not applied, and the clock starts at the replay *)
Definition rr_elem (sb : sub) (m : msg) (s0 : st) : elem :=
  {| e_tag := b_tag s0; e_at := b_now s0; e_expiry := deadline_of (b_now s0) (m_expiry m); e_body := QPub (rr_msg sb m) |}.

Definition rr_step (cid : str) (sb : sub) (acc : st * list out) (m : msg) : st * list out :=
  let '(s0, o0) := acc in
  match aget cid (b_queues s0) with
  | None => (s0, o0)
  | Some q =>
      match q_add (b_now s0) (rr_elem sb m s0) q with
      | QOk (q', evs) =>
          (release_dropped cid evs (set_picks_tag (b_picks s0) (b_tag s0 + 1) (set_queues (aset cid q' (b_queues s0)) s0)),
           o0 ++ drops_of cid evs)
      | _ => (s0, o0)
      end
  end.

Lemma replay_retained_eq c k sb s :
  replay_retained c k sb s = fold_left (rr_step (k_cid k) sb) (rdb_matched (s_filter sb) (b_ret s)) (s, []).
Proof. exact (BrokerRetainP.replay_retained_unfold c k sb s). Qed.

Lemma rr_step_offer cid sb s o m :
  rr_step cid sb (s, o) m = let r := BrokerRetainP.offer cid (rr_elem sb m s) s in (fst r, o ++ snd r).
Proof. exact (BrokerRetainP.replay_step_offer cid sb s o m). Qed.

Theorem replay_step_deadline cid sb m s0 o0 s' o q :
  aget cid (b_queues s0) = Some q ->
  rr_step cid sb (s0, o0) m = (s', o) ->
  let e := rr_elem sb m s0 in
  e_at e = b_now s0 /\ e_tag e = b_tag s0 /\
  e_expiry e = (if m_expiry m =? 0 then None else Some (b_now s0 + m_expiry m * 1000)) /\
  (exists m', e_body e = QPub m' /\ m_expiry m' = m_expiry m /\ m_dup m' = false /\ m_payload m' = m_payload m /\ m_topic m' = m_topic m) /\
  ((s' = s0 /\ o = o0) \/
   exists q' evs, q_add (b_now s0) e q = QOk (q', evs) /\ aget cid (b_queues s') = Some q' /\ o = o0 ++ drops_of cid evs /\
                  b_now s' = b_now s0 /\ b_cfg s' = b_cfg s0 /\
                  ((exists r, q' = q /\ evs = [EvDropped e r]) \/
                   (exists l0, q_l q' = l0 ++ [e] /\ subseq l0 (q_l q) /\ forall d r, In (EvDropped d r) evs -> In d (q_l q)))).
Proof.
  intros Hq H e. split; [reflexivity|]. split; [reflexivity|]. split; [reflexivity|].
  split. { exists (rr_msg sb m). unfold e, rr_elem, rr_msg. cbn [e_body]. destruct (s_id sb =? 0); repeat split. }
  rewrite rr_step_offer in H. fold e in H. destruct (BrokerRetainP.offer cid e s0) as [s1 o1] eqn:E. injection H as <- <-.
  destruct (offer_account _ _ _ _ _ _ Hq E) as [[-> ->]|(q' & evs & Ha & Hq' & -> & Hrest)].
  - left. now rewrite app_nil_r.
  - right. now exists q', evs.
Qed.

(* every replayed copy is stamped with the time of the SUBSCRIBE *)
Lemma replay_retained_now c k sb s : b_now (fst (replay_retained c k sb s)) = b_now s.
Proof.
  rewrite replay_retained_eq. apply (fold_inv (fun s' => b_now s' = b_now s)); [|reflexivity].
  intros s0 o0 m <-. rewrite rr_step_offer. apply BrokerQos2P.df_now, BrokerRetainP.offer_dframe.
Qed.

(* how a queued element v appears in the result of Read: unchanged (QoS 0), or with a packet id and,
   when an in-flight expiry is configured, with the in-flight deadline in place of its own *)
Definition sent_as (now ifexp : N) (v r : elem) : Prop :=
  r = v \/ exists p m, e_body v = QPub m /\ r = hand now ifexp p m v.

Lemma sent_as_at now ifexp v r : sent_as now ifexp v r -> e_at r = e_at v /\ e_tag r = e_tag v.
Proof.
  intros [->|(p & m & Hb & ->)]; [auto|]. unfold hand. destruct (ifexp =? 0); cbn; auto.
Qed.

Lemma sent_as_body now ifexp v r m : sent_as now ifexp v r -> e_body r = QPub m ->
  exists mv, e_body v = QPub mv /\ (m = mv \/ exists p, m = set_pid p mv).
Proof.
  intros [->|(p & m0 & Hb & ->)] Hr; [exists m; auto|].
  exists m0. split; [exact Hb|]. right. exists p.
  unfold hand in Hr. destruct (ifexp =? 0); cbn in Hr; congruence.
Qed.

Lemma sent_as_expiry now ifexp v r : sent_as now ifexp v r ->
  e_expiry r = e_expiry v \/ (ifexp <> 0 /\ e_expiry r = Some (now + ifexp)).
Proof.
  intros [->|(p & m & Hb & ->)]; [auto|]. unfold hand. destruct (ifexp =? 0) eqn:E; cbn; [auto|].
  right. split; [lia|reflexivity].
Qed.

Lemma not_expired_iff now e : expired now e = false <-> (e_expiry e = None \/ exists d, e_expiry e = Some d /\ now <= d).
Proof.
  unfold expired. destruct (e_expiry e) as [d|].
  - split.
    + intros H. right. exists d. split; [reflexivity|lia].
    + intros [H|(d' & H & Hle)]; [discriminate|]. inversion H; subst. lia.
  - split; auto.
Qed.

Lemma expired_iff now e : expired now e = true <-> exists d, e_expiry e = Some d /\ d < now.
Proof.
  unfold expired. destruct (e_expiry e) as [d|].
  - split.
    + intros H. exists d. split; [reflexivity|lia].
    + intros (d' & H & Hlt). inversion H; subst. lia.
  - split; [discriminate|]. intros (d & H & _). discriminate.
Qed.

(* the account of one walk of Read over the queued elements `pre`: what is handed out had not expired; what is
   dropped had expired, or had not and is too big; and every element met one of these fates *)
Definition fresh_sent (now ifexp : N) (v r : elem) : Prop := expired now v = false /\ sent_as now ifexp v r.
Definition drop_why (now : N) (d : elem) (rsn : dropreason) : Prop :=
  (rsn = DExpired /\ expired now d = true) \/ (rsn = DExceedsMax /\ expired now d = false).

Record account (now ifexp : N) (pre : list elem) (drops : list (elem * dropreason)) (rs : list elem) : Prop := {
  ac_sent : forall r, In r rs -> exists v, In v pre /\ fresh_sent now ifexp v r;
  ac_drop : forall d rsn, In (d, rsn) drops -> In d pre /\ drop_why now d rsn;
  ac_all : forall v, In v pre ->
             (exists rsn, In (v, rsn) drops /\ drop_why now v rsn) \/ exists r, In r rs /\ fresh_sent now ifexp v r }.

(* one more element in front: dropped, or handed out *)
Lemma account_drop now ifexp v rsn pre drops rs :
  drop_why now v rsn -> account now ifexp pre drops rs -> account now ifexp (v :: pre) ((v, rsn) :: drops) rs.
Proof.
  intros W [A1 A2 A3]. constructor.
  - intros r Hin. destruct (A1 r Hin) as (v0 & Hv0 & F). exists v0. split; [now right|exact F].
  - intros d r0 [[= <- <-]|Hin]; [split; [now left|exact W]|]. destruct (A2 d r0 Hin) as [Hp W0]. split; [now right|exact W0].
  - intros v0 [<-|Hin]; [left; exists rsn; split; [now left|exact W]|].
    destruct (A3 v0 Hin) as [(r0 & Hd & W0)|S]; [left; exists r0; split; [now right|exact W0]|now right].
Qed.

Lemma account_sent now ifexp v r pre drops rs :
  fresh_sent now ifexp v r -> account now ifexp pre drops rs -> account now ifexp (v :: pre) drops (r :: rs).
Proof.
  intros F [A1 A2 A3]. constructor.
  - intros r0 [<-|Hin]; [exists v; split; [now left|exact F]|].
    destruct (A1 r0 Hin) as (v0 & Hv0 & F0). exists v0. split; [now right|exact F0].
  - intros d r0 Hin. destruct (A2 d r0 Hin) as [Hp W0]. split; [now right|exact W0].
  - intros v0 [<-|Hin]; [right; exists r; split; [now left|exact F]|].
    destruct (A3 v0 Hin) as [D|(r0 & Hr0 & F0)]; [now left|right; exists r0; split; [now right|exact F0]].
Qed.

Lemma reads_account now limit v5 ifexp pids pre inf drops rs :
  reads now limit v5 ifexp pids pre inf drops rs -> account now ifexp pre drops rs.
Proof.
  induction 1 as [pids|pids v pre inf drops rs Hx _ IH|pids v m pre inf drops rs Hx Hb Hl _ IH
                 |pids v m pre inf drops rs Hx Hb Hl Hq _ IH|p pids v m pre inf drops rs Hx Hb Hl Hq _ IH].
  - constructor; intros; contradiction.
  - apply account_drop; [now left|exact IH].
  - apply account_drop; [now right|exact IH].
  - apply account_sent; [|exact IH]. split; [exact Hx|now left].
  - apply account_sent; [|exact IH]. split; [exact Hx|]. right. now exists p, m.
Qed.

(* the queued part of a queue: from the cursor on *)
Definition q_queued (q : queue) : list elem := skipn (q_cur q) (q_l q).

Theorem q_read_expiry now ids q q' rs evs :
  q_read now ids q = QOk (q', rs, evs) ->
  (* what is handed out had not expired at `now` *)
  (forall r, In r rs -> exists v, In v (q_queued q) /\ expired now v = false /\ sent_as now (q_ifexp q) v r) /\
  (* the drops that are reported are elements of the queue: expired ones, and unexpired ones that are too big *)
  (forall d rsn, In (EvDropped d rsn) evs ->
     In d (q_queued q) /\ ((rsn = DExpired /\ expired now d = true) \/ (rsn = DExceedsMax /\ expired now d = false))) /\
  (* every queued element is still queued (not reached), or reported expired, or - unexpired - too big or handed out *)
  (forall v, In v (q_queued q) ->
     In v (q_queued q') \/ (expired now v = true /\ In (EvDropped v DExpired) evs) \/
     (expired now v = false /\ (In (EvDropped v DExceedsMax) evs \/ exists r, In r rs /\ sent_as now (q_ifexp q) v r))) /\
  (* and with enough ids nothing is left unreached *)
  ((length (q_queued q) <= length ids)%nat -> q_queued q' = []).
Proof.
  intros H. destruct (DeliverP.q_read_reads _ _ _ _ _ _ H) as (inf & drops & dq & di & Hr & _ & Hq' & ->).
  cbv zeta in Hr, Hq'. fold (q_queued q) in Hr, Hq'. fold (q_queued q') in Hq'.
  destruct (reads_account _ _ _ _ _ _ _ _ _ Hr) as [A1 A2 A3].
  assert (Hev : forall d rsn, In (EvDropped d rsn) (map ev_dropped drops ++ [EvQueue dq; EvInflight di]) <-> In (d, rsn) drops).
  { intros d rsn. rewrite in_app_iff, in_map_iff. split.
    - intros [([d0 r0] & [= -> ->] & Hin)|[E|[E|[]]]]; [exact Hin|discriminate..].
    - intros Hin. left. now exists (d, rsn). }
  split; [|split; [|split]].
  - intros r Hin. destruct (A1 r Hin) as (v & Hv & F). exists v. split; [exact (ListP.In_firstn _ _ _ Hv)|exact F].
  - intros d rsn Hin. apply Hev in Hin. destruct (A2 d rsn Hin) as [Hd W]. split; [exact (ListP.In_firstn _ _ _ Hd)|exact W].
  - intros v Hin. rewrite Hq'. rewrite <- (firstn_skipn (Nat.min (length (q_l q)) (length ids)) (q_queued q)) in Hin.
    apply in_app_or in Hin as [Hin|Hin]; [|now left]. right.
    destruct (A3 v Hin) as [(rsn & Hd & [[-> Hx]|[-> Hx]])|(r & Hr0 & Hx & Hs)].
    + left. split; [exact Hx|now apply Hev].
    + right. split; [exact Hx|]. left. now apply Hev.
    + right. split; [exact Hx|]. right. now exists r.
  - intros Hlen. rewrite Hq'. apply skipn_all2. unfold q_queued in *. rewrite skipn_length in *. lia.
Qed.

(* C12_never_first_sent_after_deadline.  `expired now e` is `deadline < now`: an element is handed out as
   long as now <= deadline, the instant of the deadline included *)
Theorem q_read_never_after_deadline now ids q q' rs evs :
  q_read now ids q = QOk (q', rs, evs) ->
  (forall r, In r rs ->
     (* the deadline of the handed-out copy (the in-flight deadline, when one is configured) ... *)
     (e_expiry r = None \/ exists d, e_expiry r = Some d /\ now <= d) /\
     (* ... and the deadline the element was queued with *)
     exists v, In v (q_queued q) /\ sent_as now (q_ifexp q) v r /\
               (e_expiry v = None \/ exists d, e_expiry v = Some d /\ now <= d)) /\
  (* a queued element whose deadline has passed is reported, unless the walk stopped before it *)
  (forall v d, In v (q_queued q) -> e_expiry v = Some d -> d < now ->
     In (EvDropped v DExpired) evs \/ In v (q_queued q')) /\
  (* it is not left behind when there are enough ids *)
  ((length (q_queued q) <= length ids)%nat ->
   forall v d, In v (q_queued q) -> e_expiry v = Some d -> d < now -> In (EvDropped v DExpired) evs) /\
  (* and only such elements are reported as expired *)
  (forall v, In (EvDropped v DExpired) evs -> In v (q_queued q) /\ exists d, e_expiry v = Some d /\ d < now).
Proof.
  intros H. destruct (q_read_expiry _ _ _ _ _ _ H) as (H1 & H2 & H3 & H4).
  assert (G : forall v d, In v (q_queued q) -> e_expiry v = Some d -> d < now ->
                          In (EvDropped v DExpired) evs \/ In v (q_queued q')).
  { intros v d Hv He Hd.
    assert (Hx : expired now v = true) by (apply expired_iff; eauto).
    destruct (H3 v Hv) as [Hq|[(_ & Hdrop)|(Hx' & _)]]; [now right|now left|congruence]. }
  split; [|split; [exact G|split]].
  - intros r Hin. destruct (H1 r Hin) as (v & Hv & Hx & Hs). split.
    + destruct (sent_as_expiry _ _ _ _ Hs) as [He|[Hne He]].
      * rewrite He. now apply not_expired_iff.
      * right. exists (now + q_ifexp q). split; [exact He|lia].
    + exists v. split; [exact Hv|]. split; [exact Hs|]. now apply not_expired_iff.
  - intros Hlen v d Hv He Hd. destruct (G v d Hv He Hd) as [Hdrop|Hq]; [exact Hdrop|].
    rewrite (H4 Hlen) in Hq. destruct Hq.
  - intros v Hin. destruct (H2 v DExpired Hin) as (Hv & [(_ & Hx)|(Hne & _)]); [|discriminate].
    split; [exact Hv|]. now apply expired_iff.
Qed.

(* the boundary: at the instant of the deadline the element is still handed out; one millisecond later it is dropped *)
Definition xq_elem (d : N) : elem :=
  {| e_tag := 1; e_at := 0; e_expiry := Some d; e_body := QPub (xm 0) |}.
Definition xq_queue (d : N) : queue := q_set [xq_elem d] 0 true (q_init true true 1000 (q_new 10 0)).

Example q_read_at_deadline :
  q_read 5000 [1] (xq_queue 5000) = QOk (q_set [] 0 true (xq_queue 5000), [xq_elem 5000], [EvQueue (-1); EvInflight 0]) /\
  q_read 5001 [1] (xq_queue 5000) = QOk (q_set [] 0 true (xq_queue 5000), [], [EvDropped (xq_elem 5000) DExpired; EvQueue (-1); EvInflight 0]).
Proof. vm_compute. split; reflexivity. Qed.

Lemma p_msgexpiry_app a b : p_msgexpiry (a ++ b) = match p_msgexpiry a with Some x => Some x | None => p_msgexpiry b end.
Proof. induction a as [|x r IH]; [reflexivity|]. destruct x; cbn [app p_msgexpiry]; auto. Qed.

Lemma p_msgexpiry_subids l : p_msgexpiry (map PSubId l) = None.
Proof. induction l; cbn; auto. Qed.

Lemma p_msgexpiry_users (l : list (str * str)) : p_msgexpiry (map (fun kv => PUser (fst kv) (snd kv)) l) = None.
Proof. induction l; cbn; auto. Qed.

(* the Message Expiry Interval property of an outgoing PUBLISH *)
Lemma msg_props_expiry v5 m :
  p_msgexpiry (msg_props v5 m) = if v5 && negb (m_expiry m =? 0) then Some (m_expiry m) else None.
Proof.
  unfold msg_props. destruct v5; [|reflexivity]. cbn [andb].
  rewrite p_msgexpiry_app. destruct (m_pfmt m =? 1); cbn [p_msgexpiry].
  all: rewrite p_msgexpiry_app; destruct (m_expiry m =? 0); cbn [p_msgexpiry negb]; try reflexivity.
  all: rewrite p_msgexpiry_app; destruct (m_ctype m); cbn [p_msgexpiry].
  all: rewrite p_msgexpiry_app; destruct (m_resp m); cbn [p_msgexpiry].
  all: rewrite p_msgexpiry_app; destruct (m_corr m); cbn [p_msgexpiry].
  all: rewrite p_msgexpiry_app, p_msgexpiry_subids, p_msgexpiry_users; reflexivity.
Qed.

Lemma write_publish_v c k m : k_v (fst (write_publish c k m)) = k_v k.
Proof. apply (BrokerPollP.wp_frame c k m). Qed.

(* what writeLoop writes for message m: at most one PUBLISH, which carries the fields of m; the Topic Alias
   machinery touches the topic name and adds a Topic Alias property, nothing else *)
Lemma write_publish_out c k m x : In x (snd (write_publish c k m)) ->
  exists t props, x = OSend c (KPublish (m_dup m) (m_qos m) (m_retained m) t (m_payload m) (m_pid m) props) /\
    (t = m_topic m \/ t = []) /\
    p_msgexpiry props = if (k_v k =? 5) && negb (m_expiry m =? 0) then Some (m_expiry m) else None.
Proof.
  unfold write_publish.
  destruct ((k_v k =? 5) && (0 <? k_client_alias_max k) && (msg_total_bytes true m + 5 <=? k_client_max_packet k)) eqn:Hc.
  - apply andb_true_iff in Hc. destruct Hc as [Hc _]. apply andb_true_iff in Hc. destruct Hc as [Hv _]. rewrite Hv.
    destruct (am_check (m_topic m) (k_alias_out k)) as [am' [a ex|]]; cbn [snd]; [|intros []].
    intros [<-|[]]. do 2 eexists. split; [reflexivity|]. split; [destruct ex; auto|].
    rewrite p_msgexpiry_app, msg_props_expiry. cbn [andb].
    destruct (negb (m_expiry m =? 0)); [reflexivity|]. destruct (a =? 0); reflexivity.
  - cbn [snd]. intros [<-|[]]. do 2 eexists. split; [reflexivity|]. split; [auto|]. apply msg_props_expiry.
Qed.

Lemma aged_expiry v5 now e m :
  m_expiry (aged v5 now e m) =
  if v5 && negb (m_expiry m =? 0) then remaining (m_expiry m) ((now - e_at e) / 1000) else m_expiry m.
Proof. unfold aged. destruct (v5 && negb (m_expiry m =? 0)); reflexivity. Qed.

Lemma aged_at v5 now e e' m : e_at e = e_at e' -> aged v5 now e m = aged v5 now e' m.
Proof. unfold aged. now intros ->. Qed.

(* the interval written on the wire for the aged copy *)
Lemma aged_wire_expiry v5 now e m :
  (if v5 && negb (m_expiry (aged v5 now e m) =? 0) then Some (m_expiry (aged v5 now e m)) else None) =
  (if v5 && negb (m_expiry m =? 0) then Some (remaining (m_expiry m) ((now - e_at e) / 1000)) else None).
Proof.
  rewrite aged_expiry. destruct v5; [|reflexivity]. cbn [andb].
  destruct (m_expiry m =? 0) eqn:E; cbn [negb]; [now rewrite E|].
  assert (H : 0 < m_expiry m) by lia.
  pose proof (remaining_bounds (m_expiry m) ((now - e_at e) / 1000) H) as Hb.
  destruct (remaining (m_expiry m) ((now - e_at e) / 1000) =? 0) eqn:E2; [lia|reflexivity].
Qed.

Lemma send_fold_out c : forall l k0 o0 x, In x (snd (fold_left (BrokerPollP.send_step c) l (k0, o0))) ->
  In x o0 \/ exists e m k1, In e l /\ e_body e = QPub m /\ k_v k1 = k_v k0 /\ In x (snd (write_publish c k1 m)).
Proof.
  induction l as [|e r IH]; intros k0 o0 x H; cbn [fold_left] in H; [now left|].
  unfold BrokerPollP.send_step at 2 in H. destruct (e_body e) as [m|p] eqn:Hb.
  - destruct (write_publish c k0 m) as [k1 o1] eqn:Hw.
    apply IH in H. destruct H as [H|(e' & m' & k2 & Hin & Hb' & Hv & Hx)].
    + apply in_app_or in H. destruct H as [H|H]; [now left|].
      right. exists e, m, k0. split; [now left|]. split; [exact Hb|]. split; [reflexivity|]. now rewrite Hw.
    + right. exists e', m', k2. split; [now right|]. split; [exact Hb'|]. split; [|exact Hx].
      rewrite Hv. replace k1 with (fst (write_publish c k0 m)) by now rewrite Hw. apply write_publish_v.
  - apply IH in H. destruct H as [H|(e' & m' & k2 & Hin & Hb' & Hv & Hx)]; [now left|].
    right. exists e', m', k2. split; [now right|]. auto.
Qed.

Lemma in_drops_of cid evs x :
  In x (drops_of cid evs) <-> exists d m r, In (EvDropped d r) evs /\ e_body d = QPub m /\ x = ODropped cid m r.
Proof.
  unfold drops_of. rewrite in_flat_map. split.
  - intros (ev & Hin & Hx). destruct ev as [d r|z|z]; try destruct Hx. destruct (e_body d) as [m|p] eqn:Hb; [|destruct Hx].
    destruct Hx as [<-|[]]. now exists d, m, r.
  - intros (d & m & r & Hin & Hb & ->). exists (EvDropped d r). split; [exact Hin|]. rewrite Hb. now left.
Qed.

(* the sending turn (the replay is over, the loop holds packet ids) *)
Lemma poll_once_send c s k q ids s' o :
  nget c (b_conns s) = Some k -> aget (k_cid k) (b_queues s) = Some q ->
  k_drained k = true -> k_held k = Some ids ->
  poll_once c s = Some (s', o) ->
  exists q' rs evs k0,
    q_read (b_now s) ids q = QOk (q', rs, evs) /\ k_v k0 = k_v k /\
    o = drops_of (k_cid k) evs ++
        snd (fold_left (BrokerPollP.send_step c) (map (BrokerPollP.age_elem (k_v k =? 5) (b_now s)) rs) (k0, [])) /\
    aget (k_cid k) (b_queues s') = Some q'.
Proof.
  intros Hk Hq Hdr Hh H. destruct (BrokerPollP.poll_once_turn _ _ _ _ H) as (k1 & q1 & Hk1 & _ & Hq1 & T).
  rewrite Hk in Hk1. injection Hk1 as <-. rewrite Hq in Hq1. injection Hq1 as <-.
  destruct T as [q' E _|q' rs k' o' E|l' ids' _ E|ids' q' rs evs k' o' _ Hh' Hr Hf]; try congruence.
  rewrite Hh in Hh'. injection Hh' as <-. exists q', rs, evs. eexists. split; [exact Hr|].
  split; [|split; [now rewrite Hf|]]; [reflexivity|]. cbn. apply AssocP.aget_aset_same.
Qed.

(* C12_poll_first_send.  Every PUBLISH of that turn of the poll loop is the copy of a queued element whose
   deadline has not passed (now <= deadline), with the fields of the stored message; for a v5 subscriber and a message
   with an interval, the property is the interval minus the whole seconds the element waited (at least 1);
   otherwise there is no such property *)
Theorem poll_first_send c s k q ids s' o :
  nget c (b_conns s) = Some k -> aget (k_cid k) (b_queues s) = Some q ->
  k_drained k = true -> k_held k = Some ids ->
  poll_once c s = Some (s', o) ->
  forall c' dup qos ret t pl pid props, In (OSend c' (KPublish dup qos ret t pl pid props)) o ->
  exists v mv, In v (q_queued q) /\ e_body v = QPub mv /\
    expired (b_now s) v = false /\ (e_expiry v = None \/ exists d, e_expiry v = Some d /\ b_now s <= d) /\
    c' = c /\ dup = m_dup mv /\ qos = m_qos mv /\ ret = m_retained mv /\ pl = m_payload mv /\ (t = m_topic mv \/ t = []) /\
    p_msgexpiry props =
      if (k_v k =? 5) && negb (m_expiry mv =? 0)
      then Some (remaining (m_expiry mv) ((b_now s - e_at v) / 1000)) else None.
Proof.
  intros Hk Hq Hdr Hh H c' dup qos ret t pl pid props Hin.
  destruct (poll_once_send _ _ _ _ _ _ _ Hk Hq Hdr Hh H) as (q' & rs & evs & k0 & Hr & Hv0 & -> & _).
  apply in_app_or in Hin. destruct Hin as [Hin|Hin].
  { apply in_drops_of in Hin. destruct Hin as (d & m & r & _ & _ & Hx). discriminate. }
  apply send_fold_out in Hin. destruct Hin as [[]|(e & m & k1 & He & Hb & Hv1 & Hx)].
  apply in_map_iff in He. destruct He as (r & <- & Hr_in).
  apply write_publish_out in Hx. destruct Hx as (t0 & props0 & Hx & Ht & Hp). inversion Hx; subst; clear Hx.
  destruct (q_read_expiry _ _ _ _ _ _ Hr) as (H1 & _).
  destruct (H1 r Hr_in) as (v & Hv & Hx & Hs).
  unfold BrokerPollP.age_elem in Hb. destruct (e_body r) as [m0|p0] eqn:Hbr; [|rewrite Hbr in Hb; discriminate].
  cbn [with_body e_body] in Hb. inversion Hb; subst m; clear Hb.
  destruct (sent_as_body _ _ _ _ _ Hs Hbr) as (mv & Hbv & Hm0).
  destruct (sent_as_at _ _ _ _ Hs) as [Hat _].
  exists v, mv. split; [exact Hv|]. split; [exact Hbv|]. split; [exact Hx|]. split; [now apply not_expired_iff|].
  split; [reflexivity|].
  destruct (BrokerPollP.aged_fields (k_v k =? 5) (b_now s) r m0) as (F1 & F2 & F3 & F4 & F5 & F6).
  assert (Hf : m_dup m0 = m_dup mv /\ m_qos m0 = m_qos mv /\ m_retained m0 = m_retained mv /\ m_payload m0 = m_payload mv /\
               m_topic m0 = m_topic mv /\ m_expiry m0 = m_expiry mv).
  { destruct Hm0 as [->|(p & ->)]; repeat split. }
  destruct Hf as (G1 & G2 & G3 & G4 & G5 & G6).
  rewrite F1, F2, F3, F5, G1, G2, G3, G4. repeat (split; [reflexivity|]).
  split. { rewrite F4, G5 in Ht. exact Ht. }
  rewrite Hp, Hv1, Hv0, aged_wire_expiry, G6, Hat. reflexivity.
Qed.

(* the same with the value of BrokerBasicP: as long as the whole seconds waited are fewer than the interval, the
   subscriber is told interval - waited *)
Corollary poll_first_send_v5_value c s k q ids s' o :
  nget c (b_conns s) = Some k -> aget (k_cid k) (b_queues s) = Some q ->
  k_drained k = true -> k_held k = Some ids -> k_v k = 5 ->
  poll_once c s = Some (s', o) ->
  forall c' dup qos ret t pl pid props, In (OSend c' (KPublish dup qos ret t pl pid props)) o ->
  exists v mv, In v (q_queued q) /\ e_body v = QPub mv /\ expired (b_now s) v = false /\ pl = m_payload mv /\
    (m_expiry mv = 0 -> p_msgexpiry props = None) /\
    (0 < m_expiry mv -> p_msgexpiry props = Some (m_expiry (aged true (b_now s) v mv)) /\
                        1 <= m_expiry (aged true (b_now s) v mv) <= m_expiry mv) /\
    (0 < m_expiry mv -> (b_now s - e_at v) / 1000 < m_expiry mv ->
       p_msgexpiry props = Some (m_expiry mv - (b_now s - e_at v) / 1000)).
Proof.
  intros Hk Hq Hdr Hh Hv5 H c' dup qos ret t pl pid props Hin.
  destruct (poll_first_send _ _ _ _ _ _ _ Hk Hq Hdr Hh H _ _ _ _ _ _ _ _ Hin)
    as (v & mv & Hv & Hb & Hx & _ & _ & _ & _ & _ & Hpl & _ & Hp).
  exists v, mv. split; [exact Hv|]. split; [exact Hb|]. split; [exact Hx|]. split; [exact Hpl|].
  rewrite Hv5 in Hp. change (5 =? 5) with true in Hp. cbn [andb] in Hp.
  split; [|split].
  - intros H0. rewrite H0 in Hp. exact Hp.
  - intros H0. split; [|now apply aged_v5_bounds].
    rewrite Hp, aged_expiry. cbn [andb]. destruct (m_expiry mv =? 0) eqn:E; [lia|reflexivity].
  - intros H0 Hw. rewrite Hp. destruct (m_expiry mv =? 0) eqn:E; [lia|]. cbn [negb].
    now rewrite remaining_exact.
Qed.

Corollary poll_first_send_v3 c s k q ids s' o :
  nget c (b_conns s) = Some k -> aget (k_cid k) (b_queues s) = Some q ->
  k_drained k = true -> k_held k = Some ids -> k_v k <> 5 ->
  poll_once c s = Some (s', o) ->
  forall c' dup qos ret t pl pid props, In (OSend c' (KPublish dup qos ret t pl pid props)) o -> p_msgexpiry props = None.
Proof.
  intros Hk Hq Hdr Hh Hv H c' dup qos ret t pl pid props Hin.
  destruct (poll_first_send _ _ _ _ _ _ _ Hk Hq Hdr Hh H _ _ _ _ _ _ _ _ Hin)
    as (v & mv & _ & _ & _ & _ & _ & _ & _ & _ & _ & _ & Hp).
  apply N.eqb_neq in Hv. rewrite Hv in Hp. exact Hp.
Qed.

(* the drops of that turn: every queued element whose deadline has passed is reported (DExpired) or was not
   reached; what is reported as expired had expired *)
Theorem poll_expired_reported c s k q ids s' o :
  nget c (b_conns s) = Some k -> aget (k_cid k) (b_queues s) = Some q ->
  k_drained k = true -> k_held k = Some ids ->
  poll_once c s = Some (s', o) ->
  exists q', aget (k_cid k) (b_queues s') = Some q' /\
  (forall v d m, In v (q_queued q) -> e_expiry v = Some d -> d < b_now s -> e_body v = QPub m ->
     In (ODropped (k_cid k) m DExpired) o \/ In v (q_queued q')) /\
  ((length (q_queued q) <= length ids)%nat ->
   forall v d m, In v (q_queued q) -> e_expiry v = Some d -> d < b_now s -> e_body v = QPub m ->
     In (ODropped (k_cid k) m DExpired) o) /\
  (forall cid m, In (ODropped cid m DExpired) o ->
     cid = k_cid k /\ exists v d, In v (q_queued q) /\ e_body v = QPub m /\ e_expiry v = Some d /\ d < b_now s).
Proof.
  intros Hk Hq Hdr Hh H.
  destruct (poll_once_send _ _ _ _ _ _ _ Hk Hq Hdr Hh H) as (q' & rs & evs & k0 & Hr & Hv0 & -> & Hq').
  exists q'. split; [exact Hq'|].
  destruct (q_read_never_after_deadline _ _ _ _ _ _ Hr) as (_ & H2 & H3 & H4).
  split; [|split].
  - intros v d m Hv He Hd Hb. destruct (H2 v d Hv He Hd) as [Hdrop|Hrest]; [|now right].
    left. apply in_or_app. left. apply in_drops_of. now exists v, m, DExpired.
  - intros Hlen v d m Hv He Hd Hb. apply in_or_app. left. apply in_drops_of. exists v, m, DExpired. eauto.
  - intros cid m Hin. apply in_app_or in Hin. destruct Hin as [Hin|Hin].
    + apply in_drops_of in Hin. destruct Hin as (d & m' & r & Hev & Hb & Hx). inversion Hx; subst.
      split; [reflexivity|]. destruct (H4 d Hev) as (Hv & dl & He & Hlt). exists d, dl. auto.
    + apply send_fold_out in Hin. destruct Hin as [[]|(e & m' & k1 & _ & _ & _ & Hx)].
      apply write_publish_out in Hx. destruct Hx as (t0 & props0 & Hx & _). discriminate.
Qed.

(* for the elements add_to_queue makes: not expired = at most the lifetime L has been waited; the property
   forwarded is computed from the PUBLISHER's interval (which the configured maximum may have cut short) *)
Lemma not_expired_waited now v L : e_expiry v = Some (e_at v + L * 1000) -> expired now v = false -> (now - e_at v) / 1000 <= L.
Proof.
  intros He Hx. apply not_expired_iff in Hx. destruct Hx as [Hx|(d & Hd & Hle)]; [congruence|].
  rewrite He in Hd. inversion Hd; subst d.
  assert (Hl : now - e_at v <= L * 1000) by lia.
  apply N.div_le_upper_bound; lia.
Qed.

Lemma before_deadline_waited now v L : 0 < L -> now < e_at v + L * 1000 -> (now - e_at v) / 1000 < L.
Proof. intros H0 H. apply N.div_lt_upper_bound; lia. Qed.

(* the interval forwarded for an element add_to_queue made (deadline = e_at + lifetime, lifetime =
   eff_lifetime ce p with p the publisher's interval): p minus the whole seconds waited, exactly, whenever the
   deadline has not been reached; at the instant of the deadline of an uncapped message it is 1 *)
Lemma atq_forwarded_interval now v ce p :
  0 < p -> e_expiry v = deadline_of (e_at v) (eff_lifetime ce p) -> expired now v = false ->
  let waited := (now - e_at v) / 1000 in
  waited <= eff_lifetime ce p <= p /\
  (now < e_at v + eff_lifetime ce p * 1000 -> remaining p waited = p - waited /\ 1 <= p - waited) /\
  (0 < ce -> ce < p -> remaining p waited = p - waited /\ p - ce <= p - waited).
Proof.
  intros Hp He Hx waited.
  assert (HL : 0 < eff_lifetime ce p).
  { destruct (N.eq_dec (eff_lifetime ce p) 0) as [E|E]; [apply eff_lifetime_zero in E; lia|lia]. }
  rewrite deadline_of_some in He by exact HL.
  pose proof (not_expired_waited now v _ He Hx) as Hw.
  pose proof (before_deadline_waited now v _ HL) as Hw'. fold waited in Hw, Hw'.
  destruct (eff_lifetime_le ce p) as [H1 H2]. specialize (H1 Hp).
  (* from here on `waited` is just a number *)
  clearbody waited. clear He Hx. split; [lia|]. split.
  - intros Hlt. specialize (Hw' Hlt). rewrite remaining_exact by lia. lia.
  - intros Hc Hcp. rewrite (eff_lifetime_capped ce p Hc Hcp) in *. rewrite remaining_exact by lia. lia.
Qed.

(* the replay writes PUBRELs and PUBLISHes with DUP=1 only *)
Lemma replay_fold_out c now : forall l k0 o0 x, In x (snd (fold_left (BrokerPollP.replay_step c now) l (k0, o0))) ->
  In x o0 \/ (exists p, x = OSend c (KPubrel p 0 [])) \/
  exists qos ret t pl pid props, x = OSend c (KPublish true qos ret t pl pid props).
Proof.
  induction l as [|e r IH]; intros k0 o0 x H; cbn [fold_left] in H; [now left|].
  unfold BrokerPollP.replay_step at 2 in H. destruct (e_body e) as [m|p] eqn:Hb.
  - cbv zeta in H.
    destruct (write_publish c (set_lim_held (lim_mark (m_pid m) (k_lim k0)) (k_held k0) (k_drained k0) k0)
                            (aged (k_v k0 =? 5) now e (as_dup m))) as [k2 o2] eqn:Hw.
    apply IH in H. destruct H as [H|H]; [|now right].
    apply in_app_or in H. destruct H as [H|H]; [now left|]. right. right.
    replace o2 with (snd (write_publish c (set_lim_held (lim_mark (m_pid m) (k_lim k0)) (k_held k0) (k_drained k0) k0)
                                        (aged (k_v k0 =? 5) now e (as_dup m)))) in H by now rewrite Hw.
    apply write_publish_out in H. destruct H as (t & props & -> & _ & _).
    destruct (BrokerPollP.aged_fields (k_v k0 =? 5) now e (as_dup m)) as (F1 & _). rewrite F1. cbn [as_dup m_dup].
    now do 6 eexists.
  - apply IH in H. destruct H as [H|H]; [|now right].
    apply in_app_or in H. destruct H as [H|[<-|[]]]; [now left|]. right. left. now exists p.
Qed.

(* what the statements below say about one PUBLISH written at time `now` to socket c *)
Definition first_send_ok (now c : N) (k : conn) (q : queue) (c' : N) (dup : bool) (qos : N) (ret : bool) (t pl : str) (props : list prop) : Prop :=
  exists v mv, In v (q_queued q) /\ e_body v = QPub mv /\
    expired now v = false /\ (e_expiry v = None \/ exists d, e_expiry v = Some d /\ now <= d) /\
    c' = c /\ dup = m_dup mv /\ qos = m_qos mv /\ ret = m_retained mv /\ pl = m_payload mv /\ (t = m_topic mv \/ t = []) /\
    p_msgexpiry props =
      if (k_v k =? 5) && negb (m_expiry mv =? 0)
      then Some (remaining (m_expiry mv) ((now - e_at v) / 1000)) else None.

Theorem poll_once_first_send c s s' o :
  poll_once c s = Some (s', o) ->
  forall c' qos ret t pl pid props, In (OSend c' (KPublish false qos ret t pl pid props)) o ->
  exists k q, nget c (b_conns s) = Some k /\ aget (k_cid k) (b_queues s) = Some q /\
              first_send_ok (b_now s) c k q c' false qos ret t pl props.
Proof.
  intros H c' qos ret t pl pid props Hin.
  destruct (BrokerPollP.poll_once_turn _ _ _ _ H) as (k & q & Hk & _ & Hq & T). pose proof H as H0.
  destruct T as [q' _ _|q' rs k' o' _ _ _ Hf|l' ids _ _ _|ids q' rs evs k' o' Hdr Hh _ _]; try contradiction.
  - replace o' with (snd (fold_left (BrokerPollP.replay_step c (b_now s)) rs (k, []))) in Hin by now rewrite Hf.
    apply replay_fold_out in Hin. destruct Hin as [[]|[(p & Hx)|(q1 & r1 & t1 & pl1 & pid1 & pr1 & Hx)]]; discriminate.
  - exists k, q. split; [exact Hk|]. split; [exact Hq|].
    exact (poll_first_send _ _ _ _ _ _ _ Hk Hq Hdr Hh H0 _ _ _ _ _ _ _ _ Hin).
Qed.

(* every turn of the poll loop, every connection: a PUBLISH with DUP=0 is a first transmission.
   If x is such a PUBLISH, it is the one first_send_ok describes, for a socket in C of some state at time `now` *)
Definition first_sends (C : N -> Prop) (now : N) (x : out) : Prop :=
  forall c' qos ret t pl pid props, x = OSend c' (KPublish false qos ret t pl pid props) ->
  exists si c k q, C c /\ b_now si = now /\ nget c (b_conns si) = Some k /\ aget (k_cid k) (b_queues si) = Some q /\
                   first_send_ok now c k q c' false qos ret t pl props.

(* what BrokerPollP's walks over the poll loops ask for: a turn keeps the clock and writes first_sends *)
Lemma first_sends_walk (C : N -> Prop) :
  (forall a b x, b_now b = b_now a -> first_sends C (b_now b) x -> first_sends C (b_now a) x) /\
  (forall c a b o, C c -> True -> poll_once c a = Some (b, o) ->
     True /\ b_now b = b_now a /\ Forall (first_sends C (b_now a)) o).
Proof.
  split; [now intros a b x ->|]. intros c a b o Hc _ Hp. split; [exact I|].
  split; [exact (BrokerQos2P.df_now _ _ (proj1 (BrokerQos2P.poll_once_frame _ _ _ _ Hp)))|].
  apply Forall_forall. intros x Hin c' qos ret t pl pid props ->.
  destruct (poll_once_first_send _ _ _ _ Hp _ _ _ _ _ _ _ Hin) as (k & q & Hk & Hq & Hok). now exists a, c, k, q.
Qed.

(* the poll loop of one connection until it parks *)
Theorem poll_conn_first_send c : forall fuel s s' o,
  poll_conn fuel c s = (s', o) ->
  b_now s' = b_now s /\
  forall c' qos ret t pl pid props, In (OSend c' (KPublish false qos ret t pl pid props)) o ->
  exists si k q, b_now si = b_now s /\ nget c (b_conns si) = Some k /\ aget (k_cid k) (b_queues si) = Some q /\
                 first_send_ok (b_now s) c k q c' false qos ret t pl props.
Proof.
  intros fuel s s' o H. destruct (first_sends_walk (eq c)) as [Hb Ho].
  destruct (BrokerPollP.poll_conn_walk (eq c) (fun _ => True) (fun a b => b_now b = b_now a) (fun a => first_sends (eq c) (b_now a))
              (fun _ => eq_refl) (fun a b d H1 H2 => eq_trans H2 H1) Hb Ho c eq_refl fuel s I) as (_ & Hnow & Hq).
  rewrite H in Hnow, Hq. split; [exact Hnow|]. intros c' qos ret t pl pid props Hin.
  destruct (proj1 (Forall_forall _ _) Hq _ Hin _ _ _ _ _ _ _ eq_refl) as (si & c0 & k & q & <- & Hrest). now exists si, k, q.
Qed.

(* all connections: the polling that follows every event *)
Theorem poll_all_first_send s s' o :
  poll_all s = (s', o) ->
  b_now s' = b_now s /\
  forall c' qos ret t pl pid props, In (OSend c' (KPublish false qos ret t pl pid props)) o ->
  exists si c k q, b_now si = b_now s /\ nget c (b_conns si) = Some k /\ aget (k_cid k) (b_queues si) = Some q /\
                   first_send_ok (b_now s) c k q c' false qos ret t pl props.
Proof.
  intros H. destruct (first_sends_walk (fun _ => True)) as [Hb Ho].
  destruct (BrokerPollP.poll_all_walk (fun _ => True) (fun _ => True) (fun a b => b_now b = b_now a)
              (fun a => first_sends (fun _ => True) (b_now a))
              (fun _ => eq_refl) (fun a b d H1 H2 => eq_trans H2 H1) Hb Ho s (fun _ _ => I) I) as (_ & Hnow & Hq).
  rewrite H in Hnow, Hq. split; [exact Hnow|]. intros c' qos ret t pl pid props Hin.
  destruct (proj1 (Forall_forall _ _) Hq _ Hin _ _ _ _ _ _ _ eq_refl) as (si & c & k & q & _ & Hrest). now exists si, c, k, q.
Qed.

(* a step of the model: its output is what the event handler wrote, then what the poll loops wrote *)
Theorem step_first_send s e s2 o :
  step s e = (s2, o) ->
  exists s1 o1 o2, step_event s e = (s1, o1) /\ o = o1 ++ o2 /\ b_now s2 = b_now s1 /\
  forall c' qos ret t pl pid props, In (OSend c' (KPublish false qos ret t pl pid props)) o2 ->
  exists si c k q, b_now si = b_now s1 /\ nget c (b_conns si) = Some k /\ aget (k_cid k) (b_queues si) = Some q /\
                   first_send_ok (b_now s1) c k q c' false qos ret t pl props.
Proof.
  unfold step. destruct (step_event s e) as [s1 o1]. destruct (poll_all s1) as [s2' o2] eqn:Hp.
  intros H. inversion H; subst. exists s1, o1, o2. split; [reflexivity|]. split; [reflexivity|].
  exact (poll_all_first_send _ _ _ Hp).
Qed.

(* witnesses: the hypotheses are satisfiable; what is not checked *)

Definition x_cfg (ce ifexp : N) : cfg :=
  {| c_onlyonce := false; c_max_inflight := 10; c_max_queued := 100; c_queue_qos0 := true;
     c_session_expiry := 100000000; c_message_expiry := ce; c_recv_max := 100; c_alias_max := 10; c_max_packet := 0;
     c_max_qos := 2; c_retain_avail := true; c_wildcard := true; c_subid := true; c_shared := true;
     c_max_keepalive := 300; c_allow_zero_len := true; c_inflight_expiry := ifexp |}.
Definition x_connect (v : N) (cid : str) (clean : bool) (props : list prop) : connect :=
  {| cn_ver := v; cn_cid := cid; cn_clean := clean; cn_keepalive := 0; cn_user := None; cn_pass := None;
     cn_will := None; cn_props := props |}.
Definition x_T : str := [116].      (* "t" *)
Definition x_S : str := [115].      (* "s": the subscriber, socket 1 *)
Definition x_P : str := [112].      (* "p": the publisher, socket 2 *)
Definition x_R : str := [114].      (* "r": a late subscriber, socket 3 *)
Definition x_treq (q : N) : topic_req := {| tq_name := x_T; tq_qos := q; tq_nl := false; tq_rap := false; tq_rh := 0 |}.
Definition x_sub (q : N) : event := ESend 1 (KSubscribe 1 [] [x_treq q]).
Definition x_pub (q pid : N) (retain : bool) (pl : str) (props : list prop) : event :=
  ESend 2 (KPublish false q retain x_T pl pid props).
Definition x_init (ce ifexp : N) : st := st_init (x_cfg ce ifexp) no_hooks [].
Definition x_back (v : N) : event := EConnect 1 (x_connect v x_S false [PSei 100000000]).
(* "s" (version v, persistent session) subscribed to "t" with QoS 1; "p" (v5) connected *)
Definition x_pre (v : N) : list event := [x_back v; x_sub 1; EConnect 2 (x_connect 5 x_P true [])].
(* "s" goes away; "p" publishes with interval p (None: no property); w ms pass; "s" comes back *)
Definition x_off (v : N) (p : option N) (w : N) : list event :=
  x_pre v ++ [EClose 1; x_pub 1 11 false [1] (match p with Some i => [PMsgExpiry i] | None => [] end); EAdvance w; x_back v].
Definition x_last (o : list (list out)) : list out := last o [].
Definition x_connack : out :=
  OSend 1 (KConnack true 0 [PSei 100000000; PRecvMax 100; PMaxQos 1; PRetainAvail 1; PAliasMax 10; PWildcard 1;
                            PSubIdAvail 1; PSharedAvail 1; PMaxPkt 0; PKeepAlive 0]).
Definition x_msg (p : N) : msg := msg_of_publish true false 1 false x_T [1] 11 [PMsgExpiry p].
Definition x_subn : sub := {| s_share := []; s_filter := x_T; s_id := 0; s_qos := 1; s_nl := false; s_rap := false; s_rh := 0 |}.

(* add_to_queue_deadline and its corollaries: publisher's interval; capped; default; none *)
Definition x_s0 (ce : N) : st := fst (run (x_init ce 0) (x_pre 5)).
Definition x_deadlines (ce p : N) : option (list (option N)) :=
  option_map (fun q => map (fun e => option_map (fun d => d - e_at e) (e_expiry e)) (q_l q))
             (aget x_S (b_queues (fst (add_to_queue x_S (x_msg p) x_subn [0] (x_s0 ce))))).

Example x_add_to_queue :
  (exists q, aget x_S (b_queues (x_s0 0)) = Some q) /\
  x_deadlines 0 10 = Some [Some 10000] /\ x_deadlines 7200 10 = Some [Some 10000] /\   (* the publisher's interval *)
  x_deadlines 4 10 = Some [Some 4000] /\                                               (* capped *)
  x_deadlines 4 0 = Some [Some 4000] /\                                                (* the configured maximum *)
  x_deadlines 0 0 = Some [None].                                                       (* no deadline *)
Proof. split; [eexists; vm_compute; reflexivity|]. vm_compute. repeat split. Qed.

(* poll_first_send, poll_expired_reported: "s" is back, its poll loop has finished the replay and taken ids *)
Definition x_polls (n : nat) (s : st) : st :=
  Nat.iter n (fun s0 => match poll_once 1 s0 with Some (s', _) => s' | None => s0 end) s.
Definition x_s2 (v : N) (p : option N) (w ce : N) : st :=
  x_polls 2 (fst (step_event (fst (run (x_init ce 0) (removelast (x_off v p w)))) (x_back v))).

Definition x_hyps (s : st) : Prop :=
  exists k q ids, nget 1 (b_conns s) = Some k /\ aget (k_cid k) (b_queues s) = Some q /\
                  k_drained k = true /\ k_held k = Some ids /\ (length (q_queued q) <= length ids)%nat.

Example x_poll_v5 :
  x_hyps (x_s2 5 (Some 10) 3500 0) /\
  option_map snd (poll_once 1 (x_s2 5 (Some 10) 3500 0)) = Some [OSend 1 (KPublish false 1 false x_T [1] 1 [PMsgExpiry 7])].
Proof. split; [do 3 eexists; vm_compute; repeat split; repeat constructor|vm_compute; reflexivity]. Qed.

(* the configured maximum (4 s) shortens the life of the message, not the interval the subscriber is told *)
Example x_poll_v5_capped :
  x_hyps (x_s2 5 (Some 10) 3500 4) /\
  option_map snd (poll_once 1 (x_s2 5 (Some 10) 3500 4)) = Some [OSend 1 (KPublish false 1 false x_T [1] 1 [PMsgExpiry 7])] /\
  (exists m, option_map snd (poll_once 1 (x_s2 5 (Some 10) 4500 4)) = Some [ODropped x_S m DExpired]).
Proof.
  split; [do 3 eexists; vm_compute; repeat split; repeat constructor|]. split; [vm_compute; reflexivity|].
  eexists. vm_compute. reflexivity.
Qed.

Example x_poll_v3 :
  x_hyps (x_s2 4 (Some 10) 3500 0) /\
  option_map snd (poll_once 1 (x_s2 4 (Some 10) 3500 0)) = Some [OSend 1 (KPublish false 1 false x_T [1] 1 [])].
Proof. split; [do 3 eexists; vm_compute; repeat split; repeat constructor|vm_compute; reflexivity]. Qed.

Example x_poll_no_interval :
  x_hyps (x_s2 5 None 3500 0) /\
  option_map snd (poll_once 1 (x_s2 5 None 3500 0)) = Some [OSend 1 (KPublish false 1 false x_T [1] 1 [])].
Proof. split; [do 3 eexists; vm_compute; repeat split; repeat constructor|vm_compute; reflexivity]. Qed.

(* < or <= : at the very millisecond of the deadline the message is still sent (with interval 1: the whole interval
   has been waited); one millisecond later it is dropped and reported *)
Example x_poll_at_deadline :
  x_hyps (x_s2 5 (Some 10) 10000 0) /\
  option_map snd (poll_once 1 (x_s2 5 (Some 10) 10000 0)) = Some [OSend 1 (KPublish false 1 false x_T [1] 1 [PMsgExpiry 1])] /\
  x_hyps (x_s2 5 (Some 10) 10001 0) /\
  (exists m, option_map snd (poll_once 1 (x_s2 5 (Some 10) 10001 0)) = Some [ODropped x_S m DExpired] /\ m_payload m = [1]).
Proof.
  split; [do 3 eexists; vm_compute; repeat split; repeat constructor|]. split; [vm_compute; reflexivity|].
  split; [do 3 eexists; vm_compute; repeat split; repeat constructor|].
  eexists. vm_compute. split; reflexivity.
Qed.

(* the same through `run`: the whole scenarios *)
Example x_run_offline :
  x_last (snd (run (x_init 0 0) (x_off 5 (Some 10) 3500))) = [x_connack; OSend 1 (KPublish false 1 false x_T [1] 1 [PMsgExpiry 7])] /\
  (exists m, x_last (snd (run (x_init 0 0) (x_off 5 (Some 10) 10001))) = [x_connack; ODropped x_S m DExpired]).
Proof. split; [vm_compute; reflexivity|]. eexists. vm_compute. reflexivity. Qed.

(* C12_redelivery_after_expiry_refuted (kf_redelivery_after_expiry):
   the message (interval 5 s) is sent to "s" and not acknowledged; "s" goes away and comes back after 61.2 s: the replay
   (ReadInflight) retransmits it, DUP=1, with interval 1 - 56 s after its deadline.  Whether an in-flight expiry is
   configured (30 s: the in-flight deadline has passed too) or not *)
Definition x_redeliv : list event :=
  x_pre 5 ++ [x_pub 1 11 false [1] [PMsgExpiry 5]; EClose 1; EAdvance 61200; x_back 5].

Example x_redelivery_after_expiry :
  nth 3 (snd (run (x_init 0 0) x_redeliv)) [] = [OSend 2 (KPuback 11 0 []); OSend 1 (KPublish false 1 false x_T [1] 1 [PMsgExpiry 5])] /\
  x_last (snd (run (x_init 0 0) x_redeliv)) = [x_connack; OSend 1 (KPublish true 1 false x_T [1] 1 [PMsgExpiry 1])] /\
  x_last (snd (run (x_init 7200 30) x_redeliv)) = [x_connack; OSend 1 (KPublish true 1 false x_T [1] 1 [PMsgExpiry 1])].
Proof. vm_compute. repeat split. Qed.

(* the state in which it happens: the replay turn of the poll loop (k_drained = false) meets an in-flight element whose
   deadline has passed, and sends it *)
Definition x_s_redeliv : st := fst (step_event (fst (run (x_init 0 0) (removelast x_redeliv))) (x_back 5)).
Example x_redelivery_poll :
  option_map (fun k => (k_cid k, k_drained k)) (nget 1 (b_conns x_s_redeliv)) = Some (x_S, false) /\
  option_map (fun q => map (fun e => (e_id e, e_expiry e, expired (b_now x_s_redeliv) e)) (q_l q)) (aget x_S (b_queues x_s_redeliv))
    = Some [(1, Some (b_now x_s_redeliv - 56200), true)] /\
  option_map snd (poll_once 1 x_s_redeliv) = Some [OSend 1 (KPublish true 1 false x_T [1] 1 [PMsgExpiry 1])].
Proof. vm_compute. repeat split. Qed.

(* at the level of the queue: ReadInflight hands out an expired element *)
Example x_read_inflight_expired :
  let e := {| e_tag := 1; e_at := 0; e_expiry := Some 5000; e_body := QPub (set_pid 1 (xm 1)) |} in
  let q := q_set [e] 0 false (q_init false true 1000 (q_new 10 0)) in
  expired 61200 e = true /\ snd (q_read_inflight 61200 10 q) = [e].
Proof. vm_compute. split; reflexivity. Qed.

(* C12_expiry_zero_is_absent (kf_expiry_zero_treated_as_absent):
   Message Expiry Interval 0 with no configured maximum: the element has no deadline, so it is never expired ... *)
Theorem expiry_zero_is_absent m s_ ids s :
  m_expiry m = 0 -> c_message_expiry (b_cfg s) = 0 ->
  e_expiry (atq_elem m s_ ids s) = None /\ forall now, expired now (atq_elem m s_ ids s) = false.
Proof.
  intros Hm Hc. assert (H : e_expiry (atq_elem m s_ ids s) = None) by (apply atq_deadline_none; auto).
  split; [exact H|]. now apply no_deadline_never_expired.
Qed.

(* ... a PUBLISH with the property set to 0 is the same message as one without the property ... *)
Lemma msg_of_publish_expiry_zero v5 dup qos retain topic payload pid :
  msg_of_publish v5 dup qos retain topic payload pid [PMsgExpiry 0] = msg_of_publish v5 dup qos retain topic payload pid [].
Proof. unfold msg_of_publish. destruct v5; reflexivity. Qed.

(* ... and it is delivered, without the property, after 50 000 000 seconds (1.5 years) of waiting; with a configured
   maximum of 4 s it gets the lifetime of a message without interval *)
Example x_expiry_zero :
  x_last (snd (run (x_init 0 0) (x_off 5 (Some 0) 50000000000))) = [x_connack; OSend 1 (KPublish false 1 false x_T [1] 1 [])] /\
  x_last (snd (run (x_init 0 0) (x_off 5 None 50000000000))) = [x_connack; OSend 1 (KPublish false 1 false x_T [1] 1 [])] /\
  x_last (snd (run (x_init 4 0) (x_off 5 (Some 0) 3500))) = [x_connack; OSend 1 (KPublish false 1 false x_T [1] 1 [])] /\
  x_deadlines 4 0 = Some [Some 4000].
Proof. vm_compute. repeat split. Qed.

(* retained messages (replay_step_deadline):
   the retained store keeps no time: a retained message published with interval 5 s is given to a subscriber that
   arrives an hour later, with the full interval; the configured maximum is not applied either *)
Definition x_retained (ce w : N) : list event :=
  [EConnect 2 (x_connect 5 x_P true []); x_pub 0 0 true [1] [PMsgExpiry 5]; EAdvance w;
   EConnect 3 (x_connect 5 x_R true []); ESend 3 (KSubscribe 1 [] [x_treq 1])].

Example x_retained_never_expires :
  x_last (snd (run (x_init 0 0) (x_retained 0 3600000))) =
    [OSend 3 (KSuback 1 [1] []); OSend 3 (KPublish false 0 false x_T [1] 0 [PMsgExpiry 5])] /\
  x_last (snd (run (x_init 2 0) (x_retained 2 3600000))) =
    [OSend 3 (KSuback 1 [1] []); OSend 3 (KPublish false 0 false x_T [1] 0 [PMsgExpiry 5])].
Proof. vm_compute. repeat split. Qed.

Definition x_s_ret : st := fst (run (x_init 2 0) (removelast (x_retained 2 3600000))).
Definition x_m_ret : msg := hd (xm 0) (rdb_matched x_T (b_ret x_s_ret)).
Example x_replay_step :
  (exists q, aget x_R (b_queues x_s_ret) = Some q) /\ rdb_matched x_T (b_ret x_s_ret) = [x_m_ret] /\ m_expiry x_m_ret = 5 /\
  option_map (fun q => map (fun e => (e_at e, e_expiry e)) (q_l q))
             (aget x_R (b_queues (fst (rr_step x_R x_subn (x_s_ret, []) x_m_ret)))) =
    Some [(b_now x_s_ret, Some (b_now x_s_ret + 5000))].
Proof. split; [eexists; vm_compute; reflexivity|]. vm_compute. repeat split. Qed.
