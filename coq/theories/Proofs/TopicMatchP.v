(* packets.TopicMatch (Model/TopicMatch.v, the fuelled two-cursor byte loop [tm_impl]) decides
   MQTT 4.7 topic matching ([topic_match], defined by levels) on all well-formed inputs, and
   never runs out of fuel on any input.

   [bstep] is one loop iteration re-expressed on the remaining suffixes of filter and topic
   (plus the previously consumed filter byte); [tm_body_bstep] shows [tm_body] at cursor
   positions (length fdone, length tdone) is exactly [bstep] on the suffixes.  No
   well-formedness is needed for this part; [tm_impl_terminates] follows from it.
   [inv] is the loop invariant on suffixes; [bstep_spec] shows every iteration either
   returns [lm (split ts) (split fs)] or continues to a state with the same [lm] value. *)
From Coq Require Import List NArith Bool Arith Lia.
Import ListNotations.
From GM Require Import Base.Topic Model.TopicMatch Proofs.TopicP.
Local Open Scope nat_scope.

(* the bytes of the current topic level / what follows them (starting at the next '/') *)
Fixpoint take_level (ts : str) : str :=
  match ts with
  | [] => []
  | c :: ts' => if N.eqb c SLASH then [] else c :: take_level ts'
  end.

Fixpoint drop_level (ts : str) : str :=
  match ts with
  | [] => []
  | c :: ts' => if N.eqb c SLASH then ts else drop_level ts'
  end.

(* result of one iteration: return, or continue having consumed one filter byte (leaving
   [fs']) and the topic bytes [tmid] (leaving [ts']) *)
Inductive sres := SRet (b : bool) | SCont (fs' tmid ts' : str).

(* the branch taken when the topic is exhausted or the current bytes differ *)
Definition bstepB (prev fc : N) (fs' ts : str) : sres :=
  if N.eqb fc PLUS then
    if is_empty (drop_level ts) && is_empty fs' then SRet true
    else SCont fs' (take_level ts) (drop_level ts)
  else if N.eqb fc HASH then SRet true
  else if N.eqb prev PLUS && N.eqb fc SLASH && str_eqb fs' [HASH] && is_empty ts then SRet true
  else SRet false.

Definition bstep (prev : N) (fs ts : str) : sres :=
  match fs with
  | [] => SRet false
  | fc :: fs' =>
      match ts with
      | [] => bstepB prev fc fs' ts
      | tc :: ts' =>
          if N.eqb fc tc then
            if is_empty ts' && str_eqb fs' [SLASH; HASH] then SRet true
            else if is_empty fs' && is_empty ts' then SRet true
            else if is_empty ts' && str_eqb fs' [PLUS] then
              (if negb (N.eqb fc SLASH) then SRet false else SRet true)
            else SCont fs' [tc] ts'
          else bstepB prev fc fs' ts
      end
  end.

Lemma take_drop (ts : str) : ts = take_level ts ++ drop_level ts.
Proof.
  induction ts as [|c ts IH]; [reflexivity|].
  cbn [take_level drop_level]. destruct (N.eqb c SLASH); [reflexivity|].
  cbn [app]. now rewrite <- IH.
Qed.

Lemma take_drop_length (ts : str) : length ts = length (take_level ts) + length (drop_level ts).
Proof. rewrite (take_drop ts) at 1. apply app_length. Qed.

Lemma at_app (a b : str) (k n : nat) : n = length a + k -> at_ (a ++ b) n = nth k b 0%N.
Proof. intros ->. unfold at_. apply app_nth2_plus. Qed.

Lemma at_last (x : N) (a b : str) : at_ ((x :: a) ++ b) (length a) = last (x :: a) 0%N.
Proof.
  revert x. induction a as [|y a IH]; intros x; [reflexivity|]. exact (IH y).
Qed.

(* Cursor tests of the Go loop, read on the suffix [b] that starts at the cursor [length a]. *)
Lemma len_app_eqb (a b : str) (n k : nat) :
  n = length a + k -> (n =? length (a ++ b)) = (length b =? k).
Proof.
  intros ->. rewrite app_length.
  destruct (Nat.eqb_spec (length b) k) as [->|H]; [apply Nat.eqb_refl|apply Nat.eqb_neq; lia].
Qed.

Lemma len_app_ltb (a b : str) : (length a <? length (a ++ b)) = negb (is_empty b).
Proof.
  rewrite app_length. destruct b; cbn [length is_empty negb].
  - rewrite Nat.add_0_r. apply Nat.ltb_irrefl.
  - apply Nat.ltb_lt. lia.
Qed.

Lemma app_cons_assoc (a : str) (c : N) (b : str) : a ++ c :: b = (a ++ [c]) ++ b.
Proof. now rewrite <- app_assoc. Qed.

Lemma length_snoc (a : str) (c : N) : S (length a) = length (a ++ [c]).
Proof. rewrite app_length. cbn [length]. lia. Qed.

Lemma skip_level_app (ts tdone : str) (fuel : nat) :
  length ts <= fuel ->
  skip_level (tdone ++ ts) (length tdone) fuel = length tdone + length (take_level ts).
Proof.
  revert tdone fuel. induction ts as [|c ts IH]; intros tdone fuel Hfuel.
  - cbn [take_level length]. rewrite app_nil_r, Nat.add_0_r.
    destruct fuel as [|k]; [reflexivity|]. cbn [skip_level].
    rewrite Nat.ltb_irrefl. reflexivity.
  - cbn [length] in Hfuel. destruct fuel as [|k]; [lia|].
    cbn [skip_level take_level].
    rewrite len_app_ltb, (at_app tdone (c :: ts) 0) by lia. cbn [is_empty negb andb nth].
    destruct (N.eqb c SLASH); cbn [negb length]; [lia|].
    rewrite app_cons_assoc, (length_snoc tdone c), IH by lia. rewrite app_length. cbn [length]. lia.
Qed.

Lemma len_app_leb (a b : str) : (length a <=? length (a ++ b)) = true.
Proof. apply Nat.leb_le. rewrite app_length. lia. Qed.

(* spos > 0 && f[spos-1] == '+' *)
Lemma prev_plus (a b : str) :
  (0 <? length a) && N.eqb (at_ (a ++ b) (length a - 1)) PLUS = N.eqb (last a 0%N) PLUS.
Proof.
  destruct a as [|x a]; [reflexivity|].
  cbn [length Nat.sub]. now rewrite Nat.sub_0_r, at_last.
Qed.

Lemma len0_empty (l : str) : (length l =? 0) = is_empty l.
Proof. destruct l; reflexivity. Qed.

Lemma len1_eqb (l : str) (a : N) : (length l =? 1) && N.eqb (nth 0 l 0%N) a = str_eqb l [a].
Proof.
  destruct l as [|x [|y l]]; cbn [length Nat.eqb nth str_eqb andb];
    [reflexivity|now rewrite andb_true_r|now rewrite andb_false_r].
Qed.

Lemma len2_eqb (l : str) (a b : N) :
  (length l =? 2) && (N.eqb (nth 0 l 0%N) a && N.eqb (nth 1 l 0%N) b) = str_eqb l [a; b].
Proof.
  destruct l as [|x [|y [|z l]]]; cbn [length Nat.eqb nth str_eqb andb]; try reflexivity.
  - now rewrite andb_false_r.
  - now rewrite andb_true_r.
  - now rewrite !andb_false_r.
Qed.

Lemma take_all (ts : str) : (length ts =? length (take_level ts)) = is_empty (drop_level ts).
Proof.
  rewrite (take_drop_length ts), <- len0_empty.
  destruct (Nat.eqb_spec (length (drop_level ts)) 0) as [->|H]; [now rewrite Nat.add_0_r, Nat.eqb_refl|].
  apply Nat.eqb_neq. lia.
Qed.

(* the last exit tests its six conditions in the order of the Go source *)
Lemma andb_shuffle (p l t m c h : bool) :
  p && (l && (t && (m && (c && h)))) = p && m && c && (l && h) && t.
Proof. destruct p, l, t, m, c, h; reflexivity. Qed.

(* a step result on suffixes, read back at the cursors where the suffixes start *)
Definition at_cursors (spos tpos : nat) (r : sres) : tmres :=
  match r with
  | SRet b => TMRet b
  | SCont _ tmid _ => TMCont (S spos) (tpos + length tmid)
  end.

Lemma apply_if {A B : Type} (g : A -> B) (c : bool) (x y : A) :
  g (if c then x else y) = if c then g x else g y.
Proof. destruct c; reflexivity. Qed.

(* one iteration of the Go loop at cursors (length fdone, length tdone) is [bstep] on the
   remaining suffixes; holds for arbitrary byte strings *)
Lemma tm_body_bstep (fdone fs tdone ts : str) :
  tm_body (fdone ++ fs) (tdone ++ ts) (length fdone) (length tdone) =
  at_cursors (length fdone) (length tdone) (bstep (last fdone 0%N) fs ts).
Proof.
  unfold tm_body. cbv zeta.
  (* every index and length test becomes a test on [fs] or [ts] *)
  rewrite skip_level_app by (rewrite app_length; lia).
  rewrite (at_app fdone fs 0 (length fdone)) by lia.
  rewrite (at_app fdone fs 1 (length fdone + 1)) by lia.
  rewrite (at_app fdone fs 2 (length fdone + 2)) by lia.
  rewrite (at_app fdone fs 1 (S (length fdone))) by lia.
  rewrite (at_app fdone fs 0 (S (length fdone) - 1)) by lia.
  rewrite (at_app tdone ts 0 (length tdone)) by lia.
  rewrite len_app_ltb, len_app_leb.
  rewrite (len_app_eqb tdone ts _ 0), (len_app_eqb tdone ts _ 1) by lia.
  rewrite (len_app_eqb tdone ts _ (length (take_level ts))) by lia.
  rewrite (len_app_eqb fdone fs _ 3), (len_app_eqb fdone fs (S (length fdone)) 1) by lia.
  rewrite !(len_app_eqb fdone fs _ 2) by lia.
  rewrite <- !andb_assoc, andb_shuffle, prev_plus, take_all, len0_empty.
  destruct fs as [|fc fs']; [reflexivity|].
  cbn [is_empty negb andb length nth Nat.eqb Nat.ltb Nat.leb].
  rewrite !len0_empty, !len1_eqb, len2_eqb.
  (* and the tests are those of [bstep], in the same order *)
  unfold bstep, bstepB. destruct ts as [|tc ts'];
    cbn [is_empty negb andb length nth Nat.eqb]; rewrite ?len0_empty, !(apply_if (at_cursors _ _));
    cbn [at_cursors length]; rewrite ?Nat.add_1_r; reflexivity.
Qed.

Lemma bstepB_cont (prev fc : N) (fs0 ts fs' tmid ts' : str) :
  bstepB prev fc fs0 ts = SCont fs' tmid ts' -> fs0 = fs' /\ ts = tmid ++ ts'.
Proof.
  unfold bstepB. destruct (N.eqb fc PLUS).
  - destruct (is_empty (drop_level ts) && is_empty fs0); [discriminate|].
    intros H. injection H as <- <- <-. split; [reflexivity|apply take_drop].
  - destruct (N.eqb fc HASH); [discriminate|].
    destruct (N.eqb prev PLUS && N.eqb fc SLASH && str_eqb fs0 [HASH] && is_empty ts); discriminate.
Qed.

Lemma bstep_cont (prev : N) (fs ts fs' tmid ts' : str) :
  bstep prev fs ts = SCont fs' tmid ts' -> exists c, fs = c :: fs' /\ ts = tmid ++ ts'.
Proof.
  unfold bstep. intros H. destruct fs as [|fc fs0]; [discriminate|]. exists fc.
  destruct ts as [|tc ts0].
  - apply bstepB_cont in H as [-> H]. now split.
  - destruct (N.eqb fc tc).
    + destruct (is_empty ts0 && str_eqb fs0 [SLASH; HASH]); [discriminate|].
      destruct (is_empty fs0 && is_empty ts0); [discriminate|].
      destruct (is_empty ts0 && str_eqb fs0 [PLUS]).
      * destruct (negb (N.eqb fc SLASH)); discriminate.
      * injection H as <- <- <-. now split.
    + apply bstepB_cont in H as [-> H]. now split.
Qed.

Lemma tm_loop_S (k : nat) (f t : str) (spos tpos : nat) :
  tm_loop (S k) f t spos tpos =
  match tm_body f t spos tpos with
  | TMRet b => Some b
  | TMCont s' t' => tm_loop k f t s' t'
  end.
Proof. reflexivity. Qed.

(* each iteration returns or consumes a filter byte: fuel > remaining filter length suffices *)
Lemma tm_loop_terminates (fuel : nat) : forall fdone fs tdone ts : str,
  length fs < fuel ->
  exists b, tm_loop fuel (fdone ++ fs) (tdone ++ ts) (length fdone) (length tdone) = Some b.
Proof.
  induction fuel as [|fuel IH]; intros fdone fs tdone ts Hlen; [lia|].
  rewrite tm_loop_S, tm_body_bstep.
  destruct (bstep (last fdone 0%N) fs ts) as [b|fs' tmid ts'] eqn:E; cbn [at_cursors]; [now exists b|].
  apply bstep_cont in E as (c & -> & ->). cbn [length] in Hlen.
  rewrite app_cons_assoc, (app_assoc tdone tmid ts'), (length_snoc fdone c), <- app_length.
  apply IH. lia.
Qed.

(* TopicMatch never runs out of fuel, for ALL byte strings *)
Theorem tm_impl_terminates (t f : str) : exists b, tm_impl t f = Some b.
Proof.
  destruct f as [|f0 f]; [destruct t; now exists false|].
  destruct t as [|t0 t]; [now exists false|].
  cbn [tm_impl].
  destruct ((N.eqb f0 DOLLAR && negb (N.eqb t0 DOLLAR)) || (N.eqb t0 DOLLAR && negb (N.eqb f0 DOLLAR)));
    [now exists false|].
  apply (tm_loop_terminates (length (f0 :: f) + 2) [] (f0 :: f) [] (t0 :: t)). lia.
Qed.

(* State invariant on the remaining suffixes.  The loop result from any such state is
   [lm (split ts) (split fs)] - also in the middle of a literal level, since the rest of a
   valid literal level is wildcard-free.  The last two clauses exclude the two states in
   which the loop's answer depends on how it got there (they are caught one iteration
   earlier by the special exits in [tm_body]). *)
Definition inv (prev : N) (fs ts : str) : Prop :=
  valid_filter_levels (split fs) = true /\
  has_wild ts = false /\
  (fs = [SLASH; HASH] -> ts = [] -> prev = PLUS) /\
  (fs = [] -> ts = [] -> False).

Lemma has_wild_cons (c : N) (l : str) :
  has_wild (c :: l) = (N.eqb c PLUS || N.eqb c HASH) || has_wild l.
Proof. reflexivity. Qed.

Lemma has_wild_cons_false (c : N) (l : str) :
  has_wild (c :: l) = false -> N.eqb c PLUS = false /\ N.eqb c HASH = false /\ has_wild l = false.
Proof.
  rewrite has_wild_cons. intros H. apply orb_false_iff in H as [H1 H2].
  apply orb_false_iff in H1 as [Hp Hh]. auto.
Qed.

Lemma nowild_not_plus (l : level) : has_wild l = false -> is_plus l = false.
Proof.
  destruct l as [|x l]; [reflexivity|]. intros H.
  apply has_wild_cons_false in H as (Hp & _ & _). now apply is_plus_cons_false.
Qed.

Lemma nowild_not_hash (l : level) : has_wild l = false -> is_hash l = false.
Proof.
  destruct l as [|x l]; [reflexivity|]. intros H.
  apply has_wild_cons_false in H as (_ & Hh & _). now apply is_hash_cons_false.
Qed.

Lemma vfl_one (l : level) :
  valid_filter_levels [l] = is_plus l || is_hash l || negb (has_wild l).
Proof. reflexivity. Qed.

Lemma vfl_cons2 (l l2 : level) (ls : list level) :
  valid_filter_levels (l :: l2 :: ls) =
  (is_plus l || negb (has_wild l)) && valid_filter_levels (l2 :: ls).
Proof. reflexivity. Qed.

Lemma vfl_slash (s : str) :
  valid_filter_levels (split (SLASH :: s)) = true -> valid_filter_levels (split s) = true.
Proof.
  rewrite split_cons_slash.
  destruct (split s) as [|l ls] eqn:E; [now apply split_nonempty in E|].
  rewrite vfl_cons2. intros H. now apply andb_true_iff in H as [_ H].
Qed.

Lemma vfl_lit (c : N) (s : str) (lf : level) (rf : list level) :
  N.eqb c SLASH = false -> N.eqb c PLUS = false -> N.eqb c HASH = false ->
  split s = lf :: rf ->
  valid_filter_levels (split (c :: s)) = true ->
  valid_filter_levels (lf :: rf) = true /\ has_wild lf = false.
Proof.
  intros Ec Hp Hh Hs.
  destruct (split_cons_ns c s Ec) as (l & ls & Es & Ecs).
  rewrite Es in Hs. injection Hs as -> ->. rewrite Ecs.
  pose proof (is_plus_cons_false c lf Hp) as Eplus.
  pose proof (is_hash_cons_false c lf Hh) as Ehash.
  assert (Ew : has_wild (c :: lf) = has_wild lf) by (rewrite has_wild_cons; now rewrite Hp, Hh).
  destruct rf as [|r rf].
  - rewrite !vfl_one, Eplus, Ehash, Ew. cbn [orb]. intros H.
    apply negb_true_iff in H. rewrite H. split; [|reflexivity].
    cbn [negb]. now rewrite !orb_true_r.
  - rewrite !vfl_cons2, Eplus, Ew. cbn [orb]. intros H.
    apply andb_true_iff in H as [H1 H2]. apply negb_true_iff in H1.
    rewrite H1, H2. cbn [negb]. rewrite orb_true_r. split; reflexivity.
Qed.

Lemma vfl_plus (s : str) :
  valid_filter_levels (split (PLUS :: s)) = true ->
  exists rf, split s = [] :: rf /\ valid_filter_levels ([] :: rf) = true.
Proof.
  destruct (split_cons_ns PLUS s eq_refl) as (l & ls & Es & Ecs).
  rewrite Ecs. intros H.
  destruct l as [|x l].
  - exists ls. split; [exact Es|].
    destruct ls as [|r ls]; [reflexivity|].
    rewrite vfl_cons2 in H |- *. apply andb_true_iff in H as [_ H].
    rewrite H. reflexivity.
  - exfalso. destruct ls as [|r ls]; cbn in H; discriminate.
Qed.

Lemma vfl_hash (s : str) : valid_filter_levels (split (HASH :: s)) = true -> s = [].
Proof.
  destruct (split_cons_ns HASH s eq_refl) as (l & ls & Es & Ecs).
  rewrite Ecs. intros H.
  destruct ls as [|r ls]; [|cbn in H; discriminate].
  destruct l as [|x l]; [|cbn in H; discriminate].
  apply split_inj. rewrite Es. reflexivity.
Qed.

Lemma lm_slash (t' f' : str) :
  lm (split (SLASH :: t')) (split (SLASH :: f')) = lm (split t') (split f').
Proof. rewrite !split_cons_slash. reflexivity. Qed.

Lemma lm_lit (c : N) (t' f' : str) (lf : level) (rf : list level) :
  N.eqb c SLASH = false -> N.eqb c PLUS = false -> N.eqb c HASH = false ->
  split f' = lf :: rf -> has_wild lf = false ->
  lm (split (c :: t')) (split (c :: f')) = lm (split t') (split f').
Proof.
  intros Ec Hp Hh Hs Hw.
  destruct (split_cons_ns c t' Ec) as (lt & rt & Et & Ect).
  destruct (split_cons_ns c f' Ec) as (lf0 & rf0 & Ef & Ecf).
  rewrite Ef in Hs. injection Hs as -> ->.
  rewrite Ect, Ecf, Et, Ef.
  rewrite (lm_cons_nohash _ _ _ _ (is_hash_cons_false c lf Hh)), (lm_cons_nohash _ _ _ _ (nowild_not_hash lf Hw)).
  rewrite (is_plus_cons_false c lf Hp), (nowild_not_plus lf Hw). cbn [str_eqb orb]. now rewrite N.eqb_refl.
Qed.

(* consuming the same non-wildcard byte on both sides *)
Lemma lm_same_head (c : N) (t' f' : str) :
  N.eqb c PLUS = false -> N.eqb c HASH = false ->
  valid_filter_levels (split (c :: f')) = true ->
  lm (split (c :: t')) (split (c :: f')) = lm (split t') (split f') /\
  valid_filter_levels (split f') = true.
Proof.
  intros Hp Hh Hv. destruct (N.eqb c SLASH) eqn:Ec.
  - apply N.eqb_eq in Ec. subst c. split; [apply lm_slash|now apply vfl_slash].
  - destruct (split f') as [|lf rf] eqn:Es; [now apply split_nonempty in Es|].
    destruct (vfl_lit c f' lf rf Ec Hp Hh Es Hv) as [Hv' Hw].
    split; [|exact Hv']. rewrite <- Es. now apply (lm_lit c t' f' lf rf).
Qed.

Lemma split_drop_level (ts : str) :
  exists lt rt, split ts = lt :: rt /\ split (drop_level ts) = [] :: rt.
Proof.
  induction ts as [|c ts IH].
  - exists [], []. split; reflexivity.
  - cbn [drop_level].
    destruct (split_cons_cases c ts) as [[-> Ecs]|(Ec & l & ls & Es & Ecs)].
    + exists [], (split ts). split; reflexivity.
    + rewrite Ec. destruct IH as (lt & rt & Et & Ed).
      rewrite Es in Et. injection Et as -> ->.
      exists (c :: lt), rt. split; [exact Ecs|exact Ed].
Qed.

Lemma has_wild_drop (ts : str) : has_wild ts = false -> has_wild (drop_level ts) = false.
Proof.
  induction ts as [|c ts IH]; intros H; [reflexivity|].
  cbn [drop_level]. destruct (N.eqb c SLASH); [exact H|].
  apply has_wild_cons_false in H as (_ & _ & H). now apply IH.
Qed.

Lemma lm_plus (ts fs' : str) (lt : level) (rt rf : list level) :
  split fs' = [] :: rf -> split ts = lt :: rt ->
  lm (split ts) (split (PLUS :: fs')) = lm rt rf.
Proof.
  intros Ef Et.
  destruct (split_cons_ns PLUS fs' eq_refl) as (l & ls & Es & Ecs).
  rewrite Es in Ef. injection Ef as -> ->. rewrite Ecs, Et. reflexivity.
Qed.

Lemma lm_nil_filter (ts : str) : ts <> [] -> lm (split ts) (split []) = false.
Proof.
  intros Hne. destruct ts as [|c ts]; [contradiction|].
  destruct (split_cons_cases c ts) as [[-> Ecs]|(Ec & l & ls & _ & Ecs)]; rewrite Ecs; [|reflexivity].
  destruct (split ts) as [|l ls] eqn:Es; [now apply split_nonempty in Es|reflexivity].
Qed.

Lemma lm_mismatch_nil (fc : N) (fs' : str) :
  N.eqb fc PLUS = false -> N.eqb fc HASH = false -> fc :: fs' <> [SLASH; HASH] ->
  lm (split []) (split (fc :: fs')) = false.
Proof.
  intros Hp Hh Hne.
  destruct (split_cons_cases fc fs') as [[-> Ecs]|(Ec & l & ls & _ & Ecs)]; rewrite Ecs.
  - change (lm (split []) ([] :: split fs')) with (lm [] (split fs')).
    destruct (lm [] (split fs')) eqn:El; [|reflexivity].
    apply lm_nil in El as [El|El]; [now apply split_nonempty in El|].
    exfalso. apply Hne. f_equal. apply split_inj. rewrite El. reflexivity.
  - cbn [split lm is_hash is_plus str_eqb]. rewrite Hh, Hp. reflexivity.
Qed.

Lemma lm_mismatch_cons (fc tc : N) (fs' ts' : str) :
  N.eqb fc PLUS = false -> N.eqb fc HASH = false -> N.eqb fc tc = false ->
  lm (split (tc :: ts')) (split (fc :: fs')) = false.
Proof.
  intros Hp Hh Hne.
  destruct (split_cons_cases fc fs') as [[-> Ef]|(Ef & l & ls & _ & Ecs)];
    destruct (split_cons_cases tc ts') as [[-> Et]|(Et & l2 & ls2 & _ & Ecs2)].
  - discriminate.
  - rewrite Ef, Ecs2. reflexivity.
  - rewrite Ecs, Et. cbn [lm is_hash is_plus str_eqb]. rewrite Hh, Hp. reflexivity.
  - rewrite Ecs, Ecs2. cbn [lm is_hash is_plus str_eqb]. rewrite Hh, Hp, Hne. reflexivity.
Qed.

Lemma bstepB_spec (prev fc : N) (fs' ts : str) :
  inv prev (fc :: fs') ts ->
  (ts = [] \/ exists tc ts', ts = tc :: ts' /\ N.eqb fc tc = false) ->
  match bstepB prev fc fs' ts with
  | SRet b => b = lm (split ts) (split (fc :: fs'))
  | SCont fs2 tmid ts2 =>
      fs2 = fs' /\ ts = tmid ++ ts2 /\ inv fc fs2 ts2 /\
      lm (split ts) (split (fc :: fs')) = lm (split ts2) (split fs2)
  end.
Proof.
  intros (Hv & Hw & Hsh & _) Hts. unfold bstepB.
  destruct (N.eqb fc PLUS) eqn:Ep.
  - apply N.eqb_eq in Ep. subst fc.
    destruct (vfl_plus fs' Hv) as (rf & Ef & Hvf).
    destruct (split_drop_level ts) as (lt & rt & Et & Ed).
    assert (Hlm : lm (split ts) (split (PLUS :: fs')) = lm rt rf)
      by (now apply (lm_plus ts fs' lt rt rf)).
    destruct (is_empty (drop_level ts) && is_empty fs') eqn:Ee.
    + apply andb_true_iff in Ee as [E1 E2].
      destruct (drop_level ts) as [|d dl]; [|discriminate].
      destruct fs' as [|x fs']; [|discriminate].
      cbn [split] in Ed, Ef. injection Ed as <-. injection Ef as <-.
      rewrite Hlm. reflexivity.
    + split; [reflexivity|]. split; [apply take_drop|]. split.
      * split; [rewrite Ef; exact Hvf|]. split; [now apply has_wild_drop|].
        split; [reflexivity|].
        intros -> Hd. rewrite Hd in Ee. discriminate.
      * rewrite Hlm, Ed, Ef. reflexivity.
  - destruct (N.eqb fc HASH) eqn:Eh.
    + apply N.eqb_eq in Eh. subst fc. apply vfl_hash in Hv. subst fs'.
      symmetry. apply lm_hash.
    + destruct (N.eqb prev PLUS && N.eqb fc SLASH && str_eqb fs' [HASH] && is_empty ts) eqn:Ec.
      * apply andb_true_iff in Ec as [Ec E4]. apply andb_true_iff in Ec as [Ec E3].
        apply andb_true_iff in Ec as [E1 E2].
        apply N.eqb_eq in E2. apply str_eqb_eq in E3. subst fc fs'.
        destruct ts as [|x ts]; [|discriminate]. reflexivity.
      * symmetry. destruct Hts as [->|(tc & ts' & -> & Hne)].
        -- apply lm_mismatch_nil; [exact Ep|exact Eh|].
           intros Heq. injection Heq as -> ->.
           rewrite (Hsh eq_refl eq_refl) in Ec. discriminate.
        -- now apply lm_mismatch_cons.
Qed.

(* every iteration from a state satisfying [inv] returns the level-wise answer for the
   remaining suffixes, or moves to a state satisfying [inv] with the same answer *)
Lemma bstep_spec (prev : N) (fs ts : str) :
  inv prev fs ts ->
  match bstep prev fs ts with
  | SRet b => b = lm (split ts) (split fs)
  | SCont fs' tmid ts' =>
      exists c, fs = c :: fs' /\ ts = tmid ++ ts' /\ inv c fs' ts' /\
                lm (split ts) (split fs) = lm (split ts') (split fs')
  end.
Proof.
  intros Hinv. unfold bstep. destruct fs as [|fc fs'].
  - destruct Hinv as (_ & _ & _ & Hne). symmetry. apply lm_nil_filter.
    intros ->. now apply Hne.
  - destruct ts as [|tc ts'].
    + pose proof (bstepB_spec prev fc fs' [] Hinv (or_introl eq_refl)) as HB.
      destruct (bstepB prev fc fs' []) as [b|fs2 tmid ts2]; [exact HB|].
      destruct HB as (-> & H2 & H3 & H4). exists fc. auto.
    + destruct (N.eqb fc tc) eqn:Ec.
      * apply N.eqb_eq in Ec. subst tc.
        destruct Hinv as (Hv & Hw & Hsh & Hne).
        apply has_wild_cons_false in Hw as (Hp & Hh & Hw').
        destruct (lm_same_head fc ts' fs' Hp Hh Hv) as [Hlm Hv'].
        destruct (is_empty ts' && str_eqb fs' [SLASH; HASH]) eqn:E1.
        { apply andb_true_iff in E1 as [Ea Eb]. apply str_eqb_eq in Eb. subst fs'.
          destruct ts' as [|y ts']; [|discriminate]. rewrite Hlm. reflexivity. }
        destruct (is_empty fs' && is_empty ts') eqn:E2.
        { apply andb_true_iff in E2 as [Ea Eb].
          destruct fs' as [|y fs']; [|discriminate].
          destruct ts' as [|z ts']; [|discriminate]. rewrite Hlm. reflexivity. }
        destruct (is_empty ts' && str_eqb fs' [PLUS]) eqn:E3.
        { apply andb_true_iff in E3 as [Ea Eb]. apply str_eqb_eq in Eb. subst fs'.
          destruct ts' as [|y ts']; [|discriminate].
          destruct (N.eqb fc SLASH) eqn:Es; cbn [negb].
          - rewrite Hlm. reflexivity.
          - exfalso.
            destruct (vfl_lit fc [PLUS] [PLUS] [] Es Hp Hh eq_refl Hv) as [_ Hbad].
            discriminate. }
        exists fc. split; [reflexivity|]. split; [reflexivity|]. split; [|exact Hlm].
        split; [exact Hv'|]. split; [exact Hw'|]. split.
        -- intros -> ->. discriminate.
        -- intros -> ->. discriminate.
      * pose proof (bstepB_spec prev fc fs' (tc :: ts') Hinv
                      (or_intror (ex_intro _ tc (ex_intro _ ts' (conj eq_refl Ec))))) as HB.
        destruct (bstepB prev fc fs' (tc :: ts')) as [b|fs2 tmid ts2]; [exact HB|].
        destruct HB as (-> & H2 & H3 & H4). exists fc. auto.
Qed.

Lemma tm_loop_lm (fuel : nat) : forall fdone fs tdone ts : str,
  length fs < fuel ->
  inv (last fdone 0%N) fs ts ->
  tm_loop fuel (fdone ++ fs) (tdone ++ ts) (length fdone) (length tdone) =
  Some (lm (split ts) (split fs)).
Proof.
  induction fuel as [|fuel IH]; intros fdone fs tdone ts Hlen Hinv; [lia|].
  rewrite tm_loop_S, tm_body_bstep.
  pose proof (bstep_spec _ fs ts Hinv) as Hs.
  destruct (bstep (last fdone 0%N) fs ts) as [b|fs' tmid ts']; cbn [at_cursors]; [now rewrite Hs|].
  destruct Hs as (c & -> & -> & Hinv' & Hlm). cbn [length] in Hlen.
  rewrite Hlm.
  rewrite app_cons_assoc, (app_assoc tdone tmid ts'), (length_snoc fdone c), <- app_length.
  apply IH; [lia|]. now rewrite last_last.
Qed.

(* TopicMatch decides MQTT 4.7 matching on well-formed names and filters, within its fuel *)
Lemma tm_impl_equiv (t f : str) :
  valid_name_spec t = true -> valid_filter_spec f = true ->
  tm_impl t f = Some (topic_match t f).
Proof.
  unfold valid_name_spec, valid_filter_spec. intros Ht Hf.
  apply andb_true_iff in Ht as [Hte Htw]. apply andb_true_iff in Hf as [Hfe Hfv].
  apply negb_true_iff in Htw.
  destruct f as [|f0 f]; [discriminate|]. destruct t as [|t0 t]; [discriminate|].
  assert (Hloop : tm_loop (length (f0 :: f) + 2) (f0 :: f) (t0 :: t) 0 0 =
                  Some (lm (split (t0 :: t)) (split (f0 :: f)))).
  { apply (tm_loop_lm (length (f0 :: f) + 2) [] (f0 :: f) [] (t0 :: t)); [lia|].
    split; [exact Hfv|]. split; [exact Htw|]. split; intros; discriminate. }
  cbn [tm_impl].
  destruct (N.eqb f0 DOLLAR) eqn:Ef; destruct (N.eqb t0 DOLLAR) eqn:Et; cbn [negb andb orb].
  - rewrite topic_match_same_kind by (cbn [starts_dollar]; now rewrite Ef, Et). exact Hloop.
  - f_equal. symmetry. apply plain_topic_dollar_filter; cbn [starts_dollar]; assumption.
  - f_equal. symmetry. apply dollar_topic_plain_filter; cbn [starts_dollar]; assumption.
  - rewrite topic_match_same_kind by (cbn [starts_dollar]; now rewrite Ef, Et). exact Hloop.
Qed.

Corollary tm_impl_sound (t f : str) :
  valid_name_spec t = true -> valid_filter_spec f = true ->
  tm_impl t f = Some true -> topic_match t f = true.
Proof.
  intros Ht Hf H. rewrite (tm_impl_equiv t f Ht Hf) in H. now injection H.
Qed.

Corollary tm_impl_complete (t f : str) :
  valid_name_spec t = true -> valid_filter_spec f = true ->
  topic_match t f = true -> tm_impl t f = Some true.
Proof.
  intros Ht Hf H. now rewrite (tm_impl_equiv t f Ht Hf), H.
Qed.

Local Open Scope N_scope.

(* "a" against "a/#" (parent match), "a/" against "a/+" (empty last level),
   "a/b" against "a/+/#" *)
Example tm_exit_parent : tm_impl [97] [97; 47; 35] = Some true.
Proof. reflexivity. Qed.
Example tm_exit_empty_level : tm_impl [97; 47] [97; 47; 43] = Some true.
Proof. reflexivity. Qed.
Example tm_exit_plus_hash : tm_impl [97; 47; 98] [97; 47; 43; 47; 35] = Some true.
Proof. reflexivity. Qed.

(* [valid_filter_spec] cannot be dropped: on the ill-formed filter "a+" the byte loop treats
   '+' as a wildcard in the middle of a level and accepts "ab", which level matching rejects *)
Example tm_impl_illformed_filter_differs :
  valid_name_spec [97; 98] = true /\ valid_filter_spec [97; 43] = false /\
  tm_impl [97; 98] [97; 43] = Some true /\ topic_match [97; 98] [97; 43] = false.
Proof. repeat split; reflexivity. Qed.
