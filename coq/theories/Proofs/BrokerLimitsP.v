(* C13, inbound half, on the broker model (Model/Broker.v): what CONNACK advertises and how the
   connection record starts; inbound topic aliases (0x94); the receive quota (0x93) and its
   bookkeeping against the set of open QoS 2 publishes; the Maximum Packet Size of the server
   (0x95); a well-formed PUBLISH is never answered by a DISCONNECT.
   All statements are about ALL states of the model. *)
From Coq Require Import List NArith Bool Arith Lia ZifyN ZifyNat ZifyBool.
Import ListNotations.
From GM Require Import Base.Topic Base.Msg Model.SubTrie Model.RetTrie Model.Queue Model.Limiter
                       Model.TopicMatch Model.Broker Proofs.TopicP Proofs.ListP Proofs.AssocP Proofs.LimiterP Proofs.BrokerBasicP.
From GM Require Proofs.BrokerInvP Proofs.BrokerQos2P.
Open Scope N_scope.

(* the fields of a connection record the inbound limits depend on *)
Definition lview (k : conn) : str * N * phase * N * N * bool * list (N * str) * N :=
  (k_cid k, k_v k, k_phase k, k_server_alias_max k, k_recv_max k, k_retain_avail k, k_alias_in k, k_quota k).
Definition lv (s : st) (c : N) : option (str * N * phase * N * N * bool * list (N * str) * N) :=
  option_map lview (nget c (b_conns s)).

(* a step that leaves configuration, hooks, the unack stores and the limit fields of every connection alone *)
Record lframe (s s' : st) : Prop := {
  lf_cfg : b_cfg s' = b_cfg s;
  lf_hooks : b_hooks s' = b_hooks s;
  lf_u : b_unacks s' = b_unacks s;
  lf_lv : forall c, lv s' c = lv s c }.

Lemma lframe_refl s : lframe s s.
Proof. constructor; auto. Qed.

Lemma lframe_trans a b c : lframe a b -> lframe b c -> lframe a c.
Proof. intros [] []. constructor; try congruence. Qed.

Lemma lv_upd_conn c' c k s : lv (upd_conn c k s) c' = if c' =? c then Some (lview k) else lv s c'.
Proof. unfold lv. proj. rewrite nget_nset. destruct (c' =? c); reflexivity. Qed.

Lemma lv_upd_conn_same c k s : lv (upd_conn c k s) c = Some (lview k).
Proof. now rewrite lv_upd_conn, N.eqb_refl. Qed.

Lemma lv_upd_conn_other c' c k s : c' <> c -> lv (upd_conn c k s) c' = lv s c'.
Proof. intros H. rewrite lv_upd_conn. apply N.eqb_neq in H. now rewrite H. Qed.

Lemma lv_of s c k : nget c (b_conns s) = Some k -> lv s c = Some (lview k).
Proof. unfold lv. now intros ->. Qed.

Lemma lv_some s c v : lv s c = Some v -> exists k, nget c (b_conns s) = Some k /\ lview k = v.
Proof. unfold lv. destruct (nget c (b_conns s)) as [k|]; cbn [option_map]; [|discriminate]. intros [= <-]. now exists k. Qed.

Lemma lv_none s c : lv s c = None -> nget c (b_conns s) = None.
Proof. unfold lv. destruct (nget c (b_conns s)); [discriminate|reflexivity]. Qed.

Lemma lview_fields k1 k2 :
  lview k1 = lview k2 ->
  k_cid k1 = k_cid k2 /\ k_v k1 = k_v k2 /\ k_phase k1 = k_phase k2 /\ k_server_alias_max k1 = k_server_alias_max k2 /\
  k_recv_max k1 = k_recv_max k2 /\ k_retain_avail k1 = k_retain_avail k2 /\ k_alias_in k1 = k_alias_in k2 /\
  k_quota k1 = k_quota k2.
Proof. unfold lview. intros [= E1 E2 E3 E4 E5 E6 E7 E8]. auto 10. Qed.

Lemma lv_phase s c k : lv s c = Some (lview k) -> exists k', nget c (b_conns s) = Some k' /\ k_phase k' = k_phase k.
Proof. intros E. apply lv_some in E as (k' & Hk' & Ev). exists k'. split; [exact Hk'|]. now apply lview_fields in Ev. Qed.

Lemma lframe_upd_conn c k s : lv s c = Some (lview k) -> lframe s (upd_conn c k s).
Proof.
  intros H. constructor; proj; auto.
  intros c'. destruct (N.eq_dec c' c) as [->|E]; [now rewrite lv_upd_conn_same|now apply lv_upd_conn_other].
Qed.

Lemma lframe_upd_conn_k c k k' s :
  nget c (b_conns s) = Some k -> lview k' = lview k -> lframe s (upd_conn c k' s).
Proof. intros H E. apply lframe_upd_conn. rewrite (lv_of _ _ _ H). now rewrite E. Qed.

Lemma lframe_set_queues q s : lframe s (set_queues q s).
Proof. constructor; proj; auto. Qed.
Lemma lframe_set_picks_tag p t s : lframe s (set_picks_tag p t s).
Proof. constructor; proj; auto. Qed.
Lemma lframe_set_subs d s : lframe s (set_subs d s).
Proof. constructor; proj; auto. Qed.
Lemma lframe_set_ret r s : lframe s (set_ret r s).
Proof. constructor; proj; auto. Qed.
Lemma lframe_set_auto a s : lframe s (set_auto a s).
Proof. constructor; proj; auto. Qed.
Lemma lframe_set_time n r s : lframe s (set_time n r s).
Proof. constructor; proj; auto. Qed.
Lemma lframe_set_tables se on off w q s : lframe s (set_tables se on off w q (b_unacks s) s).
Proof. constructor; proj; auto. Qed.
Lemma lframe_remove_session cid s : lframe s (remove_session cid s).
Proof. constructor; proj; auto. Qed.

(* outputs that are only drop notifications *)
Definition isdrop (x : out) : Prop := match x with ODropped _ _ _ => True | _ => False end.

Lemma drops_of_isdrop cid evs : Forall isdrop (drops_of cid evs).
Proof. exact (BrokerQos2P.drops_of_only cid evs). Qed.

(* lview is a sub-tuple of the static part of a connection record that deliver and the poll loops keep *)
Lemma lv_cstat s c :
  lv s c = option_map (fun '(cid, v, ph, (_, _, _, sam), (rm, _, _), (ra, _, _, _), (ai, _, q), _) =>
                         (cid, v, ph, sam, rm, ra, ai, q)) (BrokerQos2P.cstat s c).
Proof. unfold lv, BrokerQos2P.cstat. now destruct (nget c (b_conns s)). Qed.

Lemma dframe_lframe s s' : BrokerQos2P.dframe s s' -> lframe s s'.
Proof.
  intros F. constructor;
    [apply (BrokerQos2P.df_cfg _ _ F)|apply (BrokerQos2P.df_hooks _ _ F)|apply (BrokerQos2P.df_unacks _ _ F)|].
  intros c. now rewrite !lv_cstat, (BrokerQos2P.df_cstat _ _ F c).
Qed.

Lemma release_dropped_lframe cid evs s : lframe s (release_dropped cid evs s).
Proof. apply dframe_lframe, BrokerQos2P.release_dropped_frame. Qed.

Lemma deliver_lquiet src m s :
  lframe s (fst (fst (deliver src m s))) /\ Forall isdrop (snd (fst (deliver src m s))).
Proof. destruct (BrokerQos2P.deliver_frame src m s) as [F D]. split; [apply dframe_lframe, F|exact D]. Qed.

(* a step (s, o) -> r that is a frame and adds only drop notifications *)
Definition lquiet (s : st) (o : list out) (r : st * list out) : Prop :=
  lframe s (fst r) /\ (Forall isdrop o -> Forall isdrop (snd r)).

Lemma lquiet_refl s o : lquiet s o (s, o).
Proof. split; [apply lframe_refl|auto]. Qed.

Lemma lquiet_app s0 o0 (r : st * list out) :
  lframe s0 (fst r) -> Forall isdrop (snd r) -> lquiet s0 o0 (let '(s', o') := r in (s', o0 ++ o')).
Proof.
  destruct r as [s' o']. cbn [fst snd]. intros H1 H2. split; cbn [fst snd]; [exact H1|].
  intros H. apply Forall_app. now split.
Qed.

Lemma fold_lquiet {A} (f : st * list out -> A -> st * list out) (l : list A) s :
  (forall s0 o0 x, lquiet s0 o0 (f (s0, o0) x)) ->
  lframe s (fst (fold_left f l (s, []))) /\ Forall isdrop (snd (fold_left f l (s, []))).
Proof.
  intros Hf. cut (lquiet s [] (fold_left f l (s, []))); [intros [F D]; split; [exact F|apply D; constructor]|].
  refine (fold_rel (fun a b => lquiet (fst a) (snd a) b) f l _ _ _ (s, [])).
  - intros [s0 o0]. apply lquiet_refl.
  - intros a b c [A1 A2] [B1 B2]. split; [eapply lframe_trans; eauto|auto].
  - intros [s0 o0] x. apply Hf.
Qed.

Lemma retain_update_lframe m s : lframe s (retain_update m s).
Proof. unfold retain_update. destruct (m_retained m); [apply lframe_set_ret|apply lframe_refl]. Qed.

(* a message is published: retained, then delivered *)
Lemma publish_lquiet src m s :
  lframe s (fst (fst (deliver src m (retain_update m s)))) /\
  Forall isdrop (snd (fst (deliver src m (retain_update m s)))).
Proof.
  destruct (deliver_lquiet src m (retain_update m s)) as [F D].
  split; [eapply lframe_trans; [apply retain_update_lframe|exact F]|exact D].
Qed.

Lemma send_will_lquiet cid m s :
  lframe s (fst (send_will cid m s)) /\ Forall isdrop (snd (send_will cid m s)).
Proof.
  unfold send_will. destruct (will_action cid s) as [|code| |t p q]; try (split; [apply lframe_refl|constructor]).
  - pose proof (publish_lquiet cid m s) as H. now destruct (deliver cid m (retain_update m s)) as [[s' o] b].
  - pose proof (publish_lquiet cid (with_topic_payload_qos t p q m) s) as H. cbv zeta.
    now destruct (deliver cid _ (retain_update _ s)) as [[s' o] b].
Qed.

Lemma unregister_lquiet c k s :
  lframe s (fst (unregister c k s)) /\ Forall isdrop (snd (unregister c k s)).
Proof.
  unfold unregister. cbv zeta.
  destruct (aget (k_cid k) (b_sessions s)) as [se|]; [|cbn [fst snd]; split; [apply lframe_remove_session|constructor]].
  match goal with |- context [let '(s1, o1) := ?X in _] => assert (Q : lframe s (fst X) /\ Forall isdrop (snd X)) end.
  { destruct (se_will se) as [w|]; [|split; [apply lframe_refl|constructor]].
    destruct (k_clean_will k); [split; [apply lframe_refl|constructor]|].
    match goal with |- context [if ?b then (set_tables _ _ _ _ _ _ _, []) else _] => destruct b end.
    - cbn [fst snd]. split; [apply lframe_set_tables|constructor].
    - apply send_will_lquiet. }
  match type of Q with lframe s (fst ?X) /\ _ => destruct X as [s1 o1] end. cbn [fst snd] in Q. destruct Q as [F D].
  match goal with |- context [if ?b then _ else _] => destruct b end; cbn [fst snd]; (split; [|exact D]).
  - eapply lframe_trans; [exact F|apply lframe_set_tables].
  - eapply lframe_trans; [exact F|apply lframe_remove_session].
Qed.

Definition closed_q (cid : str) (s : st) : st :=
  match aget cid (b_queues s) with
  | Some q => set_queues (aset cid (q_close q) (b_queues s)) s
  | None => s
  end.

Lemma closed_q_lframe cid s : lframe s (closed_q cid s).
Proof. unfold closed_q. destruct (aget cid (b_queues s)); [apply lframe_set_queues|apply lframe_refl]. Qed.

Lemma closed_q_conns cid s : b_conns (closed_q cid s) = b_conns s.
Proof. unfold closed_q. destruct (aget cid (b_queues s)); reflexivity. Qed.

Definition attached (ph : phase) : bool := match ph with PhConnected | PhZombie => true | _ => false end.

Lemma conn_gone_att c k s :
  nget c (b_conns s) = Some k -> attached (k_phase k) = true ->
  conn_gone c s =
  (fst (unregister c (set_phase PhClosed k) (upd_conn c (set_phase PhClosed k) (closed_q (k_cid k) s))),
   OClose c :: snd (unregister c (set_phase PhClosed k) (upd_conn c (set_phase PhClosed k) (closed_q (k_cid k) s)))).
Proof. exact (BrokerInvP.conn_gone_att c k s). Qed.

Definition with_vphase (ph : phase) (v : str * N * phase * N * N * bool * list (N * str) * N) :=
  let '(cid, ver, _, sam, rm, ra, ai, q) := v in (cid, ver, ph, sam, rm, ra, ai, q).

Lemma lview_set_phase ph k : lview (set_phase ph k) = with_vphase ph (lview k).
Proof. reflexivity. Qed.

Definition closeout (c : N) (x : out) : Prop := x = OClose c \/ isdrop x.

Lemma isdrop_closeout c o : Forall isdrop o -> Forall (closeout c) o.
Proof. apply Forall_impl. intros x H. now right. Qed.

(* conn_gone: the socket's record is closed, nothing else the limits read changes *)
Lemma conn_gone_gen c s :
  b_cfg (fst (conn_gone c s)) = b_cfg s /\ b_hooks (fst (conn_gone c s)) = b_hooks s /\
  b_unacks (fst (conn_gone c s)) = b_unacks s /\
  (forall c', c' <> c -> lv (fst (conn_gone c s)) c' = lv s c') /\
  lv (fst (conn_gone c s)) c = option_map (with_vphase PhClosed) (lv s c) /\
  Forall (closeout c) (snd (conn_gone c s)).
Proof.
  destruct (nget c (b_conns s)) as [k|] eqn:Hk.
  2:{ unfold conn_gone. rewrite Hk. cbn [fst snd]. unfold lv. rewrite Hk. repeat split; auto. }
  rewrite (lv_of _ _ _ Hk). cbn [option_map].
  destruct (attached (k_phase k)) eqn:Ha.
  - pose proof (conn_gone_att c k s Hk Ha) as E.
    destruct (unregister_lquiet c (set_phase PhClosed k) (upd_conn c (set_phase PhClosed k) (closed_q (k_cid k) s)))
      as [[A1 A2 A3 A4] D].
    destruct (closed_q_lframe (k_cid k) s) as [B1 B2 B3 B4]. proj_in A1. proj_in A2. proj_in A3.
    (* from here on the result of unregister is just a pair *)
    revert E A1 A2 A3 A4 D. generalize (unregister c (set_phase PhClosed k) (upd_conn c (set_phase PhClosed k) (closed_q (k_cid k) s))).
    intros U -> A1 A2 A3 A4 D. cbn [fst snd]. repeat split; try congruence.
    + intros c' Hc. now rewrite A4, lv_upd_conn_other, B4.
    + now rewrite A4, lv_upd_conn_same.
    + constructor; [now left|now apply isdrop_closeout].
  - unfold conn_gone. rewrite Hk.
    destruct (k_phase k) eqn:Hp; try discriminate; cbn [fst snd]; proj;
      repeat split; auto using lv_upd_conn_other; try (repeat constructor).
    1, 2: apply lv_upd_conn_same.
    rewrite (lv_of _ _ _ Hk). unfold lview, with_vphase. now rewrite Hp.
Qed.

(* the teardown of socket c after DISCONNECT(code) has been written: the result of a failing packet *)
Definition torn (c code : N) (s : st) : st * list out :=
  (fst (conn_gone c s), OSend c (KDisconnect code []) :: snd (conn_gone c s)).

Lemma fail_conn_v5 c k code br s :
  nget c (b_conns s) = Some k -> k_phase k = PhConnected -> k_v k = 5 ->
  fail_conn c (Some code) br s = torn c code s.
Proof.
  intros Hk Hp Hv. unfold fail_conn, torn. rewrite Hk, Hp, Hv. cbn [N.eqb Pos.eqb].
  rewrite orb_true_r. destruct (conn_gone c s). reflexivity.
Qed.

(* what the teardown of an attached socket is: DISCONNECT, close, then only drop notifications (a will
   may be queued for its subscribers); the socket's record is closed; configuration, hooks, unack
   stores and the other connections' limits are untouched *)
Lemma torn_spec c k code s :
  nget c (b_conns s) = Some k -> attached (k_phase k) = true ->
  exists s' o', torn c code s = (s', [OSend c (KDisconnect code []); OClose c] ++ o') /\ Forall isdrop o' /\
    b_cfg s' = b_cfg s /\ b_hooks s' = b_hooks s /\ b_unacks s' = b_unacks s /\
    (forall c', c' <> c -> lv s' c' = lv s c') /\
    lv s' c = Some (lview (set_phase PhClosed k)).
Proof.
  intros Hk Ha. destruct (conn_gone_gen c s) as (G1 & G2 & G3 & G4 & G5 & _). rewrite (lv_of _ _ _ Hk) in G5.
  pose proof (f_equal snd (conn_gone_att c k s Hk Ha)) as E. cbn [snd] in E.
  unfold torn. exists (fst (conn_gone c s)). eexists. rewrite E. split; [reflexivity|]. split; [apply unregister_lquiet|]. auto.
Qed.

(* the stages of BrokerInvP (whose hp_alias is used as it is); what follows the alias stage is gathered in
   publish_body, the acknowledgement in ack_code / ack_of *)

Definition hp_dupcheck (c : N) (k : conn) (v5 : bool) (qos pid : N) (s : st) : st * bool :=
  if qos =? 2 then
    let u := opt_or (aget (k_cid k) (b_unacks s)) [] in
    let '(u', ex) := unack_set pid u in
    let s := set_unacks (aset (k_cid k) u' (b_unacks s)) s in
    let s := if ex && v5 then
               match nget c (b_conns s) with
               | Some k1 => if k_quota k1 <? k_recv_max k1 then upd_conn c (set_quota (k_quota k1 + 1) k1) s else s
               | None => s
               end
             else s in
    (s, ex)
  else (s, false).

Definition hp_action (m : msg) (s : st) : msg_action :=
  if h_msg_on (b_hooks s) then opt_or (aget (m_topic m) (h_msg (b_hooks s))) MAccept else MAccept.

Definition hp_deliver (k : conn) (m : msg) (isdup : bool) (action : msg_action) (s : st) : st * list out * bool * option N :=
  if isdup then (s, [], false, None)
  else
    match action with
    | MReject code => (s, [], false, Some code)
    | MDrop => (s, [], false, None)
    | MAccept => let '(s', o, mt) := deliver (k_cid k) m (retain_update m s) in (s', o, mt, None)
    | MRewrite t p q => let m' := rewrite_msg t p q m in
                        let '(s', o, mt) := deliver (k_cid k) m' (retain_update m' s) in (s', o, mt, None)
    end.

(* the reason code of the PUBACK / PUBREC *)
Definition ack_code (v5 matched : bool) (err : option N) : N :=
  if v5 then match err with Some cd => cd | None => if matched then 0 else 16 end else 0.

Definition ack_of (c qos pid code : N) : list out :=
  if qos =? 1 then [OSend c (KPuback pid code [])]
  else if qos =? 2 then [OSend c (KPubrec pid code [])] else [].

Definition hp_finish (c : N) (k : conn) (v5 : bool) (qos pid : N) (o : list out) (matched : bool) (err : option N) (s : st) : hres :=
  let code := ack_code v5 matched err in
  let s := if (qos =? 2) && (128 <=? code)
           then set_unacks (aset (k_cid k) (unack_remove pid (opt_or (aget (k_cid k) (b_unacks s)) [])) (b_unacks s)) s
           else s in
  let s := match nget c (b_conns s) with
           | Some k1 =>
               if v5 && ((qos =? 1) || ((qos =? 2) && (128 <=? code))) && (k_quota k1 <? k_recv_max k1)
               then upd_conn c (set_quota (k_quota k1 + 1) k1) s else s
           | None => s
           end in
  HOk s (o ++ ack_of c qos pid code).

(* everything after the alias stage: duplicate detection, the hook, delivery, the acknowledgement *)
Definition publish_body (c : N) (k : conn) (v5 : bool) (m : msg) (qos pid : N) (s : st) : hres :=
  let '(s, isdup) := hp_dupcheck c k v5 qos pid s in
  let '(s, o, matched, err) := hp_deliver k m isdup (hp_action m s) s in
  hp_finish c k v5 qos pid o matched err s.

Lemma handle_publish_eq c k dup qos retain topic payload pid props s :
  handle_publish c k dup qos retain topic payload pid props s =
  let v5 := k_v k =? 5 in
  if negb (k_retain_avail k) && retain then HErr s [] (Some 154)
  else match BrokerInvP.hp_alias k v5 topic props (msg_of_publish v5 dup qos retain topic payload pid props) with
       | inr code => HErr s [] (Some code)
       | inl None => HErr s [] None
       | inl (Some (k', m)) => publish_body c k' v5 m qos pid (upd_conn c k' s)
       end.
Proof. reflexivity. Qed.

Lemma lview_set_quota_congr x k1 k2 : lview k1 = lview k2 -> lview (set_quota x k1) = lview (set_quota x k2).
Proof. intros H. apply lview_fields in H as (A & B & C & D & E & F & G & _). unfold lview. cbn. congruence. Qed.

Lemma set_quota_twice x y k : set_quota x (set_quota y k) = set_quota x k.
Proof. reflexivity. Qed.

(* the bookkeeping of one PUBLISH that passed the read loop, as a function of the charged quota q,
   the Receive Maximum rm, the open QoS 2 ids U and the reason code of the acknowledgement *)
Definition pub_quota (v5 : bool) (rm q : N) (U : list N) (qos pid code : N) : N * list N :=
  let U1 := if qos =? 2 then fst (unack_set pid U) else U in
  let ex := (qos =? 2) && snd (unack_set pid U) in
  let q1 := if ex && v5 && (q <? rm) then q + 1 else q in
  let U2 := if (qos =? 2) && (128 <=? code) then unack_remove pid U1 else U1 in
  let q2 := if v5 && ((qos =? 1) || ((qos =? 2) && (128 <=? code))) && (q1 <? rm) then q1 + 1 else q1 in
  (q2, U2).

Definition open_ids (s : st) (cid : str) : list N := opt_or (aget cid (b_unacks s)) [].

(* One unit of receive quota is given back, up to the Receive Maximum: the same lines stand in handle_publish
   (twice) and in the PUBREL branch of handle_packet, under different conditions b. *)
Definition quota_back (b : bool) (c : N) (s : st) : st :=
  match nget c (b_conns s) with
  | Some k1 => if b && (k_quota k1 <? k_recv_max k1) then upd_conn c (set_quota (k_quota k1 + 1) k1) s else s
  | None => s
  end.

(* What the handlers of PUBLISH and PUBREL do to the state s, as far as the limits can see: socket c has the
   limit view of k with quota q, session cid has the open ids U, the rest is as in s. *)
Definition lstep (c : N) (cid : str) (k : conn) (q : N) (U : list N) (s s' : st) : Prop :=
  b_cfg s' = b_cfg s /\ b_hooks s' = b_hooks s /\
  (forall c', c' <> c -> lv s' c' = lv s c') /\ lv s' c = Some (lview (set_quota q k)) /\
  open_ids s' cid = U /\ (forall cid', cid' <> cid -> aget cid' (b_unacks s') = aget cid' (b_unacks s)).

Lemma lstep_refl c cid k s : nget c (b_conns s) = Some k -> lstep c cid k (k_quota k) (open_ids s cid) s s.
Proof. intros Hk. repeat split; auto. exact (lv_of _ _ _ Hk). Qed.

Lemma lstep_lframe c cid k q U s s1 s2 : lstep c cid k q U s s1 -> lframe s1 s2 -> lstep c cid k q U s s2.
Proof.
  intros (H1 & H2 & H3 & H4 & H5 & H6) [F1 F2 F3 F4].
  repeat split; unfold open_ids in *; try congruence; intros; rewrite ?F3, ?F4; auto.
Qed.

(* the state the step starts from matters outside socket c only *)
Lemma lstep_base c cid k k0 q U s s' : lstep c cid k q U (upd_conn c k0 s) s' -> lstep c cid k q U s s'.
Proof.
  intros (H1 & H2 & H3 & H4 & H5 & H6). repeat split; auto.
  intros c' Hc. rewrite (H3 c' Hc). now apply lv_upd_conn_other.
Qed.

Lemma lstep_unacks c cid k q U U' s s1 :
  lstep c cid k q U s s1 -> lstep c cid k q U' s (set_unacks (aset cid U' (b_unacks s1)) s1).
Proof.
  intros (H1 & H2 & H3 & H4 & H5 & H6). repeat split; auto.
  - unfold open_ids. proj. now rewrite aget_aset_same.
  - intros cid' Hc. proj. rewrite aget_aset_other by exact Hc. now apply H6.
Qed.

Lemma lstep_quota_back b c cid k q U s s1 :
  lstep c cid k q U s s1 ->
  lstep c cid k (if b && (q <? k_recv_max k) then q + 1 else q) U s (quota_back b c s1).
Proof.
  intros (H1 & H2 & H3 & H4 & H5 & H6). apply lv_some in H4 as (k1 & Hk1 & Ev).
  pose proof (lview_fields _ _ Ev) as (_ & _ & _ & _ & Erm & _ & _ & Eq). cbn [k_recv_max k_quota set_quota] in Erm, Eq.
  unfold quota_back. rewrite Hk1, Erm, Eq. destruct (b && (q <? k_recv_max k)).
  - repeat split; auto.
    + intros c' Hc. rewrite lv_upd_conn_other by exact Hc. now apply H3.
    + rewrite lv_upd_conn_same. f_equal. exact (lview_set_quota_congr _ _ _ Ev).
  - repeat split; auto. now rewrite (lv_of _ _ _ Hk1), Ev.
Qed.

Lemma hp_dupcheck_spec c k v5 qos pid s :
  nget c (b_conns s) = Some k ->
  let U := open_ids s (k_cid k) in
  let ex := (qos =? 2) && snd (unack_set pid U) in
  snd (hp_dupcheck c k v5 qos pid s) = ex /\
  lstep c (k_cid k) k (if ex && v5 && (k_quota k <? k_recv_max k) then k_quota k + 1 else k_quota k)
        (if qos =? 2 then fst (unack_set pid U) else U) s (fst (hp_dupcheck c k v5 qos pid s)).
Proof.
  intros Hk. cbv zeta. pose proof (lstep_refl c (k_cid k) k s Hk) as R.
  unfold hp_dupcheck. destruct (qos =? 2); [|split; [reflexivity|exact R]].
  cbv zeta. fold (open_ids s (k_cid k)). destruct (unack_set pid (open_ids s (k_cid k))) as [u' ex]. cbn [fst snd andb].
  split; [reflexivity|]. apply (lstep_unacks _ _ _ _ _ u') in R.
  destruct (ex && v5); [exact (lstep_quota_back true _ _ _ _ _ _ _ R)|exact R].
Qed.

Lemma hp_deliver_lquiet k m isdup action s :
  lframe s (fst (fst (fst (hp_deliver k m isdup action s)))) /\
  Forall isdrop (snd (fst (fst (hp_deliver k m isdup action s)))) /\
  (isdup = true -> snd (fst (hp_deliver k m isdup action s)) = false /\ snd (hp_deliver k m isdup action s) = None).
Proof.
  unfold hp_deliver. destruct isdup; [split; [apply lframe_refl|split; [constructor|auto]]|].
  destruct action as [|code| |t p q]; try (split; [apply lframe_refl|split; [constructor|discriminate]]).
  - pose proof (publish_lquiet (k_cid k) m s) as [F D].
    destruct (deliver (k_cid k) m (retain_update m s)) as [[s' o] b]. split; [exact F|split; [exact D|discriminate]].
  - pose proof (publish_lquiet (k_cid k) (rewrite_msg t p q m) s) as [F D]. cbv zeta.
    destruct (deliver (k_cid k) _ (retain_update _ s)) as [[s' o] b]. split; [exact F|split; [exact D|discriminate]].
Qed.

Lemma hp_finish_spec c k k0 v5 qos pid o matched err q U s0 s :
  lstep c (k_cid k) k0 q U s0 s ->
  let code := ack_code v5 matched err in
  exists s', hp_finish c k v5 qos pid o matched err s = HOk s' (o ++ ack_of c qos pid code) /\
    lstep c (k_cid k) k0
          (if v5 && ((qos =? 1) || ((qos =? 2) && (128 <=? code))) && (q <? k_recv_max k0) then q + 1 else q)
          (if (qos =? 2) && (128 <=? code) then unack_remove pid U else U) s0 s'.
Proof.
  intros R. cbv zeta. unfold hp_finish. cbv zeta. eexists. split; [reflexivity|].
  apply (lstep_quota_back (v5 && ((qos =? 1) || ((qos =? 2) && (128 <=? ack_code v5 matched err))))).
  destruct ((qos =? 2) && (128 <=? ack_code v5 matched err)); [|exact R].
  fold (open_ids s (k_cid k)). pose proof R as (_ & _ & _ & _ & -> & _). exact (lstep_unacks _ _ _ _ _ _ _ _ R).
Qed.

Lemma publish_body_spec c k v5 m qos pid s :
  nget c (b_conns s) = Some k ->
  let U := open_ids s (k_cid k) in
  exists s' o code,
    publish_body c k v5 m qos pid s = HOk s' (o ++ ack_of c qos pid code) /\ Forall isdrop o /\
    (qos = 2 -> In pid U -> code < 128) /\
    lstep c (k_cid k) k (fst (pub_quota v5 (k_recv_max k) (k_quota k) U qos pid code))
          (snd (pub_quota v5 (k_recv_max k) (k_quota k) U qos pid code)) s s'.
Proof.
  intros Hk. cbv zeta. unfold publish_body.
  pose proof (hp_dupcheck_spec c k v5 qos pid s Hk) as [D0 D]. cbv zeta in D0, D.
  destruct (hp_dupcheck c k v5 qos pid s) as [s1 isdup]. cbn [fst snd] in D0, D.
  pose proof (hp_deliver_lquiet k m isdup (hp_action m s1) s1) as (F & Dr & Hd).
  destruct (hp_deliver k m isdup (hp_action m s1) s1) as [[[s2 o] matched] err]. cbn [fst snd] in F, Dr, Hd.
  destruct (hp_finish_spec c k k v5 qos pid o matched err _ _ s s2 (lstep_lframe _ _ _ _ _ _ _ _ D F))
    as (s' & E & R).
  exists s', o, (ack_code v5 matched err). split; [exact E|]. split; [exact Dr|]. split; [|exact R].
  intros -> Hin. destruct Hd as [-> ->]; [rewrite D0; now apply unack_set_true_iff|].
  unfold ack_code. now destruct v5.
Qed.

Definition alias_zero (props : list prop) : bool := match p_alias props with Some a => a =? 0 | None => false end.
Definition has_alias (props : list prop) : bool := match p_alias props with Some _ => true | None => false end.

Definition filters_ok (topics : list topic_req) : bool :=
  forallb (fun t => let '(g, f) := split_topic (tq_name t) in valid_filter_spec f) topics.

(* the error with which the read loop ends on packet p, in the order in which it looks *)
Definition read_err (k : conn) (p : pkt) : option N :=
  let v5 := k_v k =? 5 in
  match p with
  | KPublish dup qos retain topic payload pid props =>
      if has_wild topic then Some 129
      else if v5 && alias_zero props then Some 148
      else if is_empty topic && negb (v5 && has_alias props) then Some 130
      else if v5 && (0 <? qos) && (k_quota k =? 0) then Some 147
      else None
  | KSubscribe pid props topics => if filters_ok topics then None else Some 129
  | _ => None
  end.

(* the read loop charges one unit of the receive quota for a QoS>0 PUBLISH of a v5 client *)
Definition charge (k : conn) (p : pkt) : conn :=
  match p with
  | KPublish _ qos _ _ _ _ _ => if (k_v k =? 5) && (0 <? qos) then set_quota (k_quota k - 1) k else k
  | _ => k
  end.

Lemma charge_set_quota k p : charge k p = set_quota (k_quota (charge k p)) k.
Proof.
  destruct p; try (symmetry; apply set_quota_same). cbn [charge].
  destruct ((k_v k =? 5) && (0 <? qos)); [reflexivity|symmetry; apply set_quota_same].
Qed.

Lemma charge_v k p : k_v (charge k p) = k_v k.
Proof. now rewrite charge_set_quota. Qed.
Lemma charge_cid k p : k_cid (charge k p) = k_cid k.
Proof. now rewrite charge_set_quota. Qed.
Lemma charge_phase k p : k_phase (charge k p) = k_phase k.
Proof. now rewrite charge_set_quota. Qed.
Lemma charge_recv_max k p : k_recv_max (charge k p) = k_recv_max k.
Proof. now rewrite charge_set_quota. Qed.
Lemma charge_retain k p : k_retain_avail (charge k p) = k_retain_avail k.
Proof. now rewrite charge_set_quota. Qed.

(* the state a teardown starts from: with the charge (handler errors) or without (read-loop errors) *)
Definition charged (c : N) (k : conn) (p : pkt) (b : bool) (s : st) : st :=
  if b then upd_conn c (charge k p) s else s.

Lemma charged_tables c k p b s :
  b_queues (charged c k p b s) = b_queues s /\ b_ret (charged c k p b s) = b_ret s /\
  b_subs (charged c k p b s) = b_subs s /\ b_unacks (charged c k p b s) = b_unacks s /\
  b_sessions (charged c k p b s) = b_sessions s /\ b_cfg (charged c k p b s) = b_cfg s.
Proof. unfold charged. destruct b; proj; auto 10. Qed.

Lemma charged_conn c k p b s :
  nget c (b_conns s) = Some k ->
  exists k1, nget c (b_conns (charged c k p b s)) = Some k1 /\ k_phase k1 = k_phase k /\ k_v k1 = k_v k.
Proof.
  intros Hk. destruct b; cbn [charged]; [|now exists k].
  exists (charge k p). split; [proj; apply nget_nset_same|now rewrite charge_phase, charge_v].
Qed.

Lemma fail_charged c k p b code br s :
  nget c (b_conns s) = Some k -> k_phase k = PhConnected -> k_v k = 5 ->
  fail_conn c (Some code) br (charged c k p b s) = torn c code (charged c k p b s).
Proof.
  intros Hk Hp Hv. destruct (charged_conn c k p b s Hk) as (k1 & Hk1 & Ep & Ev). apply (fail_conn_v5 c k1); congruence.
Qed.

(* the PUBLISH branch of handle_packet: the read loop's checks, then the charge and the handler *)
Lemma handle_packet_publish_eq c k dup qos retain topic payload pid props s :
  handle_packet c k (KPublish dup qos retain topic payload pid props) s =
  match read_err k (KPublish dup qos retain topic payload pid props) with
  | Some code => HErrRead s (Some code)
  | None => handle_publish c (charge k (KPublish dup qos retain topic payload pid props)) dup qos retain topic payload pid props
                           (upd_conn c (charge k (KPublish dup qos retain topic payload pid props)) s)
  end.
Proof.
  cbn [read_err handle_packet charge]. unfold alias_zero, has_alias.
  destruct (has_wild topic); [reflexivity|].
  destruct (_ && match p_alias props with Some a => a =? 0 | None => false end); [reflexivity|].
  destruct (is_empty topic && _); [reflexivity|].
  now destruct (_ && _ && (k_quota k =? 0)).
Qed.

Lemma handle_packet_read_err c k p s code :
  read_err k p = Some code -> handle_packet c k p s = HErrRead s (Some code).
Proof.
  destruct p; try discriminate.
  - intros H. now rewrite handle_packet_publish_eq, H.
  - cbn [read_err handle_packet]. unfold filters_ok. destruct (forallb _ topics); [discriminate|now intros [= <-]].
Qed.

Lemma handle_packet_publish c k dup qos retain topic payload pid props s :
  read_err k (KPublish dup qos retain topic payload pid props) = None ->
  handle_packet c k (KPublish dup qos retain topic payload pid props) s =
  handle_publish c (charge k (KPublish dup qos retain topic payload pid props)) dup qos retain topic payload pid props
                 (upd_conn c (charge k (KPublish dup qos retain topic payload pid props)) s).
Proof. intros H. now rewrite handle_packet_publish_eq, H. Qed.

Lemma too_big_v5 k n s : too_big k n s = true -> (k_v k =? 5) = true.
Proof. unfold too_big. destruct (k_v k =? 5); [reflexivity|discriminate]. Qed.

(* a packet larger than the server's Maximum Packet Size: the read loop's own errors come first, in the
   same order; otherwise 0x95 after the quota charge; nothing is handled *)
Lemma handle_packet_sz_big_eq c k p n s :
  nget c (b_conns s) = Some k -> too_big k n s = true ->
  handle_packet_sz c k p n s =
  match read_err k p with
  | Some code => HErrRead s (Some code)
  | None => HErr (upd_conn c (charge k p) s) [] (Some 149)
  end.
Proof.
  intros Hk Hb. unfold handle_packet_sz. rewrite Hb. pose proof (too_big_v5 _ _ _ Hb) as Hv.
  destruct p; cbn [read_err charge]; rewrite ?(upd_conn_id _ _ _ Hk); try reflexivity.
  - rewrite Hv. cbn [andb]. unfold alias_zero, has_alias.
    destruct (has_wild topic); [reflexivity|].
    destruct (match p_alias props with Some a => a =? 0 | None => false end); [reflexivity|].
    destruct (is_empty topic && negb match p_alias props with Some _ => true | None => false end); [reflexivity|].
    destruct ((0 <? qos) && (k_quota k =? 0)); reflexivity.
  - unfold filters_ok. destruct (forallb _ topics); reflexivity.
Qed.

(* what the step makes of the handler's result *)
Definition finish (c : N) (r : hres) : st * list out :=
  match r with
  | HOk s' o => (s', o)
  | HErr s' o code => let '(s'', o') := fail_conn c code false s' in (s'', o ++ o')
  | HErrRead s' code => fail_conn c code true s'
  end.

Lemma step_event_send s c k p :
  nget c (b_conns s) = Some k -> k_phase k = PhConnected ->
  step_event s (ESend c p) = finish c (handle_packet c k p s).
Proof. intros Hk Hp. cbn [step_event]. now rewrite Hk, Hp. Qed.

Lemma step_event_send_sz s c k p n :
  nget c (b_conns s) = Some k -> k_phase k = PhConnected ->
  step_event s (ESendSz c p n) = finish c (handle_packet_sz c k p n s).
Proof. intros Hk Hp. cbn [step_event]. now rewrite Hk, Hp. Qed.

(* a read-loop error on a connected v5 socket: DISCONNECT(code), close; the packet has no other effect *)
Lemma step_read_err s c k p code :
  nget c (b_conns s) = Some k -> k_phase k = PhConnected -> k_v k = 5 -> read_err k p = Some code ->
  step_event s (ESend c p) = torn c code s.
Proof.
  intros Hk Hp Hv He. rewrite (step_event_send s c k p Hk Hp), (handle_packet_read_err c k p s code He).
  exact (fail_charged c k p false code true s Hk Hp Hv).
Qed.

(* the alias stage as a function: the new table and the topic the publish proceeds with, or the error *)
Definition alias_step (k : conn) (topic : str) (props : list prop) : (list (N * str) * str) + N :=
  match (if k_v k =? 5 then p_alias props else None) with
  | None => inl (k_alias_in k, topic)
  | Some a =>
      if (a =? 0) || (k_server_alias_max k <? a) then inr 148
      else match topic with
           | [] => match nget a (k_alias_in k) with
                   | Some (x :: n) => inl (k_alias_in k, x :: n)
                   | _ => inr 148
                   end
           | _ => inl (nset a topic (k_alias_in k), topic)
           end
  end.

Lemma alias_step_charge k p topic props : alias_step (charge k p) topic props = alias_step k topic props.
Proof. now rewrite charge_set_quota. Qed.

Lemma set_alias_in_same k : set_alias_in (k_alias_in k) k = k.
Proof. destruct k; reflexivity. Qed.

Lemma hp_alias_step k v5 dup qos retain topic payload pid props :
  v5 = (k_v k =? 5) ->
  BrokerInvP.hp_alias k v5 topic props (msg_of_publish v5 dup qos retain topic payload pid props) =
  match alias_step k topic props with
  | inr code => inr code
  | inl (tb, t) => inl (Some (set_alias_in tb k, with_topic t (msg_of_publish v5 dup qos retain topic payload pid props)))
  end.
Proof.
  intros ->. unfold BrokerInvP.hp_alias, alias_step.
  destruct (if k_v k =? 5 then p_alias props else None) as [a|]; [|now rewrite set_alias_in_same].
  destruct ((a =? 0) || (k_server_alias_max k <? a)); [reflexivity|].
  destruct topic as [|x t]; [|reflexivity].
  destruct (nget a (k_alias_in k)) as [[|y nm]|]; try reflexivity. now rewrite set_alias_in_same.
Qed.

(* the errors of the publish handler itself: RETAIN not available (154), the alias stage (148) *)
Definition pub_err (k : conn) (retain : bool) (topic : str) (props : list prop) : option N :=
  if negb (k_retain_avail k) && retain then Some 154
  else match alias_step k topic props with inr code => Some code | inl _ => None end.

Lemma handle_packet_pub_err c k dup qos retain topic payload pid props s code :
  read_err k (KPublish dup qos retain topic payload pid props) = None ->
  pub_err k retain topic props = Some code ->
  handle_packet c k (KPublish dup qos retain topic payload pid props) s =
  HErr (upd_conn c (charge k (KPublish dup qos retain topic payload pid props)) s) [] (Some code).
Proof.
  intros Hr He. rewrite (handle_packet_publish _ _ _ _ _ _ _ _ _ _ Hr), handle_publish_eq. cbv zeta.
  unfold pub_err in He. rewrite charge_retain.
  destruct (negb (k_retain_avail k) && retain); [now injection He as <-|].
  rewrite hp_alias_step by (now rewrite charge_v). rewrite alias_step_charge.
  destruct (alias_step k topic props) as [[tb t]|cd]; [discriminate|]. now injection He as <-.
Qed.

Lemma handle_packet_pub_ok c k dup qos retain topic payload pid props s tb t :
  let p := KPublish dup qos retain topic payload pid props in
  read_err k p = None -> negb (k_retain_avail k) && retain = false -> alias_step k topic props = inl (tb, t) ->
  handle_packet c k p s =
  publish_body c (set_alias_in tb (charge k p)) (k_v k =? 5)
               (with_topic t (msg_of_publish (k_v k =? 5) dup qos retain topic payload pid props)) qos pid
               (upd_conn c (set_alias_in tb (charge k p)) s).
Proof.
  intros p Hr Hra Ha. unfold p. rewrite (handle_packet_publish _ _ _ _ _ _ _ _ _ _ Hr), handle_publish_eq. cbv zeta.
  rewrite charge_retain, Hra. rewrite hp_alias_step by (now rewrite charge_v). rewrite alias_step_charge, Ha.
  rewrite charge_v, upd_conn_twice. reflexivity.
Qed.

Definition hres_st (r : hres) : st := match r with HOk s _ => s | HErr s _ _ => s | HErrRead s _ => s end.
Definition hres_out (r : hres) : list out := match r with HOk _ o => o | HErr _ o _ => o | HErrRead _ _ => [] end.

(* outputs that neither close a socket nor are a DISCONNECT packet *)
Definition benign (x : out) : Prop :=
  match x with OClose _ => False | OSend _ (KDisconnect _ _) => False | _ => True end.

Lemma isdrop_benign o : Forall isdrop o -> Forall benign o.
Proof. apply Forall_impl. intros [c' p|c'|cid m r]; cbn; intros H; try destruct H; exact I. Qed.

Lemma ack_of_benign c qos pid code : Forall benign (ack_of c qos pid code).
Proof. unfold ack_of. destruct (qos =? 1); [repeat constructor|]. destruct (qos =? 2); repeat constructor. Qed.

Lemma replay_retained_lquiet c k sb s :
  lframe s (fst (replay_retained c k sb s)) /\ Forall isdrop (snd (replay_retained c k sb s)).
Proof.
  unfold replay_retained. apply fold_lquiet. intros s0 o0 m. cbv beta iota zeta.
  destruct (aget (k_cid k) (b_queues s0)) as [q|]; [|apply lquiet_refl].
  match goal with |- context [q_add ?a ?b ?c] => destruct (q_add a b c) as [[q' evs]| | |] end;
    try apply lquiet_refl.
  split; cbn [fst snd].
  - eapply lframe_trans; [|apply release_dropped_lframe].
    eapply lframe_trans; [apply lframe_set_queues|apply lframe_set_picks_tag].
  - intros H. apply Forall_app. split; [exact H|apply drops_of_isdrop].
Qed.

(* the same for the accumulator of handle_subscribe, which also collects the reason codes *)
Definition lquiet3 (b b' : st * list out * list N) : Prop :=
  lframe (fst (fst b)) (fst (fst b')) /\ (Forall isdrop (snd (fst b)) -> Forall isdrop (snd (fst b'))).

(* one topic of a SUBSCRIBE, whatever subscription sb and reason code the checks and the hook arrive at *)
Lemma sub_step_lquiet c k sb code (b : bool -> bool) s0 o0 cs :
  lquiet3 (s0, o0, cs)
    (if code <? 128 then
       let '(d', existed) := db_subscribe (k_cid k) sb (b_subs s0) in
       let '(s2, o2) := if b existed then replay_retained c k sb (set_subs d' s0) else (set_subs d' s0, []) in
       (s2, o0 ++ o2, cs ++ [code])
     else (s0, o0, cs ++ [code])).
Proof.
  destruct (code <? 128); [|split; cbn [fst snd]; [apply lframe_refl|auto]].
  destruct (db_subscribe (k_cid k) sb (b_subs s0)) as [d' existed].
  assert (Q : lframe s0 (fst (if b existed then replay_retained c k sb (set_subs d' s0) else (set_subs d' s0, []))) /\
              Forall isdrop (snd (if b existed then replay_retained c k sb (set_subs d' s0) else (set_subs d' s0, [])))).
  { destruct (b existed); [|split; [apply lframe_set_subs|constructor]].
    destruct (replay_retained_lquiet c k sb (set_subs d' s0)) as [R1 R2].
    split; [eapply lframe_trans; [apply lframe_set_subs|exact R1]|exact R2]. }
  destruct (if b existed then _ else _) as [s2 o2]. exact (lquiet_app s0 o0 (s2, o2) (proj1 Q) (proj2 Q)).
Qed.

Lemma handle_subscribe_lframe c k pid props topics s :
  lframe s (hres_st (handle_subscribe c k pid props topics s)) /\
  Forall benign (hres_out (handle_subscribe c k pid props topics s)).
Proof.
  rewrite BrokerInvP.handle_subscribe_eq. cbv zeta.
  match goal with |- context [if ?b then HErr s [] (Some 161) else _] => destruct b end;
    [split; [apply lframe_refl|constructor]|].
  destruct (h_sub_all (b_hooks s)); [split; [apply lframe_refl|repeat constructor]|].
  match goal with |- context [fold_left ?f topics ?a] =>
    destruct (fold_rel lquiet3 f topics) with (b := a) as [H1 H2]; [| | |destruct (fold_left f topics a) as [[s' o] codes]] end.
  - intros b. split; [apply lframe_refl|auto].
  - intros a b d [A1 A2] [B1 B2]. split; [eapply lframe_trans; eauto|auto].
  - intros [[s0 o0] cs] t. apply sub_step_lquiet.
  - split; [exact H1|]. apply Forall_app. split; [apply isdrop_benign, H2; constructor|repeat constructor].
Qed.

Lemma queue_op_lframe cid f s : lframe s (queue_op cid f s).
Proof. unfold queue_op. destruct (aget cid (b_queues s)); [apply lframe_set_queues|apply lframe_refl]. Qed.

Lemma release_id_lframe c pid s : lframe s (release_id c pid s).
Proof.
  unfold release_id. destruct (nget c (b_conns s)) as [k|] eqn:E; [|apply lframe_refl].
  eapply lframe_upd_conn_k; [exact E|reflexivity].
Qed.

(* an acknowledgement from the client: its entry leaves the queue, its packet id the limiter *)
Lemma ack_lframe c pid cid f s : lframe s (release_id c pid (queue_op cid f s)).
Proof. eapply lframe_trans; [apply queue_op_lframe|apply release_id_lframe]. Qed.

Definition is_publish (p : pkt) : bool := match p with KPublish _ _ _ _ _ _ _ => true | _ => false end.
Definition is_pubrel (p : pkt) : bool := match p with KPubrel _ _ _ => true | _ => false end.

(* every packet but PUBLISH and PUBREL leaves quota, alias table and unack store alone *)
Lemma handle_packet_other_lframe c k p s :
  nget c (b_conns s) = Some k -> is_publish p = false -> is_pubrel p = false ->
  lframe s (hres_st (handle_packet c k p s)) /\ Forall benign (hres_out (handle_packet c k p s)).
Proof.
  intros Hk Hp1 Hp2. pose proof (lv_of _ _ _ Hk) as Hlv.
  destruct p; try discriminate; cbn [handle_packet];
    try (split; [apply lframe_refl|repeat constructor]); try (split; [apply ack_lframe|constructor]).
  - (* PUBREC *)
    destruct ((k_v k =? 5) && (128 <=? code)); cbn [hres_st hres_out].
    + split; [apply ack_lframe|constructor].
    + split; [apply queue_op_lframe|repeat constructor].
  - (* SUBSCRIBE *)
    match goal with |- context [if ?b then handle_subscribe _ _ _ _ _ _ else _] => destruct b end;
      [|split; [apply lframe_refl|constructor]].
    apply handle_subscribe_lframe.
  - (* UNSUBSCRIBE *)
    unfold handle_unsubscribe. cbn [hres_st hres_out]. split; [apply lframe_set_subs|repeat constructor].
  - (* DISCONNECT *)
    destruct (k_v k =? 5).
    + cbv zeta. destruct (aget (k_cid k) (b_sessions s)) as [se|] eqn:Es; [|split; [apply lframe_refl|constructor]].
      match goal with |- context [if ?b then HErr s [] None else _] => destruct b end;
        [split; [apply lframe_refl|constructor]|].
      cbn [hres_st hres_out]. split; [|constructor].
      match goal with |- lframe s (upd_conn c ?K ?S) => set (s1 := S) end.
      assert (F1 : lframe s s1).
      { unfold s1. destruct (p_sei props) as [x|]; [|apply lframe_refl].
        destruct (x =? 0); [apply lframe_refl|]. apply lframe_set_tables. }
      eapply lframe_trans; [exact F1|]. apply lframe_upd_conn. rewrite (lf_lv _ _ F1 c), Hlv. reflexivity.
    + cbn [hres_st hres_out]. split; [|constructor]. apply lframe_upd_conn. now rewrite Hlv.
Qed.

(* PUBREL: the id leaves the unack store and one unit of quota comes back, capped at the Receive Maximum -
   whether or not the id was open *)
Lemma handle_pubrel_spec c k pid code props s :
  nget c (b_conns s) = Some k ->
  let U := open_ids s (k_cid k) in
  let q' := if (k_v k =? 5) && (k_quota k <? k_recv_max k) then k_quota k + 1 else k_quota k in
  exists s', handle_packet c k (KPubrel pid code props) s = HOk s' [OSend c (KPubcomp pid 0 [])] /\
    b_cfg s' = b_cfg s /\ b_hooks s' = b_hooks s /\
    (forall c', c' <> c -> lv s' c' = lv s c') /\ lv s' c = Some (lview (set_quota q' k)) /\
    open_ids s' (k_cid k) = unack_remove pid U /\
    (forall cid', cid' <> k_cid k -> aget cid' (b_unacks s') = aget cid' (b_unacks s)).
Proof.
  intros Hk. cbv zeta. cbn [handle_packet]. cbv zeta. fold (open_ids s (k_cid k)). eexists. split; [reflexivity|].
  exact (lstep_quota_back (k_v k =? 5) _ _ _ _ _ _ _ (lstep_unacks _ _ _ _ _ _ _ _ (lstep_refl c (k_cid k) k s Hk))).
Qed.

(* what a poll loop writes: PUBLISH and PUBREL to sockets satisfying P, drop notifications *)
Definition pollout (P : N -> Prop) (x : out) : Prop :=
  match x with
  | OSend c (KPublish _ _ _ _ _ _ _) => P c
  | OSend c (KPubrel _ _ _) => P c
  | ODropped _ _ _ => True
  | _ => False
  end.

Lemma pollout_benign P o : Forall (pollout P) o -> Forall benign o.
Proof. apply Forall_impl. intros [c p|c|cid m r]; cbn; auto. destruct p; auto. Qed.

Definition att (s : st) (c : N) : Prop := exists k, nget c (b_conns s) = Some k /\ attached (k_phase k) = true.

Lemma pollout_of (P : N -> Prop) o :
  Forall (BrokerInvP.sendok P) o -> Forall BrokerQos2P.is_poll_out o -> Forall (pollout P) o.
Proof.
  rewrite !Forall_forall. intros H1 H2 x Hx. specialize (H1 x Hx). specialize (H2 x Hx).
  destruct x as [c p| |]; [destruct p|..]; tauto.
Qed.

(* the frame is BrokerQos2P's, the sockets written to are BrokerInvP's *)
Lemma poll_all_lframe s : lframe s (fst (poll_all s)) /\ Forall (pollout (att s)) (snd (poll_all s)).
Proof.
  destruct (BrokerQos2P.poll_all_frame s) as [F K], (BrokerInvP.poll_all_frame s) as [_ S].
  split; [apply dframe_lframe, F|apply pollout_of; [exact S|exact K]].
Qed.

(* the step is the event followed by the poll loops, which are a frame *)
Lemma step_poll s e :
  exists o2, snd (step s e) = snd (step_event s e) ++ o2 /\
             lframe (fst (step_event s e)) (fst (step s e)) /\ Forall (pollout (att (fst (step_event s e)))) o2.
Proof.
  unfold step. destruct (step_event s e) as [s1 o1]. pose proof (poll_all_lframe s1) as [F P].
  destruct (poll_all s1) as [s2 o2]. cbn [fst snd] in *. exists o2. auto.
Qed.

Definition to_sock (c : N) (x : out) : bool :=
  match x with OSend c' _ => c' =? c | OClose c' => c' =? c | ODropped _ _ _ => false end.

Definition not_conn (s : st) (c : N) : Prop :=
  forall k', nget c (b_conns s) = Some k' -> k_phase k' <> PhConnected.

Lemma not_conn_lv s s' c : lv s' c = lv s c -> not_conn s c -> not_conn s' c.
Proof.
  intros E H k' Hk'. rewrite (lv_of _ _ _ Hk') in E. symmetry in E. apply lv_some in E as (k & Hk & Ev).
  apply lview_fields in Ev as (_ & _ & Ep & _). rewrite <- Ep. now apply H.
Qed.

Lemma not_conn_of_lv s c k ph : lv s c = Some (lview (set_phase ph k)) -> ph <> PhConnected -> not_conn s c.
Proof.
  intros E Hph k' Hk'. destruct (lv_phase _ _ _ E) as (k2 & Hk2 & Ep). rewrite Hk2 in Hk'. injection Hk' as <-.
  now rewrite Ep.
Qed.

Lemma conn_gone_not_conn c s : not_conn (fst (conn_gone c s)) c.
Proof.
  destruct (conn_gone_gen c s) as (_ & _ & _ & _ & E & _). unfold lv at 2 in E.
  destruct (nget c (b_conns s)) as [k|]; cbn [option_map] in E.
  - now apply (not_conn_of_lv _ c k PhClosed).
  - apply lv_none in E. intros k' Hk'. congruence.
Qed.

Lemma fail_conn_not_conn c code br s : not_conn (fst (fail_conn c code br s)) c.
Proof.
  unfold fail_conn. destruct (nget c (b_conns s)) as [k|] eqn:Hk.
  2:{ cbn [fst]. intros k' Hk'. congruence. }
  destruct (k_phase k) eqn:Hp; cbn [fst]; try (intros k' Hk'; rewrite Hk in Hk'; injection Hk' as <-; rewrite Hp; discriminate).
  match goal with |- context [if ?b then _ else _] => destruct b end.
  - pose proof (conn_gone_not_conn c s) as H. destruct (conn_gone c s). exact H.
  - cbn [fst]. intros k' Hk'. proj_in Hk'. rewrite nget_nset_same in Hk'. injection Hk' as <-. discriminate.
Qed.

(* outputs of fail_conn: the DISCONNECT with the handler's code, the close, drop notifications *)
Definition failout (c : N) (code : option N) (x : out) : Prop :=
  (exists cd, code = Some cd /\ x = OSend c (KDisconnect cd [])) \/ closeout c x.

Lemma fail_conn_outputs c code br s : Forall (failout c code) (snd (fail_conn c code br s)).
Proof.
  unfold fail_conn. destruct (nget c (b_conns s)) as [k|]; [|constructor].
  destruct (k_phase k); try constructor.
  match goal with |- context [if ?b then _ else _] => destruct b end; [|constructor].
  pose proof (conn_gone_gen c s) as (_ & _ & _ & _ & _ & H). destruct (conn_gone c s) as [s' o]. cbn [snd] in *.
  apply Forall_app. split.
  - destruct code as [cd|]; [|constructor]. destruct (k_v k =? 5); [|constructor]. constructor; [|constructor]. left. now exists cd.
  - eapply Forall_impl; [|exact H]. intros x Hx. now right.
Qed.

(* after the teardown: what socket c saw is exactly DISCONNECT(code) and the close, also after the poll
   loops have run; the socket's record is closed *)
Lemma torn_step s e c code s1 k1 :
  step_event s e = torn c code s1 -> nget c (b_conns s1) = Some k1 -> attached (k_phase k1) = true ->
  filter (to_sock c) (snd (step s e)) = [OSend c (KDisconnect code []); OClose c] /\
  Forall (fun x => to_sock c x = true \/ benign x) (snd (step s e)) /\
  (exists k', nget c (b_conns (fst (step s e))) = Some k' /\ k_phase k' = PhClosed) /\
  b_unacks (fst (step s e)) = b_unacks s1 /\ b_cfg (fst (step s e)) = b_cfg s1.
Proof.
  intros E Hk1 Ha. destruct (torn_spec c k1 code s1 Hk1 Ha) as (s' & o' & Et & Hd & T1 & T2 & T3 & T4 & T5).
  destruct (step_poll s e) as (o2 & Eo & F & P). rewrite E, Et in *. cbn [fst snd] in *.
  assert (Hna : ~ att s' c).
  { intros (k' & Hk' & Ha'). destruct (lv_phase _ _ _ T5) as (k2 & Hk2 & Ep). rewrite Hk2 in Hk'. injection Hk' as <-.
    rewrite Ep in Ha'. discriminate. }
  split; [|split; [|split; [|split]]].
  - rewrite Eo. rewrite !filter_app. cbn [filter to_sock]. rewrite N.eqb_refl. cbn [app].
    rewrite (filter_none _ o'), (filter_none _ o2); [reflexivity| |]; apply Forall_forall.
    + eapply Forall_impl; [|exact P]. intros [c' p|c'|cid m r]; cbn [pollout to_sock]; try tauto.
      destruct p; try tauto; intros Hat; apply N.eqb_neq; intros ->; contradiction.
    + eapply Forall_impl; [|exact Hd]. intros [c' p|c'|cid m r]; cbn; tauto.
  - rewrite Eo. apply Forall_app. split; [apply Forall_app; split|].
    + constructor; [left; cbn; apply N.eqb_refl|]. constructor; [left; cbn; apply N.eqb_refl|constructor].
    + eapply Forall_impl; [|apply isdrop_benign, Hd]. intros x Hx. now right.
    + eapply Forall_impl; [|apply (pollout_benign _ _ P)]. intros x Hx. now right.
  - apply (lv_phase _ c (set_phase PhClosed k1)). now rewrite (lf_lv _ _ F c).
  - rewrite (lf_u _ _ F). exact T3.
  - rewrite (lf_cfg _ _ F). exact T1.
Qed.

Lemma torn_charged_step s e c k p b code :
  nget c (b_conns s) = Some k -> k_phase k = PhConnected -> step_event s e = torn c code (charged c k p b s) ->
  filter (to_sock c) (snd (step s e)) = [OSend c (KDisconnect code []); OClose c] /\
  (exists k', nget c (b_conns (fst (step s e))) = Some k' /\ k_phase k' = PhClosed) /\
  b_unacks (fst (step s e)) = b_unacks s.
Proof.
  intros Hk Hp E. destruct (charged_conn c k p b s Hk) as (k1 & Hk1 & Ep & _).
  destruct (torn_step s e c code _ k1 E Hk1) as (T1 & _ & T3 & T4 & _); [now rewrite Ep, Hp|].
  split; [exact T1|]. split; [exact T3|]. rewrite T4. apply charged_tables.
Qed.

(* an error of the publish handler on a connected v5 socket: the quota stays charged, DISCONNECT(code), close *)
Lemma step_pub_err s c k dup qos retain topic payload pid props code :
  let p := KPublish dup qos retain topic payload pid props in
  nget c (b_conns s) = Some k -> k_phase k = PhConnected -> k_v k = 5 ->
  read_err k p = None -> pub_err k retain topic props = Some code ->
  step_event s (ESend c p) = torn c code (upd_conn c (charge k p) s).
Proof.
  intros p Hk Hp Hv Hr He. rewrite (step_event_send s c k p Hk Hp). unfold p.
  rewrite (handle_packet_pub_err c k dup qos retain topic payload pid props s code Hr He). fold p. cbn [finish app].
  pose proof (fail_charged c k p true code false s Hk Hp Hv) as F. cbn [charged] in F. rewrite F.
  now destruct (torn c code _).
Qed.

Lemma lview_charged x tb k p :
  lview (set_quota x (set_alias_in tb (charge k p))) =
  (k_cid k, k_v k, k_phase k, k_server_alias_max k, k_recv_max k, k_retain_avail k, tb, x).
Proof. now rewrite charge_set_quota. Qed.

(* the handler on a PUBLISH that passes the checks: acknowledged, and the state as lstep describes it *)
Lemma handle_packet_pub_spec c k dup qos retain topic payload pid props s tb t :
  let p := KPublish dup qos retain topic payload pid props in
  read_err k p = None -> negb (k_retain_avail k) && retain = false -> alias_step k topic props = inl (tb, t) ->
  let U := open_ids s (k_cid k) in
  exists s' o code,
    handle_packet c k p s = HOk s' (o ++ ack_of c qos pid code) /\ Forall isdrop o /\
    (qos = 2 -> In pid U -> code < 128) /\
    lstep c (k_cid k) (set_alias_in tb (charge k p))
          (fst (pub_quota (k_v k =? 5) (k_recv_max k) (k_quota (charge k p)) U qos pid code))
          (snd (pub_quota (k_v k =? 5) (k_recv_max k) (k_quota (charge k p)) U qos pid code)) s s'.
Proof.
  intros p Hr Hra Ha. cbv zeta. unfold p at 1.
  rewrite (handle_packet_pub_ok c k dup qos retain topic payload pid props s tb t Hr Hra Ha). fold p.
  destruct (publish_body_spec c (set_alias_in tb (charge k p)) (k_v k =? 5)
              (with_topic t (msg_of_publish (k_v k =? 5) dup qos retain topic payload pid props)) qos pid
              (upd_conn c (set_alias_in tb (charge k p)) s) (nget_nset_same c _ (b_conns s)))
    as (s' & o & code & E & Hd & Hc & R).
  apply lstep_base in R. cbv zeta in Hc. cbn [k_cid k_recv_max k_quota set_alias_in] in Hc, R.
  rewrite (charge_cid k p) in Hc, R. rewrite (charge_recv_max k p) in R. now exists s', o, code.
Qed.

Theorem publish_accepted s c k dup qos retain topic payload pid props tb t :
  let p := KPublish dup qos retain topic payload pid props in
  nget c (b_conns s) = Some k -> k_phase k = PhConnected ->
  read_err k p = None -> negb (k_retain_avail k) && retain = false -> alias_step k topic props = inl (tb, t) ->
  let U := open_ids s (k_cid k) in
  let v5 := k_v k =? 5 in
  exists s' o code,
    step_event s (ESend c p) = (s', o ++ ack_of c qos pid code) /\ Forall isdrop o /\
    b_cfg s' = b_cfg s /\ b_hooks s' = b_hooks s /\
    (forall c', c' <> c -> lv s' c' = lv s c') /\
    (qos = 2 -> In pid U -> code < 128) /\
    lv s' c = Some (k_cid k, k_v k, PhConnected, k_server_alias_max k, k_recv_max k, k_retain_avail k, tb,
                    fst (pub_quota v5 (k_recv_max k) (k_quota (charge k p)) U qos pid code)) /\
    open_ids s' (k_cid k) = snd (pub_quota v5 (k_recv_max k) (k_quota (charge k p)) U qos pid code) /\
    (forall cid', cid' <> k_cid k -> aget cid' (b_unacks s') = aget cid' (b_unacks s)).
Proof.
  intros p Hk Hp Hr Hra Ha. cbv zeta. rewrite (step_event_send s c k p Hk Hp).
  destruct (handle_packet_pub_spec c k dup qos retain topic payload pid props s tb t Hr Hra Ha)
    as (s' & o & code & E & Hd & Hc & G1 & G2 & G3 & G5 & G6 & G7).
  fold p in E, G5, G6. rewrite lview_charged, Hp in G5. exists s', o, code. rewrite E. auto 10.
Qed.

Lemma pub_quota_conserves rm q0 U qos pid code :
  qos <= 2 -> (0 < qos -> 0 < q0) -> q0 <= rm -> NoDup U -> (qos = 2 -> In pid U -> code < 128) ->
  let r := pub_quota true rm (if 0 <? qos then q0 - 1 else q0) U qos pid code in
  fst r <= rm /\ NoDup (snd r) /\ fst r + N.of_nat (length (snd r)) = q0 + N.of_nat (length U).
Proof.
  intros Hq Hpos Hle Hnd Hcode. cbv zeta.
  assert (Hcases : qos = 0 \/ qos = 1 \/ qos = 2) by lia. destruct Hcases as [->|Hq12]; [unfold pub_quota; cbn; auto|].
  (* a QoS>0 PUBLISH was charged one unit: the quota is below the Receive Maximum, and a unit given back restores q0 *)
  assert (Hq0 : 0 < q0) by (apply Hpos; destruct Hq12 as [-> | ->]; reflexivity). clear Hq Hpos.
  assert (E : q0 - 1 + 1 = q0 /\ (q0 - 1 <? rm) = true /\ q0 - 1 <= rm) by lia. destruct E as (E1 & E2 & E3).
  unfold pub_quota, unack_set, unack_remove.
  destruct Hq12 as [-> | ->]; cbn [N.eqb Pos.eqb N.ltb N.compare andb Datatypes.orb fst snd].
  - rewrite E2, E1. auto.
  - destruct (memN pid U) eqn:Em; cbn [fst snd andb].
    + apply memN_In in Em. apply N.leb_gt in Hcode; [|reflexivity|exact Em]. rewrite Hcode, E2, E1. auto.
    + apply memN_notIn in Em. destruct (128 <=? code); cbn [delN Datatypes.orb andb].
      * rewrite N.eqb_refl, (delN_notIn _ _ Em), E2, E1. auto.
      * split; [exact E3|]. split; [now constructor|]. cbn [length]. lia.
Qed.

(* The QoS 2 publishes of a session that are open - received, PUBREC (code < 128) sent, PUBREL not yet answered -
   are the ids in its unack store (open_ids); a QoS 1 publish is acknowledged within its own step.
   Qrel false: quota <= Receive Maximum <= quota + open.   Qrel true: additionally quota + open = Receive Maximum. *)
Definition Qrel (ex : bool) (s : st) (k : conn) : Prop :=
  NoDup (open_ids s (k_cid k)) /\ k_quota k <= k_recv_max k /\
  k_recv_max k <= k_quota k + N.of_nat (length (open_ids s (k_cid k))) /\
  (ex = true -> k_quota k + N.of_nat (length (open_ids s (k_cid k))) = k_recv_max k).

Definition QInv (ex : bool) (s : st) (c : N) : Prop :=
  forall k, nget c (b_conns s) = Some k -> k_phase k = PhConnected -> k_v k = 5 -> Qrel ex s k.

Lemma Qrel_transfer ex s s' k k' :
  k_cid k' = k_cid k -> k_quota k' = k_quota k -> k_recv_max k' = k_recv_max k ->
  open_ids s' (k_cid k) = open_ids s (k_cid k) -> Qrel ex s k -> Qrel ex s' k'.
Proof. unfold Qrel. intros -> -> -> ->. auto. Qed.

Lemma QInv_lframe ex s s' c : lframe s s' -> QInv ex s c -> QInv ex s' c.
Proof.
  intros F H k' Hk' Hp' Hv'. pose proof (lf_lv _ _ F c) as E. rewrite (lv_of _ _ _ Hk') in E.
  symmetry in E. apply lv_some in E as (k & Hk & Ev).
  apply lview_fields in Ev as (E1 & E2 & E3 & _ & E5 & _ & _ & E8).
  apply (Qrel_transfer ex s s' k k'); try congruence.
  - unfold open_ids. now rewrite (lf_u _ _ F).
  - apply H; congruence.
Qed.

Lemma QInv_not_conn ex s c : not_conn s c -> QInv ex s c.
Proof. intros H k Hk Hp. exfalso. exact (H k Hk Hp). Qed.

Lemma finish_err_not_conn c r : (forall s' o, r <> HOk s' o) -> not_conn (fst (finish c r)) c.
Proof.
  destruct r as [s' o|s' o code|s' code]; intros H; cbn [finish].
  - exfalso. now apply (H s' o).
  - pose proof (fail_conn_not_conn c code false s') as N. destruct (fail_conn c code false s'). exact N.
  - apply fail_conn_not_conn.
Qed.

Lemma send_unconnected_not_conn c k p s :
  nget c (b_conns s) = Some k -> k_phase k <> PhConnected -> not_conn (fst (send_unconnected c k p s)) c.
Proof.
  intros Hk Hp.
  assert (N0 : not_conn s c) by (intros k' Hk'; congruence).
  unfold send_unconnected. destruct (k_phase k) eqn:E; cbn [fst]; try exact N0.
  - intros k' Hk'. proj_in Hk'. rewrite nget_nset_same in Hk'. injection Hk' as <-. discriminate.
  - destruct p; try exact N0. destruct ((k_v k =? 5) && (0 <? qos)); [|exact N0].
    destruct (k_quota k =? 0); [apply conn_gone_not_conn|].
    cbn [fst]. intros k' Hk'. proj_in Hk'. rewrite nget_nset_same in Hk'. injection Hk' as <-. cbn. rewrite E. discriminate.
  - destruct p; try exact N0. destruct ((k_v k =? 5) && (0 <? qos)); [apply conn_gone_not_conn|exact N0].
Qed.

(* well-formed as the decoder delivers it: QoS 0, 1 or 2 *)
Definition pkt_wf (p : pkt) : bool := match p with KPublish _ qos _ _ _ _ _ => qos <=? 2 | _ => true end.

(* a PUBREL for an id that is open (or one that cannot move the quota: it is at the Receive Maximum) *)
Definition pubrel_known (s : st) (k : conn) (p : pkt) : bool :=
  match p with
  | KPubrel pid _ _ => memN pid (open_ids s (k_cid k)) || (k_quota k =? k_recv_max k)
  | _ => true
  end.

Lemma read_err_none_quota k dup qos retain topic payload pid props :
  read_err k (KPublish dup qos retain topic payload pid props) = None -> k_v k = 5 -> 0 < qos -> 0 < k_quota k.
Proof.
  cbn [read_err]. intros H Hv Hq. rewrite Hv in H. cbn [N.eqb Pos.eqb andb] in H.
  destruct (has_wild topic); [discriminate|]. destruct (alias_zero props); [discriminate|].
  destruct (is_empty topic && negb (has_alias props)); [discriminate|].
  destruct ((0 <? qos) && (k_quota k =? 0)) eqn:E; [discriminate|]. lia.
Qed.

Lemma pub_err_none k retain topic props :
  pub_err k retain topic props = None ->
  negb (k_retain_avail k) && retain = false /\ exists tb t, alias_step k topic props = inl (tb, t).
Proof.
  unfold pub_err. destruct (negb (k_retain_avail k) && retain); [discriminate|].
  destruct (alias_step k topic props) as [[tb t]|cd]; [|discriminate]. intros _. split; [reflexivity|]. now exists tb, t.
Qed.

Lemma charge_quota_v5 k dup qos retain topic payload pid props :
  k_v k = 5 ->
  k_quota (charge k (KPublish dup qos retain topic payload pid props)) = if 0 <? qos then k_quota k - 1 else k_quota k.
Proof. intros Hv. cbn [charge]. rewrite Hv. cbn [N.eqb Pos.eqb andb]. destruct (0 <? qos); reflexivity. Qed.

(* Qrel on the numbers: receive maximum, quota, open ids *)
Definition qrel (ex : bool) (rm q : N) (U : list N) : Prop :=
  NoDup U /\ q <= rm /\ rm <= q + N.of_nat (length U) /\ (ex = true -> q + N.of_nat (length U) = rm).

Lemma QInv_view ex s c cid v ph sam rm ra tb q :
  lv s c = Some (cid, v, ph, sam, rm, ra, tb, q) ->
  (ph = PhConnected -> v = 5 -> qrel ex rm q (open_ids s cid)) -> QInv ex s c.
Proof. intros H Q k Hk Hp Hv. rewrite (lv_of _ _ _ Hk) in H. injection H as <- <- <- _ <- _ _ <-. now apply Q. Qed.

Lemma qrel_publish ex rm q0 U qos pid code :
  qos <= 2 -> (0 < qos -> 0 < q0) -> (qos = 2 -> In pid U -> code < 128) -> qrel ex rm q0 U ->
  let r := pub_quota true rm (if 0 <? qos then q0 - 1 else q0) U qos pid code in qrel ex rm (fst r) (snd r).
Proof.
  intros Hq Hpos Hc (Q1 & Q2 & Q3 & Q4).
  destruct (pub_quota_conserves rm q0 U qos pid code Hq Hpos Q2 Q1 Hc) as (P1 & P2 & P3). cbv zeta in *.
  repeat split; auto; lia.
Qed.

(* a PUBREL gives a unit back whether or not its id was open: the sum is kept only for a known id *)
Lemma qrel_pubrel ex rm q U pid :
  (ex = true -> memN pid U || (q =? rm) = true) -> qrel ex rm q U ->
  qrel ex rm (if q <? rm then q + 1 else q) (unack_remove pid U).
Proof.
  intros Hpr (Q1 & Q2 & Q3 & Q4). unfold unack_remove. split; [now apply NoDup_delN|].
  destruct (memN pid U) eqn:Em.
  - apply memN_In in Em. pose proof (length_delN pid _ Q1 Em) as HL.
    destruct (q <? rm) eqn:El; repeat split; try lia; intros Hex; specialize (Q4 Hex); lia.
  - rewrite (delN_notIn _ _ (proj1 (memN_notIn _ _) Em)). cbn [orb] in Hpr.
    destruct (q <? rm) eqn:El; repeat split; try lia; intros Hex; specialize (Q4 Hex); specialize (Hpr Hex); lia.
Qed.

Lemma phase_connected_dec ph : {ph = PhConnected} + {ph <> PhConnected}.
Proof. destruct ph; (now left) || (right; discriminate). Qed.

Lemma step_event_send_off s c k p :
  nget c (b_conns s) = Some k -> k_phase k <> PhConnected -> step_event s (ESend c p) = send_unconnected c k p s.
Proof. intros Hk Hp. cbn [step_event]. rewrite Hk. now destruct (k_phase k). Qed.

(* one packet of the client on its connected socket preserves the relation (as long as the connection lives) *)
Lemma QInv_send ex s c p :
  pkt_wf p = true ->
  (ex = true -> match nget c (b_conns s) with Some k => pubrel_known s k p | None => true end = true) ->
  QInv ex s c -> QInv ex (fst (step_event s (ESend c p))) c.
Proof.
  intros Hwf Hpr HQ.
  destruct (nget c (b_conns s)) as [k|] eqn:Hk; [|cbn [step_event]; rewrite Hk; exact HQ].
  destruct (phase_connected_dec (k_phase k)) as [Hp|Hp].
  2:{ apply QInv_not_conn. rewrite (step_event_send_off s c k p Hk Hp). now apply send_unconnected_not_conn. }
  destruct (read_err k p) as [code|] eqn:Hr.
  { rewrite (step_event_send s c k p Hk Hp), (handle_packet_read_err c k p s code Hr).
    apply QInv_not_conn, finish_err_not_conn. discriminate. }
  destruct (is_publish p) eqn:Ip; [|destruct (is_pubrel p) eqn:Ir].
  - destruct p; try discriminate. cbn [pkt_wf] in Hwf.
    destruct (pub_err k retain topic props) as [code|] eqn:He.
    { rewrite (step_event_send s c k _ Hk Hp), (handle_packet_pub_err c k dup qos retain topic payload pid props s code Hr He).
      apply QInv_not_conn, finish_err_not_conn. discriminate. }
    apply pub_err_none in He as (Hra & tb & t & Ha).
    destruct (publish_accepted s c k dup qos retain topic payload pid props tb t Hk Hp Hr Hra Ha)
      as (s' & o & code & E & _ & _ & _ & _ & Hcode & Hlv & HU & _).
    cbv zeta in Hcode, Hlv, HU. rewrite E. apply (QInv_view ex _ _ _ _ _ _ _ _ _ _ Hlv). intros _ Hv.
    rewrite HU, Hv, (charge_quota_v5 k _ _ _ _ _ _ _ Hv). cbn [N.eqb Pos.eqb].
    apply qrel_publish; [now apply N.leb_le|exact (read_err_none_quota k _ _ _ _ _ _ _ Hr Hv)|exact Hcode|exact (HQ k Hk Hp Hv)].
  - destruct p; try discriminate.
    destruct (handle_pubrel_spec c k pid code props s Hk) as (s' & E & _ & _ & _ & Hlv & HU & _).
    cbv zeta in Hlv, HU. rewrite (step_event_send s c k _ Hk Hp), E.
    apply (QInv_view ex _ _ _ _ _ _ _ _ _ _ Hlv). cbn [k_cid k_v k_recv_max set_quota]. intros _ Hv.
    rewrite HU, Hv. apply qrel_pubrel; [exact Hpr|exact (HQ k Hk Hp Hv)].
  - pose proof (handle_packet_other_lframe c k p s Hk Ip Ir) as [F _].
    rewrite (step_event_send s c k p Hk Hp).
    destruct (handle_packet c k p s) as [s' o|s' o code|s' code] eqn:E.
    + now apply (QInv_lframe ex s).
    + apply QInv_not_conn, finish_err_not_conn. discriminate.
    + apply QInv_not_conn, finish_err_not_conn. discriminate.
Qed.

Lemma QInv_send_sz ex s c p n :
  pkt_wf p = true ->
  (ex = true -> match nget c (b_conns s) with Some k => pubrel_known s k p | None => true end = true) ->
  QInv ex s c -> QInv ex (fst (step_event s (ESendSz c p n))) c.
Proof.
  intros Hwf Hpr HQ. destruct (step_event_sz s c p n) as [E|(k & Hk & Hp & Hb & [[code E]|[E|[q E]]])]; rewrite E.
  - now apply QInv_send.
  - apply QInv_not_conn, fail_conn_not_conn.
  - apply QInv_not_conn, fail_conn_not_conn.
  - apply QInv_not_conn, fail_conn_not_conn.
Qed.

(* events of one socket (and the passage of time) *)
Definition on_socket (c : N) (e : event) : bool :=
  match e with
  | ESend c' _ => c' =? c
  | ESendSz c' _ _ => c' =? c
  | EAdvance _ => true
  | EInspect => true
  | _ => false
  end.
Definition ev_pkt (e : event) : option pkt :=
  match e with ESend _ p => Some p | ESendSz _ p _ => Some p | _ => None end.
Definition ev_wf (e : event) : bool := match ev_pkt e with Some p => pkt_wf p | None => true end.
Definition ev_pubrel_known (s : st) (c : N) (e : event) : bool :=
  match ev_pkt e, nget c (b_conns s) with Some p, Some k => pubrel_known s k p | _, _ => true end.

Lemma QInv_step ex s c e :
  on_socket c e = true -> ev_wf e = true -> (ex = true -> ev_pubrel_known s c e = true) ->
  QInv ex s c -> QInv ex (fst (step s e)) c.
Proof.
  intros Hon Hwf Hpr HQ. destruct (step_poll s e) as (o2 & _ & F & _).
  apply (QInv_lframe ex _ _ c F).
  destruct e; try discriminate; cbn [on_socket] in Hon.
  - apply N.eqb_eq in Hon. subst c0. now apply QInv_send.
  - apply N.eqb_eq in Hon. subst c0. now apply QInv_send_sz.
  - cbn [step_event fst]. apply (QInv_lframe ex s); [apply lframe_set_time|exact HQ].
  - exact HQ.
Qed.

(* a side condition evaluated along the run, at the state in which each event arrives *)
Fixpoint run_ok (P : st -> event -> bool) (s : st) (es : list event) : bool :=
  match es with [] => true | e :: r => P s e && run_ok P (fst (step s e)) r end.

Definition quota_side (ex : bool) (c : N) (s : st) (e : event) : bool :=
  on_socket c e && ev_wf e && (negb ex || ev_pubrel_known s c e).

Lemma run_ok_all P es : forall s, run_ok P s es = true -> run_all (fun s e => P s e = true) s es.
Proof.
  induction es as [|e r IH]; intros s H; [exact I|]. cbn [run_ok] in H. apply andb_true_iff in H as [H1 H2].
  split; [exact H1|now apply IH].
Qed.

Lemma QInv_step_side ex c s e : quota_side ex c s e = true -> QInv ex s c -> QInv ex (fst (step s e)) c.
Proof.
  unfold quota_side. intros H. apply andb_true_iff in H as [H H3]. apply andb_true_iff in H as [H0 H1].
  apply QInv_step; auto. intros ->. exact H3.
Qed.

Theorem quota_invariant_run ex c es : forall s,
  QInv ex s c -> run_ok (quota_side ex c) s es = true -> QInv ex (fst (run s es)) c.
Proof.
  intros s HQ Hok. apply run_ok_all in Hok.
  apply (run_guarded _ (fun s => QInv ex s c) (fun _ => True) (fun s0 e HQ0 Hs => conj (QInv_step_side ex c s0 e Hs HQ0) I) es s HQ Hok).
Qed.

Lemma alias_step_err k topic props code : alias_step k topic props = inr code -> code = 148.
Proof.
  unfold alias_step. destruct (if k_v k =? 5 then p_alias props else None) as [a|]; [|discriminate].
  destruct ((a =? 0) || (k_server_alias_max k <? a)); [now intros [= <-]|].
  destruct topic; [|discriminate]. destruct (nget a (k_alias_in k)) as [[|y nm]|]; try discriminate; now intros [= <-].
Qed.

Lemma pub_err_codes k retain topic props code : pub_err k retain topic props = Some code -> code = 154 \/ code = 148.
Proof.
  unfold pub_err. destruct (negb (k_retain_avail k) && retain); [intros [= <-]; now left|].
  destruct (alias_step k topic props) as [[tb t]|cd] eqn:E; [discriminate|]. intros [= <-]. right. eapply alias_step_err; eauto.
Qed.

Lemma read_err_codes k p code : read_err k p = Some code -> In code [129; 148; 130; 147].
Proof.
  destruct p; cbn [read_err]; try discriminate.
  - destruct (has_wild topic); [intros [= <-]; cbn; auto|].
    destruct ((k_v k =? 5) && alias_zero props); [intros [= <-]; cbn; auto|].
    destruct (is_empty topic && negb ((k_v k =? 5) && has_alias props)); [intros [= <-]; cbn; auto|].
    destruct ((k_v k =? 5) && (0 <? qos) && (k_quota k =? 0)); [intros [= <-]; cbn; auto|discriminate].
  - destruct (filters_ok topics); [discriminate|intros [= <-]; cbn; auto].
Qed.

(* 0x93 comes from the receive quota only: a QoS>0 PUBLISH of a v5 client arriving at quota 0 *)
Lemma read_err_147 k p :
  read_err k p = Some 147 ->
  exists dup qos retain topic payload pid props,
    p = KPublish dup qos retain topic payload pid props /\ k_v k = 5 /\ 0 < qos /\ k_quota k = 0.
Proof.
  destruct p; cbn [read_err]; try discriminate.
  - destruct (has_wild topic); [discriminate|].
    destruct ((k_v k =? 5) && alias_zero props); [discriminate|].
    destruct (is_empty topic && negb ((k_v k =? 5) && has_alias props)); [discriminate|].
    destruct ((k_v k =? 5) && (0 <? qos) && (k_quota k =? 0)) eqn:E; [|discriminate]. intros _.
    exists dup, qos, retain, topic, payload, pid, props. split; [reflexivity|]. lia.
  - destruct (filters_ok topics); discriminate.
Qed.

Lemma handle_subscribe_res c k pid props topics s :
  match handle_subscribe c k pid props topics s with
  | HOk _ _ => True
  | HErr _ o code => o = [] /\ code = Some 161
  | HErrRead _ _ => False
  end.
Proof.
  rewrite BrokerInvP.handle_subscribe_eq. cbv zeta.
  match goal with |- context [if ?b then HErr s [] (Some 161) else _] => destruct b end; [auto|].
  destruct (h_sub_all (b_hooks s)); [exact I|]. now destruct (fold_left _ topics _) as [[s' o] codes].
Qed.

(* the three kinds of result of the packet handler *)
Lemma handle_packet_classes c k p s :
  nget c (b_conns s) = Some k ->
  match handle_packet c k p s with
  | HOk _ o => Forall benign o
  | HErr _ o code => o = [] /\ read_err k p = None /\ In code [Some 154; Some 148; Some 161; Some 130; None]
  | HErrRead s' code => s' = s /\ read_err k p = code /\ code <> None
  end.
Proof.
  intros Hk. destruct (read_err k p) as [code|] eqn:Hr.
  { rewrite (handle_packet_read_err c k p s code Hr). repeat split; auto. discriminate. }
  destruct (is_publish p) eqn:Ip.
  - destruct p; try discriminate.
    destruct (pub_err k retain topic props) as [code|] eqn:He.
    + rewrite (handle_packet_pub_err c k dup qos retain topic payload pid props s code Hr He).
      split; [reflexivity|]. split; [reflexivity|]. apply pub_err_codes in He as [-> | ->]; cbn; auto.
    + apply pub_err_none in He as (Hra & tb & t & Ha).
      destruct (handle_packet_pub_spec c k dup qos retain topic payload pid props s tb t Hr Hra Ha)
        as (s' & o & code & E & Hd & _).
      rewrite E. apply Forall_app. split; [now apply isdrop_benign|apply ack_of_benign].
  - destruct (is_pubrel p) eqn:Ir.
    + destruct p; try discriminate.
      destruct (handle_pubrel_spec c k pid code props s Hk) as (s' & E & _). rewrite E. repeat constructor.
    + pose proof (handle_packet_other_lframe c k p s Hk Ip Ir) as [_ B].
      destruct p; try discriminate; cbn [handle_packet] in *; cbn [hres_out] in B; try exact B;
        try (split; [reflexivity|]; split; [reflexivity|]; cbn; auto 6).
      * destruct ((k_v k =? 5) && (128 <=? code)); exact B.
      * cbn [read_err] in Hr. unfold filters_ok in Hr.
        destruct (forallb _ topics); [|discriminate].
        pose proof (handle_subscribe_res c k pid props topics s) as R.
        destruct (handle_subscribe c k pid props topics s) as [s' o|s' o code|s' code]; cbn [hres_out] in B.
        -- exact B.
        -- destruct R as [-> ->]. split; [reflexivity|]. split; [reflexivity|]. cbn; auto.
        -- destruct R.
      * destruct (k_v k =? 5).
        -- cbv zeta. destruct (aget (k_cid k) (b_sessions s)); [|split; [reflexivity|]; split; [reflexivity|]; cbn; auto 6].
           match goal with |- context [if ?b then HErr s [] None else _] => destruct b end;
             (split; [reflexivity|]; split; [reflexivity|]; cbn; auto 6).
        -- split; [reflexivity|]. split; [reflexivity|]. cbn; auto 6.
Qed.

Lemma finish_snd_err c s' o code : snd (finish c (HErr s' o code)) = o ++ snd (fail_conn c code false s').
Proof. cbn [finish]. destruct (fail_conn c code false s'). reflexivity. Qed.

Lemma failout_disc c code x c' cd pr :
  failout c code x -> x = OSend c' (KDisconnect cd pr) -> c' = c /\ pr = [] /\ code = Some cd.
Proof.
  intros [(cd0 & -> & ->)|[->|H]] E.
  - injection E as <- <- <-. auto.
  - discriminate.
  - subst x. destruct H.
Qed.

(* every DISCONNECT the broker writes in the step of a packet on a connected socket goes to that socket, without
   properties; its code is the read loop's (129, 148, 130, 147 - in that order of checks) or one of the
   handler's (154 retain, 148 alias, 161 subscription identifier, 130 protocol error) *)
Theorem send_disconnect_codes s c k p c' code pr :
  nget c (b_conns s) = Some k -> k_phase k = PhConnected ->
  In (OSend c' (KDisconnect code pr)) (snd (step s (ESend c p))) ->
  c' = c /\ pr = [] /\ (read_err k p = Some code \/ (read_err k p = None /\ In code [154; 148; 161; 130])).
Proof.
  intros Hk Hp Hin. destruct (step_poll s (ESend c p)) as (o2 & Eo & _ & P). rewrite Eo in Hin.
  apply in_app_or in Hin as [Hin|Hin].
  2:{ apply pollout_benign in P. rewrite Forall_forall in P. destruct (P _ Hin). }
  rewrite (step_event_send s c k p Hk Hp) in Hin.
  pose proof (handle_packet_classes c k p s Hk) as C.
  destruct (handle_packet c k p s) as [s' o|s' o code0|s' code0].
  - cbn [finish snd] in Hin. rewrite Forall_forall in C. destruct (C _ Hin).
  - destruct C as (-> & Hr & Hc). rewrite finish_snd_err in Hin. cbn [app] in Hin.
    pose proof (fail_conn_outputs c code0 false s') as FO. rewrite Forall_forall in FO.
    destruct (failout_disc _ _ _ _ _ _ (FO _ Hin) eq_refl) as (-> & -> & ->).
    split; [reflexivity|]. split; [reflexivity|]. right. split; [exact Hr|].
    cbn [In] in Hc. cbn [In].
    destruct Hc as [H|[H|[H|[H|[H|[]]]]]]; try (injection H as <-; auto); discriminate.
  - destruct C as (-> & Hr & Hc). cbn [finish] in Hin.
    pose proof (fail_conn_outputs c code0 true s) as FO. rewrite Forall_forall in FO.
    destruct (failout_disc _ _ _ _ _ _ (FO _ Hin) eq_refl) as (-> & -> & ->).
    split; [reflexivity|]. split; [reflexivity|]. now left.
Qed.

(* the verdict on a packet: the reason code of the DISCONNECT it causes, and whether the state the teardown starts
   from has the quota charge (handler errors) or not (read-loop errors) *)
Definition verdict (k : conn) (p : pkt) : option (N * bool) :=
  match read_err k p with
  | Some code => Some (code, false)
  | None =>
      match p with
      | KPublish _ _ retain topic _ _ props =>
          match pub_err k retain topic props with Some code => Some (code, true) | None => None end
      | _ => None
      end
  end.

Lemma verdict_step s c k p code b :
  nget c (b_conns s) = Some k -> k_phase k = PhConnected -> k_v k = 5 ->
  verdict k p = Some (code, b) -> step_event s (ESend c p) = torn c code (charged c k p b s).
Proof.
  intros Hk Hp Hv Hver. unfold verdict in Hver. destruct (read_err k p) as [cd|] eqn:Hr.
  - injection Hver as <- <-. now apply (step_read_err s c k).
  - destruct p; try discriminate.
    destruct (pub_err k retain topic props) as [cd|] eqn:He; [|discriminate]. injection Hver as <- <-.
    now apply (step_pub_err s c k).
Qed.

Theorem verdict_teardown s c k p code b :
  nget c (b_conns s) = Some k -> k_phase k = PhConnected -> k_v k = 5 ->
  verdict k p = Some (code, b) ->
  step_event s (ESend c p) = torn c code (charged c k p b s) /\
  filter (to_sock c) (snd (step s (ESend c p))) = [OSend c (KDisconnect code []); OClose c] /\
  (exists k', nget c (b_conns (fst (step s (ESend c p)))) = Some k' /\ k_phase k' = PhClosed) /\
  b_unacks (fst (step s (ESend c p))) = b_unacks s.
Proof.
  intros Hk Hp Hv Hver. pose proof (verdict_step s c k p code b Hk Hp Hv Hver) as E.
  split; [exact E|]. exact (torn_charged_step s _ c k p b code Hk Hp E).
Qed.

Theorem alias_out_of_range_verdict k dup qos retain topic payload pid props a :
  let p := KPublish dup qos retain topic payload pid props in
  k_v k = 5 -> p_alias props = Some a -> has_wild topic = false ->
  (a = 0 -> verdict k p = Some (148, false)) /\
  (k_server_alias_max k < a -> (0 <? qos) && (k_quota k =? 0) = false -> negb (k_retain_avail k) && retain = false ->
   verdict k p = Some (148, true)) /\
  (1 <= a <= k_server_alias_max k -> topic = [] ->
   (nget a (k_alias_in k) = None \/ nget a (k_alias_in k) = Some []) ->
   (0 <? qos) && (k_quota k =? 0) = false -> negb (k_retain_avail k) && retain = false ->
   verdict k p = Some (148, true)).
Proof.
  intros p Hv Hal Hw. unfold verdict, p. cbn [read_err]. unfold alias_zero, has_alias, pub_err, alias_step.
  rewrite Hv, Hw, Hal. cbn [N.eqb Pos.eqb andb negb]. rewrite andb_false_r.
  split; [|split].
  - intros ->. reflexivity.
  - intros Ha Hq Hra. destruct (N.eqb_spec a 0) as [->|Hn]; [now apply N.nlt_0_r in Ha|]. rewrite Hq, Hra.
    apply N.ltb_lt in Ha. rewrite Ha. reflexivity.
  - intros [Ha1 Ha2] -> Hn Hq Hra. destruct (N.eqb_spec a 0) as [->|Hn0]; [now elim Ha1|]. rewrite Hq, Hra.
    apply N.ltb_ge in Ha2. rewrite Ha2. cbn [Datatypes.orb].
    destruct Hn as [-> | ->]; reflexivity.
Qed.

(* the alias stage of an acceptable alias: the table afterwards and the topic the publish proceeds with *)
Theorem alias_in_range_step k topic props a :
  k_v k = 5 -> p_alias props = Some a -> 1 <= a <= k_server_alias_max k ->
  (topic <> [] ->
   alias_step k topic props = inl (nset a topic (k_alias_in k), topic) /\
   nget a (nset a topic (k_alias_in k)) = Some topic /\
   forall a', a' <> a -> nget a' (nset a topic (k_alias_in k)) = nget a' (k_alias_in k)) /\
  (forall x nm, topic = [] -> nget a (k_alias_in k) = Some (x :: nm) ->
   alias_step k topic props = inl (k_alias_in k, x :: nm)).
Proof.
  intros Hv Hal Ha. unfold alias_step. rewrite Hv, Hal. cbn [N.eqb Pos.eqb].
  assert (E : (a =? 0) || (k_server_alias_max k <? a) = false) by lia. rewrite E. split.
  - intros Hne. destruct topic as [|x t]; [congruence|]. split; [reflexivity|]. split; [apply nget_nset_same|].
    intros a' Hn. now apply nget_nset_other.
  - intros x nm -> Hb. now rewrite Hb.
Qed.

Theorem alias_accepted s c k dup qos retain topic payload pid props tb t :
  let p := KPublish dup qos retain topic payload pid props in
  nget c (b_conns s) = Some k -> k_phase k = PhConnected ->
  read_err k p = None -> negb (k_retain_avail k) && retain = false -> alias_step k topic props = inl (tb, t) ->
  (* the publish proceeds with topic t ... *)
  handle_packet c k p s =
    publish_body c (set_alias_in tb (charge k p)) (k_v k =? 5)
                 (with_topic t (msg_of_publish (k_v k =? 5) dup qos retain topic payload pid props)) qos pid
                 (upd_conn c (set_alias_in tb (charge k p)) s) /\
  m_topic (with_topic t (msg_of_publish (k_v k =? 5) dup qos retain topic payload pid props)) = t /\
  (* ... it is acknowledged, the connection stays up and its alias table is tb *)
  exists s' o code k',
    step_event s (ESend c p) = (s', o ++ ack_of c qos pid code) /\ Forall isdrop o /\
    nget c (b_conns s') = Some k' /\ k_phase k' = PhConnected /\ k_alias_in k' = tb /\
    k_server_alias_max k' = k_server_alias_max k /\ k_v k' = k_v k /\ k_cid k' = k_cid k.
Proof.
  intros p Hk Hp Hr Hra Ha. split; [now apply handle_packet_pub_ok|]. split; [reflexivity|].
  destruct (publish_accepted s c k dup qos retain topic payload pid props tb t Hk Hp Hr Hra Ha)
    as (s' & o & code & E & Hd & _ & _ & _ & _ & Hlv & _).
  cbv zeta in Hlv. apply lv_some in Hlv as (k' & Hk' & Ev). injection Ev as E1 E2 E3 E4 _ _ E7 _.
  exists s', o, code, k'. auto 10.
Qed.

Definition decodes (k : conn) (topic : str) (props : list prop) : bool :=
  negb (has_wild topic) && negb ((k_v k =? 5) && alias_zero props) &&
  negb (is_empty topic && negb ((k_v k =? 5) && has_alias props)).

Theorem exceeding_recv_max_0x93 s c k dup qos retain topic payload pid props :
  let p := KPublish dup qos retain topic payload pid props in
  nget c (b_conns s) = Some k -> k_phase k = PhConnected -> k_v k = 5 ->
  decodes k topic props = true -> 0 < qos -> k_quota k = 0 ->
  verdict k p = Some (147, false).
Proof.
  intros p Hk Hp Hv Hd Hq H0. unfold verdict, p. cbn [read_err]. unfold decodes in Hd.
  apply andb_true_iff in Hd as [Hd H3]. apply andb_true_iff in Hd as [H1 H2].
  apply negb_true_iff in H1, H2, H3. rewrite H1, H2, H3, Hv, H0. cbn [N.eqb Pos.eqb andb].
  assert (E : (0 <? qos) = true) by lia. now rewrite E.
Qed.

(* the client's side of the bargain for one packet: a QoS>0 PUBLISH arrives while fewer than Receive Maximum
   QoS 2 publishes are open *)
Definition within_recv_max (s : st) (k : conn) (p : pkt) : bool :=
  match p with
  | KPublish _ qos _ _ _ _ _ => (qos =? 0) || (N.of_nat (length (open_ids s (k_cid k))) <? k_recv_max k)
  | _ => true
  end.

Lemma within_no_147 s k p : (k_v k = 5 -> Qrel false s k) -> within_recv_max s k p = true -> read_err k p <> Some 147.
Proof.
  intros HQ Hw Hr. apply read_err_147 in Hr as (dup & qos & retain & topic & payload & pid & props & -> & Hv & Hq & H0).
  destruct (HQ Hv) as (_ & _ & Q3 & _). cbn [within_recv_max] in Hw. lia.
Qed.

Theorem within_recv_max_never_0x93 s c k p c' pr :
  nget c (b_conns s) = Some k -> k_phase k = PhConnected -> (k_v k = 5 -> Qrel false s k) ->
  within_recv_max s k p = true ->
  ~ In (OSend c' (KDisconnect 147 pr)) (snd (step s (ESend c p))).
Proof.
  intros Hk Hp HQ Hw Hin.
  destruct (send_disconnect_codes s c k p c' 147 pr Hk Hp Hin) as (_ & _ & [Hr|[_ Hc]]).
  - exact (within_no_147 s k p HQ Hw Hr).
  - cbn [In] in Hc. lia.
Qed.

(* with the exact relation, exceeding is detected: all Receive Maximum units are open, so the quota is 0 *)
Lemma exact_full_quota_zero s k :
  Qrel true s k -> N.of_nat (length (open_ids s (k_cid k))) = k_recv_max k -> k_quota k = 0.
Proof. intros (_ & _ & _ & Q4) H. specialize (Q4 eq_refl). lia. Qed.

Lemma too_big_false_iff k n s :
  too_big k n s = false <-> (k_v k <> 5 \/ c_max_packet (b_cfg s) = 0 \/ n <= c_max_packet (b_cfg s)).
Proof. unfold too_big. split; intros H; lia. Qed.

Theorem packet_size_small s c p n :
  (forall k, nget c (b_conns s) = Some k -> k_phase k = PhConnected ->
             k_v k <> 5 \/ c_max_packet (b_cfg s) = 0 \/ n <= c_max_packet (b_cfg s)) ->
  step_event s (ESendSz c p n) = step_event s (ESend c p) /\ step s (ESendSz c p n) = step s (ESend c p).
Proof. intros H. apply step_sz_small. intros k Hk Hp. apply too_big_false_iff. now apply H. Qed.

(* the reason code of a too big packet: the read loop's own errors come first *)
Definition sz_code (k : conn) (p : pkt) : N := match read_err k p with Some code => code | None => 149 end.
Definition sz_charged (k : conn) (p : pkt) : bool := match read_err k p with Some _ => false | None => true end.

Lemma packet_size_big_event s c k p n :
  nget c (b_conns s) = Some k -> k_phase k = PhConnected -> too_big k n s = true ->
  step_event s (ESendSz c p n) = torn c (sz_code k p) (charged c k p (sz_charged k p) s).
Proof.
  intros Hk Hp Hb. pose proof (too_big_v5 _ _ _ Hb) as Hv. apply N.eqb_eq in Hv.
  rewrite (step_event_send_sz s c k p n Hk Hp), (handle_packet_sz_big_eq c k p n s Hk Hb).
  unfold sz_code, sz_charged. destruct (read_err k p) as [cd|]; cbn [finish app].
  - exact (fail_charged c k p false cd true s Hk Hp Hv).
  - pose proof (fail_charged c k p true 149 false s Hk Hp Hv) as F. cbn [charged] in F. rewrite F.
    now destruct (torn c 149 _).
Qed.

Theorem packet_size_big s c k p n :
  nget c (b_conns s) = Some k -> k_phase k = PhConnected -> k_v k = 5 ->
  0 < c_max_packet (b_cfg s) < n ->
  step_event s (ESendSz c p n) = torn c (sz_code k p) (charged c k p (sz_charged k p) s) /\
  In (sz_code k p) [129; 148; 130; 147; 149] /\
  filter (to_sock c) (snd (step s (ESendSz c p n))) = [OSend c (KDisconnect (sz_code k p) []); OClose c] /\
  (exists k', nget c (b_conns (fst (step s (ESendSz c p n)))) = Some k' /\ k_phase k' = PhClosed) /\
  b_unacks (fst (step s (ESendSz c p n))) = b_unacks s.
Proof.
  intros Hk Hp Hv Hn.
  assert (Hb : too_big k n s = true) by (unfold too_big; lia).
  pose proof (packet_size_big_event s c k p n Hk Hp Hb) as E. split; [exact E|]. split.
  { unfold sz_code. destruct (read_err k p) as [cd|] eqn:Hr; [|cbn; auto 6].
    apply read_err_codes in Hr. cbn [In] in *. intuition. }
  exact (torn_charged_step s _ c k p _ _ Hk Hp E).
Qed.

(* a well-formed PUBLISH is never answered by a DISCONNECT *)
Definition wf_publish (k : conn) (qos : N) (retain : bool) (topic : str) (props : list prop) : bool :=
  negb (has_wild topic) && negb (negb (k_retain_avail k) && retain) &&
  (if k_v k =? 5 then
     match p_alias props with
     | None => negb (is_empty topic)
     | Some a => negb (a =? 0) && (a <=? k_server_alias_max k) &&
                 (negb (is_empty topic) || match nget a (k_alias_in k) with Some (_ :: _) => true | _ => false end)
     end && negb ((0 <? qos) && (k_quota k =? 0))
   else negb (is_empty topic)).

Lemma wf_publish_ok k dup qos retain topic payload pid props :
  wf_publish k qos retain topic props = true ->
  read_err k (KPublish dup qos retain topic payload pid props) = None /\
  negb (k_retain_avail k) && retain = false /\ exists tb t, alias_step k topic props = inl (tb, t).
Proof.
  unfold wf_publish. intros H. apply andb_true_iff in H as [H H3]. apply andb_true_iff in H as [H1 H2].
  apply negb_true_iff in H1, H2. cbn [read_err]. unfold alias_zero, has_alias, alias_step. rewrite H1, H2.
  destruct (k_v k =? 5); cbn [andb negb].
  - apply andb_true_iff in H3 as [H3 H4]. apply negb_true_iff in H4. rewrite H4.
    destruct (p_alias props) as [a|].
    + apply andb_true_iff in H3 as [H3 H6]. apply andb_true_iff in H3 as [H3 H5]. apply negb_true_iff in H3.
      rewrite H3, andb_false_r. split; [reflexivity|]. split; [reflexivity|].
      rewrite (proj2 (N.ltb_ge _ _) (proj1 (N.leb_le _ _) H5)). cbn [Datatypes.orb].
      destruct topic as [|x t]; cbn [is_empty negb Datatypes.orb] in H6.
      * destruct (nget a (k_alias_in k)) as [[|y nm]|]; try discriminate. eauto.
      * eauto.
    + apply negb_true_iff in H3. rewrite H3. cbn [andb]. eauto.
  - apply negb_true_iff in H3. rewrite H3. cbn [andb]. eauto.
Qed.

Theorem wf_publish_no_disconnect s c k dup qos retain topic payload pid props :
  let p := KPublish dup qos retain topic payload pid props in
  nget c (b_conns s) = Some k -> k_phase k = PhConnected ->
  wf_publish k qos retain topic props = true ->
  (exists s' o code, handle_packet c k p s = HOk s' (o ++ ack_of c qos pid code) /\ Forall isdrop o) /\
  Forall benign (snd (step s (ESend c p))) /\
  exists k', nget c (b_conns (fst (step s (ESend c p)))) = Some k' /\ k_phase k' = PhConnected.
Proof.
  intros p Hk Hp Hwf. subst p. set (p := KPublish dup qos retain topic payload pid props).
  destruct (wf_publish_ok k dup qos retain topic payload pid props Hwf) as (Hr & Hra & tb & t & Ha). fold p in Hr.
  destruct (handle_packet_pub_spec c k dup qos retain topic payload pid props s tb t Hr Hra Ha)
    as (s' & o & code & E & Hd & _ & _ & _ & _ & Hlv & _).
  fold p in E, Hlv. split; [now exists s', o, code|].
  destruct (step_poll s (ESend c p)) as (o2 & Eo & F & P). rewrite (step_event_send s c k p Hk Hp), E in *.
  cbn [finish fst snd] in *. split.
  - rewrite Eo. apply Forall_app. split; [apply Forall_app; split|].
    + now apply isdrop_benign.
    + apply ack_of_benign.
    + apply (pollout_benign _ _ P).
  - rewrite <- (lf_lv _ _ F c) in Hlv. destruct (lv_phase _ _ _ Hlv) as (k' & Hk' & Ep).
    exists k'. split; [exact Hk'|]. rewrite Ep. cbn [k_phase set_quota set_alias_in]. now rewrite charge_phase.
Qed.

(* handle_connect is taken in the stages of BrokerInvP (hc_*, handle_connect_eq) *)
Lemma hc_auto_lframe cn s : lframe s (BrokerInvP.hc_auto cn s).
Proof. unfold BrokerInvP.hc_auto. destruct (is_empty (cn_cid cn)); [apply lframe_set_auto|apply lframe_refl]. Qed.

Lemma hc_wills_lquiet o_will s :
  lframe s (fst (BrokerInvP.hc_wills o_will s)) /\ Forall isdrop (snd (BrokerInvP.hc_wills o_will s)).
Proof.
  unfold BrokerInvP.hc_wills. apply fold_lquiet. intros s0 o0 cw. cbv beta iota. apply lquiet_app; apply send_will_lquiet.
Qed.

Lemma hc_takeover_spec cid s :
  b_cfg (fst (BrokerInvP.hc_takeover cid s)) = b_cfg s /\ b_unacks (fst (BrokerInvP.hc_takeover cid s)) = b_unacks s.
Proof.
  unfold BrokerInvP.hc_takeover. destruct (aget cid (b_online s)) as [oldc|]; [|auto].
  destruct (conn_gone_gen oldc s) as (A & _ & B & _). auto.
Qed.

Lemma hc_old_spec cid v5 cmax r0 s :
  b_cfg (fst (fst (BrokerInvP.hc_old cid v5 cmax r0 s))) = b_cfg s /\
  b_unacks (fst (fst (BrokerInvP.hc_old cid v5 cmax r0 s))) = b_unacks s.
Proof.
  unfold BrokerInvP.hc_old. destruct (aget cid (b_sessions s)); [|auto]. destruct r0.
  - destruct (aget cid (b_queues s)); [|auto]. destruct (aget cid (b_unacks s)); auto.
  - cbv zeta. destruct (aget cid (b_wills (remove_session cid s))) as [[w t]|]; auto.
Qed.

(* an accepted CONNECT: the one CONNACK; before it only the close of a displaced connection (and drop notifications),
   after it only drop notifications; configuration kept; the new record; the unack stores kept, or the session's
   emptied when it is not resumed *)
Lemma hc_accept_spec c cn s :
  let cid := BrokerInvP.hc_cid cn s in
  exists resume o_dup o_w s5,
    BrokerInvP.hc_accept c cn s =
      (s5, o_dup ++ [OSend c (KConnack resume 0 (BrokerInvP.hc_props cid cn (b_cfg s)))] ++ o_w) /\
    Forall BrokerInvP.nosend o_dup /\ Forall isdrop o_w /\ b_cfg s5 = b_cfg s /\
    lv s5 c = Some (lview (BrokerInvP.hc_conn cid cn (b_cfg s))) /\
    b_unacks s5 = if resume then b_unacks s else aset cid [] (b_unacks s).
Proof.
  cbv zeta. unfold BrokerInvP.hc_accept. cbv zeta. set (cid := BrokerInvP.hc_cid cn s).
  destruct (hc_auto_lframe cn s) as [A1 _ A3 _].
  pose proof (hc_takeover_spec cid (BrokerInvP.hc_auto cn s)) as (T1 & T2).
  pose proof (BrokerInvP.hc_takeover_nosend cid (BrokerInvP.hc_auto cn s)) as T3.
  destruct (BrokerInvP.hc_takeover cid (BrokerInvP.hc_auto cn s)) as [s1 o_dup]. cbn [fst snd] in T1, T2, T3.
  pose proof (hc_old_spec cid (cn_ver cn =? 5) (BrokerInvP.hc_cmax cn) (BrokerInvP.hc_resume0 cid cn s1) s1) as (O1 & O2).
  destruct (BrokerInvP.hc_old cid (cn_ver cn =? 5) (BrokerInvP.hc_cmax cn) (BrokerInvP.hc_resume0 cid cn s1) s1)
    as [[s2 o_will] resume]. cbn [fst snd] in O1, O2.
  destruct (BrokerInvP.hc_wd_exp cn (b_cfg s)) as [wdelay expiry].
  match goal with |- context [BrokerInvP.hc_wills o_will ?S] =>
    destruct (hc_wills_lquiet o_will S) as [[W1 _ W3 W4] W2]; destruct (BrokerInvP.hc_wills o_will S) as [s5 o_w] end.
  cbn [fst snd] in *. exists resume, o_dup, o_w, s5. split; [reflexivity|]. split; [exact T3|]. split; [exact W2|].
  unfold BrokerInvP.hc_register, BrokerInvP.hc_fresh in W1, W3, W4. rewrite W1, W3, W4. clear W1 W3 W4.
  split; [|split].
  - destruct resume; proj; congruence.
  - unfold lv. proj. now rewrite nget_nset_same.
  - destruct resume; proj; congruence.
Qed.

(* the CONNACK of an accepted v5 CONNECT carries the configured Receive Maximum, Topic Alias Maximum and Maximum
   Packet Size; the connection record starts with quota = Receive Maximum = configured, the configured alias
   maximum and an empty inbound alias table; the quota relation holds (exactly, for a new session) *)
Theorem connack_advertises c cn s s' o sp props :
  handle_connect c cn s = (s', o) -> In (OSend c (KConnack sp 0 props)) o -> cn_ver cn = 5 ->
  p_recvmax props = Some (c_recv_max (b_cfg s)) /\ p_aliasmax props = Some (c_alias_max (b_cfg s)) /\
  p_maxpkt props = Some (c_max_packet (b_cfg s)) /\
  b_cfg s' = b_cfg s /\
  exists k, nget c (b_conns s') = Some k /\ k_phase k = PhConnected /\ k_v k = 5 /\
    k_quota k = c_recv_max (b_cfg s) /\ k_recv_max k = c_recv_max (b_cfg s) /\
    k_server_alias_max k = c_alias_max (b_cfg s) /\ k_alias_in k = [] /\
    (sp = false -> open_ids s' (k_cid k) = [] /\ QInv true s' c) /\
    (sp = true -> b_unacks s' = b_unacks s /\ (NoDup (open_ids s (k_cid k)) -> QInv false s' c)).
Proof.
  intros E Hin Hv. rewrite BrokerInvP.handle_connect_eq in E.
  destruct (negb (c_allow_zero_len (b_cfg s)) && is_empty (cn_cid cn)).
  { injection E as <- <-. destruct Hin as [H|[]]. discriminate. }
  destruct (negb (BrokerInvP.hc_code cn s =? 0)) eqn:Ec.
  { injection E as <- <-. destruct Hin as [H|[]]. injection H as _ H _. exfalso.
    destruct (negb (cn_ver cn =? 5) && (5 <? BrokerInvP.hc_code cn s)); lia. }
  destruct (hc_accept_spec c cn s) as (resume & o_dup & o_w & s5 & E' & T3 & W2 & Hcfg & Hlv & Hu). cbv zeta in *.
  rewrite E' in E. injection E as <- <-.
  (* the only CONNACK among the outputs *)
  assert (Hc : sp = resume /\ props = BrokerInvP.hc_props (BrokerInvP.hc_cid cn s) cn (b_cfg s)).
  { apply in_app_or in Hin as [Hin|[H|Hin]].
    - destruct (BrokerInvP.nosend_not_in _ _ _ T3 Hin).
    - injection H as <- <-. auto.
    - rewrite Forall_forall in W2. destruct (W2 _ Hin). }
  destruct Hc as [-> ->]. unfold BrokerInvP.hc_props. rewrite Hv. cbn [N.eqb Pos.eqb app p_recvmax p_aliasmax p_maxpkt].
  split; [reflexivity|]. split; [reflexivity|]. split; [reflexivity|]. split; [exact Hcfg|].
  apply lv_some in Hlv as (k5 & Hk5 & Ev).
  apply lview_fields in Ev as (E1 & E2 & E3 & E4 & E5 & _ & E7 & E8). cbn in E1, E2, E3, E4, E5, E7, E8.
  exists k5. split; [exact Hk5|]. split; [exact E3|]. split; [congruence|]. split; [exact E8|]. split; [exact E5|].
  split; [exact E4|]. split; [exact E7|].
  assert (HQ : forall ex, Qrel ex s5 k5 -> QInv ex s5 c).
  { intros ex Q k' Hk' _ _. rewrite Hk5 in Hk'. now injection Hk' as <-. }
  split; intros ->.
  - assert (HU : open_ids s5 (k_cid k5) = []) by (unfold open_ids; now rewrite Hu, E1, aget_aset_same).
    split; [exact HU|]. apply HQ. unfold Qrel. rewrite HU, E5, E8. cbn [length N.of_nat]. rewrite N.add_0_r.
    repeat split; auto using N.le_refl. constructor.
  - split; [exact Hu|]. intros Hnd. apply HQ. unfold Qrel, open_ids in *. rewrite Hu, E5, E8.
    split; [exact Hnd|]. split; [apply N.le_refl|]. split; [apply N.le_add_r|discriminate].
Qed.

(* the statements of Props/C13w.v *)

Theorem alias_out_of_range_0x94 s c k dup qos retain topic payload pid props a :
  let p := KPublish dup qos retain topic payload pid props in
  nget c (b_conns s) = Some k -> k_phase k = PhConnected -> k_v k = 5 ->
  p_alias props = Some a -> has_wild topic = false ->
  (a = 0 \/
   ((0 <? qos) && (k_quota k =? 0) = false /\ negb (k_retain_avail k) && retain = false /\
    (k_server_alias_max k < a \/
     (1 <= a <= k_server_alias_max k /\ topic = [] /\
      (nget a (k_alias_in k) = None \/ nget a (k_alias_in k) = Some []))))) ->
  let s1 := charged c k p (negb (a =? 0)) s in
  step_event s (ESend c p) = torn c 148 s1 /\
  b_queues s1 = b_queues s /\ b_ret s1 = b_ret s /\ b_subs s1 = b_subs s /\ b_unacks s1 = b_unacks s /\
  filter (to_sock c) (snd (step s (ESend c p))) = [OSend c (KDisconnect 148 []); OClose c] /\
  (exists k', nget c (b_conns (fst (step s (ESend c p)))) = Some k' /\ k_phase k' = PhClosed) /\
  b_unacks (fst (step s (ESend c p))) = b_unacks s.
Proof.
  intros p Hk Hp Hv Hal Hw Hcase. cbv zeta.
  destruct (alias_out_of_range_verdict k dup qos retain topic payload pid props a Hv Hal Hw) as (V1 & V2 & V3).
  assert (Hver : verdict k p = Some (148, negb (a =? 0))).
  { destruct Hcase as [->|(Hq & Hra & [Ha|(Ha & Ht & Hn)])].
    - now apply V1.
    - destruct (N.eqb_spec a 0) as [->|_]; [lia|]. now apply V2.
    - destruct (N.eqb_spec a 0) as [->|_]; [lia|]. now apply V3. }
  destruct (verdict_teardown s c k p 148 _ Hk Hp Hv Hver) as (T1 & T2 & T3 & T4).
  destruct (charged_tables c k p (negb (a =? 0)) s) as (C1 & C2 & C3 & C4 & _).
  repeat split; auto.
Qed.

Theorem alias_in_range_accepted s c k dup qos retain topic payload pid props a :
  let p := KPublish dup qos retain topic payload pid props in
  nget c (b_conns s) = Some k -> k_phase k = PhConnected -> k_v k = 5 ->
  p_alias props = Some a -> 1 <= a <= k_server_alias_max k -> has_wild topic = false ->
  (0 <? qos) && (k_quota k =? 0) = false -> negb (k_retain_avail k) && retain = false ->
  (topic <> [] \/ exists x nm, nget a (k_alias_in k) = Some (x :: nm)) ->
  exists tb t,
    alias_step k topic props = inl (tb, t) /\ t <> [] /\
    (topic <> [] -> t = topic /\ nget a tb = Some topic) /\
    (topic = [] -> nget a (k_alias_in k) = Some t /\ tb = k_alias_in k) /\
    (forall a', a' <> a -> nget a' tb = nget a' (k_alias_in k)) /\
    handle_packet c k p s =
      publish_body c (set_alias_in tb (charge k p)) true
                   (with_topic t (msg_of_publish true dup qos retain topic payload pid props)) qos pid
                   (upd_conn c (set_alias_in tb (charge k p)) s) /\
    exists s' o code k',
      step_event s (ESend c p) = (s', o ++ ack_of c qos pid code) /\ Forall isdrop o /\
      nget c (b_conns s') = Some k' /\ k_phase k' = PhConnected /\ k_alias_in k' = tb /\
      k_server_alias_max k' = k_server_alias_max k.
Proof.
  intros p Hk Hp Hv Hal Ha Hw Hq Hra Hcase.
  assert (Hr : read_err k p = None).
  { unfold p. cbn [read_err]. unfold alias_zero, has_alias. rewrite Hv, Hw, Hal. cbn [N.eqb Pos.eqb andb negb].
    assert (E : (a =? 0) = false) by lia. rewrite E, andb_false_r. now rewrite Hq. }
  destruct (alias_in_range_step k topic props a Hv Hal Ha) as (S1 & S2).
  assert (Hst : exists tb t, alias_step k topic props = inl (tb, t) /\ t <> [] /\
            (topic <> [] -> t = topic /\ nget a tb = Some topic) /\
            (topic = [] -> nget a (k_alias_in k) = Some t /\ tb = k_alias_in k) /\
            (forall a', a' <> a -> nget a' tb = nget a' (k_alias_in k))).
  { destruct topic as [|x0 t0].
    - destruct Hcase as [H|(x & nm & Hb)]; [congruence|].
      exists (k_alias_in k), (x :: nm). split; [now apply S2|]. split; [discriminate|].
      split; [congruence|]. split; [auto|]. auto.
    - destruct (S1 ltac:(discriminate)) as (A & B & C).
      exists (nset a (x0 :: t0) (k_alias_in k)), (x0 :: t0). split; [exact A|]. split; [discriminate|].
      split; [auto|]. split; [discriminate|]. exact C. }
  destruct Hst as (tb & t & Hs & Hne & H1 & H2 & H3). exists tb, t.
  split; [exact Hs|]. split; [exact Hne|]. split; [exact H1|]. split; [exact H2|]. split; [exact H3|].
  destruct (alias_accepted s c k dup qos retain topic payload pid props tb t Hk Hp Hr Hra Hs)
    as (A & _ & s' & o & code & k' & B1 & B2 & B3 & B4 & B5 & B6 & _).
  rewrite Hv in A. cbn [N.eqb Pos.eqb] in A. split; [exact A|].
  exists s', o, code, k'. auto 10.
Qed.

Theorem exceeding_0x93 s c k dup qos retain topic payload pid props :
  let p := KPublish dup qos retain topic payload pid props in
  nget c (b_conns s) = Some k -> k_phase k = PhConnected -> k_v k = 5 ->
  decodes k topic props = true -> 0 < qos ->
  (k_quota k = 0 \/ (Qrel true s k /\ N.of_nat (length (open_ids s (k_cid k))) = k_recv_max k)) ->
  step_event s (ESend c p) = torn c 147 s /\
  filter (to_sock c) (snd (step s (ESend c p))) = [OSend c (KDisconnect 147 []); OClose c] /\
  (exists k', nget c (b_conns (fst (step s (ESend c p)))) = Some k' /\ k_phase k' = PhClosed) /\
  b_unacks (fst (step s (ESend c p))) = b_unacks s.
Proof.
  intros p Hk Hp Hv Hd Hq H0.
  assert (Hz : k_quota k = 0) by (destruct H0 as [H|[H1 H2]]; [exact H|now apply (exact_full_quota_zero s)]).
  pose proof (exceeding_recv_max_0x93 s c k dup qos retain topic payload pid props Hk Hp Hv Hd Hq Hz) as Hver.
  destruct (verdict_teardown s c k p 147 false Hk Hp Hv Hver) as (T1 & T2 & T3 & T4). cbn [charged] in T1. auto.
Qed.

Theorem wf_publish_no_disconnect_sz s c k dup qos retain topic payload pid props n :
  let p := KPublish dup qos retain topic payload pid props in
  nget c (b_conns s) = Some k -> k_phase k = PhConnected ->
  wf_publish k qos retain topic props = true -> too_big k n s = false ->
  Forall benign (snd (step s (ESendSz c p n))) /\
  exists k', nget c (b_conns (fst (step s (ESendSz c p n)))) = Some k' /\ k_phase k' = PhConnected.
Proof.
  intros p Hk Hp Hwf Hb.
  assert (E : step s (ESendSz c p n) = step s (ESend c p)).
  { apply step_sz_small. intros k0 Hk0 _. rewrite Hk in Hk0. now injection Hk0 as <-. }
  rewrite E. now apply (wf_publish_no_disconnect s c k).
Qed.

(* a concrete broker for the examples: Receive Maximum 2, Topic Alias Maximum 3, Maximum Packet Size 100;
   a v5 client "p" on socket 1 *)
Definition lx_cfg : cfg :=
  {| c_onlyonce := false; c_max_inflight := 10; c_max_queued := 100; c_queue_qos0 := true;
     c_session_expiry := 3600; c_message_expiry := 0; c_recv_max := 2; c_alias_max := 3; c_max_packet := 100;
     c_max_qos := 2; c_retain_avail := true; c_wildcard := true; c_subid := true; c_shared := true;
     c_max_keepalive := 60; c_allow_zero_len := true; c_inflight_expiry := 0 |}.
Definition lx_connect : connect :=
  {| cn_ver := 5; cn_cid := [112]; cn_clean := true; cn_keepalive := 0; cn_user := None; cn_pass := None;
     cn_will := None; cn_props := [] |}.
Definition lx_init : st := st_init lx_cfg no_hooks [].
Definition lx_s0 : st := fst (step lx_init (EConnect 1 lx_connect)).
Definition lx_T : str := [116].
Definition lx_pkt (dup : bool) (qos pid : N) (topic : str) (props : list prop) : pkt :=
  KPublish dup qos false topic [1] pid props.
Definition lx_pub (dup : bool) (qos pid : N) (topic : str) (props : list prop) : event :=
  ESend 1 (lx_pkt dup qos pid topic props).
Definition lx_rel (pid : N) : event := ESend 1 (KPubrel pid 0 []).
(* two QoS 2 publishes open: the quota is used up *)
Definition lx_full : st := fst (run lx_s0 [lx_pub false 2 1 lx_T []; lx_pub false 2 2 lx_T []]).
Definition lx_conn (s : st) : conn := opt_or (nget 1 (b_conns s)) (fresh_conn [] 0).

(* a boolean form of the quota relation, for the examples *)
Fixpoint nodupb (l : list N) : bool := match l with [] => true | x :: r => negb (memN x r) && nodupb r end.

Lemma nodupb_NoDup l : nodupb l = true -> NoDup l.
Proof.
  induction l as [|x r IH]; cbn [nodupb]; intros H; [constructor|].
  apply andb_true_iff in H as [H1 H2]. apply negb_true_iff in H1. constructor; [now apply memN_notIn|auto].
Qed.

Definition qrel_b (ex : bool) (s : st) (k : conn) : bool :=
  nodupb (open_ids s (k_cid k)) && (k_quota k <=? k_recv_max k) &&
  (k_recv_max k <=? k_quota k + N.of_nat (length (open_ids s (k_cid k)))) &&
  (negb ex || (k_quota k + N.of_nat (length (open_ids s (k_cid k))) =? k_recv_max k)).

Lemma qrel_b_ok ex s k : qrel_b ex s k = true -> Qrel ex s k.
Proof.
  unfold qrel_b, Qrel. intros H. apply andb_true_iff in H as [H H4]. apply andb_true_iff in H as [H H3].
  apply andb_true_iff in H as [H1 H2]. split; [now apply nodupb_NoDup|]. split; [lia|]. split; [lia|].
  intros ->. cbn [negb Datatypes.orb] in H4. lia.
Qed.

Definition qinv_b (ex : bool) (s : st) (c : N) : bool :=
  match nget c (b_conns s) with Some k => qrel_b ex s k | None => true end.

Lemma qinv_b_ok ex s c : qinv_b ex s c = true -> QInv ex s c.
Proof. unfold qinv_b. intros H k Hk _ _. rewrite Hk in H. now apply qrel_b_ok. Qed.

Lemma step_disc_in_event s e c' code pr :
  In (OSend c' (KDisconnect code pr)) (snd (step s e)) -> In (OSend c' (KDisconnect code pr)) (snd (step_event s e)).
Proof.
  intros Hin. destruct (step_poll s e) as (o2 & Eo & _ & P). rewrite Eo in Hin.
  apply in_app_or in Hin as [Hin|Hin]; [exact Hin|].
  apply pollout_benign in P. rewrite Forall_forall in P. destruct (P _ Hin).
Qed.

Lemma conn_gone_no_disc c s c' code pr : ~ In (OSend c' (KDisconnect code pr)) (snd (conn_gone c s)).
Proof.
  intros Hin. destruct (conn_gone_gen c s) as (_ & _ & _ & _ & _ & HF). rewrite Forall_forall in HF.
  destruct (HF _ Hin) as [E|E]; [discriminate|destruct E].
Qed.

Lemma send_unconnected_no_disc c k p s c' code pr :
  ~ In (OSend c' (KDisconnect code pr)) (snd (send_unconnected c k p s)).
Proof.
  assert (Nil : ~ In (OSend c' (KDisconnect code pr)) []) by (intros []).
  unfold send_unconnected. destruct (k_phase k); cbn [snd]; try exact Nil.
  - intros [H0|[]]. discriminate.
  - destruct p; try exact Nil. destruct ((k_v k =? 5) && (0 <? qos)); [|exact Nil].
    destruct (k_quota k =? 0); [apply conn_gone_no_disc|exact Nil].
  - destruct p; try exact Nil. destruct ((k_v k =? 5) && (0 <? qos)); [apply conn_gone_no_disc|exact Nil].
Qed.

Definition ev_within (s : st) (c : N) (e : event) : bool :=
  match ev_pkt e, nget c (b_conns s) with Some p, Some k => within_recv_max s k p | _, _ => true end.

Lemma send_never_0x93 s c p c' pr :
  QInv false s c -> match nget c (b_conns s) with Some k => within_recv_max s k p | None => true end = true ->
  ~ In (OSend c' (KDisconnect 147 pr)) (snd (step_event s (ESend c p))).
Proof.
  intros HQ Hw Hin. destruct (nget c (b_conns s)) as [k|] eqn:Hk; [|cbn [step_event] in Hin; rewrite Hk in Hin; destruct Hin].
  destruct (phase_connected_dec (k_phase k)) as [Hp|Hp].
  - apply (within_recv_max_never_0x93 s c k p c' pr Hk Hp (HQ k Hk Hp) Hw).
    destruct (step_poll s (ESend c p)) as (o2 & -> & _). apply in_or_app. now left.
  - rewrite (step_event_send_off s c k p Hk Hp) in Hin. now apply send_unconnected_no_disc in Hin.
Qed.

Lemma step_never_0x93 s c e c' pr :
  on_socket c e = true -> QInv false s c -> ev_within s c e = true ->
  ~ In (OSend c' (KDisconnect 147 pr)) (snd (step s e)).
Proof.
  intros Hon HQ Hw Hin. apply step_disc_in_event in Hin. unfold ev_within in Hw.
  destruct e; try discriminate; cbn [on_socket ev_pkt] in Hon, Hw; try (destruct Hin); apply N.eqb_eq in Hon; subst c0.
  - exact (send_never_0x93 s c p c' pr HQ Hw Hin).
  - destruct (step_event_sz s c p n) as [E|(k & Hk & Hp & Hb & _)];
      [rewrite E in Hin; exact (send_never_0x93 s c p c' pr HQ Hw Hin)|].
    (* too big: the DISCONNECT of the teardown carries sz_code, which is 147 only as the read loop's code *)
    rewrite (packet_size_big_event s c k p n Hk Hp Hb) in Hin. rewrite Hk in Hw.
    destruct Hin as [Hf|Hin]; [|now apply conn_gone_no_disc in Hin]. injection Hf as _ Hc _.
    unfold sz_code in Hc. destruct (read_err k p) as [cd|] eqn:Hr; [subst cd|discriminate].
    exact (within_no_147 s k p (HQ k Hk Hp) Hw Hr).
Qed.

(* for histories on one socket in which every QoS>0 PUBLISH arrives while fewer than Receive Maximum QoS 2 publishes
   are open: no step of the run answers with 0x93 *)
Theorem never_0x93_run c es : forall s,
  QInv false s c -> run_ok (fun s e => quota_side false c s e && ev_within s c e) s es = true ->
  forall o c' pr, In o (snd (run s es)) -> ~ In (OSend c' (KDisconnect 147 pr)) o.
Proof.
  intros s HQ Hok o c' pr Ho. apply run_ok_all in Hok.
  refine (proj1 (Forall_forall _ _) (proj2 (run_guarded _ (fun s => QInv false s c)
            (fun o => forall c' pr, ~ In (OSend c' (KDisconnect 147 pr)) o) _ es s HQ Hok)) o Ho c' pr).
  intros s0 e HQ0 H. apply andb_true_iff in H as [Hs Hw]. split; [now apply QInv_step_side|].
  intros c0 pr0. apply (step_never_0x93 s0 c e); auto.
  unfold quota_side in Hs. apply andb_true_iff in Hs as [Hs _]. now apply andb_true_iff in Hs as [Hs _].
Qed.
