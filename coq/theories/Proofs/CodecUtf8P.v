(* ValidUTF8 (a loop over utf8.DecodeRune) characterised on all byte strings:
     valid_utf8_impl s = Ok (well-formed UTF-8 per Unicode table 3-7, no U+0000,
                             no control characters U+0001..1F / U+007F..9F)
   i.e. the specification's "must accept" set, minus the control characters a receiver may
   refuse. *)
From Coq Require Import List NArith ZArith Bool Lia ZifyN ZifyNat ZifyBool.
Import ListNotations.
From GM Require Import Base.Topic Base.Msg Model.CodecBase Model.CodecSpec Proofs.CodecBaseP Proofs.CodecStrP.
Open Scope N_scope.

(* no0 is what Oracle/C06O.v calls no_nul: the lemmas about no0 below serve the statements made with no_nul *)
Definition no0 (s : str) : bool := negb (existsb (N.eqb 0) s).
Definition G (s : str) : bool := utf8_wf s && no0 s && negb (has_ctl s).

Lemma has_fffd_cons : forall a t, has_fffd (a :: t) =
  (match t with b :: c :: _ => (a =? 239) && (b =? 191) && (c =? 189) | _ => false end) || has_fffd t.
Proof. intros a [|b [|c t]]; reflexivity. Qed.
Lemma has_ctl_cons : forall a t, has_ctl (a :: t) =
  ((1 <=? a) && (a <=? 31)) || (a =? 127)
  || (match t with b :: _ => (a =? 194) && (128 <=? b) && (b <=? 159) | [] => false end) || has_ctl t.
Proof. reflexivity. Qed.
Lemma no0_cons : forall a t, no0 (a :: t) = negb (a =? 0) && no0 t.
Proof. intros. unfold no0. cbn [existsb]. rewrite N.eqb_sym. destruct (a =? 0); reflexivity. Qed.
Lemma no0_cut : forall n p, no0 p = no0 (takeN n p) && no0 (dropN n p).
Proof. intros. rewrite <- (take_drop _ p n) at 1. unfold no0. rewrite existsb_app. apply negb_orb. Qed.
Lemma no0_high : forall l, forallb (fun x => 128 <=? x) l = true -> no0 l = true.
Proof.
  induction l; intros H; [reflexivity|]. cbn [forallb] in H. apply andb_prop in H. destruct H as [Ha Hl].
  rewrite no0_cons, IHl by assumption. lia.
Qed.

Lemma G_nil : G [] = true. Proof. reflexivity. Qed.

(* well-formedness in the shape of decode_rune_eq *)
Lemma utf8_wf_cons : forall a t, utf8_wf (a :: t) =
  if a <? 128 then utf8_wf t
  else if (a <? 194) || (244 <? a) then false
  else if a <? 224 then match t with b :: t1 => cont b && utf8_wf t1 | _ => false end
  else if a <? 240 then match t with b :: c :: t2 => r3 a b && cont c && utf8_wf t2 | _ => false end
  else match t with b :: c :: d :: t3 => r4 a b && cont c && cont d && utf8_wf t3 | _ => false end.
Proof.
  intros a t. cbn [utf8_wf]. unfold r3, r4.
  destruct (N.ltb_spec a 128); [replace (a <=? 127) with true by lia; reflexivity|].
  replace (a <=? 127) with false by lia.
  (* for the four lead bytes with a narrowed second byte both sides compute *)
  destruct (N.eqb_spec a 224) as [->|?]; [reflexivity|]. destruct (N.eqb_spec a 237) as [->|?]; [reflexivity|].
  destruct (N.eqb_spec a 240) as [->|?]; [reflexivity|]. destruct (N.eqb_spec a 244) as [->|?]; [reflexivity|].
  destruct ((a <? 194) || (244 <? a)) eqn:Eb.
  { replace ((194 <=? a) && (a <=? 223)) with false by lia.
    replace (((225 <=? a) && (a <=? 236)) || (a =? 238) || (a =? 239)) with false by lia.
    replace ((241 <=? a) && (a <=? 243)) with false by lia. destruct t as [|b [|c [|d t3]]]; reflexivity. }
  destruct (N.ltb_spec a 224). { replace ((194 <=? a) && (a <=? 223)) with true by lia. reflexivity. }
  replace ((194 <=? a) && (a <=? 223)) with false by lia.
  destruct (N.ltb_spec a 240).
  { replace (((225 <=? a) && (a <=? 236)) || (a =? 238) || (a =? 239)) with true by lia. reflexivity. }
  replace (((225 <=? a) && (a <=? 236)) || (a =? 238) || (a =? 239)) with false by lia.
  replace ((241 <=? a) && (a <=? 243)) with true by lia. reflexivity.
Qed.

(* the two tests of G that look at single bytes (and at the pair C2 80..9F): a continuation byte
   and a lead byte other than C2 pass them *)
Definition clean (s : str) : bool := no0 s && negb (has_ctl s).
Lemma G_eq : forall s, G s = utf8_wf s && clean s.
Proof. intros. unfold G, clean. symmetry. apply andb_assoc. Qed.

Lemma clean_low : forall a t, a < 128 -> clean (a :: t) = negb (a <=? 31) && negb (a =? 127) && clean t.
Proof.
  intros a t H. unfold clean. rewrite no0_cons, has_ctl_cons. replace (a =? 194) with false by lia.
  destruct t; destruct (no0 _), (has_ctl _); lia.
Qed.
Lemma clean_high : forall a t, 128 <= a -> a <> 194 -> clean (a :: t) = clean t.
Proof.
  intros a t H1 H2. unfold clean. rewrite no0_cons, has_ctl_cons. replace (a =? 194) with false by lia.
  destruct t; destruct (no0 _), (has_ctl _); lia.
Qed.
Lemma clean_194 : forall b t, cont b = true -> clean (194 :: b :: t) = negb (b <=? 159) && clean t.
Proof.
  intros b t H. unfold cont in H. rewrite <- (clean_high b t) by lia.
  unfold clean. rewrite (no0_cons 194), (has_ctl_cons 194). destruct (no0 _), (has_ctl _); lia.
Qed.

Lemma G_cons : forall a t, G (a :: t) =
  if a <? 128 then negb (a <=? 31) && negb (a =? 127) && G t
  else if (a <? 194) || (244 <? a) then false
  else if a <? 224 then match t with b :: t1 => cont b && negb ((a =? 194) && (b <=? 159)) && G t1 | _ => false end
  else if a <? 240 then match t with b :: c :: t2 => r3 a b && cont c && G t2 | _ => false end
  else match t with b :: c :: d :: t3 => r4 a b && cont c && cont d && G t3 | _ => false end.
Proof.
  intros a t. rewrite G_eq, utf8_wf_cons.
  destruct (N.ltb_spec a 128).
  { rewrite clean_low, G_eq by assumption. destruct (utf8_wf t); [reflexivity|]. now rewrite !andb_false_r. }
  destruct (N.ltb_spec a 194); [reflexivity|]. destruct (N.ltb_spec 244 a); [reflexivity|]. cbn [orb].
  destruct (N.ltb_spec a 224).
  { destruct t as [|b t1]; [reflexivity|]. destruct (cont b) eqn:E; [|reflexivity]. rewrite G_eq. cbn [andb].
    destruct (N.eqb_spec a 194) as [->|].
    - rewrite clean_194 by assumption. cbn [andb]. now destruct (utf8_wf t1), (negb (b <=? 159)).
    - unfold cont in E. rewrite !clean_high by lia. reflexivity. }
  destruct (N.ltb_spec a 240).
  { destruct t as [|b [|c t2]]; try reflexivity. destruct (r3 a b && cont c) eqn:E; [|reflexivity].
    rewrite G_eq. cbn [andb]. apply r3_range in E. rewrite !clean_high by lia. reflexivity. }
  destruct t as [|b [|c [|d t3]]]; try reflexivity. destruct (r4 a b && cont c && cont d) eqn:E; [|reflexivity].
  rewrite G_eq. cbn [andb]. apply r4_range in E. rewrite !clean_high by lia. reflexivity.
Qed.

Lemma G_1 : forall a t, a < 128 -> G (a :: t) = negb (a <=? 31) && negb (a =? 127) && G t.
Proof. intros a t H. rewrite G_cons. now replace (a <? 128) with true by lia. Qed.

(* decode_rune_eq and G_cons branch alike; what remains in each branch is where the rune lies:
   below U+0800 for two bytes, outside the surrogates for three, up to U+10FFFF for four *)
Lemma valid_utf8_loop_G : forall fuel p, (length p < fuel)%nat -> valid_utf8_loop fuel p = Ok (G p).
Proof.
  induction fuel; intros p Hf; [lia|].
  destruct p as [|p0 t]; [reflexivity|].
  assert (IH : forall n, 1 <= n -> valid_utf8_loop fuel (dropN n (p0 :: t)) = Ok (G (dropN n (p0 :: t)))).
  { intros n Hn. apply IHfuel. pose proof (dropN_shrinks (p0 :: t) n Hn ltac:(discriminate)). lia. }
  pose proof (decode_rune_eq p0 t) as Ed. rewrite G_cons.
  destruct (N.ltb_spec p0 128).
  { rewrite (loop_step _ _ _ _ _ Ed), IH by lia. change (dropN 1 (p0 :: t)) with (dropN 0 t). rewrite dropN_0.
    replace (good p0 1) with (negb (p0 <=? 31) && negb (p0 =? 127)) by (unfold good, valid_rune, RUNE_ERROR; lia).
    now destruct (negb (p0 <=? 31) && negb (p0 =? 127)). }
  destruct (N.ltb_spec p0 194); [exact (loop_step _ _ _ _ _ Ed)|].
  destruct (N.ltb_spec 244 p0); [exact (loop_step _ _ _ _ _ Ed)|]. cbn [orb] in *.
  destruct (N.ltb_spec p0 224).
  { destruct t as [|b1 t1]; [exact (loop_step _ _ _ _ _ Ed)|].
    destruct (cont b1) eqn:E; [|exact (loop_step _ _ _ _ _ Ed)]. cbn [andb].
    rewrite (loop_step _ _ _ _ _ Ed), IH by lia. change (dropN 2 (p0 :: b1 :: t1)) with (dropN 0 t1). rewrite dropN_0.
    unfold cont in E.
    replace (good ((p0 - 192) * 64 + (b1 - 128)) 2) with (negb ((p0 =? 194) && (b1 <=? 159)))
      by (unfold good, valid_rune, RUNE_ERROR; lia).
    now destruct (negb ((p0 =? 194) && (b1 <=? 159))). }
  destruct (N.ltb_spec p0 240).
  { destruct t as [|b1 [|b2 t2]]; try exact (loop_step _ _ _ _ _ Ed).
    destruct (r3 p0 b1 && cont b2) eqn:E; [|exact (loop_step _ _ _ _ _ Ed)].
    rewrite (loop_step _ _ _ _ _ Ed), IH by lia. change (dropN 3 (p0 :: b1 :: b2 :: t2)) with (dropN 0 t2). rewrite dropN_0.
    apply r3_range in E.
    replace (good (((p0 - 224) * 64 + (b1 - 128)) * 64 + (b2 - 128)) 3) with true
      by (unfold good, valid_rune, RUNE_ERROR; lia).
    reflexivity. }
  destruct t as [|b1 [|b2 [|b3 t3]]]; try exact (loop_step _ _ _ _ _ Ed).
  destruct (r4 p0 b1 && cont b2 && cont b3) eqn:E; [|exact (loop_step _ _ _ _ _ Ed)].
  rewrite (loop_step _ _ _ _ _ Ed), IH by lia. change (dropN 4 (p0 :: b1 :: b2 :: b3 :: t3)) with (dropN 0 t3).
  rewrite dropN_0. apply r4_range in E.
  replace (good ((((p0 - 240) * 64 + (b1 - 128)) * 64 + (b2 - 128)) * 64 + (b3 - 128)) 4) with true
    by (unfold good, valid_rune, RUNE_ERROR; lia).
  reflexivity.
Qed.

Lemma G_utf8 : forall s, valid_utf8_impl s = Ok (G s).
Proof. intros. unfold valid_utf8_impl. apply valid_utf8_loop_G. lia. Qed.

(* ValidUTF8, on every byte string *)
Theorem valid_utf8_impl_spec : forall s,
  valid_utf8_impl s = Ok (spec_utf8 s && negb (has_ctl s)).
Proof. exact G_utf8. Qed.

Lemma G_spec_utf8 : forall s, G s = true -> spec_utf8 s = true.
Proof. intros s H. unfold G in H. apply andb_prop in H. tauto. Qed.
Lemma valid_utf8_spec : forall s, valid_utf8_impl s = Ok true -> spec_utf8 s = true.
Proof. intros s H. apply G_spec_utf8. rewrite G_utf8 in H. congruence. Qed.

Lemma has_fffd_dropN : forall n p, has_fffd p = false -> has_fffd (dropN n p) = false.
Proof.
  intros n p. revert n. induction p as [|a t IH]; intros n H; [reflexivity|].
  cbn [dropN]. destruct (n =? 0); [assumption|].
  apply IH. rewrite has_fffd_cons in H. apply orb_false_elim in H. tauto.
Qed.

(* on a string without U+FFFD, a rune that decodes as RuneError is an encoding error (size 1) *)
Lemma rune_error_size1 : forall p, has_fffd p = false -> fst (decode_rune p) = RUNE_ERROR ->
  p <> [] -> snd (decode_rune p) = 1.
Proof.
  intros p Hf Hr Hp. destruct (decode_rune_size p Hp) as [H1 _].
  destruct (N.eq_dec (snd (decode_rune p)) 1) as [E|E]; [assumption|]. exfalso.
  destruct (decode_rune_error3 p Hr ltac:(lia)) as [t ->]. cbn in Hf. discriminate.
Qed.
