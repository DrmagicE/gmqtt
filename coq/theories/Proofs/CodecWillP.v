(* PackWillProperties followed by UnpackWillProperties is the identity on the values
   UnpackWillProperties produces. *)
From Coq Require Import List NArith ZArith Bool Lia ZifyN ZifyNat ZifyBool Sorted.
Import ListNotations.
From GM Require Import Base.Topic Base.Msg Model.CodecBase Model.CodecProps
  Proofs.ListP Proofs.CodecBaseP Proofs.CodecStrP Proofs.CodecTotalP Proofs.CodecPropsP Proofs.CodecPropsInvP.
Open Scope N_scope.

Definition will_inv (p : props) : Prop := props_invw will_okid p /\ pr_subid p = [].

Lemma will_inv_empty : will_inv props_empty.
Proof. split; [apply props_invw_empty|reflexivity]. Qed.

Lemma will_known : forall p, will_inv p -> forall e, In e (pr_single p) -> will_prop_known (fst e) = true.
Proof.
  intros p [(Hs & Hok & _) _] e He. destruct (Hok e He) as [H1 H2].
  unfold will_okid in H1. destruct (sval_ok_id _ _ H2) as [_ N38].
  destruct (will_prop_known (fst e)); [reflexivity|]. cbn [orb] in H1. lia.
Qed.

(* with will properties only, and no Subscription Identifier, PackWillProperties writes what Properties.Pack
   would: the known ids are 1, 2, 3, 8, 9 (below 11) and 24 (between 11 and 38) *)
Lemma will_body_eq : forall p, will_inv p -> will_props_body p = props_body p.
Proof.
  intros p Hinv. pose proof (will_known p Hinv) as Hk. destruct Hinv as [(Hs & Hok & _) Hnil].
  unfold will_props_body, props_body. fold f_lo. fold f_mid. fold f_hi. rewrite Hnil. cbn [flat_map app].
  rewrite (filter_all (fun e => will_prop_known (fst e))) by assumption.
  rewrite (filter_none f_hi), app_nil_r, app_assoc.
  - unfold pack_singles. rewrite <- flat_map_app. f_equal. f_equal.
    rewrite (split3 (pr_single p)) at 1; [|assumption|intros e He; apply (sval_ok_id _ (snd e)), Hok, He].
    rewrite (filter_none f_hi), app_nil_r; [reflexivity|].
    intros e He. specialize (Hk e He). unfold will_prop_known in Hk. unfold f_hi. lia.
  - intros e He. specialize (Hk e He). unfold will_prop_known in Hk. unfold f_hi. lia.
Qed.

Theorem will_props_unpack_pack : forall p rest,
  will_inv p -> len (will_props_body p) < 268435456 ->
  will_props_unpack (will_props_pack (Some p) ++ rest) = Ok (p, rest).
Proof.
  intros p rest Hinv Hlen. unfold will_props_pack. rewrite will_body_eq in * by assumption.
  rewrite <- app_assoc, will_props_unpack_gen.
  apply (gen_unpack_pack_body _ will_okid); auto using will_reader_safe, will_reader_ok. apply Hinv.
Qed.
