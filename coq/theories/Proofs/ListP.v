(* Facts about lists that the standard library lacks. *)
From Coq Require Import List Bool Arith Lia Sorted.
Import ListNotations.

Lemma NoDup_app_disjoint {A : Type} (xs ys : list A) :
  NoDup xs -> NoDup ys -> (forall x, In x xs -> ~ In x ys) -> NoDup (xs ++ ys).
Proof.
  induction 1 as [|x xs Hx Hnd IH]; intros Hys Hdis; [exact Hys|].
  cbn [app]. constructor.
  - intros Hin. apply in_app_or in Hin as [Hin|Hin]; [contradiction|].
    apply (Hdis x); [now left|exact Hin].
  - apply IH; [exact Hys|]. intros z Hz. apply Hdis. now right.
Qed.

Lemma NoDup_snoc {A} (l : list A) x : NoDup l -> ~ In x l -> NoDup (l ++ [x]).
Proof.
  intros Hl Hx. apply NoDup_app_disjoint; [exact Hl|constructor; [intros []|constructor]|].
  intros y Hy [<-|[]]. contradiction.
Qed.

Section NoDup.
  Context {A B : Type}.

  (* injectivity is only needed on the elements of the list *)
  Lemma NoDup_map_inj (f : A -> B) l :
    (forall x y, In x l -> In y l -> f x = f y -> x = y) -> NoDup l -> NoDup (map f l).
  Proof.
    intros Hinj Hnd. induction Hnd as [|x r Hx Hr IH]; cbn [map]; constructor.
    - intros Hin. apply in_map_iff in Hin as (y & Ey & Hy).
      assert (y = x) by (apply Hinj; [now right|now left|exact Ey]). subst y. contradiction.
    - apply IH. intros a b Ha Hb. apply Hinj; now right.
  Qed.

  Lemma NoDup_map_filter (f : A -> B) (p : A -> bool) (l : list A) :
    NoDup (map f l) -> NoDup (map f (filter p l)).
  Proof.
    induction l as [|x r IH]; cbn [filter map]; intros Hnd; [constructor|].
    inversion Hnd as [|y ys Hy Hnd']; subst.
    destruct (p x); cbn [map]; [|now apply IH].
    constructor; [|now apply IH].
    intros Hin. apply Hy. apply in_map_iff in Hin as (z & Ez & Hz).
    apply filter_In in Hz as [Hz _]. apply in_map_iff. now exists z.
  Qed.

  Lemma NoDup_flat_map (F : A -> list B) (L : list A) :
    NoDup L -> (forall a, In a L -> NoDup (F a)) ->
    (forall a b y, In a L -> In b L -> In y (F a) -> In y (F b) -> a = b) ->
    NoDup (flat_map F L).
  Proof.
    induction 1 as [|a r Ha Hnd IH]; intros Hone Hdis; cbn [flat_map]; [constructor|].
    apply NoDup_app_disjoint.
    - apply Hone. now left.
    - apply IH.
      + intros b Hb. apply Hone. now right.
      + intros b1 b2 y H1 H2. apply Hdis; now right.
    - intros y Hy Hin. apply in_flat_map in Hin as (b & Hb & Hyb).
      assert (a = b) by (apply (Hdis a b y); [now left|now right|exact Hy|exact Hyb]).
      subst b. contradiction.
  Qed.
End NoDup.

Lemma NoDup_map_cons {A : Type} (a : A) (xs : list (list A)) :
  NoDup xs -> NoDup (map (cons a) xs).
Proof. apply NoDup_map_inj. intros x y _ _ E. now injection E. Qed.

Section Pieces.
  Context {A : Type}.
  Implicit Types (l : list A) (n m : nat).

  Lemma In_firstn (x : A) n l : In x (firstn n l) -> In x l.
  Proof. intros H. rewrite <- (firstn_skipn n l). apply in_or_app. now left. Qed.

  Lemma In_skipn (x : A) n l : In x (skipn n l) -> In x l.
  Proof. intros H. rewrite <- (firstn_skipn n l). apply in_or_app. now right. Qed.

  Lemma Forall_firstn (P : A -> Prop) n l : Forall P l -> Forall P (firstn n l).
  Proof. rewrite !Forall_forall. intros H x Hx. apply H. now apply In_firstn in Hx. Qed.

  Lemma Forall_skipn (P : A -> Prop) n l : Forall P l -> Forall P (skipn n l).
  Proof. rewrite !Forall_forall. intros H x Hx. apply H. now apply In_skipn in Hx. Qed.

  Lemma skipn_add n m l : skipn (n + m) l = skipn m (skipn n l).
  Proof.
    revert l. induction n as [|n IH]; intros l; [reflexivity|].
    destruct l as [|x r]; cbn [Nat.add skipn]; [now rewrite skipn_nil|apply IH].
  Qed.

  Lemma NoDup_firstn l : NoDup l -> forall n, NoDup (firstn n l).
  Proof.
    induction 1 as [|x r Hx Hr IH]; intros [|n]; cbn [firstn]; constructor; [|apply IH].
    intros Hin. now apply In_firstn in Hin.
  Qed.

  Lemma NoDup_skipn l : NoDup l -> forall n, NoDup (skipn n l).
  Proof. induction 1 as [|x r Hx Hr IH]; intros [|n]; cbn [skipn]; try constructor; auto. Qed.

  Lemma firstn_app_len (a b : list A) : firstn (length a) (a ++ b) = a.
  Proof. rewrite <- (Nat.add_0_r (length a)), firstn_app_2. apply app_nil_r. Qed.

  Lemma skipn_app_len (a b : list A) : skipn (length a) (a ++ b) = b.
  Proof. now rewrite skipn_app, skipn_all, Nat.sub_diag. Qed.

  Lemma firstn_app_cut k (a b : list A) :
    firstn k (a ++ b) = firstn k a \/ firstn k (a ++ b) = a ++ firstn (k - length a) b.
  Proof.
    rewrite firstn_app. destruct (Nat.le_gt_cases (length a) k) as [H|H].
    - right. now rewrite firstn_all2.
    - left. replace (k - length a) with 0 by lia. apply app_nil_r.
  Qed.

  Lemma firstn_min_len l n m : length l <= m -> firstn (Nat.min n m) l = firstn n l.
  Proof. intros H. now rewrite <- firstn_firstn, (firstn_all2 (n := m)). Qed.

  Lemma skipn_min_len l n m : length l <= m -> skipn (Nat.min n m) l = skipn n l.
  Proof.
    intros H. destruct (Nat.min_spec n m) as [[_ ->]|[Hle ->]]; [reflexivity|].
    rewrite !skipn_all2; [reflexivity|lia|exact H].
  Qed.

  Lemma skipn_firstn_len l : forall n, skipn (length (firstn n l)) l = skipn n l.
  Proof. induction l as [|x r IH]; intros [|n]; cbn [firstn length skipn]; auto. Qed.

  Lemma skipn_nth_cons l : forall i v, nth_error l i = Some v -> skipn i l = v :: skipn (S i) l.
  Proof.
    induction l as [|x r IH]; intros [|i] v H; cbn [nth_error] in H; try discriminate.
    - now injection H as ->.
    - exact (IH i v H).
  Qed.

  Lemma firstn_S_nth l i d : i < length l -> firstn (S i) l = firstn i l ++ [nth i l d].
  Proof.
    revert i. induction l as [|x r IH]; intros [|i] Hi; cbn [length] in Hi; try lia; [reflexivity|].
    cbn [firstn nth app]. f_equal. apply IH. lia.
  Qed.

  Lemma nth_split2 l : forall p q x y, nth_error l p = Some x -> nth_error l q = Some y -> p < q ->
    exists l1 l2 l3, l = l1 ++ x :: l2 ++ y :: l3.
  Proof.
    intros p q x y Hp Hq Hlt. apply nth_error_split in Hp as (l1 & r & -> & Hl).
    rewrite nth_error_app2 in Hq by lia. rewrite Hl in Hq.
    destruct (q - p) as [|d] eqn:Ed; [lia|]. cbn [nth_error] in Hq.
    apply nth_error_split in Hq as (l2 & l3 & -> & _). now exists l1, l2, l3.
  Qed.

  (* position a of the i-th piece, counted in the concatenation *)
  Lemma nth_concat : forall (L : list (list A)) i li a x,
    nth_error L i = Some li -> nth_error li a = Some x ->
    nth_error (concat L) (length (concat (firstn i L)) + a) = Some x.
  Proof.
    induction L as [|l0 L IH]; intros [|i] li a x Hi Ha; cbn [nth_error] in Hi; try discriminate.
    - injection Hi as <-. cbn [firstn concat length Nat.add].
      rewrite nth_error_app1; [exact Ha|]. apply nth_error_Some. congruence.
    - cbn [firstn concat]. rewrite app_length, <- Nat.add_assoc, nth_error_app2 by lia.
      replace (length l0 + _ - length l0) with (length (concat (firstn i L)) + a) by lia.
      now apply (IH i li).
  Qed.

  Lemma In_tl (x : A) l : In x (tl l) -> In x l.
  Proof. destruct l; cbn [tl In]; auto. Qed.

  Lemma last_cons (b : A) l d : last (b :: l) d = last l b.
  Proof.
    revert b d. induction l as [|c l IH]; intros b d; [reflexivity|].
    change (last (b :: c :: l) d) with (last (c :: l) d). now rewrite !IH.
  Qed.

  Lemma last_in l d : l <> [] -> In (last l d) l.
  Proof.
    induction l as [|a l IH]; [congruence|]. intros _. destruct l as [|b l]; [now left|].
    right. apply IH. discriminate.
  Qed.
End Pieces.

Section Forall2.
  Context {A B : Type}.
  Implicit Types (P Q : A -> B -> Prop) (l : list A) (m : list B).

  Lemma Forall2_length P l m : Forall2 P l m -> length l = length m.
  Proof. induction 1; cbn [length]; auto. Qed.

  Lemma Forall2_impl_in P Q l m :
    (forall x y, In x l -> P x y -> Q x y) -> Forall2 P l m -> Forall2 Q l m.
  Proof.
    intros H F. induction F as [|x y l m Hxy F IH]; constructor.
    - apply H; [now left|exact Hxy].
    - apply IH. intros a b Ha. apply H. now right.
  Qed.

  Lemma Forall2_impl P Q l m : (forall x y, P x y -> Q x y) -> Forall2 P l m -> Forall2 Q l m.
  Proof. intros H. apply Forall2_impl_in. intros x y _. apply H. Qed.

  Lemma Forall2_right P (Q : B -> Prop) l m :
    Forall2 P l m -> (forall x y, In x l -> P x y -> Q y) -> Forall Q m.
  Proof.
    induction 1 as [|x y l m Hxy F IH]; intros H; constructor.
    - apply (H x y); [now left|exact Hxy].
    - apply IH. intros a b Ha. apply H. now right.
  Qed.

  Lemma Forall2_firstn P l m : Forall2 P l m -> forall n, Forall2 P (firstn n l) (firstn n m).
  Proof. induction 1; intros [|n]; cbn [firstn]; auto. Qed.

  Lemma Forall2_skipn P l m : Forall2 P l m -> forall n, Forall2 P (skipn n l) (skipn n m).
  Proof. induction 1; intros [|n]; cbn [skipn]; auto. Qed.

  Lemma Forall2_nth_r P l m : Forall2 P l m ->
    forall i y, nth_error m i = Some y -> exists x, nth_error l i = Some x /\ P x y.
  Proof.
    induction 1 as [|x0 y0 l m Hxy H IH]; intros [|i] y Hn; cbn [nth_error] in *; try discriminate.
    - injection Hn as <-. eauto.
    - eauto.
  Qed.

  Lemma Forall2_in_split P l m d :
    Forall2 P l m -> In d l -> exists m1 x m2 l1, m = m1 ++ x :: m2 /\ P d x /\ Forall2 P l1 m1.
  Proof.
    intros H Hin. apply in_split in Hin as (l1 & l2 & ->).
    apply Forall2_app_inv_l in H as (m1 & m2' & H1 & H2 & ->).
    inversion H2 as [|? x ? m2 Hx H3]; subst. exists m1, x, m2, l1. auto.
  Qed.

  Lemma existsb_Forall2 P (f : A -> bool) (g : B -> bool) l m :
    (forall x y, P x y -> g y = f x) -> Forall2 P l m -> existsb g m = existsb f l.
  Proof.
    intros Hfg H. induction H as [|x y l m Hxy _ IH]; cbn [existsb]; [reflexivity|].
    now rewrite (Hfg x y Hxy), IH.
  Qed.
End Forall2.

Lemma Forall2_map2 {A B} (P : A -> B -> Prop) (f : A -> A) (g : B -> B) l m :
  (forall x y, P x y -> P (f x) (g y)) -> Forall2 P l m -> Forall2 P (map f l) (map g m).
Proof. intros Hf. induction 1; cbn [map]; auto. Qed.

Lemma existsb_map {A B} (f : B -> bool) (g : A -> B) l :
  existsb f (map g l) = existsb (fun x => f (g x)) l.
Proof. induction l; cbn [map existsb]; congruence. Qed.

Lemma existsb_ext {A} (f g : A -> bool) l : (forall x, f x = g x) -> existsb f l = existsb g l.
Proof. intros H. induction l; cbn [existsb]; congruence. Qed.

Lemma existsb_nth_error {A} (f : A -> bool) l k x :
  nth_error l k = Some x -> f x = true -> existsb f l = true.
Proof. intros Hk Hx. apply existsb_exists. exists x. split; [eapply nth_error_In; eauto|exact Hx]. Qed.

Section Filter.
  Context {A : Type}.
  Implicit Types (f p q : A -> bool) (l : list A).

  Lemma Forall_filter (P : A -> Prop) f l : Forall P l -> Forall P (filter f l).
  Proof. rewrite !Forall_forall. intros H x Hin. apply filter_In in Hin as [Hin _]. auto. Qed.

  Lemma filter_none f l : (forall x, In x l -> f x = false) -> filter f l = [].
  Proof.
    induction l as [|x r IH]; intros H; cbn [filter]; [reflexivity|].
    rewrite (H x) by now left. apply IH. intros y Hy. apply H. now right.
  Qed.

  Lemma filter_all f l : (forall x, In x l -> f x = true) -> filter f l = l.
  Proof.
    induction l as [|x r IH]; intros H; cbn [filter]; [reflexivity|].
    rewrite (H x) by now left. f_equal. apply IH. intros y Hy. apply H. now right.
  Qed.

  Lemma filter_filter p q l : filter q (filter p l) = filter (fun x => p x && q x) l.
  Proof.
    induction l as [|x r IH]; [reflexivity|]. cbn [filter].
    destruct (p x); cbn [andb filter]; [|exact IH]. destruct (q x); now rewrite IH.
  Qed.

  Lemma filter_filter_imp p q l :
    (forall x, p x = true -> q x = true) -> filter p (filter q l) = filter p l.
  Proof.
    intros H. rewrite filter_filter. apply filter_ext. intros x.
    destruct (p x) eqn:Ep; [|apply andb_false_r]. now rewrite (H x Ep).
  Qed.

  Lemma filter_filter_neg p l : filter p (filter (fun x => negb (p x)) l) = [].
  Proof.
    apply filter_none. intros x Hx. apply filter_In in Hx as [_ Hx].
    now apply negb_true_iff in Hx.
  Qed.

  Lemma filter_snoc_len p l x :
    length (filter p (l ++ [x])) = length (filter p l) + (if p x then 1 else 0).
  Proof. rewrite filter_app, app_length. cbn [filter]. destruct (p x); reflexivity. Qed.

  Lemma filter_partition_len p q l :
    length (filter p l) =
    length (filter p (filter (fun x => negb (q x)) l)) + length (filter p (filter q l)).
  Proof.
    induction l as [|x r IH]; [reflexivity|]. cbn [filter].
    destruct (q x); cbn [negb filter]; destruct (p x); cbn [length]; lia.
  Qed.

  Lemma partition_len q l :
    length l = length (filter (fun x => negb (q x)) l) + length (filter q l).
  Proof.
    induction l as [|x r IH]; [reflexivity|]. cbn [filter length].
    destruct (q x); cbn [negb length]; lia.
  Qed.

  Lemma filter_comm p q l : filter p (filter q l) = filter q (filter p l).
  Proof. rewrite !filter_filter. apply filter_ext. intros a. apply andb_comm. Qed.

  Lemma filter_len_pos p x l : In x l -> p x = true -> 1 <= length (filter p l).
  Proof.
    intros Hin Hp. assert (H : In x (filter p l)) by now apply filter_In.
    destruct (filter p l); [destruct H|cbn [length]; lia].
  Qed.

  Lemma filter_nonnil_in p l : filter p l <> [] -> exists x, In x l /\ p x = true.
  Proof.
    destruct (filter p l) as [|x r] eqn:E; [congruence|]. intros _. exists x.
    apply filter_In. rewrite E. now left.
  Qed.

  Lemma concat_map_filter p (L : list (list A)) : concat (map (filter p) L) = filter p (concat L).
  Proof. induction L as [|l L IH]; cbn [map concat]; [reflexivity|]. now rewrite filter_app, IH. Qed.
End Filter.

Section Sorted.
  Context {A : Type} {R : A -> A -> Prop}.

  Lemma sorted_app (a b : list A) :
    StronglySorted R a -> StronglySorted R b -> (forall x y, In x a -> In y b -> R x y) ->
    StronglySorted R (a ++ b).
  Proof.
    induction 1 as [|x r Hr IH Hx]; intros Hb Hab; cbn [app]; [exact Hb|].
    constructor.
    - apply IH; [exact Hb|]. intros u v Hu. apply Hab. now right.
    - apply Forall_app. split; [exact Hx|]. apply Forall_forall. intros y Hy. apply Hab; [now left|exact Hy].
  Qed.

  Lemma sorted_app_lt (x y : list A) :
    StronglySorted R (x ++ y) -> forall u v, In u x -> In v y -> R u v.
  Proof.
    induction x as [|a x IH]; cbn [app]; intros Hs u v Hu Hv; [destruct Hu|].
    inversion Hs as [|? ? Hs' Ha]; subst. destruct Hu as [<-|Hu]; [|now apply (IH Hs')].
    rewrite Forall_forall in Ha. apply Ha. apply in_or_app. now right.
  Qed.

  Lemma filter_sorted (f : A -> bool) l : StronglySorted R l -> StronglySorted R (filter f l).
  Proof.
    induction 1 as [|a l Hs IH Hall]; cbn [filter]; [constructor|]. destruct (f a); [|exact IH].
    constructor; [exact IH|]. now apply Forall_filter.
  Qed.
End Sorted.

Lemma fold_left_In_inv {A B} (P : B -> Prop) (f : B -> A -> B) l :
  (forall b a, In a l -> P b -> P (f b a)) -> forall b, P b -> P (fold_left f l b).
Proof.
  induction l as [|a r IH]; intros Hf b Hb; cbn [fold_left]; [exact Hb|].
  apply IH; [intros b' a' Ha'; apply Hf; now right|]. apply Hf; [now left|exact Hb].
Qed.

Lemma fold_left_inv {A B} (P : B -> Prop) (f : B -> A -> B) l :
  (forall b a, P b -> P (f b a)) -> forall b, P b -> P (fold_left f l b).
Proof. intros Hf. apply fold_left_In_inv. intros b a _. apply Hf. Qed.

Lemma fold_rel {A B} (R : B -> B -> Prop) (f : B -> A -> B) (l : list A) :
  (forall b, R b b) -> (forall a b c, R a b -> R b c -> R a c) ->
  (forall b x, R b (f b x)) -> forall b, R b (fold_left f l b).
Proof.
  intros Hr Ht Hf. induction l as [|x r IH]; intros b; cbn [fold_left]; [apply Hr|].
  eapply Ht; [apply Hf|apply IH].
Qed.

Lemma map_flat_map {A B C : Type} (f : B -> C) (g : A -> list B) (l : list A) :
  map f (flat_map g l) = flat_map (fun x => map f (g x)) l.
Proof.
  induction l as [|x xs IH]; cbn [flat_map map]; [reflexivity|]. now rewrite map_app, IH.
Qed.

Lemma map_as_flat_map {A B} (f : A -> B) (l : list A) : map f l = flat_map (fun x => [f x]) l.
Proof. induction l as [|x r IH]; [reflexivity|]. cbn [map flat_map app]. now rewrite IH. Qed.

Lemma filter_flat_map {A B} (p : B -> bool) (f : A -> list B) (l : list A) :
  filter p (flat_map f l) = flat_map (fun x => filter p (f x)) l.
Proof. induction l as [|x r IH]; [reflexivity|]. cbn [flat_map]. now rewrite filter_app, IH. Qed.

Lemma flat_map_ext_in {A B} (f g : A -> list B) (l : list A) :
  (forall a, In a l -> f a = g a) -> flat_map f l = flat_map g l.
Proof.
  induction l as [|x r IH]; intros H; [reflexivity|]. cbn [flat_map]. rewrite (H x (or_introl eq_refl)).
  f_equal. apply IH. intros y Hy. apply H. now right.
Qed.

Lemma fold_left_commute {A B} (g : B -> B) (f : B -> A -> B) (l : list A) :
  (forall b a, f (g b) a = g (f b a)) -> forall b, fold_left f l (g b) = g (fold_left f l b).
Proof. intros Hf. induction l as [|a l IH]; intros b; cbn [fold_left]; [reflexivity|]. now rewrite Hf, IH. Qed.
