(* The subscription view (second half of C16): after the fault-free suffix B's view of A's
   subscriptions equals A's local subscription set.  Sender side: the events of an epoch
   replay to the local topic set (full resynchronisation + hooks).  Receiver side: B's
   store for A is the replay of the events it applied. *)
From Coq Require Import List NArith Bool Arith Lia ZifyN ZifyNat ZifyBool.
Import ListNotations.
From GM Require Import Base.Topic Base.Msg Model.SubTrie Model.SubSpec Model.RetTrie Model.FedQueue Oracle.C16O
  Proofs.TopicP Proofs.ListP Proofs.SubTrieP Proofs.FedRouteP Proofs.FedP.
Open Scope N_scope.

(* what FromTopic produces: a share name without '/', and a non-shared filter that does
   not itself look like a shared one *)
Definition wf_share (g f : str) : bool :=
  no_slash g && (negb (is_empty g) || negb (has_prefix SHARE_PREFIX f)).

Definition wfform (t : str) : Prop := exists g f, wf_share g f = true /\ t = fed_full_topic g f.

Lemma split_full g f : wf_share g f = true -> split_topic (fed_full_topic g f) = (g, f).
Proof.
  unfold wf_share, fed_full_topic, split_topic. intros H. apply andb_true_iff in H as [Hns H].
  destruct g as [|a g].
  - cbn [is_empty negb orb] in *. apply negb_true_iff in H. now rewrite H.
  - cbn [is_empty]. rewrite has_prefix_app.
    replace (skipn 7 (SHARE_PREFIX ++ (a :: g) ++ SLASH :: f)) with ((a :: g) ++ SLASH :: f) by reflexivity.
    now rewrite (cut_slash_app (a :: g) f Hns).
Qed.

Lemma full_inj g f g' f' : wf_share g f = true -> wf_share g' f' = true ->
  fed_full_topic g f = fed_full_topic g' f' -> (g, f) = (g', f').
Proof. intros H H' E. rewrite <- (split_full g f H), <- (split_full g' f' H'). now rewrite E. Qed.

Definition wf_event (e : fevent) : Prop :=
  match e with ESub g f => wf_share g f = true | EUnsub t => wfform t | EMsg _ => True end.

(* the set of full topic names a sequence of events amounts to *)
Definition rm_name (t : str) (l : list str) : list str := filter (fun x => negb (str_eqb x t)) l.
Definition name_step (acc : list str) (e : fevent) : list str :=
  match e with
  | ESub g f => fed_full_topic g f :: acc
  | EUnsub t => rm_name t acc
  | EMsg _ => acc
  end.
Definition names (es : list fevent) : list str := fold_left name_step es [].

Lemma in_rm_name x t l : In x (rm_name t l) <-> In x l /\ x <> t.
Proof.
  unfold rm_name. rewrite filter_In. destruct (str_eqb_spec x t) as [E|E]; cbn [negb]; intuition congruence.
Qed.

Lemma names_snoc es e : names (es ++ [e]) = name_step (names es) e.
Proof. unfold names. now rewrite fold_left_app. Qed.

Lemma names_app es es' : names (es ++ es') = fold_left name_step es' (names es).
Proof. unfold names. now rewrite fold_left_app. Qed.

(* a block of Subscribe / message events adds exactly the subscribed names *)
Definition no_unsub (e : fevent) : Prop := match e with EUnsub _ => False | _ => True end.

Lemma fold_names_subs l : forall acc x, (forall e, In e l -> no_unsub e) ->
  In x (fold_left name_step l acc) <-> In x acc \/ exists g f, In (ESub g f) l /\ x = fed_full_topic g f.
Proof.
  induction l as [|e r IH]; intros acc x H; cbn [fold_left].
  - split; [now left|]. intros [H0|(g & f & [] & _)]. exact H0.
  - rewrite IH by (intros e' He'; apply H; now right).
    pose proof (H e (or_introl eq_refl)) as He. destruct e as [g f|t|m]; cbn [name_step no_unsub] in *; [|contradiction|].
    + cbn [In]. split.
      * intros [[<-|H0]|(g' & f' & Hin & ->)]; [right; exists g, f; split; [now left|reflexivity]|now left|right; exists g', f'; split; [now right|reflexivity]].
      * intros [H0|(g' & f' & [E|Hin] & ->)]; [left; now right|injection E as -> ->; left; now left|right; exists g', f'; now split].
    + split.
      * intros [H0|(g' & f' & Hin & ->)]; [now left|right; exists g', f'; split; [now right|reflexivity]].
      * intros [H0|(g' & f' & [E|Hin] & ->)]; [now left|discriminate|right; exists g', f'; now split].
Qed.

(* a block of Unsubscribe events removes exactly the unsubscribed names *)
Lemma fold_names_unsubs ts : forall acc x,
  In x (fold_left name_step (map EUnsub ts) acc) <-> In x acc /\ ~ In x ts.
Proof.
  induction ts as [|t r IH]; intros acc x; cbn [map fold_left In]; [tauto|].
  rewrite IH. cbn [name_step]. rewrite in_rm_name. intuition congruence.
Qed.

Lemma fevent_eqb_shape a b : fevent_eqb a b = true ->
  match a with EMsg _ => exists m', b = EMsg m' | _ => a = b end.
Proof.
  destruct a as [g f|t|m], b as [g' f'|t'|m']; cbn [fevent_eqb]; try discriminate.
  - intros H. apply andb_true_iff in H as [H1 H2].
    destruct (str_eqb_spec g g'), (str_eqb_spec f f'); try discriminate. now subst.
  - intros H. destruct (str_eqb_spec t t'); [now subst|discriminate].
  - intros _. now exists m'.
Qed.

Lemma fevent_eqb_refl_nm a : match a with EMsg _ => True | _ => fevent_eqb a a = true end.
Proof. destruct a as [g f|t|m]; cbn [fevent_eqb]; [now rewrite !str_eqb_refl|now rewrite str_eqb_refl|exact I]. Qed.

(* for Subscribe / Unsubscribe events the resolved list has the same elements as the expected one *)
Lemma resolve_in_nm expected given e :
  match e with EMsg _ => False | _ => True end ->
  (In e (fq_resolve expected given) <-> In e expected).
Proof.
  intros Hnm. unfold fq_resolve. destruct (ev_perm expected given) eqn:Hp; [|tauto]. split.
  - intros Hin. destruct (ev_perm_in _ _ Hp e Hin) as (y & Hy & E). apply fevent_eqb_shape in E.
    destruct y as [g f|t|m]; [now subst|now subst|]. destruct E as [m' ->]. destruct Hnm.
  - intros Hin. destruct (ev_perm_in_rev _ _ Hp e Hin) as (z & Hz & E). apply fevent_eqb_shape in E.
    destruct e as [g f|t|m]; [now subst|now subst|destruct Hnm].
Qed.

Definition tkeys (tp : ltopics) : list str := map fst tp.

(* what ls_dec does to the key set *)
Lemma ls_dec_keys t tp x : NoDup (tkeys tp) ->
  (In x (tkeys (ls_dec t tp)) <-> In x (tkeys tp) /\ (x = t -> ahas t (ls_dec t tp) = true)).
Proof.
  intros Hnd. unfold ls_dec, tkeys in *. destruct (aget t tp) as [n|] eqn:Hg.
  - destruct (n <=? 1) eqn:Hn.
    + rewrite (in_keys_adel_iff _ _ _ Hnd). unfold ahas. rewrite aget_adel by exact Hnd. rewrite str_eqb_refl.
      split; [intros [Hx H]; split; [exact H|congruence]|intros [H Hx]; split; [intros ->; specialize (Hx eq_refl); discriminate|exact H]].
    + rewrite in_keys_aset_iff. unfold ahas. rewrite aget_aset_same.
      split; [intros [->|H]; [split; [|reflexivity]; apply aget_in_keys in Hg; exact Hg|now split]|intros [H _]; now right].
  - unfold ahas. rewrite Hg. split; [intros H; split; [exact H|intros ->]|tauto].
    apply aget_none in Hg. contradiction.
Qed.

Lemma ls_dec_nodup t tp : NoDup (tkeys tp) -> NoDup (tkeys (ls_dec t tp)).
Proof.
  intros H. unfold ls_dec, tkeys. destruct (aget t tp) as [n|]; [|exact H].
  destruct (n <=? 1); [now apply NoDup_adel|now apply NoDup_aset].
Qed.

Lemma ls_dec_all_keys ks : forall tp x, NoDup (tkeys tp) ->
  (In x (tkeys (fst (ls_dec_all ks tp))) <-> In x (tkeys tp) /\ ~ In x (snd (ls_dec_all ks tp))) /\
  NoDup (tkeys (fst (ls_dec_all ks tp))).
Proof.
  induction ks as [|t r IH]; intros tp x Hnd; cbn [ls_dec_all].
  - cbn [fst snd In]. split; [tauto|exact Hnd].
  - destruct (ls_dec_all r (ls_dec t tp)) as [tp'' rm] eqn:Hd.
    destruct (IH (ls_dec t tp) x (ls_dec_nodup t tp Hnd)) as [Hiff Hnd'']. rewrite Hd in Hiff, Hnd''. cbn [fst snd] in *.
    split; [|exact Hnd'']. rewrite Hiff, (ls_dec_keys t tp x Hnd).
    destruct (ahas t (ls_dec t tp)) eqn:Ha.
    + split; [intros [[H _] Hr]; now split|intros [H Hr]; split; [split; [exact H|reflexivity]|exact Hr]].
    + cbn [In]. split.
      * intros [[H Hx] Hr]. split; [exact H|]. intros [->|Hin]; [specialize (Hx eq_refl); discriminate|contradiction].
      * intros [H Hr]. split; [split; [exact H|intros ->; exfalso; apply Hr; now left]|intros Hin; apply Hr; now right].
Qed.

Lemma ls_dec_all_sub ks : forall tp x, In x (tkeys (fst (ls_dec_all ks tp))) -> NoDup (tkeys tp) -> In x (tkeys tp).
Proof. intros tp x H Hnd. now apply (proj1 (ls_dec_all_keys ks tp x Hnd)) in H. Qed.

Definition EN (s : fstate) : list str := names (map snd (Eof s)).
Definition AN (s : fstate) : list str := names (map snd (Aof s)).
(* the full topic names B's store holds for A *)
Definition SNP (sp : spec) (x : str) : Prop :=
  exists g f v, sp_get (NODE_A, g, f) sp = Some v /\ x = fed_full_topic g f.

Record VW (s : fstate) : Prop := {
  vw_nd : NoDup (tkeys (a_topics s));
  vw_pos : forall t n, In (t, n) (a_topics s) -> 1 <= n;
  vw_tform : forall t, In t (tkeys (a_topics s)) -> wfform t;
  vw_iform : forall c ks, In (c, ks) (a_index s) -> forall t, In t ks -> wfform t;
  vw_ev : forall t, In t (emitted s) -> wf_event (snd t);
  (* sender: while B holds A's session, the events of the epoch replay to the local topic set *)
  vw_local : matched s = true -> forall x, In x (tkeys (a_topics s)) <-> In x (EN s);
  vw_fed : fb_fed s = db_run (fb_ops s);
  vw_wf : wf_ops (fb_ops s) = true;
  vw_keys : forall g f v, sp_get (NODE_A, g, f) (spec_run (fb_ops s)) = Some v -> wf_share g f = true;
  (* receiver: B's store for A is the replay of the events it applied in the epoch *)
  vw_view : matched s = true -> forall x, SNP (spec_run (fb_ops s)) x <-> In x (AN s) }.

Lemma VW_stream s s' : stream_only s s' -> VW s -> VW s'.
Proof.
  intros [[Ha H3] Hb]. pose proof (f_equal k_match (kof_aframe _ _ Ha)) as Hm. cbn [kof k_match] in Hm.
  unfold aframe, bstore in Ha, Hb. injection Ha as H1 H2 _ H4 _ _ _ _. injection Hb as H7 H6 H5.
  intros [A1 A2 A3 A4 A5 A6 A7 A8 A9 A10].
  constructor; unfold EN, AN, Eof, Aof in *; rewrite ?H1, ?H2, ?H3, ?H4, ?H5, ?H6, ?H7, ?Hm; assumption.
Qed.

(* emitting in the current epoch *)
Lemma Eof_emit1 e s p : a_peer s = Some p -> Eof (emit1 e s) = Eof s ++ [(evq_next (p_q p), e)].
Proof. intros Hp. unfold emit1, Eof. rewrite Hp. sfields. now rewrite proj_app, proj_one_same. Qed.

Lemma EN_emit1 e s : is_some (a_peer s) = true -> EN (emit1 e s) = name_step (EN s) e.
Proof.
  destruct (a_peer s) as [p|] eqn:Hp; [|discriminate]. intros _. unfold EN. rewrite (Eof_emit1 e s p Hp), map_app. cbn [map snd].
  apply names_snoc.
Qed.

Lemma EN_emit_list es : forall s, is_some (a_peer s) = true -> EN (emit_list es s) = fold_left name_step es (EN s).
Proof.
  unfold emit_list. induction es as [|e r IH]; intros s Hp; cbn [fold_left]; [reflexivity|].
  assert (Hp' : is_some (a_peer (emit1 e s)) = true) by (unfold emit1; destruct (a_peer s); [reflexivity|discriminate]).
  rewrite (IH _ Hp'), (EN_emit1 e s Hp). reflexivity.
Qed.

Lemma emit1_nopeer e s : a_peer s = None -> emit1 e s = s.
Proof. intros H. unfold emit1. now rewrite H. Qed.

Lemma matched_some s : matched s = true -> is_some (a_peer s) = true.
Proof. unfold matched. destruct (a_peer s); [reflexivity|discriminate]. Qed.

Lemma emitted_emit_list es : forall s t, In t (emitted (emit_list es s)) -> In t (emitted s) \/ In (snd t) es.
Proof.
  unfold emit_list. induction es as [|e r IH]; intros s t Ht; cbn [fold_left] in Ht; [now left|].
  apply IH in Ht as [Ht|Ht]; [|right; now right].
  unfold emit1 in Ht. destruct (a_peer s) as [p|]; [|now left]. sfields.
  apply in_app_or in Ht as [Ht|[<-|[]]]; [now left|right; now left].
Qed.

Lemma VW_emit_gen s ix tp es :
  VW s ->
  NoDup (tkeys tp) -> (forall t n, In (t, n) tp -> 1 <= n) -> (forall t, In t (tkeys tp) -> wfform t) ->
  (forall c ks, In (c, ks) ix -> forall t, In t ks -> wfform t) ->
  (forall e, In e es -> wf_event e) ->
  (matched s = true -> forall x, In x (tkeys tp) <-> In x (fold_left name_step es (EN s))) ->
  VW (emit_list es (set_local ix tp s)).
Proof.
  intros [A1 A2 A3 A4 A5 A6 A7 A8 A9 A10] B1 B2 B3 B4 B5 B6.
  destruct (emit_list_frame es (set_local ix tp s)) as (Ha & Hb & _).
  pose proof (f_equal k_match (kof_aframe _ _ Ha)) as Hm. cbn [kof k_match] in Hm. change (matched (set_local ix tp s)) with (matched s) in Hm.
  unfold aframe, bstore in Ha, Hb. sfields. injection Ha as C1 C2 _ C3 _ _ _ _. injection Hb as C6 C5 C4.
  constructor; rewrite ?C1, ?C2, ?C5, ?C6, ?Hm; try assumption.
  - intros t Ht. apply emitted_emit_list in Ht as [Ht|Ht]; [now apply A5|now apply B5].
  - intros Hmt x. rewrite EN_emit_list by (apply matched_some in Hmt; exact Hmt). now apply B6.
  - intros Hmt x. unfold AN, Aof. rewrite C3, C4. now apply A10.
Qed.

Lemma VW_same_local s : VW s -> VW (set_local (a_index s) (a_topics s) s).
Proof. apply VW_stream. now repeat split. Qed.

Lemma VW_sub s c g f : VW s -> wf_share g f = true ->
  VW (let '(ix, tp, fresh) := ls_subscribe c (fed_full_topic g f) (a_index s) (a_topics s) in
      let s1 := set_local ix tp s in if fresh then emit1 (ESub g f) s1 else s1).
Proof.
  intros H Hwf. pose proof H as [A1 A2 A3 A4 A5 A6 A7 A8 A9 A10].
  set (t := fed_full_topic g f). unfold ls_subscribe.
  assert (Hform : wfform t) by (exists g, f; now split).
  destruct (mem_str t (keys_of_client c (a_index s))) eqn:Hmem; [now apply VW_same_local|].
  set (n := match aget t (a_topics s) with Some n => n | None => 0 end + 1).
  assert (B1 : NoDup (tkeys (aset t n (a_topics s)))) by (unfold tkeys; now apply NoDup_aset).
  assert (B2 : forall k m, In (k, m) (aset t n (a_topics s)) -> 1 <= m).
  { intros k m Hin. apply in_aset in Hin as [E|Hin]; [injection E as _ ->; subst n; lia|now apply (A2 k m)]. }
  assert (B3 : forall k, In k (tkeys (aset t n (a_topics s))) -> wfform k).
  { intros k Hk. apply in_keys_aset in Hk as [->|Hk]; [exact Hform|now apply A3]. }
  assert (B4 := index_all_subscribe wfform c t _ A4 Hform).
  (* fresh <-> the topic was not there *)
  assert (Hfresh : (n =? 1) = true <-> ~ In t (tkeys (a_topics s))).
  { subst n. unfold tkeys. rewrite <- aget_none. destruct (aget t (a_topics s)) as [m|] eqn:Hg.
    - apply aget_In in Hg. apply A2 in Hg. split; [intros E; apply N.eqb_eq in E; lia|discriminate].
    - split; reflexivity. }
  destruct (n =? 1) eqn:Hn.
  - apply (VW_emit_gen s _ _ [ESub g f] H B1 B2 B3 B4); [intros e [<-|[]]; exact Hwf|].
    intros Hm x. cbn [fold_left name_step]. unfold tkeys. rewrite in_keys_aset_iff. fold t. cbn [In]. rewrite <- (A6 Hm x). unfold tkeys. intuition.
  - apply (VW_emit_gen s _ _ [] H B1 B2 B3 B4); [intros e []|].
    intros Hm x. cbn [fold_left]. rewrite <- (A6 Hm x). unfold tkeys. rewrite in_keys_aset_iff.
    assert (In t (map fst (a_topics s))).
    { destruct (in_dec (list_eq_dec N.eq_dec) t (tkeys (a_topics s))) as [Hi|Hi]; [exact Hi|]. apply Hfresh in Hi. discriminate. }
    split; [intros [->|Hx]; assumption|now right].
Qed.

Lemma VW_unsub s c t : VW s ->
  VW (let '(ix, tp, gone) := ls_unsubscribe c t (a_index s) (a_topics s) in
      let s1 := set_local ix tp s in if gone then emit1 (EUnsub t) s1 else s1).
Proof.
  intros H. pose proof H as [A1 A2 A3 A4 A5 A6 A7 A8 A9 A10]. unfold ls_unsubscribe.
  destruct (aget c (a_index s)) as [keys|] eqn:Hk; [|now apply VW_same_local].
  destruct (mem_str t keys) eqn:Hmem; [|now apply VW_same_local].
  assert (Hform : wfform t) by (apply mem_str_In in Hmem; apply aget_In in Hk; now apply (A4 c keys)).
  assert (B4 := index_all_unsubscribe wfform c t keys _ A4 Hk).
  assert (B1 := ls_dec_nodup t _ A1).
  assert (B2 : forall k n, In (k, n) (ls_dec t (a_topics s)) -> 1 <= n)
    by (apply (ls_dec_keeps (fun _ n => 1 <= n)); [intros; lia|exact A2]).
  assert (B3 : forall k, In k (tkeys (ls_dec t (a_topics s))) -> wfform k).
  { intros k Hkk. apply (ls_dec_keys t _ k A1) in Hkk as [Hkk _]. now apply A3. }
  destruct (ahas t (ls_dec t (a_topics s))) eqn:Ha; cbn [negb].
  - apply (VW_emit_gen s _ _ [] H B1 B2 B3 B4); [intros e []|].
    intros Hm x. cbn [fold_left]. rewrite (ls_dec_keys t _ x A1), Ha, <- (A6 Hm x). tauto.
  - apply (VW_emit_gen s _ _ [EUnsub t] H B1 B2 B3 B4); [intros e [<-|[]]; exact Hform|].
    intros Hm x. cbn [fold_left name_step]. rewrite (ls_dec_keys t _ x A1), Ha, in_rm_name, <- (A6 Hm x).
    split; [intros [Hx Hne]; split; [exact Hx|intros ->; specialize (Hne eq_refl); discriminate]|intros [Hx Hne]; split; [exact Hx|congruence]].
Qed.

Lemma fold_names_unsubs_gen L : (forall e, In e L -> exists t, e = EUnsub t) ->
  forall acc x, In x (fold_left name_step L acc) <-> In x acc /\ forall t, In (EUnsub t) L -> x <> t.
Proof.
  induction L as [|e r IH]; intros H acc x; cbn [fold_left].
  - split; [intros Hx; split; [exact Hx|intros t []]|tauto].
  - destruct (H e (or_introl eq_refl)) as [t ->]. rewrite IH by (intros e' He'; apply H; now right).
    cbn [name_step]. rewrite in_rm_name. split.
    + intros [[Hx Hne] Hr]. split; [exact Hx|]. intros t' [E|Hin]; [injection E as <-; exact Hne|now apply Hr].
    + intros [Hx Hr]. split; [split; [exact Hx|apply Hr; now left]|intros t' Hin; apply Hr; now right].
Qed.

Lemma wf_event_eqb a b : fevent_eqb a b = true -> wf_event a -> wf_event b.
Proof. intros E H. apply fevent_eqb_shape in E. destruct a; [now subst|now subst|destruct E as [m' ->]; exact I]. Qed.

Lemma VW_term s c order : VW s ->
  VW (let '(ix, tp, rm) := ls_unsubscribe_all c (a_index s) (a_topics s) in
      emit_list (fq_resolve (map EUnsub rm) order) (set_local ix tp s)).
Proof.
  intros H. pose proof H as [A1 A2 A3 A4 A5 A6 A7 A8 A9 A10]. unfold ls_unsubscribe_all.
  set (ks := keys_of_client c (a_index s)).
  destruct (ls_dec_all ks (a_topics s)) as [tp' rm] eqn:Hd.
  assert (Hkeys : forall x, (In x (tkeys tp') <-> In x (tkeys (a_topics s)) /\ ~ In x rm) /\ NoDup (tkeys tp')).
  { intros x. pose proof (ls_dec_all_keys ks (a_topics s) x A1) as Hk. now rewrite Hd in Hk. }
  assert (Hrm : forall t, In t rm -> wfform t).
  { intros t Ht. apply (keys_of_client_all wfform c _ A4). apply (ls_dec_all_rm ks (a_topics s)). now rewrite Hd. }
  apply (VW_emit_gen s _ _ _ H).
  - exact (proj2 (Hkeys [])).
  - intros t n Hin. refine (ls_dec_all_keeps (fun _ n => 1 <= n) _ ks _ A2 t n _); [intros; lia|now rewrite Hd].
  - intros t Ht. apply (Hkeys t) in Ht as [Ht _]. now apply A3.
  - now apply index_all_adel.
  - apply (resolve_kind _ _ wf_event wf_event_eqb). intros e He. apply in_map_iff in He as (t & <- & Ht). now apply Hrm.
  - intros Hm x.
    assert (HL : forall e, In e (fq_resolve (map EUnsub rm) order) -> exists t, e = EUnsub t).
    { apply (resolve_kind _ _ (fun e => exists t, e = EUnsub t)).
      - intros a b E [t ->]. apply fevent_eqb_shape in E. now exists t.
      - intros e He. apply in_map_iff in He as (t & <- & _). now exists t. }
    rewrite (fold_names_unsubs_gen _ HL), (proj1 (Hkeys x)), (A6 Hm x).
    split; intros [Hx Hr]; (split; [exact Hx|]).
    + intros t Hin Ext. subst t. apply Hr. apply (proj1 (resolve_in_nm (map EUnsub rm) order (EUnsub x) I)) in Hin.
      apply in_map_iff in Hin as (t' & E & Ht'). now injection E as ->.
    + intros Hin. apply (Hr x); [|reflexivity]. apply (proj2 (resolve_in_nm (map EUnsub rm) order (EUnsub x) I)). now apply in_map.
Qed.

Lemma VW_msg s m : VW s -> VW (emit1 (EMsg m) s).
Proof.
  intros H. pose proof H as [A1 A2 A3 A4 A5 A6 A7 A8 A9 A10].
  apply VW_stream with (s := emit_list [EMsg m] (set_local (a_index s) (a_topics s) s)).
  - unfold emit_list. cbn [fold_left]. unfold emit1, stream_only, aside, aframe. sfields. now destruct (a_peer s).
  - apply VW_emit_gen; try assumption. now intros e [<-|[]].
Qed.

Definition ops_of (e : fevent) : list op :=
  match e with
  | ESub g f => [OSub NODE_A (plain_sub g f)]
  | EUnsub t => [OUnsub NODE_A t]
  | EMsg _ => []
  end.

Lemma apply_event_ops e s :
  fb_ops (apply_event e s) = fb_ops s ++ ops_of e /\ fb_fed (apply_event e s) = fold_left db_step (ops_of e) (fb_fed s).
Proof. destruct e; unfold apply_event, fed_op; sfields; rewrite ?app_nil_r; now split. Qed.

Lemma wf_ops_of e : wf_event e -> wf_ops (ops_of e) = true.
Proof.
  destruct e as [g f|t|m]; [|reflexivity..]. cbn [wf_event ops_of wf_ops forallb wf_op plain_sub s_share].
  unfold wf_share. intros H. apply andb_true_iff in H as [-> _]. reflexivity.
Qed.

Lemma skey_eqb_A g f g' f' : skey_eqb (NODE_A, g, f) (NODE_A, g', f') = true <-> (g, f) = (g', f').
Proof.
  destruct (skey_eqb_spec (NODE_A, g, f) (NODE_A, g', f')) as [E|E]; split; intros H; try reflexivity; try discriminate.
  - now injection E as -> ->.
  - exfalso. apply E. now injection H as -> ->.
Qed.

Ltac dkey :=
  match goal with
  | |- context [skey_eqb ?ka ?kb] => destruct (skey_eqb ka kb) eqn:Ek
  | H : context [skey_eqb ?ka ?kb] |- _ => destruct (skey_eqb ka kb) eqn:Ek
  end.

(* B's store for A replays an applied event as name_step does; its keys stay as FromTopic
   makes them *)
Lemma SNP_apply sp L e :
  NoDup (map fst sp) -> wf_event e ->
  (forall g f v, sp_get (NODE_A, g, f) sp = Some v -> wf_share g f = true) ->
  (forall x, SNP sp x <-> In x L) ->
  (forall g f v, sp_get (NODE_A, g, f) (fold_left spec_step (ops_of e) sp) = Some v -> wf_share g f = true) /\
  (forall x, SNP (fold_left spec_step (ops_of e) sp) x <-> In x (name_step L e)).
Proof.
  intros Hnd Hwe A9 A10. destruct e as [g f|t|m]; cbn [ops_of wf_event name_step fold_left] in *; [| |now split].
  - (* Subscribe *)
    cbn [spec_step plain_sub s_share s_filter]. split.
    + intros g' f' v. rewrite sp_get_set. dkey; [|apply A9].
      apply skey_eqb_A in Ek. injection Ek as -> ->. intros _. exact Hwe.
    + intros x. cbn [In]. rewrite <- (A10 x). split.
      * intros (g' & f' & v & Hg & ->). rewrite sp_get_set in Hg. dkey.
        -- apply skey_eqb_A in Ek. injection Ek as -> ->. now left.
        -- right. now exists g', f', v.
      * intros [<-|(g' & f' & v & Hg & ->)].
        -- exists g, f, (plain_sub g f). split; [|reflexivity]. rewrite sp_get_set, skey_eqb_refl. reflexivity.
        -- exists g', f'. rewrite sp_get_set. dkey; eexists; (split; [|reflexivity]); [reflexivity|exact Hg].
  - (* Unsubscribe *)
    destruct Hwe as (g0 & f0 & Hwf0 & ->). rewrite spec_step_unsub, (split_full g0 f0 Hwf0). cbn [fst snd]. split.
    + intros g' f' v. rewrite (sp_get_del _ _ _ Hnd). dkey; [discriminate|apply A9].
    + intros x. rewrite in_rm_name, <- (A10 x). split.
      * intros (g' & f' & v & Hg & ->). rewrite (sp_get_del _ _ _ Hnd) in Hg. dkey; [discriminate|].
        split; [now exists g', f', v|]. intros Ef. apply (full_inj g' f' g0 f0 (A9 _ _ _ Hg) Hwf0) in Ef.
        apply skey_eqb_A in Ef. exact (eq_true_false_abs _ Ef Ek).
      * intros [(g' & f' & v & Hg & ->) Hne]. exists g', f', v. split; [|reflexivity]. rewrite (sp_get_del _ _ _ Hnd).
        dkey; [|exact Hg]. apply skey_eqb_A in Ek. injection Ek as -> ->. now destruct Hne.
Qed.

Lemma VW_apply s s' id e :
  VW s -> matched s = true -> wf_event e -> aside s s' ->
  applied s' = applied s ++ [(a_epoch s, id, e)] ->
  fb_ops s' = fb_ops s ++ ops_of e -> fb_fed s' = fold_left db_step (ops_of e) (fb_fed s) ->
  VW s'.
Proof.
  intros [A1 A2 A3 A4 A5 A6 A7 A8 A9 A10] Hm Hwe [Ha E3] E7 E8 E9.
  pose proof (f_equal k_match (kof_aframe _ _ Ha)) as Hm'. cbn [kof k_match] in Hm'.
  unfold aframe in Ha. injection Ha as E1 E2 _ E4 _ _ _ _.
  assert (HAN : AN s' = name_step (AN s) e).
  { unfold AN, Aof. rewrite E4, E7, proj_snoc_same, map_app. cbn [map snd]. apply names_snoc. }
  assert (HEN : EN s' = EN s) by (unfold EN, Eof; now rewrite E3, E4).
  destruct (SNP_apply (spec_run (fb_ops s)) (AN s) e (proj1 (inv_ok _ _ (Inv_run _ A8))) Hwe A9 (A10 Hm)) as [K9 K10].
  constructor; rewrite ?E1, ?E2, ?E3, ?Hm', ?HEN, ?HAN, ?E8, ?spec_run_app; try assumption.
  - rewrite E9, A7. symmetry. apply db_run_app.
  - now rewrite wf_ops_app, A8, wf_ops_of.
  - intros _. exact K10.
Qed.

(* one EventStream iteration *)
Lemma VW_deliver b s : INV s -> VW s -> VW (fq_deliver b s).
Proof.
  intros HI H. pose proof (deliver_aside b s) as Has.
  destruct (fq_deliver_cases b s) as [->|(ep & id & e & rest & se & Hup & Hcs & Hse)]; [exact H|].
  pose proof HI as (_ & _ & _ & Hc & _ & _ & Hq).
  destruct (a_peer s) as [p|] eqn:Hp; [|congruence]. destruct Hq as [_ (pre & _ & _ & _ & _ & _ & Hm)].
  rewrite Hse in Hm. destruct (fs_id se =? p_sid p) eqn:Hid; [|congruence].
  assert (Hep : ep = a_epoch s) by (apply (Hc (ep, id, e)); rewrite Hcs; now left). subst ep.
  assert (Hmat : matched s = true) by (unfold matched; now rewrite Hp, Hse).
  (* the event comes from what A emitted *)
  assert (Hwe : wf_event e).
  { rewrite Hup, Hcs in Hm. destruct Hm as (D & C & U & HD & _ & _ & Hc2 & _).
    destruct C as [|[id' e'] C']; [discriminate|]. cbn [map] in Hc2. injection Hc2 as Hi He _. cbn [fst snd] in Hi, He. subst id' e'.
    assert (HinE : In (id, e) (Eof s)) by (rewrite HD; apply in_or_app; right; now left).
    apply In_proj in HinE as (t & Ht & Hu). destruct H as [_ _ _ _ A5 _ _ _ _ _]. specialize (A5 t Ht).
    destruct t as [[ep' id'] e']. unfold untag in Hu. cbn [fst snd] in Hu. injection Hu as _ <-. exact A5. }
  rewrite (fq_deliver_eq b s _ id e rest se Hup Hcs Hse) in Has |- *. cbv zeta.
  destruct (fst (lru_set id (fs_seen se))).
  - (* duplicate: nothing is applied *)
    apply (VW_stream s); [|exact H]. now split.
  - (* applied *)
    apply (VW_apply s _ id e H Hmat Hwe Has); sfields; [reflexivity|apply apply_event_ops..].
Qed.

Lemma sp_get_del_client g f sp : sp_get (NODE_A, g, f) (sp_del_client NODE_A sp) = None.
Proof.
  unfold sp_del_client. induction sp as [|[[[c g'] f'] v] r IH]; cbn [filter fst]; [reflexivity|].
  destruct (str_eqb_spec NODE_A c) as [<-|Hne]; cbn [negb]; [exact IH|]. cbn [sp_get].
  destruct (skey_eqb_spec (NODE_A, g, f) (c, g', f')) as [E|_]; [congruence|exact IH].
Qed.

(* B forgets everything it holds for A (clean start, node failure) *)
Lemma VW_forget s s' :
  VW s -> a_index s' = a_index s -> a_topics s' = a_topics s -> (forall t, In t (emitted s') -> wf_event (snd t)) ->
  fb_ops s' = fb_ops s ++ [OUnsubAll NODE_A] -> fb_fed s' = db_step (fb_fed s) (OUnsubAll NODE_A) ->
  (matched s' = true -> (forall x, In x (tkeys (a_topics s)) <-> In x (EN s')) /\ AN s' = []) ->
  VW s'.
Proof.
  intros [A1 A2 A3 A4 A5 A6 A7 A8 A9 A10] E1 E2 E3 E8 E9 Hm.
  constructor; rewrite ?E1, ?E2; try assumption.
  - intros Hmt. now apply Hm.
  - rewrite E9, E8, A7. symmetry. apply db_run_app.
  - rewrite E8, wf_ops_app, A8. reflexivity.
  - intros g f v. rewrite E8, spec_run_app. cbn [fold_left spec_step]. now rewrite sp_get_del_client.
  - intros Hmt x. rewrite (proj2 (Hm Hmt)). split; [|intros []].
    intros (g & f & v & Hg & _). rewrite E8, spec_run_app in Hg. cbn [fold_left spec_step] in Hg. now rewrite sp_get_del_client in Hg.
Qed.

(* the peer object is replaced or dropped: nothing is claimed until the next clean start *)
Lemma VW_unmatched s s' :
  VW s -> a_index s' = a_index s -> a_topics s' = a_topics s -> emitted s' = emitted s ->
  fb_ops s' = fb_ops s -> fb_fed s' = fb_fed s -> matched s' = false -> VW s'.
Proof.
  intros [A1 A2 A3 A4 A5 A6 A7 A8 A9 A10] E1 E2 E3 E8 E9 Hm.
  constructor; rewrite ?E1, ?E2, ?E3, ?E8, ?E9; try assumption; rewrite Hm; discriminate.
Qed.

(* the full resynchronisation replays to the local topic set *)
Lemma resync_names s order x :
  (forall t, In t (tkeys (a_topics s)) -> wfform t) ->
  (In x (fold_left name_step (resync_events s order) []) <-> In x (tkeys (a_topics s))).
Proof.
  intros Hform.
  assert (Hnu : forall e, In e (resync_events s order) -> no_unsub e).
  { apply resync_events_kind; [|intros t n _; now destruct (split_topic t)|now intros].
    intros a b E Ha. apply fevent_eqb_shape in E. destruct a; [now subst|destruct Ha|destruct E as [m' ->]; exact I]. }
  unfold resync_events in *.
  set (subs := resync_subs (a_topics s)) in *. set (msgs := resync_msgs (a_ret s)) in *.
  assert (Hmsgs : forall e, In e msgs -> exists m, e = EMsg m).
  { intros e He. apply in_map_iff in He as (m & <- & _). now eexists. }
  rewrite (fold_names_subs _ [] x Hnu). cbn [In]. split.
  - intros [[]|(g & f & Hin & ->)]. apply in_app_or in Hin as [Hin|Hin].
    + apply (proj1 (resolve_in_nm subs _ (ESub g f) I)) in Hin. apply in_map_iff in Hin as ([t n] & E & Hin). cbn [fst] in E.
      assert (Ht : In t (tkeys (a_topics s))) by (apply in_map_iff; now exists (t, n)).
      destruct (Hform t Ht) as (g0 & f0 & Hwf & ->). rewrite (split_full g0 f0 Hwf) in E. injection E as <- <-. exact Ht.
    + apply (proj1 (resolve_in_nm msgs _ (ESub g f) I)) in Hin. destruct (Hmsgs _ Hin) as (m & E). discriminate.
  - intros Ht. right. pose proof Ht as Ht'. apply in_map_iff in Ht' as ([t n] & <- & Hin). cbn [fst] in *.
    destruct (Hform t Ht) as (g0 & f0 & Hwf & ->). exists g0, f0. split; [|reflexivity].
    apply in_or_app. left. apply (proj2 (resolve_in_nm subs _ (ESub g0 f0) I)).
    apply in_map_iff. exists (fed_full_topic g0 f0, n). split; [|exact Hin]. cbn [fst]. now rewrite (split_full g0 f0 Hwf).
Qed.

Lemma VW_clean_resync s p order :
  INV s -> VW s -> st_up s = false -> a_peer s = Some p -> VW (resync p order (fresh_session (p_sid p) s)).
Proof.
  intros HI H Hup Hp. unfold resync.
  match goal with |- VW (emit_list ?evs ?X) => set (sC := X); set (es := evs) end.
  pose proof H as [A1 A2 A3 A4 A5 A6 A7 A8 A9 A10].
  destruct HI as (_ & Hem & Hap & _).
  destruct (emit_list_frame es sC) as (Ha & Hb & _). unfold aframe, bstore in Ha, Hb.
  injection Ha as C1 C2 _ C3 _ _ _ _. injection Hb as C6 C5 C4.
  assert (Hes : es = resync_events s order) by reflexivity.
  apply (VW_forget s).
  - exact H.
  - rewrite C1. reflexivity.
  - rewrite C2. reflexivity.
  - intros t Ht. apply emitted_emit_list in Ht as [Ht|Ht]; [now apply A5|]. revert Ht. generalize (snd t).
    apply (resync_events_kind wf_event _ order wf_event_eqb); [|now intros].
    intros k n Hin. assert (Hk : In k (tkeys (a_topics s))) by (apply in_map_iff; now exists (k, n)).
    destruct (A3 k Hk) as (g0 & f0 & Hwf & ->). now rewrite (split_full g0 f0 Hwf).
  - rewrite C5. reflexivity.
  - rewrite C6. reflexivity.
  - intros _. split.
    + intros x. rewrite EN_emit_list by reflexivity.
      assert (HE0 : EN sC = []).
      { unfold EN, Eof. subst sC. unfold fresh_session, fed_op. sfields. now rewrite (proj_above _ _ Hem). }
      rewrite HE0, Hes. symmetry. now apply resync_names.
    + unfold AN, Aof. rewrite C3, C4. subst sC. unfold fresh_session, fed_op. sfields.
      now rewrite (proj_above _ _ Hap).
Qed.

Lemma VW_reconnect mode order s :
  INV s -> VW s ->
  (mode = HsLostResp -> is_some (a_peer s) = true -> fb_peer s = true -> matched s = true) ->
  VW (fq_reconnect mode order s).
Proof.
  intros HI0 H0 Hno.
  assert (H : VW (fq_cut s)) by (apply (VW_stream s); [apply cut_frame|exact H0]).
  pose proof (INV_cut _ HI0) as HI. pose proof (st_up_cut s) as Hup.
  pose proof (kof_aside _ _ (proj1 (cut_frame s))) as Hk. unfold kof in Hk. injection Hk as Hk1 Hk2 Hk3.
  destruct (fq_reconnect_cases mode order s) as [[-> _]|(p & Hr & Hp & Hbp & [(se & _ & _ & ->)|(Hm & ->)])]; [exact H|..].
  - destruct mode; try exact H; now apply (VW_stream (fq_cut s)); [apply hello_tail_frame|].
  - destruct mode; [|discriminate| |]; [|exfalso|];
      [apply (VW_stream _ _ (hello_tail_frame _ _ _)); now apply VW_clean_resync| |apply (VW_stream _ _ (hello_tail_frame _ _ _)); now apply VW_clean_resync].
    rewrite Hk3, Hno in Hm; [discriminate|reflexivity|rewrite <- Hk1, Hp; reflexivity|congruence].
Qed.

Lemma IV_drain s : INV s -> VW s -> VW (fq_drain s).
Proof.
  intros HI H. apply (drain_ind (fun s => INV s /\ VW s)); [| | |now split]; intros s' [HI' H'].
  - split; [now apply INV_send|]. now apply (VW_stream s'); [apply send_frame|].
  - split; [now apply INV_deliver|now apply VW_deliver].
  - split; [now apply INV_ack_deliver|]. now apply (VW_stream s'); [apply ack_deliver_frame|].
Qed.

Definition wf_fqev (ev : fqev) : bool := match ev with QSub _ g f => wf_share g f | _ => true end.

Lemma step_vw s ev order : INV s -> VW s -> snd (kstep (kof s) ev) = false -> wf_fqev ev = true ->
  VW (fq_step s ev order).
Proof.
  intros HI H Hno Hwf. destruct ev; cbn [fq_step wf_fqev] in *.
  - now apply VW_sub.
  - now apply VW_unsub.
  - now apply VW_term.
  - now apply VW_msg.
  - now apply (VW_stream s); [apply send_frame|].
  - now apply VW_deliver.
  - now apply (VW_stream s); [apply ack_deliver_frame|].
  - now apply (VW_stream s); [apply cut_frame|].
  - apply VW_reconnect; [exact HI|exact H|]. intros ->. now apply kstep_lost_resp.
  - now apply IV_drain.
  - (* QPeerLost *)
    destruct (fb_peer s) eqn:Hb; [|exact H]. apply (VW_stream _ _ (cut_frame _)).
    pose proof H as [A1 A2 A3 A4 A5 A6 A7 A8 A9 A10].
    apply (VW_forget s); try reflexivity; try assumption.
    unfold matched, fed_op. sfields. intros Hmt. exfalso. destruct (a_peer s); discriminate Hmt.
  - (* QPeerJoin: no field the view depends on changes *)
    destruct H. constructor; assumption.
  - (* QDropPeer *)
    destruct (a_peer s) as [p|] eqn:Hp; [|exact H].
    now apply (VW_unmatched (fq_cut s)); [apply (VW_stream s); [apply cut_frame|]|..].
  - (* QJoinPeer *)
    destruct (a_peer s) as [p|] eqn:Hp; [exact H|].
    apply (VW_unmatched s); sfields; try reflexivity; try assumption.
    unfold matched. sfields. destruct (fb_sess s) as [se|] eqn:Hse; [|reflexivity].
    destruct HI as (_ & _ & _ & _ & _ & Hsess & _). destruct (Hsess se Hse) as [Hlt _].
    destruct (N.eqb_spec (fs_id se) (a_sidctr s)); [lia|reflexivity].
Qed.

Lemma VW_init ret : VW (fq_init ret).
Proof.
  constructor; unfold fq_init; sfields; try (intros; contradiction); try discriminate; try reflexivity.
  constructor.
Qed.

Lemma run_vw evs : forall s orders, INV s -> VW s -> kscan (kof s) evs = false -> forallb wf_fqev evs = true ->
  INV (fq_run s evs orders) /\ VW (fq_run s evs orders).
Proof.
  induction evs as [|ev r IH]; intros s orders HI H Hk Hwf; cbn [fq_run]; [now split|].
  cbn [kscan] in Hk. destruct (kstep (kof s) ev) as [k' hit] eqn:Hst. apply orb_false_iff in Hk as [Hhit Hk].
  cbn [forallb] in Hwf. apply andb_true_iff in Hwf as [Hw1 Hw2].
  destruct (step_inv s ev (hd [] orders) HI) as [HI' HK]; [rewrite Hst; exact Hhit|].
  apply IH; [exact HI'|apply step_vw; [exact HI|exact H|rewrite Hst; exact Hhit|exact Hw1]|rewrite HK, Hst; exact Hk|exact Hw2].
Qed.

(* what the lookup by client returns (the observable `view_of`) is the content of the flat store *)
Lemma view_exact ops : wf_ops ops = true ->
  exists v, view_of (db_run ops) = Some v /\ forall x, In x v <-> SNP (spec_run ops) x.
Proof.
  intros Hwf. assert (HA : NODE_A <> []) by discriminate.
  destruct (sh_lookup_client_exact ops NODE_A Hwf HA) as (lsh & Hsh & _ & Hin1).
  destruct (lookup_client_exact ops NODE_A Hwf HA) as (lpl & Hpl & _ & Hin2).
  pose proof (inv_ok _ _ (Inv_run ops Hwf)) as Hok.
  assert (Hall : db_iterate view_query (db_run ops) = IOk (some_ents (lsh ++ lpl)))
    by (rewrite some_ents_app; exact (db_iterate_all_split true true NODE_A [] MatchNone _ _ _ Hsh Hpl)).
  unfold view_of. rewrite Hall. eexists. split; [reflexivity|]. intros x. rewrite in_map_iff. split.
  - intros ([c [s|]] & <- & Hin); unfold some_ents in Hin; apply in_map_iff in Hin as ([c' s'] & E & Hin); [|discriminate].
    injection E as <- <-. cbn [snd]. apply in_app_or in Hin as [Hin|Hin].
    + apply Hin1 in Hin as (-> & Hg & Hget). now exists (s_share s'), (s_filter s'), s'.
    + apply Hin2 in Hin as (-> & Hget). destruct (sp_get_good _ _ _ _ _ Hok Hget) as [Hg _].
      exists [], (s_filter s'), s'. split; [exact Hget|now rewrite Hg].
  - intros (g & f & v & Hget & ->). destruct (sp_get_good _ _ _ _ _ Hok Hget) as [Hg Hf].
    exists (NODE_A, Some v). cbn [snd]. split; [now rewrite Hg, Hf|].
    unfold some_ents. apply in_map_iff. exists (NODE_A, v). split; [reflexivity|]. apply in_or_app.
    destruct g as [|a g'].
    + right. apply Hin2. split; [reflexivity|]. now rewrite Hf.
    + left. apply Hin1. split; [reflexivity|]. rewrite Hg, Hf. split; [discriminate|exact Hget].
Qed.

Lemma same_set_iff a b : (forall x, In x a <-> In x b) -> same_set a b = true.
Proof.
  intros H. unfold same_set, subset_str. apply andb_true_iff. split; apply forallb_forall; intros x Hx; apply mem_str_In; now apply H.
Qed.

(* idle: the stream is up, hence B holds A's session, and the two views are replays of the
   same events *)
Lemma idle_view s : INV s -> VW s -> fq_idle s = true -> Aof s = Eof s ->
  exists v, view_of (fb_fed s) = Some v /\ same_set v (local_of s) = true.
Proof.
  intros HI [A1 A2 A3 A4 A5 A6 A7 A8 A9 A10] Hidle HAE.
  assert (Hm : matched s = true).
  { unfold fq_idle in Hidle. destruct (st_up s) eqn:Hup; [|discriminate].
    destruct HI as (_ & _ & _ & _ & _ & _ & Hq). unfold matched.
    destruct (a_peer s) as [p|]; [|congruence]. destruct Hq as [_ (pre & _ & _ & _ & _ & _ & Hmm)].
    destruct (fb_sess s) as [se|]; [|congruence]. destruct (fs_id se =? p_sid p); [reflexivity|congruence]. }
  destruct (view_exact (fb_ops s) A8) as (v & Hv & Hin). rewrite A7. exists v. split; [exact Hv|].
  apply same_set_iff. intros x. rewrite Hin, (A10 Hm x). unfold local_of. fold (tkeys (a_topics s)). rewrite (A6 Hm x).
  unfold AN, EN. now rewrite HAE.
Qed.

(* the fault-free suffix, from any state in which the invariants hold *)
Lemma epilogue_view s0 os : INV s0 -> LT s0 -> VW s0 ->
  let s := fq_run s0 EPILOGUE os in exists v, view_of (fb_fed s) = Some v /\ same_set v (local_of s) = true.
Proof.
  intros HI HL HV. cbv zeta. destruct (epilogue_complete s0 os HI HL) as [Hidle HAE].
  destruct (run_vw EPILOGUE s0 os HI HV) as [HI' HV']; [now destruct (kof s0) as [[] [] []]|reflexivity|].
  now apply idle_view.
Qed.

(* After ANY schedule outside the two known-finding classes whose subscriptions are
   well-formed, once both nodes know each other, the handshake succeeds and both loops run
   to idle: B's view of A's subscriptions (what a lookup by client on the federation tree
   returns) equals A's local subscription set. *)
Lemma fq_view_complete ret evs orders :
  kf_hello_reply_lost evs = false -> kf_event_not_utf8 ret evs = false -> forallb wf_fqev evs = true ->
  let s := fq_run (fq_init ret) (evs ++ EPILOGUE) orders in
  exists v, view_of (fb_fed s) = Some v /\ same_set v (local_of s) = true.
Proof.
  intros Hk1 Hk2 Hwf. cbv zeta. rewrite fq_run_app.
  destruct (run_vw evs (fq_init ret) orders (INV_init ret) (VW_init ret) Hk1 Hwf) as [HI HV].
  apply epilogue_view; [exact HI|now apply LT_reachable|exact HV].
Qed.
