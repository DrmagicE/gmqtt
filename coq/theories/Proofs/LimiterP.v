(* Proofs about the models of Model/Limiter.v, for all histories:
   1. packet id limiter: invariant, freshness of polled ids, absence of the busy-loop hang
      (pigeonhole), window bound, refinement of the abstract window machine of Oracle/C03O.v;
   2. FIFO topic alias manager: invariant, no panic, refinement of the client-side alias table;
   3. unack set: refinement of the set specification, exactly-once core. *)
From Coq Require Import List NArith ZArith Bool Arith Lia ZifyN ZifyNat ZifyBool Permutation.
Import ListNotations.
From GM Require Import Base.Topic Model.Limiter Oracle.C03O Proofs.TopicP Proofs.AssocP.
From GM Require Export Proofs.ListP.
Open Scope N_scope.

(* mod U16 in this file: lia is quicker when zify turns it into equations first; the hook is global,
   so it is put back at the end of the file *)
Ltac Zify.zify_post_hook ::= Z.div_mod_to_equations.

Lemma MAXPID_val : MAXPID = 65535. Proof. reflexivity. Qed.
Lemma U16_val : U16 = 65536. Proof. reflexivity. Qed.

(* arithmetic with the constants made visible to lia; never use simpl on such goals *)
Ltac clia := rewrite ?MAXPID_val, ?U16_val in *; lia.

Lemma mod_add1 u : u + 1 <= MAXPID -> (u + 1) mod U16 = u + 1.
Proof. intros Hu. clia. Qed.

Lemma mod_sub1 u : 1 <= u <= MAXPID -> (u + U16 - 1) mod U16 = u - 1.
Proof. intros Hu. clia. Qed.

Lemma mod_remain u lim : u < lim -> lim <= MAXPID -> (lim + U16 - u) mod U16 = lim - u.
Proof. intros Hu Hl. clia. Qed.

Lemma mod_small u : u <= MAXPID -> u mod U16 = u.
Proof. intros Hu. clia. Qed.

Lemma memN_In x l : memN x l = true <-> In x l.
Proof.
  induction l as [|y r IH]; cbn [memN In].
  - split; [discriminate | tauto].
  - rewrite orb_true_iff, IH, N.eqb_eq. split; intros [H|H]; auto.
Qed.

Lemma memN_notIn x l : memN x l = false <-> ~ In x l.
Proof. rewrite <- memN_In. destruct (memN x l); split; intros H; congruence. Qed.

Lemma memN_ext x a b : (forall i, In i a <-> In i b) -> memN x a = memN x b.
Proof.
  intros H. destruct (memN x b) eqn:E.
  - apply memN_In. apply H. now apply memN_In.
  - apply memN_notIn. intros Hin. apply memN_notIn in E. apply E. now apply H.
Qed.

Lemma In_delN x id l : In x (delN id l) <-> In x l /\ x <> id.
Proof.
  induction l as [|y r IH]; cbn [delN In]; [tauto|].
  destruct (id =? y) eqn:E.
  - apply N.eqb_eq in E. subst y. rewrite IH. split; [tauto|].
    intros [[H|H] Hn]; [congruence|tauto].
  - apply N.eqb_neq in E. cbn [In]. rewrite IH. split.
    + intros [H|[H Hn]]; [subst; split; auto|tauto].
    + intros [[H|H] Hn]; auto.
Qed.

Lemma NoDup_delN id l : NoDup l -> NoDup (delN id l).
Proof.
  induction 1 as [|y r Hy Hr IH]; cbn [delN]; [constructor|].
  destruct (id =? y); auto. constructor; auto. rewrite In_delN. tauto.
Qed.

Lemma delN_notIn id l : ~ In id l -> delN id l = l.
Proof.
  induction l as [|y r IH]; cbn [delN In]; intros H; [reflexivity|].
  destruct (id =? y) eqn:E.
  - apply N.eqb_eq in E. subst. tauto.
  - f_equal. apply IH. tauto.
Qed.

Lemma length_delN id l : NoDup l -> In id l -> S (length (delN id l)) = length l.
Proof.
  induction 1 as [|y r Hy Hr IH]; cbn [delN In length]; [tauto|].
  intros [H|H].
  - subst. rewrite N.eqb_refl. rewrite delN_notIn; auto.
  - destruct (id =? y) eqn:E.
    + apply N.eqb_eq in E; subst; contradiction.
    + cbn [length]. rewrite IH; auto.
Qed.

(* pigeonhole, size form: a duplicate-free list of ids in 1..M has at most M entries *)
Lemma bounded_length (l : list N) M :
  NoDup l -> (forall i, In i l -> 1 <= i <= M) -> N.of_nat (length l) <= M.
Proof.
  intros Hnd Hr.
  assert (Hincl : incl l (map N.of_nat (seq 1 (N.to_nat M)))).
  { intros i Hi. apply Hr in Hi. apply in_map_iff. exists (N.to_nat i). split; [lia|].
    apply in_seq. lia. }
  apply (NoDup_incl_length Hnd) in Hincl. rewrite map_length, seq_length in Hincl. lia.
Qed.

Lemma nodupN_NoDup l : NoDup l -> nodupN l = true.
Proof.
  induction 1 as [|y r Hy Hr IH]; cbn [nodupN]; [reflexivity|].
  rewrite IH, andb_true_r. apply negb_true_iff. now apply memN_notIn.
Qed.

Definition LimInv (l : lim) : Prop :=
  NoDup (l_locked l) /\ ~ In 0%N (l_locked l) /\ (forall i, In i (l_locked l) -> (1 <= i <= MAXPID)%N) /\
  l_used l = N.of_nat (length (l_locked l)) /\ (1 <= l_free l <= MAXPID)%N.

(* callers never mark an id that is already locked, and only use ids in 1..65535 *)
Definition wf_lop (l : lim) (o : lop) : bool :=
  match o with
  | LMark id => (1 <=? id) && (id <=? MAXPID) && negb (memN id (l_locked l))
  | LSetFree p => (1 <=? p) && (p <=? MAXPID)
  | _ => true
  end.

Fixpoint wf_lrun (l : lim) (ops : list lop) : bool :=
  match ops with
  | [] => true
  | o :: r => wf_lop l o && wf_lrun (fst (lim_step l o)) r
  end.

Lemma lim_inv_init limit : LimInv (lim_new limit).
Proof.
  unfold LimInv, lim_new; cbn [l_locked l_used l_free length In].
  repeat split; try tauto; try constructor; try clia.
Qed.

Lemma lim_used_bound l : LimInv l -> l_used l <= MAXPID.
Proof.
  intros (Hnd & _ & Hr & Hu & _). rewrite Hu. now apply bounded_length.
Qed.

Lemma next_pid_range p : 1 <= p <= MAXPID -> 1 <= next_pid p <= MAXPID.
Proof. intros Hp. unfold next_pid. destruct (p =? MAXPID) eqn:E; clia. Qed.

Lemma find_free_some fuel locked : forall p q, 1 <= p <= MAXPID ->
  find_free fuel locked p = Some q -> 1 <= q <= MAXPID /\ ~ In q locked.
Proof.
  induction fuel as [|k IH]; intros p q Hp H; cbn [find_free] in H; [discriminate|].
  destruct (memN p locked) eqn:E.
  - eapply IH; [|exact H]. now apply next_pid_range.
  - injection H as <-. split; auto. now apply memN_notIn.
Qed.

(* the j-th id visited by the scan that starts at p *)
Definition orb (p : N) (j : nat) : N := (p - 1 + N.of_nat j) mod MAXPID + 1.

Lemma orb_0 p : 1 <= p <= MAXPID -> orb p 0 = p.
Proof. intros Hp. unfold orb. clia. Qed.

Lemma orb_S p j : 1 <= p <= MAXPID -> orb p (S j) = orb (next_pid p) j.
Proof.
  intros Hp. unfold orb, next_pid. destruct (p =? MAXPID) eqn:E; clia.
Qed.

Lemma orb_inj p j1 j2 : N.of_nat j1 < MAXPID -> N.of_nat j2 < MAXPID -> orb p j1 = orb p j2 -> j1 = j2.
Proof. unfold orb. intros H1 H2 H. clia. Qed.

Lemma find_free_none locked : forall fuel p, 1 <= p <= MAXPID -> find_free fuel locked p = None ->
  forall j, (j < fuel)%nat -> In (orb p j) locked.
Proof.
  induction fuel as [|k IH]; intros p Hp H j Hj; [lia|].
  cbn [find_free] in H. destruct (memN p locked) eqn:E; [|discriminate].
  destruct j as [|j].
  - rewrite orb_0 by exact Hp. now apply memN_In.
  - rewrite orb_S by exact Hp. apply IH; [now apply next_pid_range|exact H|lia].
Qed.

(* pigeonhole: the scan cannot see S (length locked) locked ids in a row *)
Lemma find_free_total locked p : 1 <= p <= MAXPID -> N.of_nat (length locked) < MAXPID ->
  find_free (S (length locked)) locked p <> None.
Proof.
  intros Hp Hlen H.
  pose proof (find_free_none locked _ p Hp H) as Hall.
  assert (Hnd : NoDup (map (orb p) (seq 0 (S (length locked))))).
  { apply NoDup_map_inj; [|apply seq_NoDup].
    intros x y Hx Hy Hxy. apply in_seq in Hx. apply in_seq in Hy.
    apply (orb_inj p); [lia|lia|exact Hxy]. }
  assert (Hincl : incl (map (orb p) (seq 0 (S (length locked)))) locked).
  { intros i Hi. apply in_map_iff in Hi. destruct Hi as [j [<- Hj]]. apply in_seq in Hj.
    apply Hall. lia. }
  apply (NoDup_incl_length Hnd) in Hincl. rewrite map_length, seq_length in Hincl. lia.
Qed.

Definition poll1 (l : lim) (p : N) : lim :=
  {| l_used := (l_used l + 1) mod U16; l_limit := l_limit l; l_exit := l_exit l;
     l_locked := p :: l_locked l; l_free := next_pid p |}.

Lemma poll_n_S k l acc :
  poll_n (S k) l acc =
  match find_free (S (length (l_locked l))) (l_locked l) (l_free l) with
  | None => None
  | Some p => poll_n k (poll1 l p) (acc ++ [p])
  end.
Proof. reflexivity. Qed.

Lemma poll1_inv l p : LimInv l -> l_used l + 1 <= MAXPID -> 1 <= p <= MAXPID -> ~ In p (l_locked l) ->
  LimInv (poll1 l p) /\ l_used (poll1 l p) = l_used l + 1.
Proof.
  intros (Hnd & H0 & Hr & Hu & Hf) Hb Hp Hfresh.
  unfold LimInv, poll1; cbn [l_locked l_used l_free length In].
  rewrite mod_add1 by exact Hb.
  repeat split.
  - constructor; auto.
  - intros [H|H]; [lia|tauto].
  - destruct H as [H|H]; [lia|apply Hr, H].
  - destruct H as [H|H]; [lia|apply Hr, H].
  - lia.
  - apply next_pid_range, Hp.
  - apply next_pid_range, Hp.
Qed.

Lemma poll_n_spec n : forall l acc l' ids,
  LimInv l -> l_used l + N.of_nat n <= l_limit l -> l_limit l <= MAXPID ->
  poll_n n l acc = Some (l', ids) ->
  LimInv l' /\ l_limit l' = l_limit l /\ l_exit l' = l_exit l /\ l_used l' = l_used l + N.of_nat n /\
  exists new, ids = acc ++ new /\ length new = n /\ NoDup new /\
    (forall i, In i new -> 1 <= i <= MAXPID /\ ~ In i (l_locked l)) /\
    (forall i, In i (l_locked l') <-> In i new \/ In i (l_locked l)).
Proof.
  induction n as [|k IH]; intros l acc l' ids Hinv Hwin Hlim H.
  - cbn [poll_n] in H. injection H as <- <-.
    refine (conj Hinv (conj eq_refl (conj eq_refl (conj _ _)))); [lia|].
    exists []. rewrite app_nil_r. cbn [In length].
    refine (conj eq_refl (conj eq_refl (conj (NoDup_nil _) (conj _ _)))); intros i; tauto.
  - rewrite poll_n_S in H.
    destruct (find_free (S (length (l_locked l))) (l_locked l) (l_free l)) as [p|] eqn:Eff; [|discriminate].
    assert (Hfree : 1 <= l_free l <= MAXPID) by apply Hinv.
    destruct (find_free_some _ _ _ _ Hfree Eff) as [Hp Hfresh].
    destruct (poll1_inv l p Hinv ltac:(lia) Hp Hfresh) as [Hinv1 Hu1].
    assert (Hlim1 : l_limit (poll1 l p) = l_limit l) by reflexivity.
    assert (Hex1 : l_exit (poll1 l p) = l_exit l) by reflexivity.
    assert (Hlk1 : l_locked (poll1 l p) = p :: l_locked l) by reflexivity.
    destruct (IH (poll1 l p) (acc ++ [p]) l' ids Hinv1 ltac:(lia) ltac:(lia) H)
      as (Hinv' & Hl' & He' & Hu' & new & Hids & Hlen & Hnd & Hfr & Hlk).
    refine (conj Hinv' (conj _ (conj _ (conj _ _)))); [congruence|congruence|lia|].
    exists (p :: new). rewrite Hlk1 in *.
    refine (conj _ (conj _ (conj _ (conj _ _)))).
    + rewrite Hids, <- app_assoc. reflexivity.
    + cbn [length]. lia.
    + constructor; auto. intros Hin. apply Hfr in Hin. cbn [In] in Hin. tauto.
    + intros i [<-|Hin]; [tauto|]. apply Hfr in Hin. cbn [In] in Hin. tauto.
    + intros i. rewrite Hlk. cbn [In]. tauto.
Qed.

Lemma poll_n_total n : forall l acc,
  LimInv l -> l_used l + N.of_nat n <= l_limit l -> l_limit l <= MAXPID ->
  poll_n n l acc <> None.
Proof.
  induction n as [|k IH]; intros l acc Hinv Hwin Hlim; [discriminate|].
  rewrite poll_n_S.
  destruct (find_free (S (length (l_locked l))) (l_locked l) (l_free l)) as [p|] eqn:Eff.
  - assert (Hfree : 1 <= l_free l <= MAXPID) by apply Hinv.
    destruct (find_free_some _ _ _ _ Hfree Eff) as [Hp Hfresh].
    destruct (poll1_inv l p Hinv ltac:(lia) Hp Hfresh) as [Hinv1 Hu1].
    apply IH; auto; cbn [poll1 l_limit]; lia.
  - exfalso. revert Eff. apply find_free_total; [apply Hinv|].
    destruct Hinv as (_ & _ & _ & Hu & _). lia.
Qed.

Lemma poll_count_min remain max : (if remain <? max then remain else max) = N.min max remain.
Proof. destruct (remain <? max) eqn:E; lia. Qed.

(* complete case analysis of pollPacketIDs under the invariant *)
Lemma lim_poll_cases l max : LimInv l -> l_limit l <= MAXPID ->
  (l_limit l <= l_used l /\ l_exit l = false /\ lim_poll max l = (l, PBlocked)) \/
  (l_exit l = true /\ lim_poll max l = (l, PExit)) \/
  (l_used l < l_limit l /\ l_exit l = false /\ max = 0 /\ lim_poll max l = (l, PExit)) \/
  (l_used l < l_limit l /\ l_exit l = false /\ 0 < max /\
   exists l' ids, lim_poll max l = (l', PIds ids) /\
                  poll_n (N.to_nat (N.min max (l_limit l - l_used l))) l [] = Some (l', ids)).
Proof.
  intros Hinv Hlim. unfold lim_poll.
  destruct (l_exit l) eqn:Eex.
  - right; left. split; [reflexivity|]. rewrite andb_false_r. reflexivity.
  - rewrite andb_true_r. destruct (l_limit l <=? l_used l) eqn:Ecmp.
    + left. repeat split; auto. lia.
    + right; right. assert (Hlt : l_used l < l_limit l) by lia.
      rewrite mod_remain by assumption. rewrite poll_count_min.
      remember (N.min max (l_limit l - l_used l)) as n eqn:En.
      destruct (poll_n (N.to_nat n) l []) as [[l' ids]|] eqn:Epoll.
      * destruct (poll_n_spec (N.to_nat n) l [] l' ids Hinv ltac:(lia) Hlim Epoll)
          as (_ & _ & _ & _ & new & Hids & Hlen & _).
        cbn [app] in Hids. subst new.
        destruct ids as [|i ids].
        -- left. cbn [length] in Hlen. assert (Hn : N.to_nat n = 0%nat) by lia.
           rewrite Hn in Epoll. cbn [poll_n] in Epoll. injection Epoll as <-.
           repeat split; auto. lia.
        -- right. cbn [length] in Hlen. repeat split; auto; [lia|].
           exists l', (i :: ids). split; reflexivity.
      * exfalso. revert Epoll. apply poll_n_total; auto. lia.
Qed.

Lemma lim_poll_fresh l max l' ids : LimInv l -> (l_limit l <= MAXPID)%N -> lim_poll max l = (l', PIds ids) ->
  NoDup ids /\ (forall i, In i ids -> (1 <= i <= MAXPID)%N /\ ~ In i (l_locked l)) /\
  N.of_nat (length ids) = N.min max (l_limit l - l_used l) /\ (l_used l' <= l_limit l)%N.
Proof.
  intros Hinv Hlim H.
  destruct (lim_poll_cases l max Hinv Hlim)
    as [(_ & _ & E)|[(_ & E)|[(_ & _ & _ & E)|(Hlt & Hex & Hmax & l2 & ids2 & E & Epoll)]]];
    rewrite E in H; try discriminate.
  destruct (poll_n_spec (N.to_nat (N.min max (l_limit l - l_used l))) l [] l2 ids2 Hinv ltac:(lia) Hlim Epoll)
    as (_ & _ & _ & Hu & new & Hids & Hlen & Hnd & Hfr & _).
  cbn [app] in Hids. subst new. injection H as El Ei. subst l' ids. repeat split; auto; try apply Hfr; auto; lia.
Qed.

Lemma lim_poll_never_hangs l max : LimInv l -> (l_limit l <= MAXPID)%N -> snd (lim_poll max l) <> PHang.
Proof.
  intros Hinv Hlim.
  destruct (lim_poll_cases l max Hinv Hlim)
    as [(_ & _ & E)|[(_ & E)|[(_ & _ & _ & E)|(_ & _ & _ & l2 & ids2 & E & _)]]];
    rewrite E; discriminate.
Qed.

Lemma lim_poll_state l max : LimInv l -> l_limit l <= MAXPID ->
  LimInv (fst (lim_poll max l)) /\ l_limit (fst (lim_poll max l)) = l_limit l /\
  l_exit (fst (lim_poll max l)) = l_exit l /\
  l_used l <= l_used (fst (lim_poll max l)) <= N.max (l_used l) (l_limit l).
Proof.
  intros Hinv Hlim.
  destruct (lim_poll_cases l max Hinv Hlim)
    as [(_ & _ & E)|[(_ & E)|[(_ & _ & _ & E)|(Hlt & Hex & Hmax & l2 & ids2 & E & Epoll)]]];
    rewrite E; cbn [fst]; try (refine (conj Hinv (conj eq_refl (conj eq_refl _))); lia).
  destruct (poll_n_spec (N.to_nat (N.min max (l_limit l - l_used l))) l [] l2 ids2 Hinv ltac:(lia) Hlim Epoll) as (Hinv2 & Hl & He & Hu & _).
  refine (conj Hinv2 (conj Hl (conj He _))). lia.
Qed.

Lemma release_inv id l : LimInv l ->
  LimInv (lim_release id l) /\ l_limit (lim_release id l) = l_limit l /\
  l_exit (lim_release id l) = l_exit l /\ l_used (lim_release id l) <= l_used l /\
  l_used (lim_release id l) = (if memN id (l_locked l) then l_used l - 1 else l_used l) /\
  l_locked (lim_release id l) = delN id (l_locked l).
Proof.
  intros Hinv. pose proof (lim_used_bound l Hinv) as Hub.
  destruct Hinv as (Hnd & H0 & Hr & Hu & Hf).
  unfold lim_release. destruct (memN id (l_locked l)) eqn:E.
  - apply memN_In in E. pose proof (length_delN id _ Hnd E) as Hlen.
    unfold LimInv; cbn [l_locked l_used l_free l_limit l_exit].
    rewrite mod_sub1 by lia.
    repeat split; auto; try lia.
    + now apply NoDup_delN.
    + rewrite In_delN. tauto.
    + apply In_delN in H. apply Hr, H.
    + apply In_delN in H. apply Hr, H.
  - apply memN_notIn in E. rewrite delN_notIn by exact E.
    repeat split; auto; try lia; apply Hr; auto.
Qed.

Lemma batch_inv ids : forall l, LimInv l ->
  LimInv (lim_batch_release ids l) /\ l_limit (lim_batch_release ids l) = l_limit l /\
  l_exit (lim_batch_release ids l) = l_exit l /\ l_used (lim_batch_release ids l) <= l_used l.
Proof.
  unfold lim_batch_release.
  induction ids as [|id r IH]; intros l Hinv; cbn [fold_left].
  - refine (conj Hinv (conj eq_refl (conj eq_refl _))). lia.
  - destruct (release_inv id l Hinv) as (Hinv1 & Hl1 & He1 & Hu1 & _).
    destruct (IH _ Hinv1) as (Hinv2 & Hl2 & He2 & Hu2).
    refine (conj Hinv2 (conj _ (conj _ _))); [congruence|congruence|lia].
Qed.

Lemma mark_inv id l : LimInv l -> 1 <= id <= MAXPID -> ~ In id (l_locked l) ->
  LimInv (lim_mark id l) /\ l_used (lim_mark id l) = l_used l + 1 /\
  l_locked (lim_mark id l) = id :: l_locked l.
Proof.
  intros Hinv Hid Hfresh.
  assert (Hb : l_used l + 1 <= MAXPID).
  { destruct Hinv as (Hnd & H0 & Hr & Hu & Hf). rewrite Hu.
    assert (Hlen : N.of_nat (length (id :: l_locked l)) <= MAXPID).
    { apply bounded_length; [constructor; auto|]. intros i [<-|Hi]; auto. }
    cbn [length] in Hlen. lia. }
  destruct (poll1_inv l id Hinv Hb Hid Hfresh) as [(Hnd & H0 & Hr & Hu & _) Hu1].
  unfold poll1 in *. cbn [l_locked l_used l_free] in *.
  apply memN_notIn in Hfresh. unfold lim_mark, LimInv. rewrite Hfresh.
  cbn [l_locked l_used l_free].
  assert (Hf : 1 <= l_free l <= MAXPID) by apply Hinv.
  refine (conj (conj Hnd (conj H0 (conj Hr (conj Hu Hf)))) (conj Hu1 eq_refl)).
Qed.

Lemma wf_mark l id : wf_lop l (LMark id) = true -> 1 <= id <= MAXPID /\ ~ In id (l_locked l).
Proof.
  cbn [wf_lop]. rewrite !andb_true_iff, negb_true_iff, memN_notIn. intros [[H1 H2] H3].
  split; [lia|exact H3].
Qed.

(* One step keeps the invariant and the limit, and moves `used` inside the window: a poll never pushes
   it above max(used, limit) (so never above the limit when it was within it), a well-formed mark adds
   exactly one (it is not limited), releases never increase it, close/set-free leave it alone. *)
Lemma lim_step_spec l o : LimInv l -> l_limit l <= MAXPID -> wf_lop l o = true ->
  LimInv (fst (lim_step l o)) /\ l_limit (fst (lim_step l o)) = l_limit l /\
  match o with
  | LPoll _ => l_used l <= l_used (fst (lim_step l o)) <= N.max (l_used l) (l_limit l)
  | LMark _ => l_used (fst (lim_step l o)) = l_used l + 1
  | LRelease id => l_used (fst (lim_step l o)) = if memN id (l_locked l) then l_used l - 1 else l_used l
  | LBatch _ => l_used (fst (lim_step l o)) <= l_used l
  | LClose | LSetFree _ => l_used (fst (lim_step l o)) = l_used l
  end.
Proof.
  intros Hinv Hlim Hwf. destruct o as [max|id|ids|id|  |p]; cbn [lim_step].
  - destruct (lim_poll max l) as [l' r] eqn:E. cbn [fst].
    pose proof (lim_poll_state l max Hinv Hlim) as Hs. rewrite E in Hs. cbn [fst] in Hs. tauto.
  - cbn [fst]. pose proof (release_inv id l Hinv). tauto.
  - cbn [fst]. pose proof (batch_inv ids l Hinv). tauto.
  - cbn [fst]. destruct (wf_mark _ _ Hwf) as [Hid Hfresh]. pose proof (mark_inv id l Hinv Hid Hfresh). tauto.
  - cbn [fst]. auto.
  - cbn [fst]. refine (conj _ (conj eq_refl eq_refl)). cbn [wf_lop] in Hwf.
    destruct Hinv as (Hnd & H0 & Hr & Hu & Hf).
    refine (conj Hnd (conj H0 (conj Hr (conj Hu _)))). cbn [lim_set_free l_free]. lia.
Qed.

Lemma lim_inv_step l o : LimInv l -> (l_limit l <= MAXPID)%N -> wf_lop l o = true -> LimInv (fst (lim_step l o)).
Proof. intros Hinv Hlim Hwf. now apply lim_step_spec. Qed.

Fixpoint count_marks (ops : list lop) : N :=
  match ops with [] => 0 | LMark _ :: r => 1 + count_marks r | _ :: r => count_marks r end.

Lemma lim_run_window_gen ops : forall l, LimInv l -> l_limit l <= MAXPID -> wf_lrun l ops = true ->
  LimInv (fst (lim_run l ops)) /\ l_limit (fst (lim_run l ops)) = l_limit l /\
  l_used (fst (lim_run l ops)) <= N.max (l_used l) (l_limit l) + count_marks ops.
Proof.
  induction ops as [|o r IH]; intros l Hinv Hlim Hwf; cbn [lim_run wf_lrun] in *.
  - cbn [fst count_marks]. refine (conj Hinv (conj eq_refl _)). lia.
  - apply andb_true_iff in Hwf. destruct Hwf as [Hwo Hwr].
    destruct (lim_step_spec l o Hinv Hlim Hwo) as (Hinv1 & Hl1 & Hw).
    destruct (lim_step l o) as [l1 out] eqn:E1. cbn [fst] in *.
    destruct (IH l1 Hinv1 ltac:(lia) Hwr) as (Hinv2 & Hl2 & Hu2).
    destruct (lim_run l1 r) as [l2 outs] eqn:E2. cbn [fst] in *.
    split; [exact Hinv2|]. split; [congruence|].
    destruct o as [max|id|ids|id|  |p]; cbn [count_marks]; try lia.
    destruct (memN id (l_locked l)); lia.
Qed.

(* after any well-formed history from a fresh limiter: used <= limit + (number of marks) *)
Theorem lim_window_run limit ops : limit <= MAXPID -> wf_lrun (lim_new limit) ops = true ->
  LimInv (fst (lim_run (lim_new limit) ops)) /\
  l_used (fst (lim_run (lim_new limit) ops)) <= limit + count_marks ops.
Proof.
  intros Hlim Hwf.
  destruct (lim_run_window_gen ops (lim_new limit) (lim_inv_init limit) Hlim Hwf) as (Hinv & _ & Hu).
  split; [exact Hinv|]. cbn [lim_new l_used l_limit] in Hu. lia.
Qed.

(* simulation: same set of ids in use (as a set), same count, limit and exit flag *)
Definition LimSim (l : lim) (w : awin) : Prop :=
  (forall i, In i (w_set w) <-> In i (l_locked l)) /\ w_cnt w = l_used l /\
  w_limit w = l_limit l /\ w_exit w = l_exit l.

Definition win_release (id : N) (w : awin) : awin :=
  if memN id (w_set w)
  then {| w_set := delN id (w_set w); w_cnt := w_cnt w - 1; w_limit := w_limit w; w_exit := w_exit w |}
  else w.

Lemma release_sim id l w : LimInv l -> LimSim l w -> LimSim (lim_release id l) (win_release id w).
Proof.
  intros Hinv (Hset & Hcnt & Hl & He).
  destruct (release_inv id l Hinv) as (_ & Hl1 & He1 & _ & Hu1 & Hlk1).
  unfold win_release. rewrite (memN_ext id _ _ Hset).
  unfold LimSim. rewrite Hl1, He1, Hu1, Hlk1.
  destruct (memN id (l_locked l)) eqn:E; cbn [w_set w_cnt w_limit w_exit].
  - refine (conj _ (conj _ (conj Hl He))); [|lia].
    intros i. rewrite !In_delN, Hset. tauto.
  - apply memN_notIn in E. rewrite delN_notIn by exact E. auto.
Qed.

Lemma batch_sim ids : forall l w, LimInv l -> LimSim l w ->
  LimSim (lim_batch_release ids l) (fold_left (fun w id => win_release id w) ids w).
Proof.
  unfold lim_batch_release.
  induction ids as [|id r IH]; intros l w Hinv Hsim; cbn [fold_left]; [exact Hsim|].
  apply IH; [apply release_inv, Hinv|now apply release_sim].
Qed.

Lemma chk_ok (u c : N) (w' : awin) : u <= MAXPID -> c = u ->
  (if u =? c mod U16 then Some w' else None) = Some w'.
Proof. intros Hu Hc. rewrite Hc, mod_small by exact Hu. now rewrite N.eqb_refl. Qed.

Lemma win_step_sim l w o : LimInv l -> l_limit l <= MAXPID -> wf_lop l o = true -> LimSim l w ->
  exists w', win_step w o (snd (lim_step l o), l_used (fst (lim_step l o))) = Some w' /\
             LimSim (fst (lim_step l o)) w'.
Proof.
  intros Hinv Hlim Hwf Hsim.
  pose proof (lim_used_bound _ (lim_inv_step l o Hinv Hlim Hwf)) as Hub'.
  (* whatever the operation, the oracle ends with the check `used = count mod 2^16`; it passes for a related w' *)
  enough (exists w', LimSim (fst (lim_step l o)) w' /\ forall used,
            win_step w o (snd (lim_step l o), used) = if used =? w_cnt w' mod U16 then Some w' else None)
    as (w' & Hs & ->).
  { exists w'. split; [apply chk_ok; [exact Hub'|apply Hs]|exact Hs]. }
  destruct w as [ws wc wl we]. pose proof Hsim as (Hset & Hcnt & Hl & He).
  cbn [w_set w_cnt w_limit w_exit] in Hset, Hcnt, Hl, He. subst wc wl we.
  destruct o as [max|id|ids|id|  |p]; cbn [lim_step fst snd].
  - (* poll *)
    destruct (lim_poll_cases l max Hinv Hlim)
      as [(Hge & Hex & E)|[(Hex & E)|[(Hlt & Hex & Hmax & E)|(Hlt & Hex & Hmax & l2 & ids2 & E & Epoll)]]];
      rewrite E; cbn [fst snd]; cbv beta iota zeta delta [win_step]; cbn [w_set w_cnt w_limit w_exit].
    + exists {| w_set := ws; w_cnt := l_used l; w_limit := l_limit l; w_exit := l_exit l |}.
      split; [exact Hsim|]. intros used.
      replace ((l_limit l <=? l_used l) && negb (l_exit l)) with true by (rewrite Hex; cbn [negb]; lia). reflexivity.
    + exists {| w_set := ws; w_cnt := l_used l; w_limit := l_limit l; w_exit := l_exit l |}.
      split; [exact Hsim|]. intros used. rewrite Hex. reflexivity.
    + exists {| w_set := ws; w_cnt := l_used l; w_limit := l_limit l; w_exit := l_exit l |}.
      split; [exact Hsim|]. intros used.
      replace (l_exit l || (max =? 0)) with true by (rewrite Hex; cbn [orb]; lia). reflexivity.
    + destruct (poll_n_spec (N.to_nat (N.min max (l_limit l - l_used l))) l [] l2 ids2 Hinv ltac:(lia) Hlim Epoll)
        as (_ & Hl2 & He2 & Hu2 & new & Hids & Hlen & Hnd & Hfr & Hlk).
      cbn [app] in Hids. subst new.
      exists {| w_set := ids2 ++ ws; w_cnt := l_used l + N.min max (l_limit l - l_used l);
                w_limit := l_limit l; w_exit := l_exit l |}.
      split; [|intros used].
      2:{ replace ((l_used l <? l_limit l) && negb (l_exit l)) with true by (rewrite Hex; cbn [negb]; lia).
          replace (N.of_nat (length ids2) =? N.min max (l_limit l - l_used l)) with true by lia.
          rewrite (nodupN_NoDup _ Hnd). cbn [andb].
          replace (forallb _ ids2) with true; [reflexivity|]. symmetry. apply forallb_forall. intros i Hi.
          apply Hfr in Hi. destruct Hi as [Hi Hni].
          rewrite !andb_true_iff, negb_true_iff, memN_notIn, Hset. split; [lia|exact Hni]. }
      unfold LimSim; cbn [w_set w_cnt w_limit w_exit].
      refine (conj _ (conj _ (conj (eq_sym Hl2) (eq_sym He2)))); [|lia].
      intros i. rewrite in_app_iff, Hlk, Hset. tauto.
  - (* release *)
    exists (win_release id {| w_set := ws; w_cnt := l_used l; w_limit := l_limit l; w_exit := l_exit l |}).
    split; [apply release_sim; assumption|reflexivity].
  - (* batch *)
    eexists. split; [apply batch_sim; eassumption|reflexivity].
  - (* mark *)
    destruct (wf_mark _ _ Hwf) as [Hid Hfresh].
    destruct (mark_inv id l Hinv Hid Hfresh) as (_ & Hu1 & Hlk1).
    eexists. split; [|intros used; cbv beta iota zeta delta [win_step]; reflexivity].
    unfold LimSim. rewrite Hu1, Hlk1. cbn [w_set w_cnt w_limit w_exit lim_mark l_limit l_exit].
    replace (memN id ws) with false by (symmetry; apply memN_notIn; rewrite Hset; exact Hfresh).
    refine (conj _ (conj eq_refl (conj eq_refl eq_refl))). intros i. cbn [In]. rewrite Hset. tauto.
  - (* close *)
    eexists. split; [|reflexivity]. unfold LimSim. cbn. auto.
  - (* set free *)
    eexists. split; [|reflexivity]. exact Hsim.
Qed.

Lemma lim_refines_gen ops : forall l w, LimInv l -> l_limit l <= MAXPID -> wf_lrun l ops = true ->
  LimSim l w -> win_ok w ops (snd (lim_run l ops)) = true.
Proof.
  induction ops as [|o r IH]; intros l w Hinv Hlim Hwf Hsim; cbn [lim_run wf_lrun] in *; [reflexivity|].
  apply andb_true_iff in Hwf. destruct Hwf as [Hwo Hwr].
  destruct (lim_step_spec l o Hinv Hlim Hwo) as (Hinv1 & Hl1 & _).
  destruct (win_step_sim l w o Hinv Hlim Hwo Hsim) as (w' & Hstep & Hsim').
  destruct (lim_step l o) as [l1 out] eqn:E1. cbn [fst snd] in *.
  specialize (IH l1 w' Hinv1 ltac:(lia) Hwr Hsim').
  destruct (lim_run l1 r) as [l2 outs] eqn:E2. cbn [fst snd win_ok] in *.
  rewrite Hstep. exact IH.
Qed.

Theorem lim_refines_window limit ops : (limit <= MAXPID)%N -> wf_lrun (lim_new limit) ops = true ->
  c03_lim_ok limit ops (lim_model limit ops) = true.
Proof.
  intros Hlim Hwf. unfold c03_lim_ok, lim_model.
  apply lim_refines_gen; auto.
  - apply lim_inv_init.
  - unfold LimSim, lim_new; cbn [w_set w_cnt w_limit w_exit l_locked l_used l_limit l_exit]. tauto.
Qed.

Definition AliasInv (m : amgr) : Prop :=
  NoDup (map fst (am_list m)) /\ NoDup (map snd (am_list m)) /\
  (forall a, In a (map snd (am_list m)) -> 1 <= a <= am_max m) /\
  N.of_nat (length (am_list m)) <= am_max m /\
  (N.of_nat (length (am_list m)) < am_max m ->
   forall a, In a (map snd (am_list m)) <-> 1 <= a <= N.of_nat (length (am_list m))).

Lemma alias_inv_init max : AliasInv (am_new max).
Proof.
  unfold AliasInv, am_new; cbn [am_list am_max map length In].
  refine (conj (NoDup_nil _) (conj (NoDup_nil _) (conj _ (conj _ _)))).
  - intros a [].
  - lia.
  - intros _ a. split; [intros []|lia].
Qed.

(* am_find is the lookup of AssocP; at_get / at_set are its generic get / set at key type N *)
Lemma am_find_some t l a : am_find t l = Some a -> In (t, a) l.
Proof. exact (aget_In t a l). Qed.

Lemma am_find_none t l : am_find t l = None -> ~ In t (map fst l).
Proof. exact (proj1 (aget_none t l)). Qed.

Lemma am_check_max t m : am_max (fst (am_check t m)) = am_max m.
Proof.
  unfold am_check. destruct (am_find t (am_list m)); [reflexivity|].
  destruct (N.of_nat (length (am_list m)) =? am_max m); [|reflexivity].
  destruct (am_list m) as [|[t0 a0] rest]; reflexivity.
Qed.

Lemma am_check_inv t m : AliasInv m -> am_max m <= MAXPID -> AliasInv (fst (am_check t m)).
Proof.
  intros (Ht & Ha & Hr & Hlen & Hex) Hmax. unfold am_check.
  destruct (am_find t (am_list m)) as [a|] eqn:Ef.
  - cbn [fst]. unfold AliasInv. auto.
  - apply am_find_none in Ef.
    destruct (N.of_nat (length (am_list m)) =? am_max m) eqn:Efull.
    + (* full: evict the oldest entry and reuse its alias *)
      destruct (am_list m) as [|[t0 a0] rest] eqn:El.
      * cbn [fst]. unfold AliasInv. rewrite El. auto.
      * cbn [fst]. unfold AliasInv; cbn [am_list am_max].
        cbn [map fst snd In length] in *. rewrite !map_app, app_length. cbn [map fst snd length].
        inversion Ht as [|? ? Ht0 Htr]; subst. inversion Ha as [|? ? Ha0 Har]; subst.
        refine (conj _ (conj _ (conj _ (conj _ _)))).
        -- apply NoDup_snoc; tauto.
        -- apply NoDup_snoc; tauto.
        -- intros a Hin. apply in_app_iff in Hin. cbn [In] in Hin. apply Hr. tauto.
        -- lia.
        -- intros Hlt. lia.
    + (* room left: the next alias is len + 1 *)
      cbn [fst]. unfold AliasInv; cbn [am_list am_max].
      rewrite !map_app, app_length. cbn [map fst snd length].
      assert (Hlt : N.of_nat (length (am_list m)) < am_max m) by lia.
      specialize (Hex Hlt).
      assert (Hal : (N.of_nat (length (am_list m)) + 1) mod U16 = N.of_nat (length (am_list m)) + 1)
        by (apply mod_add1; lia).
      rewrite Hal.
      refine (conj _ (conj _ (conj _ (conj _ _)))).
      * apply NoDup_snoc; auto.
      * apply NoDup_snoc; auto. rewrite Hex. lia.
      * intros a Hin. apply in_app_iff in Hin. cbn [In] in Hin.
        destruct Hin as [Hin|[<-|[]]]; [now apply Hr|lia].
      * lia.
      * intros _ a. rewrite in_app_iff, Hex. cbn [In]. lia.
Qed.

Lemma am_check_no_panic t m : 1 <= am_max m -> snd (am_check t m) <> APanic.
Proof.
  intros Hmax. unfold am_check.
  destruct (am_find t (am_list m)); [discriminate|].
  destruct (N.of_nat (length (am_list m)) =? am_max m) eqn:Efull; [|discriminate].
  destruct (am_list m) as [|[t0 a0] rest]; [|discriminate].
  cbn [length] in Efull. lia.
Qed.

(* simulation: the client table maps exactly the aliases of am_list to their topics *)
Definition AliasSim (m : amgr) (tb : atable) : Prop :=
  forall a t, at_get a tb = Some t <-> In (t, a) (am_list m).

Lemma at_get_set a' a s tb : at_get a' (at_set a s tb) = if a' =? a then Some s else at_get a' tb.
Proof. exact (gget_gset N.eqb N.eqb_spec a' a s tb). Qed.

(* installing alias a for topic t: l2 is the old list without its (only possible) a-entry *)
Lemma alias_sim_set l l2 mx tb t a :
  AliasSim {| am_max := mx; am_list := l |} tb ->
  (forall t', ~ In (t', a) l2) ->
  (forall t' a', a' <> a -> (In (t', a') l <-> In (t', a') l2)) ->
  AliasSim {| am_max := mx; am_list := l2 ++ [(t, a)] |} (at_set a t tb).
Proof.
  unfold AliasSim; cbn [am_list]. intros Hsim Hno Hsame a' t'.
  rewrite at_get_set, in_app_iff. cbn [In].
  destruct (a' =? a) eqn:E.
  - apply N.eqb_eq in E. subst a'. split.
    + intros H. injection H as ->. auto.
    + intros [H|[H|[]]]; [exfalso; eapply Hno; eauto|congruence].
  - apply N.eqb_neq in E. rewrite Hsim, (Hsame t' a' E). split; [tauto|].
    intros [H|[H|[]]]; [exact H|congruence].
Qed.

Lemma alias_step_sim t m tb : AliasInv m -> 1 <= am_max m <= MAXPID -> AliasSim m tb ->
  exists tb', alias_step (am_max m) tb t (snd (am_check t m)) = Some tb' /\
              AliasSim (fst (am_check t m)) tb'.
Proof.
  intros (Ht & Ha & Hr & Hlen & Hex) Hmax Hsim. unfold am_check.
  destruct (am_find t (am_list m)) as [a|] eqn:Ef.
  - (* known topic: the client already has alias a -> t *)
    apply am_find_some in Ef. cbn [fst snd alias_step].
    pose proof (Hr a (in_map snd _ _ Ef)) as Hra.
    assert (Hc : (1 <=? a) && (a <=? am_max m) = true) by lia. rewrite Hc.
    apply Hsim in Ef. rewrite Ef, str_eqb_refl. eauto.
  - destruct m as [mx l]. cbn [am_list am_max] in *.
    destruct (N.of_nat (length l) =? mx) eqn:Efull.
    + destruct l as [|[t0 a0] rest] eqn:El.
      * cbn [length] in Efull. lia.
      * (* full: alias a0 is re-bound to t *)
        cbn [fst snd alias_step am_list am_max].
        cbn [map fst snd] in *.
        inversion Ha as [|? ? Ha0 Har]; subst.
        pose proof (Hr a0 (or_introl eq_refl)) as Hra.
        assert (Hc : (1 <=? a0) && (a0 <=? mx) = true) by lia. rewrite Hc.
        eexists. split; [reflexivity|].
        apply alias_sim_set with (l := (t0, a0) :: rest); [exact Hsim| |].
        -- intros t' Hin. apply Ha0. exact (in_map snd _ _ Hin).
        -- intros t' a' Hne. cbn [In]. split; [|tauto].
           intros [H|H]; [congruence|exact H].
    + (* room left: a fresh alias len + 1 *)
      cbn [fst snd alias_step am_list am_max].
      assert (Hlt : N.of_nat (length l) < mx) by lia.
      specialize (Hex Hlt).
      assert (Hal : (N.of_nat (length l) + 1) mod U16 = N.of_nat (length l) + 1)
        by (apply mod_add1; lia).
      rewrite Hal.
      assert (Hc : (1 <=? N.of_nat (length l) + 1) && (N.of_nat (length l) + 1 <=? mx) = true) by lia.
      rewrite Hc.
      eexists. split; [reflexivity|].
      apply alias_sim_set with (l := l); [exact Hsim| |tauto].
      intros t' Hin. apply (in_map snd), Hex in Hin. cbn [snd] in Hin. lia.
Qed.

Lemma alias_refines_gen ts : forall m tb, AliasInv m -> 1 <= am_max m <= MAXPID -> AliasSim m tb ->
  alias_ok (am_max m) tb ts (am_run m ts) = true.
Proof.
  induction ts as [|t r IH]; intros m tb Hinv Hmax Hsim; cbn [am_run alias_ok]; [reflexivity|].
  destruct (alias_step_sim t m tb Hinv Hmax Hsim) as (tb' & Hstep & Hsim').
  pose proof (am_check_inv t m Hinv ltac:(lia)) as Hinv'.
  pose proof (am_check_max t m) as Hmx.
  destruct (am_check t m) as [m' x] eqn:E. cbn [fst snd alias_ok] in *.
  rewrite Hstep. rewrite <- Hmx. apply IH; auto. lia.
Qed.

Theorem alias_refines_client_table max ts : (1 <= max <= 65535)%N ->
  alias_ok max [] ts (am_run (am_new max) ts) = true.
Proof.
  intros Hmax.
  apply (alias_refines_gen ts (am_new max) []).
  - apply alias_inv_init.
  - cbn [am_new am_max]. clia.
  - intros a t. cbn [at_get am_new am_list In]. split; [discriminate|tauto].
Qed.

(* the local fixpoint of unack_ok, named *)
Fixpoint ugo (s : list N) (ops : list uop) (outs : list (option bool)) : bool :=
  match ops, outs with
  | [], [] => true
  | UInit c :: r, None :: o => ugo (if c then [] else s) r o
  | USet id :: r, Some b :: o => Bool.eqb b (memN id s) && ugo (if memN id s then s else id :: s) r o
  | URemove id :: r, None :: o => ugo (delN id s) r o
  | _, _ => false
  end.

Lemma unack_ok_ugo ops outs : unack_ok ops outs = ugo [] ops outs.
Proof. reflexivity. Qed.

Lemma unack_refines_gen ops : forall u, ugo u ops (unack_run u ops) = true.
Proof.
  induction ops as [|[c|id|id] r IH]; intros u; cbn [unack_run ugo]; [reflexivity| | |].
  - apply IH.
  - unfold unack_set. destruct (memN id u) eqn:E; cbn [Bool.eqb andb]; apply IH.
  - apply IH.
Qed.

Theorem unack_refines_set ops : unack_ok ops (unack_run [] ops) = true.
Proof. rewrite unack_ok_ugo. apply unack_refines_gen. Qed.

(* exactly-once core: Set answers "already present" exactly when the id is in the set;
   the set has no duplicates, so one Remove forgets the id completely. *)
Lemma unack_set_true_iff id u : snd (unack_set id u) = true <-> In id u.
Proof.
  unfold unack_set. destruct (memN id u) eqn:E; cbn [snd].
  - apply memN_In in E. tauto.
  - apply memN_notIn in E. split; [discriminate|tauto].
Qed.

Lemma unack_set_In id u x : In x (fst (unack_set id u)) <-> x = id \/ In x u.
Proof.
  unfold unack_set. destruct (memN id u) eqn:E; cbn [fst In].
  - apply memN_In in E. split; [tauto|]. intros [->|H]; auto.
  - split; intros [H|H]; auto.
Qed.

Lemma unack_remove_In id u x : In x (unack_remove id u) <-> In x u /\ x <> id.
Proof. apply In_delN. Qed.

Lemma unack_set_NoDup id u : NoDup u -> NoDup (fst (unack_set id u)).
Proof.
  intros H. unfold unack_set. destruct (memN id u) eqn:E; cbn [fst]; [exact H|].
  constructor; [now apply memN_notIn|exact H].
Qed.

Lemma unack_remove_NoDup id u : NoDup u -> NoDup (unack_remove id u).
Proof. apply NoDup_delN. Qed.

Lemma unack_init_NoDup c u : NoDup u -> NoDup (unack_init c u).
Proof. destruct c; cbn [unack_init]; [constructor|auto]. Qed.

(* the state after a history, and "id was set earlier and not removed (or wiped) since" *)
Fixpoint unack_exec (u : unack) (ops : list uop) : unack :=
  match ops with
  | [] => u
  | UInit c :: r => unack_exec (unack_init c u) r
  | USet id :: r => unack_exec (fst (unack_set id u)) r
  | URemove id :: r => unack_exec (unack_remove id u) r
  end.

Fixpoint pending (id : N) (b : bool) (ops : list uop) : bool :=
  match ops with
  | [] => b
  | UInit c :: r => pending id (if c then false else b) r
  | USet i :: r => pending id ((id =? i) || b) r
  | URemove i :: r => pending id (negb (id =? i) && b) r
  end.

Lemma unack_exec_pending id ops : forall u b, NoDup u -> (In id u <-> b = true) ->
  NoDup (unack_exec u ops) /\ (In id (unack_exec u ops) <-> pending id b ops = true).
Proof.
  induction ops as [|[c|i|i] r IH]; intros u b Hnd Hb; cbn [unack_exec pending].
  - auto.
  - apply IH; [now apply unack_init_NoDup|].
    destruct c; cbn [unack_init In]; [split; [tauto|discriminate]|exact Hb].
  - apply IH; [now apply unack_set_NoDup|].
    rewrite unack_set_In, orb_true_iff, N.eqb_eq, Hb. tauto.
  - apply IH; [now apply unack_remove_NoDup|].
    rewrite unack_remove_In, andb_true_iff, negb_true_iff, N.eqb_neq, Hb. tauto.
Qed.

Theorem unack_exactly_once id ops :
  NoDup (unack_exec [] ops) /\
  (snd (unack_set id (unack_exec [] ops)) = true <-> pending id false ops = true).
Proof.
  destruct (unack_exec_pending id ops [] false (NoDup_nil _)) as [Hnd Hin].
  - cbn [In]. split; [tauto|discriminate].
  - split; [exact Hnd|]. rewrite unack_set_true_iff. exact Hin.
Qed.

(* the observable form: in any history, the answer to a Set is "set earlier and not removed since" *)
Lemma unack_run_app pre : forall u rest,
  unack_run u (pre ++ rest) = unack_run u pre ++ unack_run (unack_exec u pre) rest.
Proof.
  induction pre as [|[c|i|i] r IH]; intros u rest; cbn [app unack_run unack_exec]; [reflexivity| | |].
  - now rewrite IH.
  - destruct (unack_set i u) as [u' b]. cbn [fst app]. now rewrite IH.
  - now rewrite IH.
Qed.

Lemma unack_run_length ops : forall u, length (unack_run u ops) = length ops.
Proof.
  induction ops as [|[c|i|i] r IH]; intros u; cbn [unack_run length]; [reflexivity| | |].
  - now rewrite IH.
  - destruct (unack_set i u) as [u' b]. cbn [length]. now rewrite IH.
  - now rewrite IH.
Qed.

Theorem unack_run_answer pre id post :
  nth_error (unack_run [] (pre ++ USet id :: post)) (length pre) = Some (Some (pending id false pre)).
Proof.
  rewrite unack_run_app, nth_error_app2 by (rewrite unack_run_length; lia).
  rewrite unack_run_length, Nat.sub_diag. cbn [unack_run].
  destruct (unack_exactly_once id pre) as [_ Hiff].
  destruct (unack_set id (unack_exec [] pre)) as [u' b]. cbn [snd nth_error] in *.
  f_equal. f_equal. apply Bool.eq_iff_eq_true. exact Hiff.
Qed.

(* The hypotheses are needed: computed witnesses. *)

(* marking an id that is already locked: `used` drifts away from the size of the set *)
Example mark_locked_breaks_count :
  let l := fst (lim_step (fst (lim_step (lim_new 10) (LMark 1))) (LMark 1)) in
  (l_used l, l_locked l) = (2, [1]).
Proof. vm_compute. reflexivity. Qed.

(* a free pointer outside 1..65535 hands out packet id 0 *)
Example set_free_zero_polls_zero :
  snd (lim_step (fst (lim_step (lim_new 10) (LSetFree 0))) (LPoll 1)) = Some (PIds [0]).
Proof. vm_compute. reflexivity. Qed.

(* limit = 65536 does not fit the uint16 arithmetic: a fresh limiter answers a nil slice *)
Example limit_65536_wraps : snd (lim_poll 1 (lim_new 65536)) = PExit.
Proof. vm_compute. reflexivity. Qed.

(* max = 0: Check panics on the first publish (Front() == nil) *)
Example alias_max0_panics : snd (am_check [] (am_new 0)) = APanic.
Proof. vm_compute. reflexivity. Qed.

Ltac Zify.zify_post_hook ::= idtac.
