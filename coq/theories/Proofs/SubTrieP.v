(* Refinement: the trie-based subscription store (Model/SubTrie.v) implements the flat
   finite-map specification (Model/SubSpec.v) for all well-formed operation histories. *)
From Coq Require Import List NArith Bool Arith Lia.
Import ListNotations.
From GM Require Import Base.Topic Model.SubTrie Model.SubSpec Oracle.C02O.
From GM Require Export Proofs.ListP Proofs.TopicP Proofs.AssocP.

Definition q_topic (t : str) (c : cid) : iopts :=
  {| io_sys := true; io_shared := false; io_nonshared := true; io_client := c; io_topic := t; io_mt := MatchFilter |}.
Definition q_name (f : str) (c : cid) : iopts :=
  {| io_sys := true; io_shared := false; io_nonshared := true; io_client := c; io_topic := f; io_mt := MatchName |}.
Definition q_client (c : cid) : iopts :=
  {| io_sys := true; io_shared := false; io_nonshared := true; io_client := c; io_topic := []; io_mt := MatchNone |}.
Definition q_sh_topic (t : str) (c : cid) : iopts :=
  {| io_sys := false; io_shared := true; io_nonshared := false; io_client := c; io_topic := t; io_mt := MatchFilter |}.
Definition q_sh_name (full : str) (c : cid) : iopts :=
  {| io_sys := false; io_shared := true; io_nonshared := false; io_client := c; io_topic := full; io_mt := MatchName |}.
Definition q_sh_client (c : cid) : iopts :=
  {| io_sys := false; io_shared := true; io_nonshared := false; io_client := c; io_topic := []; io_mt := MatchNone |}.
Definition want_client (c c' : cid) : Prop := c = [] \/ c' = c.

Section AssocLemmas.
  Context {V : Type}.
  Implicit Types (l : list (str * V)) (k : str) (v : V).

  Lemma aget_nil_none k l : l = [] -> aget k l = None.
  Proof. intros ->. reflexivity. Qed.
End AssocLemmas.

Lemma of_client_aget (c : cid) (l : list (cid * sub)) :
  NoDup (map fst l) ->
  of_client c l = match aget c l with Some s => [(c, s)] | None => [] end.
Proof.
  induction l as [|[k0 v0] r IH]; cbn [of_client filter aget map fst]; intros Hnd; [reflexivity|].
  inversion Hnd as [|x xs Hx Hnd']; subst.
  destruct (str_eqb_spec c k0) as [E|E].
  - subst k0. fold (of_client c r). rewrite (IH Hnd'), (aget_notin c r Hx). reflexivity.
  - fold (of_client c r). now apply IH.
Qed.

Lemma in_of_client (c c' : cid) (s : sub) (l : list (cid * sub)) :
  In (c', s) (of_client c l) <-> In (c', s) l /\ c' = c.
Proof.
  unfold of_client. rewrite filter_In. split; intros [H1 H2]; split; try exact H1.
  - apply str_eqb_eq in H2. congruence.
  - subst. apply str_eqb_refl.
Qed.

Lemma mem_str_In (k : str) (l : list str) : mem_str k l = true <-> In k l.
Proof.
  induction l as [|x r IH]; cbn [mem_str In]; [split; [discriminate|intros []]|].
  rewrite orb_true_iff, IH, str_eqb_eq. split; intros [H|H]; auto.
Qed.

Lemma mem_str_app (k : str) (l m : list str) : mem_str k (l ++ m) = mem_str k l || mem_str k m.
Proof.
  induction l as [|x r IH]; cbn [app mem_str]; [reflexivity|]. now rewrite IH, orb_assoc.
Qed.

Lemma mem_str_snoc (k x : str) (l : list str) : mem_str k (l ++ [x]) = mem_str k l || str_eqb k x.
Proof. rewrite mem_str_app. cbn [mem_str]. now rewrite orb_false_r. Qed.

Lemma skey_eqb_spec (a b : skey) : reflect (a = b) (skey_eqb a b).
Proof.
  destruct a as [[c1 g1] f1], b as [[c2 g2] f2]. cbn [skey_eqb].
  destruct (str_eqb_spec c1 c2) as [E1|E1]; cbn [andb]; [|constructor; congruence].
  destruct (str_eqb_spec g1 g2) as [E2|E2]; cbn [andb]; [|constructor; congruence].
  destruct (str_eqb_spec f1 f2) as [E3|E3]; constructor; congruence.
Qed.

Lemma skey_eqb_refl (a : skey) : skey_eqb a a = true.
Proof. destruct (skey_eqb_spec a a); congruence. Qed.

Lemma sp_get_set (k' k : skey) (v : sub) (sp : spec) :
  sp_get k' (sp_set k v sp) = if skey_eqb k' k then Some v else sp_get k' sp.
Proof. exact (gget_gset _ skey_eqb_spec k' k v sp). Qed.

Lemma sp_get_none (k : skey) (sp : spec) : sp_get k sp = None <-> ~ In k (map fst sp).
Proof. exact (gget_none _ skey_eqb_spec k sp). Qed.

Lemma sp_get_In (k : skey) (v : sub) (sp : spec) : sp_get k sp = Some v -> In (k, v) sp.
Proof. exact (gget_In _ skey_eqb_spec k v sp). Qed.

Lemma In_sp_get (k : skey) (v : sub) (sp : spec) :
  NoDup (map fst sp) -> In (k, v) sp -> sp_get k sp = Some v.
Proof. exact (In_gget _ skey_eqb_spec k v sp). Qed.

Lemma in_keys_sp_del (k' k : skey) (sp : spec) : In k' (map fst (sp_del k sp)) -> In k' (map fst sp).
Proof. exact (in_keys_gdel skey_eqb k' k sp). Qed.

Lemma in_sp_del (e : skey * sub) (k : skey) (sp : spec) : In e (sp_del k sp) -> In e sp.
Proof. exact (in_gdel skey_eqb e k sp). Qed.

Lemma in_sp_set (e : skey * sub) (k : skey) (v : sub) (sp : spec) :
  In e (sp_set k v sp) -> e = (k, v) \/ In e sp.
Proof. exact (in_gset skey_eqb e k v sp). Qed.

Lemma NoDup_sp_set (k : skey) (v : sub) (sp : spec) :
  NoDup (map fst sp) -> NoDup (map fst (sp_set k v sp)).
Proof. exact (NoDup_gset _ skey_eqb_spec k v sp). Qed.

Lemma NoDup_sp_del (k : skey) (sp : spec) : NoDup (map fst sp) -> NoDup (map fst (sp_del k sp)).
Proof. exact (NoDup_gdel skey_eqb k sp). Qed.

Lemma sp_get_del (k' k : skey) (sp : spec) :
  NoDup (map fst sp) -> sp_get k' (sp_del k sp) = if skey_eqb k' k then None else sp_get k' sp.
Proof. exact (gget_gdel _ skey_eqb_spec k' k sp). Qed.

(* without NoDup: deleting another key does not change a lookup *)
Lemma sp_get_del_other (k' k : skey) (sp : spec) :
  k' <> k -> sp_get k' (sp_del k sp) = sp_get k' sp.
Proof. exact (gget_gdel_other _ skey_eqb_spec k' k sp). Qed.

Lemma sp_get_filter (p : skey -> bool) (k : skey) (sp : spec) :
  sp_get k (filter (fun e => p (fst e)) sp) = if p k then sp_get k sp else None.
Proof.
  induction sp as [|[k0 v0] r IH]; cbn [filter sp_get fst].
  - destruct (p k); reflexivity.
  - destruct (p k0) eqn:Ep0; cbn [sp_get].
    + destruct (skey_eqb_spec k k0) as [E|E]; [subst k0; now rewrite Ep0|exact IH].
    + destruct (skey_eqb_spec k k0) as [E|E]; [subst k0; now rewrite IH, Ep0|exact IH].
Qed.

Definition sub_child (lv : level) (n : node) : node :=
  match child lv n with Some ch => ch | None => empty_node end.

(* the node at a path; a missing node is observed as the empty node *)
Fixpoint nd (p : list level) (n : node) : node :=
  match p with [] => n | lv :: rest => nd rest (sub_child lv n) end.

Definition same3 (a b : node) : Prop :=
  n_clients a = n_clients b /\ n_shared a = n_shared b /\ n_tname a = n_tname b.

Lemma same3_refl a : same3 a a.
Proof. repeat split. Qed.

Lemma sub_child_empty lv : sub_child lv empty_node = empty_node.
Proof. reflexivity. Qed.

Lemma nd_empty p : nd p empty_node = empty_node.
Proof. induction p as [|lv rest IH]; [reflexivity|]. cbn [nd]. now rewrite sub_child_empty. Qed.

Lemma nd_tget p : forall n, nd p n = match tget p n with Some x => x | None => empty_node end.
Proof.
  induction p as [|lv rest IH]; intros n; [reflexivity|].
  cbn [nd tget]. unfold sub_child. destruct (child lv n) as [ch|]; [apply IH|apply nd_empty].
Qed.

Lemma sub_child_children lv a b : n_children a = n_children b -> sub_child lv a = sub_child lv b.
Proof. intros H. unfold sub_child, child. now rewrite H. Qed.

Lemma nd_children_eq p a b : n_children a = n_children b -> p <> [] -> nd p a = nd p b.
Proof.
  intros H Hp. destruct p as [|lv rest]; [contradiction|]. cbn [nd].
  now rewrite (sub_child_children lv a b H).
Qed.

Lemma nd_no_children p x : n_children x = [] -> p <> [] -> nd p x = empty_node.
Proof.
  intros H Hp. rewrite (nd_children_eq p x empty_node); [apply nd_empty|exact H|exact Hp].
Qed.

Lemma sub_child_with lv n X :
  sub_child lv (with_children n X) = match aget lv X with Some ch => ch | None => empty_node end.
Proof. reflexivity. Qed.

Lemma sub_child_with_aset lv' lv X n :
  sub_child lv' (with_children n (aset lv X (n_children n))) =
  if str_eqb lv' lv then X else sub_child lv' n.
Proof.
  rewrite sub_child_with, aget_aset. destruct (str_eqb lv' lv); reflexivity.
Qed.

Lemma sub_child_with_adel lv' lv n :
  NoDup (map fst (n_children n)) ->
  sub_child lv' (with_children n (adel lv (n_children n))) =
  if str_eqb lv' lv then empty_node else sub_child lv' n.
Proof.
  intros Hnd. rewrite sub_child_with, aget_adel by exact Hnd. destruct (str_eqb lv' lv); reflexivity.
Qed.

Lemma same3_with n X : same3 (with_children n X) n.
Proof. repeat split. Qed.

(* well-formedness: child keys are duplicate free at every node *)
Definition wfT (n : node) : Prop := forall p, NoDup (map fst (n_children (nd p n))).

Lemma wfT_empty : wfT empty_node.
Proof. intros p. rewrite nd_empty. constructor. Qed.

Lemma wfT_child lv n : wfT n -> wfT (sub_child lv n).
Proof. intros H p. exact (H (lv :: p)). Qed.

Lemma wfT_intro n : NoDup (map fst (n_children n)) -> (forall lv, wfT (sub_child lv n)) -> wfT n.
Proof. intros H1 H2 [|lv rest]; [exact H1|]. cbn [nd]. apply H2. Qed.

Lemma wfT_children_eq a b : n_children a = n_children b -> wfT a -> wfT b.
Proof.
  intros H Ha. apply wfT_intro.
  - rewrite <- H. exact (Ha []).
  - intros lv. rewrite <- (sub_child_children lv a b H). now apply wfT_child.
Qed.

Lemma tsub_cons lv rest c s n :
  tsubscribe (lv :: rest) c s n =
  with_children n (aset lv (tsubscribe rest c s (sub_child lv n)) (n_children n)).
Proof. reflexivity. Qed.

Lemma tsub_nil_children c s n : n_children (tsubscribe [] c s n) = n_children n.
Proof. cbn [tsubscribe]. destruct (is_empty (s_share s)); reflexivity. Qed.

Lemma nd_tsub_same q c s : forall n, nd q (tsubscribe q c s n) = tsubscribe [] c s (nd q n).
Proof.
  induction q as [|lv rest IH]; intros n; [reflexivity|].
  rewrite tsub_cons. cbn [nd]. rewrite sub_child_with_aset, str_eqb_refl. apply IH.
Qed.

Lemma nd_tsub_other q c s : forall p n, p <> q -> same3 (nd p (tsubscribe q c s n)) (nd p n).
Proof.
  induction q as [|lv rest IH]; intros p n Hne.
  - rewrite (nd_children_eq p _ n (tsub_nil_children c s n) Hne). apply same3_refl.
  - rewrite tsub_cons. destruct p as [|lv' prest]; [apply same3_with|].
    cbn [nd]. rewrite sub_child_with_aset.
    destruct (str_eqb_spec lv' lv) as [E|E]; [|apply same3_refl].
    subst lv'. apply IH. congruence.
Qed.

Lemma wfT_tsub q c s : forall n, wfT n -> wfT (tsubscribe q c s n).
Proof.
  induction q as [|lv rest IH]; intros n Hwf.
  - apply (wfT_children_eq n); [symmetry; apply tsub_nil_children|exact Hwf].
  - rewrite tsub_cons. apply wfT_intro.
    + apply NoDup_aset. exact (Hwf []).
    + intros lv'. rewrite sub_child_with_aset. destruct (str_eqb lv' lv).
      * apply IH. now apply wfT_child.
      * now apply wfT_child.
Qed.

Definition leave_res (c : cid) (g : str) (x : node) : node :=
  let '(x', pr) := leave_node c g x in if pr then empty_node else x'.

Lemma leave_node_children c g x : n_children (fst (leave_node c g x)) = n_children x.
Proof.
  unfold leave_node. destruct (is_empty g); [reflexivity|].
  destruct (aget g (n_shared x)); reflexivity.
Qed.

Lemma leave_node_prune c g x : snd (leave_node c g x) = true -> n_children x = [].
Proof.
  unfold leave_node. destruct (is_empty g); cbn [snd n_children].
  - intros H. apply andb_true_iff in H as [_ H]. destruct (n_children x); [reflexivity|discriminate].
  - destruct (aget g (n_shared x)); cbn [snd n_children]; [|discriminate].
    intros H. apply andb_true_iff in H as [_ H]. destruct (n_children x); [reflexivity|discriminate].
Qed.

Lemma leave_res_empty c g : leave_res c g empty_node = empty_node.
Proof. unfold leave_res, leave_node. destruct (is_empty g); reflexivity. Qed.

Lemma nd_leave_res p c g x : p <> [] -> nd p (leave_res c g x) = nd p x.
Proof.
  intros Hp. unfold leave_res.
  pose proof (leave_node_children c g x) as Hch. pose proof (leave_node_prune c g x) as Hpr.
  destruct (leave_node c g x) as [x' pr]. cbn [fst snd] in *. destruct pr.
  - rewrite nd_empty. symmetry. now apply nd_no_children; [apply Hpr|].
  - now apply nd_children_eq.
Qed.

Lemma wfT_leave_res c g x : wfT x -> wfT (leave_res c g x).
Proof.
  intros Hwf. unfold leave_res. pose proof (leave_node_children c g x) as Hch.
  destruct (leave_node c g x) as [x' pr]. destruct pr; [apply wfT_empty|].
  now apply (wfT_children_eq x).
Qed.

(* One step of tunsubscribe, seen from outside: the node keeps its own entries, and only the
   child on the path changes - it is left if the path ends there, and descended into otherwise.
   A missing child is the empty node before and after. *)
Lemma tunsub_step lv rest c g n :
  NoDup (map fst (n_children n)) ->
  same3 (tunsubscribe (lv :: rest) c g n) n /\
  NoDup (map fst (n_children (tunsubscribe (lv :: rest) c g n))) /\
  forall lv', sub_child lv' (tunsubscribe (lv :: rest) c g n) =
    if str_eqb lv' lv
    then match rest with [] => leave_res c g | _ => tunsubscribe rest c g end (sub_child lv n)
    else sub_child lv' n.
Proof.
  intros Hnd. cbn [tunsubscribe]. unfold sub_child at 2 3. destruct (child lv n) as [ch|] eqn:Ech.
  - destruct rest as [|lv2 rest2].
    + unfold leave_res. destruct (leave_node c g ch) as [ch' [|]].
      * split; [apply same3_with|]. split; [now apply NoDup_adel|].
        intros lv'. now apply sub_child_with_adel.
      * split; [apply same3_with|]. split; [now apply NoDup_aset|].
        intros lv'. apply sub_child_with_aset.
    + split; [apply same3_with|]. split; [now apply NoDup_aset|].
      intros lv'. apply sub_child_with_aset.
  - split; [apply same3_refl|]. split; [exact Hnd|].
    intros lv'. destruct (str_eqb_spec lv' lv) as [->|_]; [|reflexivity].
    unfold sub_child. rewrite Ech. destruct rest; [now rewrite leave_res_empty|reflexivity].
Qed.

Lemma nd_tunsub_same q c g : forall n, q <> [] -> wfT n ->
  nd q (tunsubscribe q c g n) = leave_res c g (nd q n).
Proof.
  induction q as [|lv rest IH]; intros n Hq Hwf; [contradiction|].
  destruct (tunsub_step lv rest c g n (Hwf [])) as (_ & _ & Hs).
  cbn [nd]. rewrite Hs, str_eqb_refl.
  destruct rest; [reflexivity|]. apply IH; [discriminate|now apply wfT_child].
Qed.

Lemma nd_tunsub_other q c g : forall p n, p <> q -> wfT n ->
  same3 (nd p (tunsubscribe q c g n)) (nd p n).
Proof.
  induction q as [|lv rest IH]; intros p n Hne Hwf; [apply same3_refl|].
  destruct (tunsub_step lv rest c g n (Hwf [])) as (H3 & _ & Hs).
  destruct p as [|lv' prest]; [exact H3|]. cbn [nd]. rewrite Hs.
  destruct (str_eqb_spec lv' lv) as [->|_]; [|apply same3_refl].
  assert (Hp : prest <> rest) by congruence.
  destruct rest; [rewrite nd_leave_res by exact Hp; apply same3_refl|].
  apply IH; [exact Hp|now apply wfT_child].
Qed.

Lemma wfT_tunsub q c g : forall n, wfT n -> wfT (tunsubscribe q c g n).
Proof.
  induction q as [|lv rest IH]; intros n Hwf; [exact Hwf|].
  destruct (tunsub_step lv rest c g n (Hwf [])) as (_ & Hnd & Hs).
  apply wfT_intro; [exact Hnd|]. intros lv'. rewrite Hs.
  destruct (str_eqb lv' lv); [|now apply wfT_child].
  destruct rest; [apply wfT_leave_res|apply IH]; now apply wfT_child.
Qed.

Lemma set_rs_empty : set_rs empty_node = [].
Proof. reflexivity. Qed.

Lemma rs_of_child lv n : rs_of (child lv n) = set_rs (sub_child lv n).
Proof. unfold sub_child. destruct (child lv n); reflexivity. Qed.

Lemma flat_map_nd_empty (l : list (list level)) :
  flat_map (fun f => set_rs (nd f empty_node)) l = [].
Proof.
  induction l as [|f r IH]; [reflexivity|]. cbn [flat_map]. now rewrite nd_empty, IH.
Qed.

Lemma flat_map_map_cons (lv : level) (n : node) (l : list (list level)) :
  flat_map (fun f => set_rs (nd f n)) (map (cons lv) l) =
  flat_map (fun f => set_rs (nd f (sub_child lv n))) l.
Proof.
  induction l as [|f r IH]; [reflexivity|]. cbn [map flat_map nd]. now rewrite IH.
Qed.

(* below a node reached with [rest] still to match; [tmatch] is the non-empty case *)
Lemma tmatch_cands0 rest : forall n,
  match rest with [] => set_rs n ++ rs_of (child [HASH] n) | _ => tmatch rest n end =
  flat_map (fun f => set_rs (nd f n)) (cands0 rest).
Proof.
  induction rest as [|t rest IH]; intros n.
  - cbn [cands0 flat_map nd]. now rewrite rs_of_child, app_nil_r.
  - change (cands0 (t :: rest)) with (cands (t :: rest)). rewrite cands_cons.
    cbn [tmatch flat_map nd]. rewrite rs_of_child, flat_map_app, !flat_map_map_cons. f_equal.
    assert (Hgo : forall lv,
      match child lv n with
      | Some c => match rest with [] => set_rs c ++ rs_of (child [HASH] c) | _ => tmatch rest c end
      | None => []
      end = flat_map (fun f => set_rs (nd f (sub_child lv n))) (cands0 rest)).
    { intros lv. unfold sub_child. destruct (child lv n) as [c|]; [apply IH|].
      now rewrite flat_map_nd_empty. }
    now rewrite !Hgo.
Qed.

Lemma tmatch_cands ts n : tmatch ts n = flat_map (fun f => set_rs (nd f n)) (cands ts).
Proof. destruct ts as [|t rest]; [reflexivity|exact (tmatch_cands0 (t :: rest) n)]. Qed.

Definition lit_cands (ts : list level) : list (list level) :=
  match ts with
  | [] => []
  | t :: rest => map (cons t) (cands0 rest)
  end.

Lemma tmatch_lit_cands ts n :
  tmatch_lit ts n = flat_map (fun f => set_rs (nd f n)) (lit_cands ts).
Proof.
  destruct ts as [|t rest]; [reflexivity|].
  cbn [tmatch_lit lit_cands]. rewrite flat_map_map_cons.
  unfold sub_child. destruct (child t n) as [c|]; [apply tmatch_cands0|].
  now rewrite flat_map_nd_empty.
Qed.

Lemma lit_cands_in t rest f :
  t <> [PLUS] -> t <> [HASH] ->
  (In f (lit_cands (t :: rest)) <-> In f (cands (t :: rest)) /\ exists fr, f = t :: fr).
Proof.
  intros Hp Hh. rewrite cands_cons. cbn [lit_cands]. split.
  - intros Hin. split; [right; apply in_or_app; now right|].
    apply in_map_iff in Hin as (fr & <- & _). now exists fr.
  - intros [[<-|Hin] [fr E]]; [injection E as E _; congruence|].
    apply in_app_or in Hin as [Hin|Hin]; [|exact Hin].
    apply in_map_iff in Hin as (x & <- & _). injection E as E _. congruence.
Qed.

Lemma lit_cands_nodup ts : no_wild_levels ts = true -> NoDup (lit_cands ts).
Proof.
  destruct ts as [|t rest]; intros Hnw; [constructor|].
  apply no_wild_cons in Hnw as (_ & _ & Hrest).
  apply NoDup_map_cons. now apply cands0_nodup.
Qed.

(* MQTT-4.7.2-1 in terms of levels: a filter matches a topic name beginning with '$' iff the
   levels match and the first filter level is the (literal) first level of the name *)
Lemma topic_match_dollar_lit t f t0 rest :
  starts_dollar t = true -> split t = t0 :: rest ->
  (topic_match t f = true <-> lm (t0 :: rest) (split f) = true /\ exists fr, split f = t0 :: fr).
Proof.
  intros Hd Et. destruct (split_first_level_dollar t Hd) as (l & ls & Et').
  rewrite Et in Et'. injection Et' as -> ->.
  unfold topic_match. rewrite Hd, Et. cbn [andb]. split.
  - intros H. apply andb_true_iff in H as [Hw Hlm]. apply negb_true_iff in Hw.
    split; [exact Hlm|].
    destruct (split f) as [|fl f'] eqn:Ef; [now apply split_nonempty in Ef|].
    destruct (is_hash fl) eqn:Eh.
    { apply is_hash_eq in Eh. subst fl. apply split_head in Ef as (f0 & ->). discriminate. }
    rewrite (lm_cons_nohash _ _ _ _ Eh) in Hlm. apply andb_true_iff in Hlm as [Hfl _].
    apply orb_true_iff in Hfl as [Hfl|Hfl].
    { apply is_plus_eq in Hfl. subst fl. apply split_head in Ef as (f0 & ->). discriminate. }
    apply str_eqb_eq in Hfl. subst fl. now exists f'.
  - intros [Hlm [fr Ef]]. apply split_head in Ef as (f0 & ->). exact Hlm.
Qed.

Definition grp (g : str) (x : node) : copts :=
  match aget g (n_shared x) with Some l => l | None => [] end.

(* the members of "group g" at a node; the empty share name denotes the plain subscribers *)
Definition obs (g : str) (x : node) : copts := if is_empty g then n_clients x else grp g x.

Lemma obs_nil x : obs [] x = n_clients x.
Proof. reflexivity. Qed.

Lemma obs_ne g x : g <> [] -> obs g x = grp g x.
Proof. intros H. unfold obs. apply is_empty_false in H. now rewrite H. Qed.

Lemma obs_empty_node g : obs g empty_node = [].
Proof. unfold obs. destruct (is_empty g); reflexivity. Qed.

Lemma obs_same3 g a b : same3 a b -> obs g a = obs g b.
Proof. intros (H1 & H2 & _). unfold obs, grp. now rewrite H1, H2. Qed.

Lemma grp_same3 g a b : same3 a b -> grp g a = grp g b.
Proof. intros (_ & H2 & _). unfold grp. now rewrite H2. Qed.

Lemma tsub_nil_tname c s x : n_tname (tsubscribe [] c s x) = s_filter s.
Proof. cbn [tsubscribe]. destruct (is_empty (s_share s)); reflexivity. Qed.

Lemma tsub_nil_grp g c s x :
  grp g (tsubscribe [] c s x) =
  if negb (is_empty (s_share s)) && str_eqb g (s_share s) then aset c s (grp g x) else grp g x.
Proof.
  cbn [tsubscribe]. unfold grp. destruct (is_empty (s_share s)) eqn:Ee; cbn [negb andb n_shared]; [reflexivity|].
  rewrite aget_aset. destruct (str_eqb_spec g (s_share s)) as [E|E]; [|reflexivity].
  subst g. reflexivity.
Qed.

Lemma tsub_nil_clients c s x :
  n_clients (tsubscribe [] c s x) = if is_empty (s_share s) then aset c s (n_clients x) else n_clients x.
Proof. cbn [tsubscribe]. destruct (is_empty (s_share s)); reflexivity. Qed.

Lemma tsub_nil_obs g c s x :
  obs g (tsubscribe [] c s x) = if str_eqb g (s_share s) then aset c s (obs g x) else obs g x.
Proof.
  unfold obs. rewrite tsub_nil_grp, tsub_nil_clients.
  destruct (str_eqb_spec g (s_share s)) as [E|E].
  - subst g. destruct (is_empty (s_share s)); reflexivity.
  - destruct (is_empty g) eqn:Eg.
    + apply is_empty_true in Eg. subst g.
      destruct (is_empty (s_share s)) eqn:Es; [|reflexivity].
      apply is_empty_true in Es. congruence.
    + now rewrite andb_false_r.
Qed.

Lemma tsub_nil_shared_nodup c s x :
  NoDup (map fst (n_shared x)) -> NoDup (map fst (n_shared (tsubscribe [] c s x))).
Proof.
  intros H. cbn [tsubscribe]. destruct (is_empty (s_share s)); cbn [n_shared]; [exact H|].
  now apply NoDup_aset.
Qed.

Lemma tsub_nil_shared_nil c s x :
  s_share s = [] -> n_shared (tsubscribe [] c s x) = n_shared x.
Proof. intros H. cbn [tsubscribe]. rewrite H. reflexivity. Qed.

Lemma is_nil_true {A} (l : list A) : is_nil l = true <-> l = [].
Proof. destruct l; cbn; split; intros H; try reflexivity; discriminate. Qed.

Lemma leave_node_tname c g x : n_tname (fst (leave_node c g x)) = n_tname x.
Proof. unfold leave_node. destruct (is_empty g); [|destruct (aget g (n_shared x))]; reflexivity. Qed.

(* A node is pruned when the list it was taken from (plain subscribers, or groups) has become
   empty and it has no children; if the other list was empty too, as it is in every trie of the
   store, the pruned node had no entries left: nothing observable is lost with it. *)
Lemma leave_res_entries c g x :
  (if is_empty g then n_shared x = [] else n_clients x = []) ->
  n_clients (leave_res c g x) = n_clients (fst (leave_node c g x)) /\
  n_shared (leave_res c g x) = n_shared (fst (leave_node c g x)).
Proof.
  unfold leave_res, leave_node. destruct (is_empty g); intros Ho.
  - cbn [fst n_clients n_shared]. destruct (is_nil _ && _) eqn:Epr; [|now split].
    apply andb_true_iff in Epr as [E _]. apply is_nil_true in E. cbn [n_clients] in E.
    now rewrite E, Ho.
  - destruct (aget g (n_shared x)) as [l|]; [|now split].
    cbn [fst n_clients n_shared]. destruct (is_nil _ && _) eqn:Epr; [|now split].
    apply andb_true_iff in Epr as [E _]. apply is_nil_true in E. cbn [n_shared] in E.
    now rewrite E, Ho.
Qed.

Lemma leave_res_tname c g g' x :
  obs g' (leave_res c g x) <> [] -> n_tname (leave_res c g x) = n_tname x.
Proof.
  rewrite <- (leave_node_tname c g x). unfold leave_res.
  destruct (leave_node c g x) as [x' [|]]; [rewrite obs_empty_node; congruence|reflexivity].
Qed.

Lemma leave_res_plain c x :
  n_shared x = [] ->
  n_clients (leave_res c [] x) = adel c (n_clients x) /\ n_shared (leave_res c [] x) = [].
Proof. intros Hs. destruct (leave_res_entries c [] x Hs) as [-> ->]. now split. Qed.

Lemma leave_res_group c g x :
  g <> [] -> n_clients x = [] -> NoDup (map fst (n_shared x)) ->
  n_clients (leave_res c g x) = [] /\
  NoDup (map fst (n_shared (leave_res c g x))) /\
  forall g', grp g' (leave_res c g x) = if str_eqb g' g then adel c (grp g' x) else grp g' x.
Proof.
  intros Hg Hc Hnd. apply is_empty_false in Hg.
  destruct (leave_res_entries c g x) as [Hc' Hs']; [now rewrite Hg|].
  unfold grp. rewrite Hc', Hs'. unfold leave_node. rewrite Hg.
  destruct (aget g (n_shared x)) as [l|] eqn:El; cbn [fst n_clients n_shared].
  - split; [exact Hc|]. destruct (adel c l) eqn:Ead.
    + split; [now apply NoDup_adel|]. intros g'. rewrite aget_adel by exact Hnd.
      destruct (str_eqb_spec g' g) as [->|_]; [now rewrite El, Ead|reflexivity].
    + split; [now apply NoDup_aset|]. intros g'. rewrite aget_aset.
      destruct (str_eqb_spec g' g) as [->|_]; [now rewrite El, Ead|reflexivity].
  - split; [exact Hc|]. split; [exact Hnd|]. intros g'.
    destruct (str_eqb_spec g' g) as [->|_]; [now rewrite El|reflexivity].
Qed.

Definition getter := skey -> option sub.
Definition get_set (key : skey) (s : sub) (get : getter) : getter :=
  fun k' => if skey_eqb k' key then Some s else get k'.
Definition get_del (key : skey) (get : getter) : getter :=
  fun k' => if skey_eqb k' key then None else get k'.

Lemma kind_of_shared_iff g f : kind_of g f = KShared <-> g <> [].
Proof.
  unfold kind_of. rewrite <- is_empty_false.
  destruct (is_empty g), (starts_dollar f); cbn [negb]; split; congruence.
Qed.

Lemma kind_of_shared g f : g <> [] -> kind_of g f = KShared.
Proof. apply kind_of_shared_iff. Qed.

Lemma kind_of_shared_inv g f : kind_of g f = KShared -> g <> [].
Proof. apply kind_of_shared_iff. Qed.

Lemma kind_of_plain f : kind_of [] f = if starts_dollar f then KSys else KUser.
Proof. reflexivity. Qed.

Lemma kind_of_nonshared_inv g f : kind_of g f <> KShared -> g = [].
Proof. rewrite kind_of_shared_iff. destruct g; [reflexivity|intros H; now elim H]. Qed.

Lemma kind_of_nil_ns f : kind_of [] f <> KShared.
Proof. rewrite kind_of_shared_iff. now intros H. Qed.

Record NInv (k : kind) (get : getter) (p : list level) (x : node) : Prop := {
  ni_pure : match k with
            | KShared => n_clients x = [] /\ grp [] x = []
            | _ => n_shared x = []
            end;
  ni_shnd : NoDup (map fst (n_shared x));
  ni_nd : forall g, NoDup (map fst (obs g x));
  ni_name : forall g, obs g x <> [] ->
            n_tname x = join p /\ exists f, p = split f /\ kind_of g f = k;
  ni_get : forall g f c, p = split f -> kind_of g f = k -> aget c (obs g x) = get (c, g, f) }.

Lemma NInv_same3 k get p x y : same3 x y -> NInv k get p y -> NInv k get p x.
Proof.
  intros H3 [H1 H2 H4 H5 H6].
  pose proof H3 as (Hc & Hs & Ht).
  constructor.
  - rewrite (grp_same3 [] x y H3), Hc, Hs. exact H1.
  - now rewrite Hs.
  - intros g. now rewrite (obs_same3 g x y H3).
  - intros g. rewrite (obs_same3 g x y H3), Ht. apply H5.
  - intros g f c. rewrite (obs_same3 g x y H3). apply H6.
Qed.

Lemma NInv_ext k get get' p x :
  (forall c g f, p = split f -> kind_of g f = k -> get (c, g, f) = get' (c, g, f)) ->
  NInv k get p x -> NInv k get' p x.
Proof.
  intros He [H1 H2 H4 H5 H6]. constructor; try assumption.
  intros g f c Hp Hk. rewrite (H6 g f c Hp Hk). exact (He c g f Hp Hk).
Qed.

Lemma NInv_sub k get q c s x :
  NInv k get q x -> kind_of (s_share s) (s_filter s) = k -> q = split (s_filter s) ->
  NInv k (get_set (c, s_share s, s_filter s) s get) q (tsubscribe [] c s x).
Proof.
  intros [H1 H2 H4 H5 H6] Hk Hq. constructor.
  - assert (Hs : k <> KShared -> n_shared (tsubscribe [] c s x) = n_shared x).
    { intros Hns. apply tsub_nil_shared_nil, (kind_of_nonshared_inv _ (s_filter s)). congruence. }
    destruct k; [rewrite Hs by discriminate; exact H1..|].
    apply kind_of_shared_inv in Hk. destruct H1 as [Hc Hg].
    rewrite tsub_nil_clients, tsub_nil_grp.
    pose proof Hk as Hk'. apply is_empty_false in Hk'. rewrite Hk'. cbn [negb andb].
    split; [exact Hc|].
    destruct (str_eqb_spec [] (s_share s)) as [E|E]; [congruence|exact Hg].
  - now apply tsub_nil_shared_nodup.
  - intros g. rewrite tsub_nil_obs. destruct (str_eqb g (s_share s)); [apply NoDup_aset|]; apply H4.
  - intros g. rewrite tsub_nil_obs, tsub_nil_tname. intros Hne.
    split; [subst q; symmetry; apply join_split|].
    destruct (str_eqb_spec g (s_share s)) as [E|E].
    + subst g. exists (s_filter s). now split.
    + apply H5 in Hne as [_ Hex]. exact Hex.
  - intros g f c' Hp Hkf. rewrite tsub_nil_obs. unfold get_set.
    assert (Ef : f = s_filter s) by (apply split_inj; congruence). subst f.
    cbn [skey_eqb]. rewrite str_eqb_refl, andb_true_r.
    destruct (str_eqb_spec g (s_share s)) as [->|E].
    + rewrite aget_aset, andb_true_r. destruct (str_eqb c' c); [reflexivity|now apply H6].
    + rewrite andb_false_r. now apply H6.
Qed.

(* leaving a node, in one statement for plain and shared subscriptions: the members of the
   group that is left lose [c], nothing else is observed to change *)
Lemma leave_res_obs k get q c g f x :
  NInv k get q x -> kind_of g f = k ->
  (forall g', obs g' (leave_res c g x) = if str_eqb g' g then adel c (obs g' x) else obs g' x) /\
  match k with
  | KShared => n_clients (leave_res c g x) = [] /\ grp [] (leave_res c g x) = []
  | _ => n_shared (leave_res c g x) = []
  end /\
  NoDup (map fst (n_shared (leave_res c g x))).
Proof.
  intros [H1 H2 _ _ _] Hk. destruct g as [|a g0].
  - assert (Hs : n_shared x = []) by (destruct k; [exact H1|exact H1|now apply kind_of_nil_ns in Hk]).
    destruct (leave_res_plain c x Hs) as [Hc' Hs']. split; [|split].
    + intros [|b g1]; cbn [str_eqb]; [now rewrite !obs_nil|].
      rewrite !obs_ne by discriminate. unfold grp. now rewrite Hs', Hs.
    + destruct k; [exact Hs'|exact Hs'|now apply kind_of_nil_ns in Hk].
    + rewrite Hs'. constructor.
  - assert (Hne : a :: g0 <> []) by discriminate.
    rewrite (kind_of_shared _ f Hne) in Hk. subst k. destruct H1 as [Hc Hg].
    destruct (leave_res_group c (a :: g0) x Hne Hc H2) as (Hc' & Hnd' & Hgr). split; [|split].
    + intros [|b g1]; [|rewrite !obs_ne by discriminate; apply Hgr].
      cbn [str_eqb]. unfold obs. cbn [is_empty]. now rewrite Hc', Hc.
    + split; [exact Hc'|]. rewrite Hgr. exact Hg.
    + exact Hnd'.
Qed.

Lemma NInv_unsub k get q c g f x :
  NInv k get q x -> kind_of g f = k -> q = split f ->
  NInv k (get_del (c, g, f) get) q (leave_res c g x).
Proof.
  intros HN Hk Hq. destruct (leave_res_obs k get q c g f x HN Hk) as (Hobs & Hpure & Hshnd).
  destruct HN as [H1 H2 H4 H5 H6]. constructor; [exact Hpure|exact Hshnd| | |].
  - intros g'. rewrite Hobs. destruct (str_eqb g' g); [apply NoDup_adel|]; apply H4.
  - intros g' Hne. rewrite (leave_res_tname c g g' x Hne). apply H5.
    rewrite Hobs in Hne. destruct (str_eqb g' g); [now apply adel_nil_inv in Hne|exact Hne].
  - intros g' f' c' Hp Hkf. rewrite Hobs. unfold get_del.
    assert (Ef : f' = f) by (apply split_inj; congruence). subst f'.
    cbn [skey_eqb]. rewrite str_eqb_refl, andb_true_r.
    destruct (str_eqb_spec g' g) as [->|E].
    + rewrite aget_adel by apply H4. rewrite andb_true_r. destruct (str_eqb c' c); [reflexivity|now apply H6].
    + rewrite andb_false_r. now apply H6.
Qed.

Definition TInv (k : kind) (get : getter) (T : node) : Prop :=
  wfT T /\ forall p, NInv k get p (nd p T).

Lemma TInv_ext k get get' T :
  (forall c g f, kind_of g f = k -> get (c, g, f) = get' (c, g, f)) ->
  TInv k get T -> TInv k get' T.
Proof.
  intros He [Hwf Hn]. split; [exact Hwf|]. intros p.
  apply (NInv_ext k get get'); [|apply Hn]. intros c g f _ Hk. now apply He.
Qed.

Lemma NInv_empty k p : NInv k (fun _ => None) p empty_node.
Proof.
  constructor.
  - destruct k; [reflexivity|reflexivity|split; reflexivity].
  - constructor.
  - intros g. rewrite obs_empty_node. constructor.
  - intros g. rewrite obs_empty_node. congruence.
  - intros g f c _ _. rewrite obs_empty_node. reflexivity.
Qed.

Lemma TInv_empty k : TInv k (fun _ => None) empty_node.
Proof. split; [apply wfT_empty|]. intros p. rewrite nd_empty. apply NInv_empty. Qed.

(* an update that acts at the single path q *)
Lemma TInv_upd k get get' q T T' :
  TInv k get T -> wfT T' ->
  (forall p, p <> q -> same3 (nd p T') (nd p T)) ->
  NInv k get' q (nd q T') ->
  (forall c g f, split f <> q -> get' (c, g, f) = get (c, g, f)) ->
  TInv k get' T'.
Proof.
  intros [_ Hn] Hwf Hoth Hq Hget. split; [exact Hwf|]. intros p.
  destruct (path_eq_dec p q) as [->|E]; [exact Hq|].
  apply (NInv_same3 _ _ _ _ (nd p T)); [now apply Hoth|].
  apply (NInv_ext k get); [|apply Hn].
  intros c g f Hp _. symmetry. apply Hget. congruence.
Qed.

Lemma TInv_sub k get c s T :
  TInv k get T -> kind_of (s_share s) (s_filter s) = k ->
  TInv k (get_set (c, s_share s, s_filter s) s get) (tsubscribe (split (s_filter s)) c s T).
Proof.
  intros HT Hk. pose proof HT as [Hwf Hn].
  apply (TInv_upd k get _ (split (s_filter s)) T); [exact HT|now apply wfT_tsub| | |].
  - intros p Hp. now apply nd_tsub_other.
  - rewrite nd_tsub_same. now apply NInv_sub.
  - intros c' g' f' Hne. unfold get_set.
    destruct (skey_eqb_spec (c', g', f') (c, s_share s, s_filter s)) as [E1|E1]; [|reflexivity].
    injection E1 as _ _ ->. contradiction.
Qed.

Lemma TInv_unsub k get c g f T :
  TInv k get T -> kind_of g f = k ->
  TInv k (get_del (c, g, f) get) (tunsubscribe (split f) c g T).
Proof.
  intros HT Hk. pose proof HT as [Hwf Hn].
  apply (TInv_upd k get _ (split f) T); [exact HT|now apply wfT_tunsub| | |].
  - intros p Hp. now apply nd_tunsub_other.
  - rewrite nd_tunsub_same; [|apply split_nonempty|exact Hwf]. now apply NInv_unsub.
  - intros c' g' f' Hne. unfold get_del.
    destruct (skey_eqb_spec (c', g', f') (c, g, f)) as [E1|E1]; [|reflexivity].
    injection E1 as _ _ ->. contradiction.
Qed.

Definition kind_eqb (a b : kind) : bool :=
  match a, b with
  | KUser, KUser => true | KSys, KSys => true | KShared, KShared => true
  | _, _ => false
  end.

Lemma kind_eqb_spec a b : reflect (a = b) (kind_eqb a b).
Proof. destruct a, b; constructor; congruence. Qed.

Lemma kind_eqb_refl a : kind_eqb a a = true.
Proof. now destruct a. Qed.

Definition upd (k : kind) (t : node) (i : index) (g : stats) (cs : list (cid * stats)) (p : bool) (d : db) : db :=
  set_stats g cs p (set_trie_index k t i d).

Lemma trie_of_upd k' k t i g cs p d :
  trie_of k' (upd k t i g cs p d) = if kind_eqb k' k then t else trie_of k' d.
Proof. destruct k, k'; reflexivity. Qed.

Lemma index_of_upd k' k t i g cs p d :
  index_of k' (upd k t i g cs p d) = if kind_eqb k' k then i else index_of k' d.
Proof. destruct k, k'; reflexivity. Qed.

Lemma gstats_upd k t i g cs p d : gstats (upd k t i g cs p d) = g.
Proof. destruct k; reflexivity. Qed.
Lemma cstats_upd k t i g cs p d : cstats (upd k t i g cs p d) = cs.
Proof. destruct k; reflexivity. Qed.
Lemma panicked_upd k t i g cs p d : panicked (upd k t i g cs p d) = p.
Proof. destruct k; reflexivity. Qed.

Definition keys_at (c : cid) (idx : index) : list str :=
  match aget c idx with Some ks => ks | None => [] end.

Definition zero_stats : stats := {| st_total := 0; st_cur := 0 |}.
Definition bump (x : stats) : stats :=
  {| st_total := u64_add (st_total x) 1; st_cur := u64_add (st_cur x) 1 |}.
Definition drop (n : N) (x : stats) : stats :=
  {| st_total := st_total x; st_cur := u64_sub (st_cur x) n |}.

Definition sub_cs0 (c : cid) (idx : index) (cs : list (cid * stats)) : list (cid * stats) :=
  match aget c idx with
  | Some _ => cs
  | None => match aget c cs with Some _ => cs | None => aset c zero_stats cs end
  end.

Lemma db_subscribe_nf c s d :
  let k := kind_of (s_share s) (s_filter s) in
  let idx := index_of k d in
  let keys := keys_at c idx in
  let key := index_key (s_share s) (s_filter s) in
  let ex := mem_str key keys in
  let cs0 := sub_cs0 c idx (cstats d) in
  db_subscribe c s d =
  (upd k (tsubscribe (split (s_filter s)) c s (trie_of k d))
       (aset c (if ex then keys else keys ++ [key]) idx)
       (if ex then gstats d else bump (gstats d))
       (if ex then cs0 else match aget c cs0 with Some x => aset c (bump x) cs0 | None => cs0 end)
       (if ex then panicked d else match aget c cs0 with Some _ => panicked d | None => true end)
       d, ex).
Proof.
  cbv zeta. unfold db_subscribe, sub_cs0, keys_at, upd.
  destruct (aget c (index_of (kind_of (s_share s) (s_filter s)) d)) as [keys|].
  - destruct (mem_str (index_key (s_share s) (s_filter s)) keys); [reflexivity|].
    destruct (aget c (cstats d)); reflexivity.
  - cbn [mem_str].
    destruct (aget c (cstats d)) eqn:E.
    + rewrite E. reflexivity.
    + unfold zero_stats. rewrite !aget_aset_same. reflexivity.
Qed.

Lemma db_unsubscribe_nf c topic d :
  let g := fst (split_topic topic) in
  let f := snd (split_topic topic) in
  let k := kind_of g f in
  let idx := index_of k d in
  let keys := keys_at c idx in
  let key := index_key g f in
  let ex := mem_str key keys in
  db_unsubscribe c topic d =
  upd k (tunsubscribe (split f) c g (trie_of k d))
      (if ex then aset c (del_str key keys) idx else idx)
      (if ex then drop 1 (gstats d) else gstats d)
      (if ex then match aget c (cstats d) with Some x => aset c (drop 1 x) (cstats d) | None => cstats d end
       else cstats d)
      (if ex then match aget c (cstats d) with Some _ => panicked d | None => true end else panicked d)
      d.
Proof.
  cbv zeta. unfold db_unsubscribe, keys_at, upd.
  destruct (split_topic topic) as [g f]. cbn [fst snd].
  destruct (aget c (index_of (kind_of g f) d)) as [keys|]; [|reflexivity].
  destruct (mem_str (index_key g f) keys); [|reflexivity].
  destruct (aget c (cstats d)); reflexivity.
Qed.

Definition is_shared_kind (k : kind) : bool := match k with KShared => true | _ => false end.

Lemma db_unsub_all_kind_nf k c d :
  let keys := keys_at c (index_of k d) in
  let n := N.of_nat (length keys) in
  db_unsub_all_kind k c d =
  upd k (fold_left (fun t key => unsub_entry (is_shared_kind k) c key t) keys (trie_of k d))
      (adel c (index_of k d))
      (drop n (gstats d))
      (match aget c (cstats d) with Some x => aset c (drop n x) (cstats d) | None => cstats d end)
      (panicked d) d.
Proof. reflexivity. Qed.

Definition selk (k : kind) (c : cid) (key : skey) : bool :=
  let '(c', g, f) := key in str_eqb c c' && kind_eqb (kind_of g f) k.
Definition ikey (key : skey) : str := let '(_, g, f) := key in index_key g f.
Definition keys_of (k : kind) (c : cid) (sp : spec) : list str :=
  map ikey (filter (selk k c) (map fst sp)).

Fixpoint kdel (key : skey) (l : list skey) : list skey :=
  match l with [] => [] | x :: r => if skey_eqb key x then r else x :: kdel key r end.

Lemma map_fst_sp_set key s sp :
  map fst (sp_set key s sp) =
  match sp_get key sp with Some _ => map fst sp | None => map fst sp ++ [key] end.
Proof.
  induction sp as [|[k0 v0] r IH]; cbn [sp_set sp_get map fst]; [reflexivity|].
  destruct (skey_eqb_spec key k0) as [E|E]; cbn [map fst].
  - now subst k0.
  - rewrite IH. destruct (sp_get key r); reflexivity.
Qed.

Lemma map_fst_sp_del key sp : map fst (sp_del key sp) = kdel key (map fst sp).
Proof.
  induction sp as [|[k0 v0] r IH]; cbn [sp_del kdel map fst]; [reflexivity|].
  destruct (skey_eqb key k0); [reflexivity|]. cbn [map fst]. now rewrite IH.
Qed.

Lemma map_fst_filter (p : skey -> bool) (sp : spec) :
  map fst (filter (fun e => p (fst e)) sp) = filter p (map fst sp).
Proof.
  induction sp as [|[k0 v0] r IH]; cbn [filter map fst]; [reflexivity|].
  destruct (p k0); cbn [map fst]; now rewrite IH.
Qed.

Lemma keys_kdel (sel : skey -> bool) (key : skey) (L : list skey) :
  (forall k2, In k2 L -> sel k2 = true -> sel key = true -> ikey k2 = ikey key -> k2 = key) ->
  map ikey (filter sel (kdel key L)) =
  if sel key then del_str (ikey key) (map ikey (filter sel L)) else map ikey (filter sel L).
Proof.
  induction L as [|x r IH]; intros Hinj; cbn [kdel filter map].
  - destruct (sel key); reflexivity.
  - assert (IH' := IH (fun k2 Hin => Hinj k2 (or_intror Hin))). clear IH.
    destruct (skey_eqb_spec key x) as [E|E].
    + subst x. destruct (sel key) eqn:Es; [|reflexivity].
      cbn [map del_str]. now rewrite str_eqb_refl.
    + cbn [filter]. destruct (sel x) eqn:Ex; [|exact IH'].
      cbn [map]. rewrite IH'. destruct (sel key) eqn:Es; [|reflexivity].
      cbn [del_str]. destruct (str_eqb_spec (ikey key) (ikey x)) as [E1|E1]; [|reflexivity].
      exfalso. apply E. symmetry. apply Hinj; [now left|exact Ex|reflexivity|now symmetry].
Qed.

Lemma index_key_inj g f g' f' :
  kind_of g f = kind_of g' f' -> no_slash g = true -> no_slash g' = true ->
  index_key g f = index_key g' f' -> g = g' /\ f = f'.
Proof.
  intros Hk Hg Hg' He. destruct g as [|a g0].
  - assert (E : g' = []).
    { apply (kind_of_nonshared_inv g' f'). rewrite <- Hk. apply kind_of_nil_ns. }
    subst g'. cbn in He. now split.
  - assert (Hne : a :: g0 <> []) by discriminate.
    assert (Hne' : g' <> []).
    { apply (kind_of_shared_inv g' f'). rewrite <- Hk. now apply kind_of_shared. }
    unfold index_key in He.
    apply is_empty_false in Hne, Hne'. rewrite Hne, Hne' in He.
    pose proof (cut_slash_app (a :: g0) f Hg) as H1.
    pose proof (cut_slash_app g' f' Hg') as H2.
    rewrite He in H1. rewrite H1 in H2. injection H2 as -> ->. now split.
Qed.

Definition good (e : skey * sub) : Prop :=
  let '(c, g, f) := fst e in s_share (snd e) = g /\ s_filter (snd e) = f /\ no_slash g = true.

Definition spec_ok (sp : spec) : Prop :=
  NoDup (map fst sp) /\ forall e, In e sp -> good e.

Lemma spec_ok_key c g f s sp : spec_ok sp -> In (c, g, f, s) sp -> no_slash g = true.
Proof. intros [_ H] Hin. apply H in Hin. cbn in Hin. tauto. Qed.

Lemma in_keys_good c g f sp : spec_ok sp -> In (c, g, f) (map fst sp) -> no_slash g = true.
Proof.
  intros Hok Hin. apply in_map_iff in Hin as ([k0 s] & E & Hin). cbn [fst] in E. subst k0.
  now apply (spec_ok_key c g f s sp).
Qed.

(* an index key of client c / kind k is present iff the spec has the entry *)
Lemma mem_keys_of k c g f sp :
  spec_ok sp -> kind_of g f = k -> no_slash g = true ->
  mem_str (index_key g f) (keys_of k c sp) = match sp_get (c, g, f) sp with Some _ => true | None => false end.
Proof.
  intros Hok Hk Hg.
  destruct (sp_get (c, g, f) sp) as [s|] eqn:Eg.
  - apply mem_str_In. apply sp_get_In in Eg. unfold keys_of.
    apply in_map_iff. exists (c, g, f). split; [reflexivity|].
    apply filter_In. split.
    + apply in_map_iff. exists (c, g, f, s). now split.
    + cbn [selk]. rewrite str_eqb_refl, Hk, kind_eqb_refl. reflexivity.
  - destruct (mem_str (index_key g f) (keys_of k c sp)) eqn:Em; [|reflexivity].
    exfalso. apply mem_str_In in Em. unfold keys_of in Em.
    apply in_map_iff in Em as ([[c2 g2] f2] & Ei & Hin).
    apply filter_In in Hin as [Hin Hsel]. cbn [selk] in Hsel.
    apply andb_true_iff in Hsel as [Hc Hk2].
    apply str_eqb_eq in Hc. subst c2.
    destruct (kind_eqb_spec (kind_of g2 f2) k) as [Hk2'|]; [|discriminate].
    cbn [ikey] in Ei.
    destruct (index_key_inj g2 f2 g f) as [-> ->]; [congruence|now apply (in_keys_good c g2 f2 sp)|exact Hg|exact Ei|].
    now apply sp_get_none in Eg.
Qed.

Lemma keys_of_set k c' c s sp :
  keys_of k c' (sp_set (c, s_share s, s_filter s) s sp) =
  if str_eqb c' c && kind_eqb (kind_of (s_share s) (s_filter s)) k then
    match sp_get (c, s_share s, s_filter s) sp with
    | Some _ => keys_of k c' sp
    | None => keys_of k c' sp ++ [index_key (s_share s) (s_filter s)]
    end
  else keys_of k c' sp.
Proof.
  unfold keys_of. rewrite map_fst_sp_set.
  destruct (sp_get (c, s_share s, s_filter s) sp).
  - destruct (str_eqb c' c && kind_eqb (kind_of (s_share s) (s_filter s)) k); reflexivity.
  - rewrite filter_app, map_app. cbn [filter selk].
    destruct (str_eqb c' c && kind_eqb (kind_of (s_share s) (s_filter s)) k).
    + reflexivity.
    + cbn [map]. now rewrite app_nil_r.
Qed.

Lemma keys_of_del k c' c g f sp :
  spec_ok sp -> no_slash g = true ->
  keys_of k c' (sp_del (c, g, f) sp) =
  if str_eqb c' c && kind_eqb (kind_of g f) k then del_str (index_key g f) (keys_of k c' sp)
  else keys_of k c' sp.
Proof.
  intros Hok Hg. unfold keys_of. rewrite map_fst_sp_del.
  rewrite keys_kdel; [reflexivity|].
  intros [[c2 g2] f2] Hin Hs2 Hs Hi. cbn [selk] in Hs2, Hs. cbn [ikey] in Hi.
  apply andb_true_iff in Hs2 as [Hc2 Hk2]. apply andb_true_iff in Hs as [Hc Hk].
  apply str_eqb_eq in Hc2, Hc. subst c2 c.
  destruct (kind_eqb_spec (kind_of g2 f2) k) as [Hk2'|]; [|discriminate].
  destruct (kind_eqb_spec (kind_of g f) k) as [Hk'|]; [|discriminate].
  destruct (index_key_inj g2 f2 g f) as [-> ->]; [congruence|now apply (in_keys_good c' g2 f2 sp)|exact Hg|exact Hi|].
  reflexivity.
Qed.

Record Inv (d : db) (sp : spec) : Prop := {
  inv_ok : spec_ok sp;
  inv_trie : forall k, TInv k (fun key => sp_get key sp) (trie_of k d);
  inv_idx : forall k c, keys_at c (index_of k d) = keys_of k c sp;
  inv_idx_nd : forall k, NoDup (map fst (index_of k d));
  inv_cs : forall k c, aget c (index_of k d) <> None -> aget c (cstats d) <> None;
  inv_np : panicked d = false }.

Lemma Inv_init : Inv db_init [].
Proof.
  constructor.
  - split; [constructor|intros e []].
  - intros k. destruct k; apply TInv_empty.
  - intros k c. destruct k; reflexivity.
  - intros k. destruct k; constructor.
  - intros k c H. destruct k; now elim H.
  - reflexivity.
Qed.

Definition stat_or_zero (c : cid) (cs : list (cid * stats)) : stats :=
  match aget c cs with Some x => x | None => zero_stats end.

Lemma sub_cs0_get c idx cs :
  (aget c idx <> None -> aget c cs <> None) ->
  forall c', aget c' (sub_cs0 c idx cs) = if str_eqb c' c then Some (stat_or_zero c cs) else aget c' cs.
Proof.
  intros Hcs c'. unfold sub_cs0, stat_or_zero.
  destruct (str_eqb_spec c' c) as [E|E].
  - subst c'. destruct (aget c idx) as [ks|].
    + destruct (aget c cs) as [x|] eqn:Ex; [first [reflexivity|exact Ex]|]. exfalso. now apply Hcs.
    + destruct (aget c cs) as [x|] eqn:Ex; [first [reflexivity|exact Ex]|]. apply aget_aset_same.
  - destruct (aget c idx) as [ks|]; [reflexivity|].
    destruct (aget c cs) as [x|] eqn:Ex; [reflexivity|]. now apply aget_aset_other.
Qed.

Lemma sub_cs_get c idx cs (ex : bool) :
  (aget c idx <> None -> aget c cs <> None) ->
  let cs0 := sub_cs0 c idx cs in
  forall c', aget c' (if ex then cs0 else match aget c cs0 with Some x => aset c (bump x) cs0 | None => cs0 end) =
             if str_eqb c' c then Some (if ex then stat_or_zero c cs else bump (stat_or_zero c cs))
             else aget c' cs.
Proof.
  intros Hcs cs0 c'. pose proof (sub_cs0_get c idx cs Hcs) as H0. fold cs0 in H0.
  destruct ex; [apply H0|].
  rewrite (H0 c), str_eqb_refl. rewrite aget_aset, H0.
  destruct (str_eqb c' c); reflexivity.
Qed.

(* One TrieDB operation rewrites the trie and index of a single kind k, and the statistics.
   What it must establish for k, and what it must leave alone for the other kinds: *)
Lemma Inv_upd d sp k t i g cs p sp' :
  Inv d sp -> spec_ok sp' ->
  (forall c g f, kind_of g f <> k -> sp_get (c, g, f) sp' = sp_get (c, g, f) sp) ->
  (forall k' c, k' <> k -> keys_of k' c sp' = keys_of k' c sp) ->
  TInv k (fun key => sp_get key sp') t ->
  (forall c, keys_at c i = keys_of k c sp') ->
  NoDup (map fst i) ->
  (forall c, aget c i <> None -> aget c cs <> None) ->
  (forall c, aget c (cstats d) <> None -> aget c cs <> None) ->
  p = false ->
  Inv (upd k t i g cs p d) sp'.
Proof.
  intros [Hok Htr Hidx Hind Hcs Hnp] Hok' Hget Hkeys Ht Hi Hnd Hics Hccs Hp. constructor.
  - exact Hok'.
  - intros k'. rewrite trie_of_upd. destruct (kind_eqb_spec k' k) as [->|E]; [exact Ht|].
    apply (TInv_ext k' (fun key => sp_get key sp)); [|apply Htr].
    intros c g0 f Hk. symmetry. apply Hget. congruence.
  - intros k' c. rewrite index_of_upd. destruct (kind_eqb_spec k' k) as [->|E]; [apply Hi|].
    rewrite (Hkeys k' c E). apply Hidx.
  - intros k'. rewrite index_of_upd. destruct (kind_eqb_spec k' k); [exact Hnd|apply Hind].
  - intros k' c. rewrite index_of_upd, cstats_upd.
    destruct (kind_eqb_spec k' k); [apply Hics|]. intros H. apply Hccs. now apply (Hcs k').
  - rewrite panicked_upd. exact Hp.
Qed.

Lemma Inv_sub d sp c s :
  Inv d sp -> no_slash (s_share s) = true ->
  Inv (fst (db_subscribe c s d)) (sp_set (c, s_share s, s_filter s) s sp).
Proof.
  intros HI Hns. pose proof HI as [Hok Htr Hidx Hind Hcs Hnp].
  rewrite db_subscribe_nf. cbn [fst].
  set (k := kind_of (s_share s) (s_filter s)).
  set (idx := index_of k d).
  set (key := index_key (s_share s) (s_filter s)).
  set (ex := mem_str key (keys_at c idx)).
  assert (Hcsk : aget c idx <> None -> aget c (cstats d) <> None) by apply Hcs.
  apply (Inv_upd d sp); [exact HI| | | | | | | | |].
  - destruct Hok as [Hnd Hgood]. split; [now apply NoDup_sp_set|].
    intros e Hin. apply in_sp_set in Hin as [->|Hin]; [|now apply Hgood].
    cbn. auto.
  - intros c' g f Hk. rewrite sp_get_set.
    destruct (skey_eqb_spec (c', g, f) (c, s_share s, s_filter s)) as [E1|E1]; [|reflexivity].
    injection E1 as _ -> ->. now elim Hk.
  - intros k' c' Hk. rewrite keys_of_set. fold k.
    destruct (kind_eqb_spec k k') as [E|_]; [congruence|]. now rewrite andb_false_r.
  - apply (TInv_ext k (get_set (c, s_share s, s_filter s) s (fun key0 => sp_get key0 sp))).
    + intros c' g f _. unfold get_set. now rewrite sp_get_set.
    + now apply TInv_sub.
  - intros c'. rewrite keys_of_set. fold k. rewrite kind_eqb_refl, andb_true_r.
    unfold keys_at at 1. rewrite aget_aset.
    destruct (str_eqb_spec c' c) as [E1|E1]; [|apply Hidx].
    subst c'. unfold ex, key, idx. rewrite Hidx.
    rewrite (mem_keys_of k c (s_share s) (s_filter s) sp Hok eq_refl Hns).
    destruct (sp_get (c, s_share s, s_filter s) sp); reflexivity.
  - apply NoDup_aset. apply Hind.
  - intros c'. rewrite (sub_cs_get c idx (cstats d) ex Hcsk), aget_aset.
    destruct (str_eqb c' c); [discriminate|apply Hcs].
  - intros c'. rewrite (sub_cs_get c idx (cstats d) ex Hcsk).
    destruct (str_eqb c' c); [discriminate|tauto].
  - destruct ex; [exact Hnp|].
    rewrite (sub_cs0_get c idx (cstats d) Hcsk c), str_eqb_refl. exact Hnp.
Qed.

Lemma cut_slash_fst_no_slash (s : str) : no_slash (fst (cut_slash s)) = true.
Proof.
  induction s as [|c s IH]; [reflexivity|]. cbn [cut_slash].
  destruct (N.eqb c SLASH) eqn:E; [reflexivity|].
  destruct (cut_slash s) as [a b]. cbn [fst] in *. apply no_slash_cons. now split.
Qed.

Lemma split_topic_no_slash (t : str) : no_slash (fst (split_topic t)) = true.
Proof.
  unfold split_topic. destruct (has_prefix SHARE_PREFIX t); [|reflexivity].
  pose proof (cut_slash_fst_no_slash (skipn 7 t)) as H.
  destruct (cut_slash (skipn 7 t)) as [g [f|]]; [exact H|reflexivity].
Qed.

Lemma spec_step_unsub sp c t :
  spec_step sp (OUnsub c t) = sp_del (c, fst (split_topic t), snd (split_topic t)) sp.
Proof. cbn [spec_step]. now destruct (split_topic t). Qed.

Lemma del_str_notin k l : mem_str k l = false -> del_str k l = l.
Proof.
  induction l as [|x r IH]; cbn [mem_str del_str]; intros H; [reflexivity|].
  apply orb_false_iff in H as [H1 H2]. rewrite H1. now rewrite IH.
Qed.

Lemma in_del_str x k l : In x (del_str k l) -> In x l.
Proof.
  induction l as [|y r IH]; cbn [del_str]; [tauto|]. destruct (str_eqb k y); [now right|].
  intros [H|H]; [now left|right; now apply IH].
Qed.

Lemma mem_keys_at_some k c idx : mem_str k (keys_at c idx) = true -> aget c idx <> None.
Proof. unfold keys_at. destruct (aget c idx); [discriminate|]. cbn. discriminate. Qed.

Lemma aget_upd_some {V} (f : V -> V) c c' (cs : list (str * V)) :
  aget c' cs <> None ->
  aget c' (match aget c cs with Some x => aset c (f x) cs | None => cs end) <> None.
Proof.
  intros H. destruct (aget c cs) as [x|]; [|exact H].
  rewrite aget_aset. destruct (str_eqb c' c); [discriminate|exact H].
Qed.

Lemma Inv_unsub d sp c topic :
  Inv d sp -> Inv (db_unsubscribe c topic d) (spec_step sp (OUnsub c topic)).
Proof.
  intros HI. pose proof HI as [Hok Htr Hidx Hind Hcs Hnp].
  rewrite db_unsubscribe_nf, spec_step_unsub.
  pose proof (split_topic_no_slash topic) as Hns.
  set (g := fst (split_topic topic)) in *. set (f := snd (split_topic topic)).
  set (k := kind_of g f). set (idx := index_of k d).
  set (key := index_key g f). set (ex := mem_str key (keys_at c idx)).
  assert (Hex : ex = true -> aget c (cstats d) <> None).
  { intros E. apply (Hcs k). now apply (mem_keys_at_some key). }
  apply (Inv_upd d sp); [exact HI| | | | | | | | |].
  - destruct Hok as [Hnd Hgood]. split; [now apply NoDup_sp_del|].
    intros e Hin. apply Hgood. now apply in_sp_del in Hin.
  - intros c' g' f' Hk. apply sp_get_del_other.
    intros E1. injection E1 as _ -> ->. now elim Hk.
  - intros k' c' Hk. rewrite (keys_of_del k' c' c g f sp Hok Hns). fold k.
    destruct (kind_eqb_spec k k') as [E|_]; [congruence|]. now rewrite andb_false_r.
  - apply (TInv_ext k (get_del (c, g, f) (fun key0 => sp_get key0 sp))).
    + intros c' g' f' _. unfold get_del. rewrite sp_get_del by apply Hok. reflexivity.
    + now apply TInv_unsub.
  - intros c'. rewrite (keys_of_del k c' c g f sp Hok Hns). fold k.
    rewrite kind_eqb_refl, andb_true_r. destruct ex eqn:Eex.
    + unfold keys_at at 1. rewrite aget_aset.
      destruct (str_eqb_spec c' c) as [E1|E1]; [|apply Hidx].
      subst c'. unfold key, idx. now rewrite Hidx.
    + destruct (str_eqb_spec c' c) as [E1|E1]; [|apply Hidx].
      subst c'. unfold ex, idx in Eex. rewrite Hidx in Eex.
      fold key. rewrite (del_str_notin _ _ Eex). apply Hidx.
  - destruct ex; [apply NoDup_aset|]; apply Hind.
  - intros c' Hne. assert (Hold : aget c' (cstats d) <> None).
    { destruct ex eqn:Eex; [|now apply (Hcs k)].
      rewrite aget_aset in Hne. destruct (str_eqb_spec c' c) as [E1|E1]; [|now apply (Hcs k)].
      subst c'. now apply Hex. }
    destruct ex; [|exact Hold]. now apply aget_upd_some.
  - intros c' Hold. destruct ex; [|exact Hold]. now apply aget_upd_some.
  - destruct ex; [|exact Hnp].
    destruct (aget c (cstats d)); [exact Hnp|]. now elim Hex.
Qed.

Definition sp_del_kind (k : kind) (c : cid) (sp : spec) : spec :=
  filter (fun e => negb (selk k c (fst e))) sp.

Definition get_del_list (L : list skey) (get : getter) : getter :=
  fun key' => if existsb (skey_eqb key') L then None else get key'.

Lemma unsub_entry_key k c g f T :
  kind_of g f = k -> no_slash g = true ->
  unsub_entry (is_shared_kind k) c (index_key g f) T = tunsubscribe (split f) c g T.
Proof.
  intros Hk Hg. destruct g as [|a g0].
  - rewrite kind_of_plain in Hk. cbn [index_key is_empty].
    destruct (starts_dollar f); subst k; reflexivity.
  - assert (Hne : a :: g0 <> []) by discriminate.
    rewrite (kind_of_shared _ f Hne) in Hk. subst k. cbn [is_shared_kind unsub_entry].
    unfold index_key. cbn [is_empty]. now rewrite (cut_slash_app (a :: g0) f Hg).
Qed.

Lemma TInv_fold k c : forall (L : list skey) T get,
  (forall c' g f, In (c', g, f) L -> kind_of g f = k /\ no_slash g = true /\ c' = c) ->
  TInv k get T ->
  TInv k (get_del_list L get)
       (fold_left (fun t key => unsub_entry (is_shared_kind k) c key t) (map ikey L) T).
Proof.
  induction L as [|[[c0 g] f] L IH]; intros T get HL HT.
  - cbn [map fold_left]. apply (TInv_ext k get); [reflexivity|exact HT].
  - cbn [map fold_left ikey].
    destruct (HL c0 g f (or_introl eq_refl)) as (Hk & Hg & ->).
    rewrite (unsub_entry_key k c g f T Hk Hg).
    apply (TInv_ext k (get_del_list L (get_del (c, g, f) get))).
    + intros c' g' f' _. unfold get_del_list, get_del. cbn [existsb].
      destruct (skey_eqb (c', g', f') (c, g, f)); cbn [orb];
        destruct (existsb (skey_eqb (c', g', f')) L); reflexivity.
    + apply IH; [|now apply TInv_unsub].
      intros c' g' f' Hin. apply HL. now right.
Qed.

Lemma existsb_skey key L : existsb (skey_eqb key) L = true <-> In key L.
Proof.
  rewrite existsb_exists. split.
  - intros (x & Hin & E). destruct (skey_eqb_spec key x); [now subst|discriminate].
  - intros Hin. exists key. split; [exact Hin|apply skey_eqb_refl].
Qed.

Lemma get_del_list_kind k c sp key' :
  get_del_list (filter (selk k c) (map fst sp)) (fun key0 => sp_get key0 sp) key' =
  sp_get key' (sp_del_kind k c sp).
Proof.
  unfold get_del_list, sp_del_kind.
  rewrite (sp_get_filter (fun key => negb (selk k c key))).
  destruct (selk k c key') eqn:Es; cbn [negb].
  - destruct (existsb (skey_eqb key') (filter (selk k c) (map fst sp))) eqn:Ee; [reflexivity|].
    apply sp_get_none. intros Hin.
    assert (H : existsb (skey_eqb key') (filter (selk k c) (map fst sp)) = true).
    { apply existsb_skey. apply filter_In. now split. }
    congruence.
  - destruct (existsb (skey_eqb key') (filter (selk k c) (map fst sp))) eqn:Ee; [|reflexivity].
    apply existsb_skey in Ee. apply filter_In in Ee as [_ Ee]. congruence.
Qed.

Lemma keys_of_del_kind k' c' k c sp :
  keys_of k' c' (sp_del_kind k c sp) =
  if kind_eqb k' k && str_eqb c' c then [] else keys_of k' c' sp.
Proof.
  unfold keys_of, sp_del_kind.
  rewrite (map_fst_filter (fun key => negb (selk k c key))).
  destruct (kind_eqb_spec k' k) as [Ek|Ek]; cbn [andb].
  - subst k'. destruct (str_eqb_spec c' c) as [Ec|Ec].
    + subst c'. now rewrite filter_filter_neg.
    + rewrite filter_filter_imp; [reflexivity|].
      intros [[c2 g2] f2] Hs. cbn [selk] in *. apply andb_true_iff in Hs as [Hs _].
      apply str_eqb_eq in Hs. subst c2.
      destruct (str_eqb_spec c c') as [E|E]; [congruence|reflexivity].
  - rewrite filter_filter_imp; [reflexivity|].
    intros [[c2 g2] f2] Hs. cbn [selk] in *. apply andb_true_iff in Hs as [_ Hs].
    destruct (kind_eqb_spec (kind_of g2 f2) k') as [E|]; [|discriminate].
    destruct (kind_eqb_spec (kind_of g2 f2) k) as [E'|E']; [congruence|].
    now rewrite andb_false_r.
Qed.

Lemma Inv_unsub_all_kind d sp k c :
  Inv d sp -> Inv (db_unsub_all_kind k c d) (sp_del_kind k c sp).
Proof.
  intros HI. pose proof HI as [Hok Htr Hidx Hind Hcs Hnp].
  rewrite db_unsub_all_kind_nf.
  apply (Inv_upd d sp); [exact HI| | | | | | | | |].
  - destruct Hok as [Hnd Hgood]. split.
    + unfold sp_del_kind. now apply NoDup_map_filter.
    + intros e Hin. apply filter_In in Hin as [Hin _]. now apply Hgood.
  - intros c' g' f' Hk. unfold sp_del_kind.
    rewrite (sp_get_filter (fun key => negb (selk k c key))). cbn [selk].
    destruct (kind_eqb_spec (kind_of g' f') k) as [E|_]; [contradiction|].
    now rewrite andb_false_r.
  - intros k' c' Hk. rewrite keys_of_del_kind.
    destruct (kind_eqb_spec k' k) as [E|_]; [contradiction|reflexivity].
  - rewrite Hidx. unfold keys_of.
    apply (TInv_ext k (get_del_list (filter (selk k c) (map fst sp)) (fun key0 => sp_get key0 sp))).
    + intros c' g' f' _. apply get_del_list_kind.
    + apply TInv_fold; [|apply Htr].
      intros c' g f Hin. apply filter_In in Hin as [Hin Hs]. cbn [selk] in Hs.
      apply andb_true_iff in Hs as [Hc Hk]. apply str_eqb_eq in Hc.
      destruct (kind_eqb_spec (kind_of g f) k) as [Hk'|]; [|discriminate].
      split; [exact Hk'|]. split; [now apply (in_keys_good c' g f sp)|now symmetry].
  - intros c'. rewrite keys_of_del_kind, kind_eqb_refl. cbn [andb].
    unfold keys_at at 1. rewrite aget_adel by apply Hind.
    destruct (str_eqb c' c); [reflexivity|apply Hidx].
  - apply NoDup_adel. apply Hind.
  - intros c' Hne. apply aget_upd_some. apply (Hcs k).
    rewrite aget_adel in Hne by apply Hind.
    destruct (str_eqb c' c); [now elim Hne|exact Hne].
  - intros c'. apply aget_upd_some.
  - exact Hnp.
Qed.

Lemma sp_del_client_kinds c sp :
  sp_del_client c sp = sp_del_kind KShared c (sp_del_kind KSys c (sp_del_kind KUser c sp)).
Proof.
  unfold sp_del_client, sp_del_kind. rewrite !filter_filter.
  apply filter_ext. intros [[[c' g] f] s]. cbn [fst selk].
  destruct (str_eqb c c'); cbn [andb negb]; [|reflexivity].
  destruct (kind_of g f); reflexivity.
Qed.

Lemma Inv_step d sp o : Inv d sp -> wf_op o = true -> Inv (db_step d o) (spec_step sp o).
Proof.
  intros HI Hwf. destruct o as [c s|c t|c].
  - cbn [db_step spec_step]. apply Inv_sub; [exact HI|].
    cbn [wf_op] in Hwf. now apply andb_true_iff in Hwf as [_ Hwf].
  - cbn [db_step]. now apply Inv_unsub.
  - cbn [db_step spec_step]. rewrite sp_del_client_kinds. unfold db_unsubscribe_all.
    now repeat apply Inv_unsub_all_kind.
Qed.

Lemma Inv_fold ops : forall d sp, Inv d sp -> wf_ops ops = true ->
  Inv (fold_left db_step ops d) (fold_left spec_step ops sp).
Proof.
  induction ops as [|o r IH]; intros d sp HI Hwf; [exact HI|].
  cbn [wf_ops forallb] in Hwf. apply andb_true_iff in Hwf as [Ho Hr].
  cbn [fold_left]. apply IH; [now apply Inv_step|exact Hr].
Qed.

Lemma wf_ops_app a b : wf_ops (a ++ b) = wf_ops a && wf_ops b.
Proof. apply forallb_app. Qed.

Lemma db_run_app a b : db_run (a ++ b) = fold_left db_step b (db_run a).
Proof. apply fold_left_app. Qed.

Lemma spec_run_app a b : spec_run (a ++ b) = fold_left spec_step b (spec_run a).
Proof. apply fold_left_app. Qed.

Lemma Inv_run ops : wf_ops ops = true -> Inv (db_run ops) (spec_run ops).
Proof. intros H. apply Inv_fold; [apply Inv_init|exact H]. Qed.

Lemma never_panics ops : wf_ops ops = true -> panicked (db_run ops) = false.
Proof. intros H. apply (inv_np _ _ (Inv_run ops H)). Qed.

Lemma sp_get_good c g f s sp :
  spec_ok sp -> sp_get (c, g, f) sp = Some s -> s_share s = g /\ s_filter s = f.
Proof.
  intros [_ Hgood] H. apply sp_get_In in H. apply Hgood in H. cbn in H. tauto.
Qed.

Section Entries.
  Variables (k : kind) (sp : spec).
  Hypothesis Hok : spec_ok sp.
  Let get : getter := fun key => sp_get key sp.

  Lemma obs_entry p x g c s :
    NInv k get p x -> In (c, s) (obs g x) ->
    s_share s = g /\ p = split (s_filter s) /\ kind_of (s_share s) (s_filter s) = k /\
    sp_get (c, s_share s, s_filter s) sp = Some s.
  Proof.
    intros HN Hin.
    assert (Hne : obs g x <> []) by (intros E; rewrite E in Hin; destruct Hin).
    destruct (ni_name _ _ _ _ HN g Hne) as (_ & f & Hp & Hk).
    pose proof (In_aget c s (obs g x) (ni_nd _ _ _ _ HN g) Hin) as Hget.
    rewrite (ni_get _ _ _ _ HN g f c Hp Hk) in Hget. unfold get in Hget.
    destruct (sp_get_good c g f s sp Hok Hget) as [E1 E2]. subst g f. tauto.
  Qed.

  Lemma in_shared_obs p x g l :
    NInv k get p x -> In (g, l) (n_shared x) -> l <> [] -> g <> [] /\ obs g x = l.
  Proof.
    intros HN Hin Hl.
    pose proof (In_aget g l (n_shared x) (ni_shnd _ _ _ _ HN) Hin) as Hget.
    assert (Hgrp : grp g x = l) by (unfold grp; now rewrite Hget).
    assert (Hg : g <> []).
    { intros ->. pose proof (ni_pure _ _ _ _ HN) as Hp. destruct k.
      - rewrite Hp in Hin. destruct Hin.
      - rewrite Hp in Hin. destruct Hin.
      - destruct Hp as [_ Hp]. congruence. }
    split; [exact Hg|]. now rewrite obs_ne.
  Qed.

  Lemma entry_sound p x c s :
    NInv k get p x -> In (c, s) (set_rs x) ->
    p = split (s_filter s) /\ kind_of (s_share s) (s_filter s) = k /\
    sp_get (c, s_share s, s_filter s) sp = Some s.
  Proof.
    intros HN Hin. unfold set_rs in Hin. apply in_app_or in Hin as [Hin|Hin].
    - rewrite <- obs_nil in Hin. now destruct (obs_entry p x [] c s HN Hin) as (_ & H).
    - apply in_flat_map in Hin as ([g l] & Hgl & Hin). cbn [snd] in Hin.
      assert (Hl : l <> []) by (intros E; rewrite E in Hin; destruct Hin).
      destruct (in_shared_obs p x g l HN Hgl Hl) as [_ Ho]. rewrite <- Ho in Hin.
      now destruct (obs_entry p x g c s HN Hin) as (_ & H).
  Qed.

  Lemma obs_in_set_rs g x e : In e (obs g x) -> In e (set_rs x).
  Proof.
    unfold obs, set_rs, grp. intros Hin. apply in_or_app.
    destruct (is_empty g); [now left|right].
    destruct (aget g (n_shared x)) as [l|] eqn:El; [|destruct Hin].
    apply aget_In in El. apply in_flat_map. exists (g, l). now split.
  Qed.

  Lemma entry_complete x c g f s :
    NInv k get (split f) x -> kind_of g f = k -> sp_get (c, g, f) sp = Some s ->
    In (c, s) (obs g x).
  Proof.
    intros HN Hk Hget. apply aget_In.
    now rewrite (ni_get _ _ _ _ HN g f c eq_refl Hk).
  Qed.

  (* the members of group g stored under the filter f *)
  Lemma node_members T g f :
    TInv k get T -> kind_of g f = k ->
    NoDup (obs g (nd (split f) T)) /\
    forall c s, In (c, s) (obs g (nd (split f) T)) <-> sp_get (c, g, f) sp = Some s.
  Proof.
    intros [_ HN] Hk. specialize (HN (split f)). split.
    - apply (NoDup_map_inv fst), (ni_nd _ _ _ _ HN g).
    - intros c s. split; [|now apply entry_complete].
      intros Hin. destruct (obs_entry _ _ g c s HN Hin) as (Hg & Hp & _ & Hget).
      apply split_inj in Hp. now rewrite Hg, <- Hp in Hget.
  Qed.

  Lemma set_rs_nodup p x : NInv k get p x -> NoDup (set_rs x).
  Proof.
    intros HN. unfold set_rs. apply NoDup_app_disjoint.
    - apply (NoDup_map_inv fst). exact (ni_nd _ _ _ _ HN []).
    - apply NoDup_flat_map.
      + apply (NoDup_map_inv fst). exact (ni_shnd _ _ _ _ HN).
      + intros [g l] Hgl. cbn [snd]. destruct l as [|e l']; [constructor|].
        destruct (in_shared_obs p x g (e :: l') HN Hgl) as [_ Ho]; [discriminate|].
        rewrite <- Ho. apply (NoDup_map_inv fst). exact (ni_nd _ _ _ _ HN g).
      + intros [g1 l1] [g2 l2] [c s] H1 H2 Hy1 Hy2. cbn [snd] in Hy1, Hy2.
        assert (Hl1 : l1 <> []) by (intros E; rewrite E in Hy1; destruct Hy1).
        assert (Hl2 : l2 <> []) by (intros E; rewrite E in Hy2; destruct Hy2).
        destruct (in_shared_obs p x g1 l1 HN H1 Hl1) as [_ Ho1].
        destruct (in_shared_obs p x g2 l2 HN H2 Hl2) as [_ Ho2].
        rewrite <- Ho1 in Hy1. rewrite <- Ho2 in Hy2.
        destruct (obs_entry p x g1 c s HN Hy1) as (E1 & _).
        destruct (obs_entry p x g2 c s HN Hy2) as (E2 & _).
        assert (E : g1 = g2) by congruence. subst g2. congruence.
    - intros [c s] Hy1 Hy2.
      rewrite <- obs_nil in Hy1. destruct (obs_entry p x [] c s HN Hy1) as (E1 & _).
      apply in_flat_map in Hy2 as ([g l] & Hgl & Hin). cbn [snd] in Hin.
      assert (Hl : l <> []) by (intros E; rewrite E in Hin; destruct Hin).
      destruct (in_shared_obs p x g l HN Hgl Hl) as [Hg Ho]. rewrite <- Ho in Hin.
      destruct (obs_entry p x g c s HN Hin) as (E2 & _). congruence.
  Qed.

  (* the entries collected along duplicate-free paths are those of the specification whose
     filter splits into one of the paths *)
  Lemma paths_exact T (L : list (list level)) :
    TInv k get T -> NoDup L ->
    NoDup (flat_map (fun p => set_rs (nd p T)) L) /\
    forall c s, In (c, s) (flat_map (fun p => set_rs (nd p T)) L) <->
      (kind_of (s_share s) (s_filter s) = k /\ sp_get (c, s_share s, s_filter s) sp = Some s /\
       In (split (s_filter s)) L).
  Proof.
    intros [Hwf HN] HL. split.
    - apply NoDup_flat_map; [exact HL| |].
      + intros p _. apply (set_rs_nodup p). apply HN.
      + intros p1 p2 [c s] _ _ H1 H2.
        destruct (entry_sound p1 _ c s (HN p1) H1) as (E1 & _).
        destruct (entry_sound p2 _ c s (HN p2) H2) as (E2 & _). congruence.
    - intros c s. rewrite in_flat_map. split.
      + intros (p & Hp & Hin). destruct (entry_sound p _ c s (HN p) Hin) as (E1 & Hk & Hget).
        now subst p.
      + intros (Hk & Hget & Hin). exists (split (s_filter s)). split; [exact Hin|].
        apply (obs_in_set_rs (s_share s)).
        apply (entry_complete _ c (s_share s) (s_filter s) s (HN _) Hk Hget).
  Qed.

  Lemma tmatch_exact T ts :
    TInv k get T -> ts <> [] -> no_wild_levels ts = true ->
    NoDup (tmatch ts T) /\
    forall c s, In (c, s) (tmatch ts T) <->
      (kind_of (s_share s) (s_filter s) = k /\ sp_get (c, s_share s, s_filter s) sp = Some s /\
       lm ts (split (s_filter s)) = true).
  Proof.
    intros HT Hne Hnw. rewrite tmatch_cands.
    destruct (paths_exact T (cands ts) HT (cands_nodup ts Hnw)) as [Hnd Hin]. split; [exact Hnd|].
    intros c s. now rewrite Hin, (cands_lm_nowild ts _ Hne Hnw).
  Qed.

  Lemma tmatch_lit_exact T t0 rest :
    TInv k get T -> no_wild_levels (t0 :: rest) = true ->
    NoDup (tmatch_lit (t0 :: rest) T) /\
    forall c s, In (c, s) (tmatch_lit (t0 :: rest) T) <->
      (kind_of (s_share s) (s_filter s) = k /\ sp_get (c, s_share s, s_filter s) sp = Some s /\
       lm (t0 :: rest) (split (s_filter s)) = true /\ exists fr, split (s_filter s) = t0 :: fr).
  Proof.
    intros HT Hnw. rewrite tmatch_lit_cands.
    destruct (paths_exact T _ HT (lit_cands_nodup _ Hnw)) as [Hnd Hin]. split; [exact Hnd|].
    pose proof Hnw as Hnw'. apply no_wild_cons in Hnw' as (Hp & Hh & _).
    assert (Hne : t0 :: rest <> []) by discriminate.
    intros c s. now rewrite Hin, (lit_cands_in t0 rest _ Hp Hh), (cands_lm_nowild _ _ Hne Hnw).
  Qed.

  (* getMatchedTopicFilter on any of the three tries: full MQTT 4.7 matching, '$' rule included *)
  Lemma tmatch_top_exact T t :
    TInv k get T -> no_wild_levels (split t) = true ->
    NoDup (tmatch_top t T) /\
    forall c s, In (c, s) (tmatch_top t T) <->
      (kind_of (s_share s) (s_filter s) = k /\ sp_get (c, s_share s, s_filter s) sp = Some s /\
       topic_match t (s_filter s) = true).
  Proof.
    intros HT Hnw. unfold tmatch_top. destruct (starts_dollar t) eqn:Hd.
    - destruct (split t) as [|t0 rest] eqn:Et; [now apply split_nonempty in Et|].
      destruct (tmatch_lit_exact T t0 rest HT Hnw) as [Hnd Hin]. split; [exact Hnd|].
      intros c s. rewrite Hin, (topic_match_dollar_lit t (s_filter s) t0 rest Hd Et). tauto.
    - destruct (tmatch_exact T (split t) HT (split_nonempty t) Hnw) as [Hnd Hin]. split; [exact Hnd|].
      intros c s. rewrite Hin. unfold topic_match. rewrite Hd. cbn [andb negb]. tauto.
  Qed.
End Entries.

(* the optional client restriction of a query *)
Definition cfilter (c : cid) (l : list (cid * sub)) : list (cid * sub) :=
  if negb (is_empty c) then of_client c l else l.

Lemma in_cfilter c c' s l : In (c', s) (cfilter c l) <-> In (c', s) l /\ want_client c c'.
Proof.
  unfold cfilter, want_client. destruct c as [|a c0]; cbn [is_empty negb].
  - split; [intros H; split; [exact H|now left]|tauto].
  - rewrite in_of_client. split; intros [H1 H2]; split; try exact H1.
    + now right.
    + destruct H2 as [H2|H2]; [discriminate|exact H2].
Qed.

Lemma NoDup_cfilter c l : NoDup l -> NoDup (cfilter c l).
Proof. intros H. unfold cfilter. destruct (negb (is_empty c)); [now apply NoDup_filter|exact H]. Qed.

Lemma cfilter_nil c : cfilter c [] = [].
Proof. unfold cfilter. destruct (negb (is_empty c)); reflexivity. Qed.

Definition plain_kind (t : str) : kind := if starts_dollar t then KSys else KUser.

Lemma plain_kind_ns t : plain_kind t <> KShared.
Proof. unfold plain_kind. destruct (starts_dollar t); discriminate. Qed.

Lemma kind_of_plain_kind g f t :
  kind_of g f = plain_kind t <-> g = [] /\ starts_dollar f = starts_dollar t.
Proof.
  split.
  - intros H. assert (E : g = []).
    { apply (kind_of_nonshared_inv g f). rewrite H. apply plain_kind_ns. }
    subst g. split; [reflexivity|]. rewrite kind_of_plain in H. unfold plain_kind in H.
    destruct (starts_dollar f), (starts_dollar t); congruence.
  - intros [-> E]. rewrite kind_of_plain. unfold plain_kind. now rewrite E.
Qed.

Lemma db_iterate_plain_topic o d :
  io_shared o = false -> io_sys o = true -> io_nonshared o = true -> io_topic o <> [] ->
  db_iterate o d =
  IOk (iterate_nonshared o (index_of (plain_kind (io_topic o)) d) (trie_of (plain_kind (io_topic o)) d)).
Proof.
  intros H1 H2 H3 H4. unfold db_iterate, plain_kind. rewrite H1, H2, H3.
  apply is_empty_false in H4. rewrite H4. cbn [negb andb app].
  destruct (starts_dollar (io_topic o)); cbn [negb andb app trie_of index_of]; [reflexivity|].
  now rewrite app_nil_r.
Qed.

(* C02: lookups in the user and system tries *)
Lemma lookup_topic_exact ops t c :
  wf_ops ops = true -> t <> [] -> no_wild_levels (split t) = true ->
  exists l, db_iterate (q_topic t c) (db_run ops) = IOk (some_ents l) /\ NoDup l /\
    forall c' s, In (c', s) l <->
      (sp_get (c', [], s_filter s) (spec_run ops) = Some s /\ topic_match t (s_filter s) = true /\ want_client c c').
Proof.
  intros Hwf Ht Hnw. pose proof (Inv_run ops Hwf) as HI.
  set (d := db_run ops) in *. set (sp := spec_run ops) in *.
  pose proof (inv_ok _ _ HI) as Hok.
  set (k := plain_kind t).
  destruct (tmatch_top_exact k sp Hok (trie_of k d) t (inv_trie _ _ HI k) Hnw) as [Hnd Hin].
  exists (cfilter c (tmatch_top t (trie_of k d))). split; [|split].
  - rewrite db_iterate_plain_topic by (try reflexivity; exact Ht).
    cbn [q_topic io_topic]. fold k. unfold iterate_nonshared, cfilter. cbn [q_topic io_topic io_mt io_client].
    apply is_empty_false in Ht. rewrite Ht. cbn [negb].
    destruct (negb (is_empty c)); reflexivity.
  - now apply NoDup_cfilter.
  - intros c' s. rewrite in_cfilter, Hin. split.
    + intros [(Hk & Hget & Htm) Hw]. apply kind_of_plain_kind in Hk as [Hg Hd].
      rewrite Hg in Hget. tauto.
    + intros (Hget & Htm & Hw). split; [|exact Hw].
      destruct (sp_get_good _ _ _ _ _ Hok Hget) as [Hg _].
      pose proof (topic_match_kind _ _ Htm) as [Hd _].
      split; [apply kind_of_plain_kind; split; [exact Hg|now symmetry]|].
      split; [now rewrite Hg|exact Htm].
Qed.

Lemma tfind_some f T x : tfind f T = Some x -> nd (split f) T = x.
Proof.
  unfold tfind. rewrite nd_tget. destruct (tget (split f) T) as [y|]; [|discriminate].
  destruct (str_eqb (n_tname y) f); [|discriminate]. congruence.
Qed.

Lemma tfind_none k get f T g :
  TInv k get T -> tfind f T = None -> obs g (nd (split f) T) = [].
Proof.
  intros [_ HN] Hf. specialize (HN (split f)). unfold tfind in Hf. rewrite nd_tget in *.
  destruct (tget (split f) T) as [y|]; [|apply obs_empty_node].
  destruct (str_eqb_spec (n_tname y) f) as [E|E]; [discriminate|].
  destruct (obs g y) as [|e r] eqn:Eo; [reflexivity|]. exfalso.
  destruct (ni_name _ _ _ _ HN g) as [Hn _]; [rewrite Eo; discriminate|].
  rewrite join_split in Hn. contradiction.
Qed.

Lemma lookup_name_exact ops f c :
  wf_ops ops = true -> f <> [] ->
  exists l, db_iterate (q_name f c) (db_run ops) = IOk (some_ents l) /\ NoDup l /\
    forall c' s, In (c', s) l <-> (sp_get (c', [], f) (spec_run ops) = Some s /\ want_client c c').
Proof.
  intros Hwf Hf. pose proof (Inv_run ops Hwf) as HI.
  set (d := db_run ops) in *. set (sp := spec_run ops) in *.
  pose proof (inv_ok _ _ HI) as Hok.
  set (k := plain_kind f). set (T := trie_of k d).
  pose proof (inv_trie _ _ HI k) as HT. fold T in HT.
  pose proof (proj2 HT (split f)) as HN.
  assert (Hsh : n_shared (nd (split f) T) = []).
  { pose proof (ni_pure _ _ _ _ HN) as Hp. pose proof (plain_kind_ns f) as Hk. fold k in Hk.
    destruct k; [exact Hp|exact Hp|now elim Hk]. }
  assert (Hkf : kind_of [] f = k) by (apply kind_of_plain_kind; now split).
  destruct (node_members k sp Hok T [] f HT Hkf) as [Hnd Hmem].
  exists (cfilter c (n_clients (nd (split f) T))). split; [|split].
  - rewrite db_iterate_plain_topic by (try reflexivity; exact Hf).
    cbn [q_name io_topic]. fold k. fold T. unfold iterate_nonshared, cfilter.
    cbn [q_name io_topic io_mt io_client].
    pose proof Hf as Hf'. apply is_empty_false in Hf'. rewrite Hf'. cbn [negb].
    destruct (tfind f T) as [x|] eqn:Ef.
    + apply tfind_some in Ef. rewrite Ef in *. unfold set_rs. rewrite Hsh. cbn [flat_map].
      rewrite !app_nil_r. destruct (negb (is_empty c)); reflexivity.
    + pose proof (tfind_none k _ f T [] HT Ef) as Ho. rewrite obs_nil in Ho. rewrite Ho.
      destruct (negb (is_empty c)); reflexivity.
  - apply NoDup_cfilter. rewrite <- obs_nil. exact Hnd.
  - intros c' s. now rewrite in_cfilter, <- obs_nil, Hmem.
Qed.

Definition ents_of (k : kind) (c : cid) (sp : spec) : list (cid * sub) :=
  map (fun e => (c, snd e)) (filter (fun e => selk k c (fst e)) sp).

Lemma in_ents_of k c sp c' s :
  spec_ok sp ->
  (In (c', s) (ents_of k c sp) <->
   c' = c /\ kind_of (s_share s) (s_filter s) = k /\ sp_get (c, s_share s, s_filter s) sp = Some s).
Proof.
  intros Hok. unfold ents_of. rewrite in_map_iff. split.
  - intros ([[[c1 g] f] s0] & E & Hin). cbn [snd] in E. injection E as <- ->.
    apply filter_In in Hin as [Hin Hs]. cbn [fst selk] in Hs.
    apply andb_true_iff in Hs as [Hc Hk]. apply str_eqb_eq in Hc. subst c1.
    destruct (kind_eqb_spec (kind_of g f) k) as [Hk'|]; [|discriminate].
    pose proof (In_sp_get _ _ _ (proj1 Hok) Hin) as Hget.
    destruct (sp_get_good _ _ _ _ _ Hok Hget) as [-> ->]. tauto.
  - intros (-> & Hk & Hget). exists (c, s_share s, s_filter s, s). split; [reflexivity|].
    apply filter_In. split; [now apply sp_get_In|].
    cbn [fst selk]. now rewrite str_eqb_refl, Hk, kind_eqb_refl.
Qed.

Lemma nodup_ents_of k c sp : spec_ok sp -> NoDup (ents_of k c sp).
Proof.
  intros [Hnd Hgood]. unfold ents_of.
  induction sp as [|e r IH]; cbn [filter map]; [constructor|].
  cbn [map] in Hnd. inversion Hnd as [|x xs Hx Hnd']; subst.
  assert (Hgood' : forall e0, In e0 r -> good e0) by (intros e0 H0; apply Hgood; now right).
  destruct (selk k c (fst e)) eqn:Es; [|now apply IH].
  cbn [map]. constructor; [|now apply IH].
  intros Hin. apply in_map_iff in Hin as (e2 & E & Hin2).
  apply filter_In in Hin2 as [Hin2 Hs2].
  apply Hx. apply in_map_iff. exists e2. split; [|exact Hin2].
  pose proof (Hgood e (or_introl eq_refl)) as G1. pose proof (Hgood' e2 Hin2) as G2.
  destruct e as [[[c1 g1] f1] s1], e2 as [[[c2 g2] f2] s2]. cbn [fst snd good selk] in *.
  injection E as ->.
  apply andb_true_iff in Es as [Ec1 _]. apply andb_true_iff in Hs2 as [Ec2 _].
  apply str_eqb_eq in Ec1, Ec2. subst c1 c2.
  destruct G1 as (<- & <- & _). destruct G2 as (<- & <- & _). reflexivity.
Qed.

Lemma client_keys_map k c sp (F : str -> list ient) :
  (forall g f s, In (c, g, f, s) sp -> kind_of g f = k -> F (index_key g f) = [(c, Some s)]) ->
  flat_map F (keys_of k c sp) = some_ents (ents_of k c sp).
Proof.
  unfold keys_of, ents_of. induction sp as [|[[[c1 g] f] s] r IH]; intros HF; [reflexivity|].
  assert (IH' := IH (fun g0 f0 s0 Hin => HF g0 f0 s0 (or_intror Hin))). clear IH.
  cbn [map fst filter]. destruct (selk k c (c1, g, f)) eqn:Es; [|exact IH'].
  cbn [map flat_map ikey snd some_ents]. cbn [selk] in Es.
  apply andb_true_iff in Es as [Hc Hk]. apply str_eqb_eq in Hc. subst c1.
  destruct (kind_eqb_spec (kind_of g f) k) as [Hk'|]; [|discriminate].
  rewrite (HF g f s (or_introl eq_refl) Hk'). cbn [app]. f_equal. exact IH'.
Qed.

Lemma tget_clients c p T :
  match tget p T with Some x => aget c (n_clients x) | None => None end = aget c (n_clients (nd p T)).
Proof. rewrite nd_tget. destruct (tget p T); reflexivity. Qed.

Lemma iterate_nonshared_client c k d sp :
  Inv d sp -> c <> [] -> k <> KShared ->
  iterate_nonshared (q_client c) (index_of k d) (trie_of k d) = some_ents (ents_of k c sp).
Proof.
  intros HI Hc Hk. unfold iterate_nonshared. cbn [q_client io_topic io_client is_empty negb].
  apply is_empty_false in Hc. rewrite Hc. cbn [negb].
  transitivity (flat_map (fun key => [(c, match tget (split key) (trie_of k d) with
                                          | Some x => aget c (n_clients x)
                                          | None => None
                                          end)]) (keys_at c (index_of k d))).
  { unfold keys_at. destruct (aget c (index_of k d)); [apply map_as_flat_map|reflexivity]. }
  rewrite (inv_idx _ _ HI). apply client_keys_map.
  intros g f s Hin Hkf. rewrite tget_clients.
  assert (Hg : g = []) by (apply (kind_of_nonshared_inv g f); congruence). subst g.
  cbn [index_key is_empty].
  pose proof (proj2 (inv_trie _ _ HI k) (split f)) as HN.
  rewrite <- obs_nil. rewrite (ni_get _ _ _ _ HN [] f c eq_refl Hkf).
  do 2 f_equal. apply In_sp_get; [apply (inv_ok _ _ HI)|exact Hin].
Qed.

Lemma lookup_client_exact ops c :
  wf_ops ops = true -> c <> [] ->
  exists l, db_iterate (q_client c) (db_run ops) = IOk (some_ents l) /\ NoDup l /\
    forall c' s, In (c', s) l <-> (c' = c /\ sp_get (c, [], s_filter s) (spec_run ops) = Some s).
Proof.
  intros Hwf Hc. pose proof (Inv_run ops Hwf) as HI.
  set (d := db_run ops) in *. set (sp := spec_run ops) in *.
  pose proof (inv_ok _ _ HI) as Hok.
  exists (ents_of KUser c sp ++ ents_of KSys c sp). split; [|split].
  - unfold db_iterate. cbn [q_client io_shared io_topic io_nonshared io_sys is_empty negb andb app].
    change (userI d) with (index_of KUser d). change (userT d) with (trie_of KUser d).
    change (sysI d) with (index_of KSys d). change (sysT d) with (trie_of KSys d).
    rewrite (iterate_nonshared_client c KUser d sp HI Hc) by discriminate.
    rewrite (iterate_nonshared_client c KSys d sp HI Hc) by discriminate.
    unfold some_ents. now rewrite map_app.
  - apply NoDup_app_disjoint; [now apply nodup_ents_of|now apply nodup_ents_of|].
    intros [c' s] H1 H2. apply (in_ents_of _ _ _ _ _ Hok) in H1, H2.
    destruct H1 as (_ & H1 & _), H2 as (_ & H2 & _). congruence.
  - intros c' s. rewrite in_app_iff, !(in_ents_of _ _ _ _ _ Hok). split.
    + intros [(-> & Hk & Hget)|(-> & Hk & Hget)]; (split; [reflexivity|]);
        (assert (Hg : s_share s = []) by (apply (kind_of_nonshared_inv _ (s_filter s)); congruence));
        now rewrite Hg in Hget.
    + intros [-> Hget]. destruct (sp_get_good _ _ _ _ _ Hok Hget) as [Hg _].
      rewrite Hg, kind_of_plain. destruct (starts_dollar (s_filter s)); [right|left]; tauto.
Qed.

(* C11: lookups in the shared trie *)
Lemma db_iterate_shared_only o d :
  io_shared o = true -> io_sys o = false -> io_nonshared o = false ->
  db_iterate o d = iterate_shared o (index_of KShared d) (trie_of KShared d).
Proof.
  intros H1 H2 H3. unfold db_iterate. rewrite H1, H2, H3. cbn [andb trie_of index_of].
  destruct (iterate_shared o (sharedI d) (sharedT d)) as [l|]; [|reflexivity].
  cbn [app]. now rewrite app_nil_r.
Qed.

Lemma sh_lookup_topic_exact ops t c :
  wf_ops ops = true -> t <> [] -> no_wild_levels (split t) = true ->
  exists l, db_iterate (q_sh_topic t c) (db_run ops) = IOk (some_ents l) /\ NoDup l /\
    forall c' s, In (c', s) l <->
      (s_share s <> [] /\ sp_get (c', s_share s, s_filter s) (spec_run ops) = Some s /\
       topic_match t (s_filter s) = true /\ want_client c c').
Proof.
  intros Hwf Ht Hnw. pose proof (Inv_run ops Hwf) as HI.
  set (d := db_run ops) in *. set (sp := spec_run ops) in *.
  pose proof (inv_ok _ _ HI) as Hok.
  destruct (tmatch_top_exact KShared sp Hok (trie_of KShared d) t (inv_trie _ _ HI KShared) Hnw)
    as [Hnd Hin].
  exists (cfilter c (tmatch_top t (trie_of KShared d))). split; [|split].
  - rewrite db_iterate_shared_only by reflexivity.
    unfold iterate_shared, cfilter. cbn [q_sh_topic io_topic io_mt io_client].
    apply is_empty_false in Ht. rewrite Ht. cbn [negb].
    destruct (negb (is_empty c)); reflexivity.
  - now apply NoDup_cfilter.
  - intros c' s. rewrite in_cfilter, Hin. split.
    + intros [(Hk & Hget & Hlm) Hw]. apply kind_of_shared_inv in Hk. tauto.
    + intros (Hg & Hget & Hlm & Hw). split; [|exact Hw].
      split; [now apply kind_of_shared|]. tauto.
Qed.

Lemma is_empty_share_prefix x : is_empty (SHARE_PREFIX ++ x) = false.
Proof. reflexivity. Qed.

Lemma sh_lookup_name_exact ops g f c :
  wf_ops ops = true -> g <> [] -> no_slash g = true -> f <> [] ->
  exists l, db_iterate (q_sh_name (SHARE_PREFIX ++ g ++ SLASH :: f) c) (db_run ops) = IOk (some_ents l) /\ NoDup l /\
    forall c' s, In (c', s) l <-> (sp_get (c', g, f) (spec_run ops) = Some s /\ want_client c c').
Proof.
  intros Hwf Hg Hns Hf. pose proof (Inv_run ops Hwf) as HI.
  set (d := db_run ops) in *. set (sp := spec_run ops) in *.
  pose proof (inv_ok _ _ HI) as Hok.
  set (T := trie_of KShared d).
  pose proof (inv_trie _ _ HI KShared) as HT. fold T in HT.
  destruct (node_members KShared sp Hok T g f HT (kind_of_shared g f Hg)) as [Hnd Hmem].
  exists (cfilter c (obs g (nd (split f) T))). split; [|split].
  - rewrite db_iterate_shared_only by reflexivity. fold T.
    unfold iterate_shared. cbn [q_sh_name io_topic io_mt io_client].
    rewrite is_empty_share_prefix. cbn [negb]. rewrite has_prefix_app.
    change (skipn 7 (SHARE_PREFIX ++ g ++ SLASH :: f)) with (g ++ SLASH :: f).
    rewrite (cut_slash_app g f Hns).
    destruct (tfind f T) as [x|] eqn:Ef.
    + apply tfind_some in Ef. rewrite Ef in *. rewrite (obs_ne g x Hg). unfold grp, cfilter.
      destruct (aget g (n_shared x)) as [l0|]; destruct (negb (is_empty c)); reflexivity.
    + rewrite (tfind_none KShared _ f T g HT Ef). now rewrite cfilter_nil.
  - now apply NoDup_cfilter.
  - intros c' s. now rewrite in_cfilter, Hmem.
Qed.

Lemma tget_group c g p T :
  match tget p T with
  | Some x => match aget g (n_shared x) with
              | Some grp0 => some_ents (of_client c grp0)
              | None => []
              end
  | None => []
  end = some_ents (of_client c (grp g (nd p T))).
Proof.
  rewrite nd_tget. unfold grp. destruct (tget p T) as [x|]; [|reflexivity].
  destruct (aget g (n_shared x)); reflexivity.
Qed.

Lemma sh_lookup_client_exact ops c :
  wf_ops ops = true -> c <> [] ->
  exists l, db_iterate (q_sh_client c) (db_run ops) = IOk (some_ents l) /\ NoDup l /\
    forall c' s, In (c', s) l <-> (c' = c /\ s_share s <> [] /\ sp_get (c, s_share s, s_filter s) (spec_run ops) = Some s).
Proof.
  intros Hwf Hc. pose proof (Inv_run ops Hwf) as HI.
  set (d := db_run ops) in *. set (sp := spec_run ops) in *.
  pose proof (inv_ok _ _ HI) as Hok.
  exists (ents_of KShared c sp). split; [|split].
  - rewrite db_iterate_shared_only by reflexivity.
    unfold iterate_shared. cbn [q_sh_client io_topic io_client is_empty negb].
    pose proof Hc as Hc'. apply is_empty_false in Hc'. rewrite Hc'. cbn [negb].
    set (F := fun key : str =>
                match cut_slash key with
                | (g, Some f) =>
                    match tget (split f) (trie_of KShared d) with
                    | Some x => match aget g (n_shared x) with
                                | Some grp0 => some_ents (of_client c grp0)
                                | None => []
                                end
                    | None => []
                    end
                | (_, None) => []
                end).
    transitivity (IOk (flat_map F (keys_at c (index_of KShared d)))).
    { unfold keys_at. destruct (aget c (index_of KShared d)); reflexivity. }
    f_equal. rewrite (inv_idx _ _ HI). apply client_keys_map.
    intros g f s Hin Hkf. unfold F.
    pose proof (kind_of_shared_inv g f Hkf) as Hg.
    pose proof (spec_ok_key c g f s sp Hok Hin) as Hns.
    unfold index_key. pose proof Hg as Hg'. apply is_empty_false in Hg'. rewrite Hg'.
    rewrite (cut_slash_app g f Hns), tget_group.
    pose proof (proj2 (inv_trie _ _ HI KShared) (split f)) as HN.
    rewrite <- (obs_ne g _ Hg).
    rewrite of_client_aget by exact (ni_nd _ _ _ _ HN g).
    rewrite (ni_get _ _ _ _ HN g f c eq_refl Hkf).
    assert (Hget : sp_get (c, g, f) sp = Some s) by (apply In_sp_get; [apply Hok|exact Hin]).
    match goal with |- some_ents (match ?o with Some _ => _ | None => _ end) = _ =>
      replace o with (Some s) by (symmetry; exact Hget) end.
    reflexivity.
  - now apply nodup_ents_of.
  - intros c' s. rewrite (in_ents_of _ _ _ _ _ Hok). split.
    + intros (-> & Hk & Hget). apply kind_of_shared_inv in Hk. tauto.
    + intros (-> & Hg & Hget). split; [reflexivity|]. split; [now apply kind_of_shared|exact Hget].
Qed.

Lemma leave_frame sp c :
  (forall c' g f, c' <> c -> sp_get (c', g, f) (spec_step sp (OUnsubAll c)) = sp_get (c', g, f) sp) /\
  (forall g f, sp_get (c, g, f) (spec_step sp (OUnsubAll c)) = None).
Proof.
  cbn [spec_step]. unfold sp_del_client. split.
  - intros c' g f Hne.
    rewrite (sp_get_filter (fun key => negb (str_eqb c (fst (fst key))))). cbn [fst].
    destruct (str_eqb_spec c c') as [E|E]; [congruence|reflexivity].
  - intros g f.
    rewrite (sp_get_filter (fun key => negb (str_eqb c (fst (fst key))))). cbn [fst].
    now rewrite str_eqb_refl.
Qed.

Lemma unsub_frame sp c topic k :
  k <> (c, fst (split_topic topic), snd (split_topic topic)) ->
  sp_get k (spec_step sp (OUnsub c topic)) = sp_get k sp.
Proof. intros H. rewrite spec_step_unsub. now apply sp_get_del_other. Qed.

Lemma u64_add_succ (a : nat) : u64_add (u64 a) 1 = u64 (S a).
Proof.
  unfold u64_add, u64. rewrite N.add_mod_idemp_l by discriminate.
  now rewrite Nat2N.inj_succ, N.add_1_r.
Qed.

Lemma u64_add_mod (a : N) : u64_add (a mod U64) 1 = ((a + 1) mod U64)%N.
Proof. unfold u64_add. now rewrite N.add_mod_idemp_l by discriminate. Qed.

Lemma u64_sub_add (a b : nat) : u64_sub (u64 (a + b)) (N.of_nat b) = u64 a.
Proof.
  unfold u64_sub, u64. rewrite Nat2N.inj_add.
  set (A := N.of_nat a). set (B := N.of_nat b).
  assert (HU : U64 <> 0%N) by discriminate.
  pose proof (N.div_mod B U64 HU) as Hdm. pose proof (N.mod_lt B U64 HU) as Hlt.
  set (q := (B / U64)%N) in *. set (r := (B mod U64)%N) in *.
  replace (((A + B) mod U64 + U64 - r)%N) with (((A + B) mod U64 + (U64 - r))%N)
    by (generalize ((A + B) mod U64)%N; intros m; lia).
  rewrite N.add_mod_idemp_l by exact HU.
  replace ((A + B + (U64 - r))%N) with ((A + (q + 1) * U64)%N) by (unfold U64 in *; lia).
  now rewrite N.mod_add by exact HU.
Qed.

Lemma u64_sub_one (a : nat) : u64_sub (u64 (S a)) 1 = u64 a.
Proof. rewrite <- (u64_sub_add a 1). now rewrite Nat.add_1_r. Qed.

Definition pcl (c : cid) (key : skey) : bool := str_eqb c (fst (fst key)).

Lemma count_client_keys c sp : count_client c sp = length (filter (pcl c) (map fst sp)).
Proof.
  unfold count_client. rewrite <- (map_fst_filter (pcl c)), map_length. reflexivity.
Qed.

Lemma length_keys (sp : spec) : length sp = length (map fst sp).
Proof. now rewrite map_length. Qed.

Lemma kdel_notin key L : ~ In key L -> kdel key L = L.
Proof.
  induction L as [|x r IH]; intros H; [reflexivity|]. cbn [kdel].
  destruct (skey_eqb_spec key x) as [E|E]; [exfalso; apply H; now left|].
  rewrite IH; [reflexivity|]. intros Hin. apply H. now right.
Qed.

Lemma kdel_len key L : In key L -> length L = S (length (kdel key L)).
Proof.
  induction L as [|x r IH]; intros H; [destruct H|]. cbn [kdel].
  destruct (skey_eqb_spec key x) as [E|E]; [reflexivity|].
  destruct H as [H|H]; [congruence|]. cbn [length]. now rewrite <- IH.
Qed.

Lemma filter_kdel_len (p : skey -> bool) key L :
  In key L ->
  length (filter p L) = ((if p key then 1 else 0) + length (filter p (kdel key L)))%nat.
Proof.
  induction L as [|x r IH]; intros H; [destruct H|]. cbn [kdel].
  destruct (skey_eqb_spec key x) as [E|E].
  - subst x. cbn [filter]. destruct (p key); reflexivity.
  - destruct H as [H|H]; [congruence|]. cbn [filter]. specialize (IH H).
    destruct (p x); cbn [length]; lia.
Qed.

Lemma sp_get_some_in key s sp : sp_get key sp = Some s -> In key (map fst sp).
Proof. intros H. apply sp_get_In in H. now apply (in_map fst) in H. Qed.

Lemma len_sp_set key s sp :
  length (sp_set key s sp) = match sp_get key sp with Some _ => length sp | None => S (length sp) end.
Proof.
  rewrite !length_keys, map_fst_sp_set. destruct (sp_get key sp); [reflexivity|].
  rewrite app_length. cbn [length]. lia.
Qed.

Lemma count_sp_set c' c g f s sp :
  count_client c' (sp_set (c, g, f) s sp) =
  match sp_get (c, g, f) sp with
  | Some _ => count_client c' sp
  | None => if str_eqb c' c then S (count_client c' sp) else count_client c' sp
  end.
Proof.
  rewrite !count_client_keys, map_fst_sp_set. destruct (sp_get (c, g, f) sp); [reflexivity|].
  rewrite filter_snoc_len. unfold pcl at 2. cbn [fst]. destruct (str_eqb c' c); lia.
Qed.

Lemma len_sp_del key sp :
  length sp = match sp_get key sp with Some _ => S (length (sp_del key sp)) | None => length (sp_del key sp) end.
Proof.
  rewrite !length_keys, map_fst_sp_del. destruct (sp_get key sp) as [s|] eqn:E.
  - apply kdel_len. now apply (sp_get_some_in key s).
  - now rewrite kdel_notin by now apply sp_get_none.
Qed.

Lemma count_sp_del c' c g f sp :
  count_client c' sp =
  match sp_get (c, g, f) sp with
  | Some _ => if str_eqb c' c then S (count_client c' (sp_del (c, g, f) sp)) else count_client c' (sp_del (c, g, f) sp)
  | None => count_client c' (sp_del (c, g, f) sp)
  end.
Proof.
  rewrite !count_client_keys, map_fst_sp_del. destruct (sp_get (c, g, f) sp) as [s|] eqn:E.
  - rewrite (filter_kdel_len (pcl c') (c, g, f)) by now apply (sp_get_some_in _ s).
    unfold pcl at 1. cbn [fst]. destruct (str_eqb c' c); reflexivity.
  - now rewrite kdel_notin by now apply sp_get_none.
Qed.

Lemma len_sp_del_kind k c sp :
  length sp = (length (sp_del_kind k c sp) + length (keys_of k c sp))%nat.
Proof.
  unfold keys_of, sp_del_kind. rewrite map_length.
  rewrite (length_keys sp), (length_keys (filter _ sp)).
  rewrite (map_fst_filter (fun key => negb (selk k c key))).
  apply partition_len.
Qed.

Lemma count_sp_del_kind c' k c sp :
  count_client c' sp =
  (count_client c' (sp_del_kind k c sp) + (if str_eqb c' c then length (keys_of k c sp) else 0))%nat.
Proof.
  unfold keys_of, sp_del_kind. rewrite map_length, !count_client_keys.
  rewrite (map_fst_filter (fun key => negb (selk k c key))).
  rewrite (filter_partition_len (pcl c') (selk k c)). f_equal.
  destruct (str_eqb_spec c' c) as [E|E].
  - subst c'. rewrite filter_filter, (filter_ext _ (selk k c)); [reflexivity|].
    intros [[c2 g2] f2]. unfold pcl. cbn [fst selk].
    destruct (str_eqb c c2); cbn [andb]; [apply andb_true_r|reflexivity].
  - rewrite filter_filter, (filter_ext _ (fun _ => false)).
    + clear. induction (map fst sp) as [|x r IH]; [reflexivity|exact IH].
    + intros [[c2 g2] f2]. unfold pcl. cbn [fst selk].
      destruct (str_eqb_spec c c2) as [E1|E1]; cbn [andb]; [|reflexivity].
      subst c2. destruct (str_eqb_spec c' c) as [E2|E2]; [contradiction|apply andb_false_r].
Qed.

(* the counters, relative to ghost totals G (global) and C (per client, None = never seen) *)
Definition mk_stats (a : N) (n : nat) : stats := {| st_total := (a mod U64)%N; st_cur := u64 n |}.

Record CInv (d : db) (sp : spec) (G : N) (C : cid -> option N) : Prop := {
  ci_g : gstats d = mk_stats G (length sp);
  ci_c : forall c, aget c (cstats d) =
                   match C c with Some a => Some (mk_stats a (count_client c sp)) | None => None end;
  ci_z : forall c, C c = None -> count_client c sp = 0%nat }.

Lemma bump_mk a n : bump (mk_stats a n) = mk_stats (a + 1) (S n).
Proof. unfold bump, mk_stats. cbn [st_total st_cur]. now rewrite u64_add_mod, u64_add_succ. Qed.

Lemma drop_mk a n m : drop (N.of_nat m) (mk_stats a (n + m)) = mk_stats a n.
Proof. unfold drop, mk_stats. cbn [st_total st_cur]. now rewrite u64_sub_add. Qed.

Lemma drop1_mk a n : drop 1 (mk_stats a (S n)) = mk_stats a n.
Proof. unfold drop, mk_stats. cbn [st_total st_cur]. now rewrite u64_sub_one. Qed.

Lemma unsub_existed d sp c g f :
  Inv d sp -> no_slash g = true ->
  mem_str (index_key g f) (keys_at c (index_of (kind_of g f) d)) =
  match sp_get (c, g, f) sp with Some _ => true | None => false end.
Proof.
  intros HI Hns. rewrite (inv_idx _ _ HI).
  now apply mem_keys_of; [apply (inv_ok _ _ HI)| |].
Qed.

Definition sub_new (sp : spec) (c : cid) (s : sub) : N :=
  match sp_get (c, s_share s, s_filter s) sp with Some _ => 0%N | None => 1%N end.

Lemma CInv_sub d sp G C c s :
  Inv d sp -> CInv d sp G C -> no_slash (s_share s) = true ->
  CInv (fst (db_subscribe c s d)) (sp_set (c, s_share s, s_filter s) s sp)
       (G + sub_new sp c s)
       (fun c' => if str_eqb c' c
                  then Some ((match C c with Some a => a | None => 0 end) + sub_new sp c s)%N
                  else C c').
Proof.
  intros HI [Hg Hc Hz] Hns.
  pose proof (unsub_existed d sp c _ (s_filter s) HI Hns) as Hex.
  rewrite db_subscribe_nf. cbn [fst].
  set (k := kind_of (s_share s) (s_filter s)) in *.
  set (idx := index_of k d) in *.
  set (key := index_key (s_share s) (s_filter s)) in *.
  set (ex := mem_str key (keys_at c idx)) in *.
  assert (Hcsk : aget c idx <> None -> aget c (cstats d) <> None) by apply (inv_cs _ _ HI).
  unfold sub_new.
  constructor.
  - rewrite gstats_upd, len_sp_set.
    destruct (sp_get (c, s_share s, s_filter s) sp); rewrite Hex.
    + now rewrite N.add_0_r.
    + rewrite Hg. apply bump_mk.
  - intros c'. rewrite cstats_upd, (sub_cs_get c idx (cstats d) ex Hcsk), count_sp_set.
    destruct (str_eqb_spec c' c) as [E|E]; [|rewrite Hc; now destruct (sp_get (c, s_share s, s_filter s) sp)].
    subst c'. f_equal. unfold stat_or_zero. rewrite Hc.
    destruct (sp_get (c, s_share s, s_filter s) sp) eqn:Eg; rewrite Hex.
    + rewrite N.add_0_r. destruct (C c) as [a|] eqn:EC; [reflexivity|].
      exfalso. assert (Hm : ex = true) by exact Hex.
      apply (mem_keys_at_some key) in Hm. apply Hcsk in Hm. rewrite Hc, EC in Hm. now elim Hm.
    + destruct (C c) as [a|] eqn:EC; [apply bump_mk|].
      rewrite (Hz c EC). reflexivity.
  - intros c'. destruct (str_eqb_spec c' c) as [E|E]; [discriminate|].
    intros HC. rewrite count_sp_set. apply Hz in HC.
    apply str_eqb_neq in E. rewrite E.
    destruct (sp_get (c, s_share s, s_filter s) sp); exact HC.
Qed.

Lemma CInv_unsub d sp G C c topic :
  Inv d sp -> CInv d sp G C ->
  CInv (db_unsubscribe c topic d) (spec_step sp (OUnsub c topic)) G C.
Proof.
  intros HI [Hg Hc Hz].
  rewrite db_unsubscribe_nf, spec_step_unsub.
  pose proof (split_topic_no_slash topic) as Hns.
  set (g := fst (split_topic topic)) in *. set (f := snd (split_topic topic)).
  pose proof (unsub_existed d sp c g f HI Hns) as Hex.
  set (k := kind_of g f) in *. set (idx := index_of k d) in *.
  set (key := index_key g f) in *. set (ex := mem_str key (keys_at c idx)) in *.
  pose proof (len_sp_del (c, g, f) sp) as Hlen.
  constructor.
  - rewrite gstats_upd, Hg. destruct (sp_get (c, g, f) sp); rewrite Hex.
    + rewrite Hlen. apply drop1_mk.
    + now rewrite Hlen.
  - intros c'. rewrite cstats_upd. pose proof (count_sp_del c' c g f sp) as Hcnt.
    destruct (sp_get (c, g, f) sp) eqn:Eg; rewrite Hex.
    + assert (Hcs : aget c (cstats d) <> None).
      { apply (inv_cs _ _ HI k). apply (mem_keys_at_some key). exact Hex. }
      rewrite (Hc c) in *. destruct (C c) as [a|] eqn:EC; [|now elim Hcs].
      rewrite aget_aset. destruct (str_eqb_spec c' c) as [E|E].
      * subst c'. rewrite EC. f_equal. rewrite Hcnt. apply drop1_mk.
      * rewrite Hc. now rewrite Hcnt.
    + rewrite Hc. now rewrite Hcnt.
  - intros c' HC. apply Hz in HC. pose proof (count_sp_del c' c g f sp) as Hcnt.
    destruct (sp_get (c, g, f) sp); [destruct (str_eqb c' c)|]; lia.
Qed.

Lemma CInv_unsub_all_kind d sp G C k c :
  Inv d sp -> CInv d sp G C ->
  CInv (db_unsub_all_kind k c d) (sp_del_kind k c sp) G C.
Proof.
  intros HI [Hg Hc Hz]. rewrite db_unsub_all_kind_nf.
  rewrite (inv_idx _ _ HI).
  constructor.
  - rewrite gstats_upd, Hg. rewrite (len_sp_del_kind k c sp) at 1. apply drop_mk.
  - intros c'. rewrite cstats_upd. pose proof (count_sp_del_kind c' k c sp) as Hcnt.
    rewrite (Hc c). destruct (C c) as [a|] eqn:EC.
    + rewrite aget_aset. destruct (str_eqb_spec c' c) as [E|E].
      * subst c'. rewrite EC. f_equal. rewrite Hcnt. apply drop_mk.
      * rewrite Hc. rewrite Nat.add_0_r in Hcnt. now rewrite Hcnt.
    + rewrite Hc. destruct (str_eqb_spec c' c) as [E|E].
      * subst c'. rewrite EC. reflexivity.
      * rewrite Nat.add_0_r in Hcnt. now rewrite Hcnt.
  - intros c' HC. apply Hz in HC. pose proof (count_sp_del_kind c' k c sp) as Hcnt. lia.
Qed.

Lemma CInv_ext d sp G G' C C' :
  G = G' -> (forall c, C c = C' c) -> CInv d sp G C -> CInv d sp G' C'.
Proof.
  intros <- HC [Hg Hc Hz]. constructor; [exact Hg| |].
  - intros c. rewrite <- HC. apply Hc.
  - intros c. rewrite <- HC. apply Hz.
Qed.

Definition Gof (ops : list op) : N := spec_total [] ops None.
Definition Cof (ops : list op) (c : cid) : option N :=
  if ever_subscribed c ops then Some (spec_total [] ops (Some c)) else None.

Lemma CInv_init : CInv db_init [] 0 (fun _ => None).
Proof. constructor; reflexivity. Qed.

(* from any state: the totals grow by the new entries that [spec_total] counts from there on *)
Lemma CInv_fold ops : forall d sp G C,
  Inv d sp -> CInv d sp G C -> wf_ops ops = true ->
  CInv (fold_left db_step ops d) (fold_left spec_step ops sp)
       (G + spec_total sp ops None)
       (fun c => match C c with
                 | Some a => Some (a + spec_total sp ops (Some c))%N
                 | None => if ever_subscribed c ops then Some (spec_total sp ops (Some c)) else None
                 end).
Proof.
  induction ops as [|o r IH]; intros d sp G C HI HC Hwf.
  - refine (CInv_ext _ _ _ _ _ _ _ _ HC); [now rewrite N.add_0_r|].
    intros c. cbn [spec_total]. destruct (C c); [now rewrite N.add_0_r|reflexivity].
  - cbn [wf_ops forallb] in Hwf. apply andb_true_iff in Hwf as [Ho Hr].
    cbn [fold_left]. destruct o as [c0 s|c0 t|c0].
    + cbn [wf_op] in Ho. apply andb_true_iff in Ho as [_ Hns].
      refine (CInv_ext _ _ _ _ _ _ _ _
                (IH _ _ _ _ (Inv_sub d sp c0 s HI Hns) (CInv_sub d sp G C c0 s HI HC Hns) Hr)).
      * cbn [spec_total]. unfold sub_new. now rewrite N.add_assoc.
      * intros c. cbn [spec_total ever_subscribed existsb]. unfold sub_new.
        destruct (str_eqb_spec c c0) as [->|E]; cbn [orb].
        -- destruct (C c0); [now rewrite N.add_assoc|reflexivity].
        -- now destruct (sp_get (c0, s_share s, s_filter s) sp).
    + exact (IH _ _ _ _ (Inv_unsub d sp c0 t HI) (CInv_unsub d sp G C c0 t HI HC) Hr).
    + pose proof (Inv_unsub_all_kind _ _ KUser c0 HI) as HI1.
      pose proof (Inv_unsub_all_kind _ _ KSys c0 HI1) as HI2.
      pose proof (CInv_unsub_all_kind _ _ _ _ KUser c0 HI HC) as HC1.
      pose proof (CInv_unsub_all_kind _ _ _ _ KSys c0 HI1 HC1) as HC2.
      pose proof (IH _ _ _ _ (Inv_unsub_all_kind _ _ KShared c0 HI2)
                    (CInv_unsub_all_kind _ _ _ _ KShared c0 HI2 HC2) Hr) as HF.
      rewrite <- sp_del_client_kinds in HF. exact HF.
Qed.

Lemma CInv_run ops : wf_ops ops = true -> CInv (db_run ops) (spec_run ops) (Gof ops) (Cof ops).
Proof. intros Hwf. exact (CInv_fold ops _ _ _ _ Inv_init CInv_init Hwf). Qed.

Lemma already_fold ops : forall d sp, Inv d sp -> wf_ops ops = true ->
  model_already d ops = expect_already sp ops.
Proof.
  induction ops as [|o r IH]; intros d sp HI Hwf; [reflexivity|].
  cbn [wf_ops forallb] in Hwf. apply andb_true_iff in Hwf as [Ho Hr].
  cbn [model_already expect_already].
  rewrite (IH _ _ (Inv_step d sp o HI Ho) Hr). f_equal.
  destruct o as [c s|c t|c]; try reflexivity.
  cbn [wf_op] in Ho. apply andb_true_iff in Ho as [_ Hns].
  rewrite db_subscribe_nf. cbn [snd]. now rewrite (unsub_existed d sp c _ (s_filter s) HI Hns).
Qed.

Lemma counts_exact ops :
  wf_ops ops = true ->
  (st_total (gstats (db_run ops)), st_cur (gstats (db_run ops))) = expect_gstats ops /\
  (forall c, db_client_stats c (db_run ops) =
             match expect_cstats ops c with Some (a, b) => Some {| st_total := a; st_cur := b |} | None => None end) /\
  model_already db_init ops = expect_already [] ops.
Proof.
  intros Hwf. destruct (CInv_run ops Hwf) as [Hg Hc _]. split; [|split].
  - rewrite Hg. reflexivity.
  - intros c. unfold db_client_stats, expect_cstats. rewrite Hc. unfold Cof.
    destruct (ever_subscribed c ops); reflexivity.
  - apply already_fold; [apply Inv_init|exact Hwf].
Qed.

