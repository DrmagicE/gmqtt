(* ValidTopicFilter (a loop over utf8.DecodeRune with a "previous byte") against the level-based
   specification of MQTT 4.7.1 (valid_filter_spec): equal on every byte string. *)
From Coq Require Import List NArith ZArith Bool Lia ZifyN ZifyNat ZifyBool.
Import ListNotations.
From GM Require Import Base.Topic Base.Msg Model.TopicMatch Model.CodecBase Model.CodecSpec Oracle.C06O
  Proofs.TopicP Proofs.CodecBaseP Proofs.CodecStrP Proofs.CodecUtf8P Proofs.CodecTopicP.
Open Scope N_scope.

Fixpoint fb (pb : N) (p : list N) : bool :=
  match p with
  | [] => true
  | c :: t =>
      negb ((c =? HASH) && negb (is_empty t))
      && (if ((c =? PLUS) || (c =? HASH)) && negb (pb =? SLASH) then false
          else if c =? PLUS then match t with [] => true | d :: _ => d =? SLASH end else true)
      && fb c t
  end.

Lemma fb_prev_irrel : forall pb1 pb2 p, pb1 <> SLASH -> pb2 <> SLASH -> fb pb1 p = fb pb2 p.
Proof.
  intros pb1 pb2 [|c t] H1 H2; [reflexivity|]. cbn [fb].
  replace (pb1 =? SLASH) with false by lia. replace (pb2 =? SLASH) with false by lia. reflexivity.
Qed.

Lemma fb_high : forall l rest pb x, forallb (fun b => 128 <=? b) l = true -> l <> [] -> x <> SLASH ->
  fb pb (l ++ rest) = fb x rest.
Proof.
  induction l as [|a l IH]; intros rest pb x Hl Hne Hx; [congruence|].
  cbn [forallb] in Hl. apply andb_prop in Hl. destruct Hl as [Ha Hl].
  cbn [app fb]. destruct (high_plain a) as (Hs & -> & ->); [lia|]. cbn [andb orb negb].
  destruct l as [|b l'].
  - cbn [app]. apply fb_prev_irrel; lia.
  - apply IH; [assumption|discriminate|assumption].
Qed.

(* the filter is valid read from the start of a level (Sv) / from inside a level that began
   with an ordinary byte (Mv) *)
Definition Sv (p : str) : bool := valid_filter_levels (split p).
Definition Mv (p : str) : bool :=
  match split p with
  | l :: ls => negb (has_wild l) && (match ls with [] => true | _ => valid_filter_levels ls end)
  | [] => true
  end.

Lemma vfl_cons : forall l ls, valid_filter_levels (l :: ls) =
  match ls with
  | [] => is_plus l || is_hash l || negb (has_wild l)
  | _ => (is_plus l || negb (has_wild l)) && valid_filter_levels ls
  end.
Proof. intros l [|l2 ls]; reflexivity. Qed.
Lemma has_wild_cons : forall c l, has_wild (c :: l) = (c =? PLUS) || (c =? HASH) || has_wild l.
Proof. reflexivity. Qed.

(* how Sv and Mv read the first byte: '/' closes the level *)
Lemma SMv_slash : forall t, Sv (SLASH :: t) = Sv t /\ Mv (SLASH :: t) = Sv t.
Proof.
  intros t. unfold Sv, Mv. rewrite split_cons_slash.
  destruct (split t) as [|l ls] eqn:E; [now apply split_nonempty in E|]. rewrite vfl_cons. split; reflexivity.
Qed.

(* any other byte joins the first level l of the rest; that level is then "+" or "#" only if l is empty,
   i.e. if the rest is empty or starts with '/' *)
Lemma SMv_byte : forall c t, c <> SLASH ->
  Sv (c :: t) = (if c =? PLUS then match t with [] => true | d :: _ => d =? SLASH end && Mv t
                 else if c =? HASH then is_empty t else Mv t)
  /\ Mv (c :: t) = negb ((c =? PLUS) || (c =? HASH)) && Mv t.
Proof.
  intros c t Hc. unfold Sv, Mv.
  destruct (split_cons_ns c t) as (l & ls & Et & Ec); [now apply N.eqb_neq|]. rewrite Ec, Et, vfl_cons, has_wild_cons.
  assert (Hl : is_empty l = match t with [] => true | d :: _ => d =? SLASH end).
  { destruct t as [|d t']; [now inversion Et|]. cbn [split] in Et.
    destruct (d =? SLASH); [now inversion Et|]. destruct (split t'); now inversion Et. }
  assert (Ht : is_empty t = is_empty l && nil_b ls).
  { destruct t as [|d t']; [now inversion Et|]. cbn [split] in Et. destruct (d =? SLASH).
    - inversion Et. destruct (split t') eqn:E; [now apply split_nonempty in E|reflexivity].
    - destruct (split t'); now inversion Et. }
  unfold is_plus, is_hash. cbn [str_eqb]. rewrite <- Hl, Ht.
  destruct (c =? PLUS) eqn:Ep; [|destruct (c =? HASH) eqn:Eh]; cbn [orb negb andb].
  - apply N.eqb_eq in Ep. subst c. destruct l, ls; split; reflexivity.
  - destruct l, ls; split; reflexivity.
  - destruct ls; rewrite ?andb_true_r; split; reflexivity.
Qed.

Lemma fb_levels : forall p, fb SLASH p = Sv p /\ (forall pb, pb <> SLASH -> fb pb p = Mv p).
Proof.
  induction p as [|c t [IHS IHM]]; [split; reflexivity|].
  destruct (N.eqb_spec c SLASH) as [->|Hc].
  { destruct (SMv_slash t) as [-> ->]. split; [|intros pb _]; exact IHS. }
  destruct (SMv_byte c t Hc) as [-> ->]. cbn [fb]. rewrite (IHM c Hc). split.
  - cbn [N.eqb Pos.eqb SLASH negb andb]. destruct (N.eqb_spec c PLUS) as [->|_]; [destruct t; reflexivity|].
    destruct (c =? HASH); [destruct t; reflexivity|reflexivity].
  - intros pb Hpb. replace (pb =? SLASH) with false by lia. cbn [negb andb].
    destruct (c =? PLUS), (c =? HASH); cbn [orb andb negb]; try reflexivity; destruct t; reflexivity.
Qed.

Lemma filter_loop_bytes : forall fuel pb p, (length p < fuel)%nat ->
  valid_topic_filter_loop fuel false (Some pb) p = Ok (fb pb p && no0 p).
Proof.
  induction fuel; intros pb p Hf; [lia|]. destruct p as [|p0 t]; [reflexivity|].
  cbn [valid_topic_filter_loop length fb] in *.
  destruct (decode_rune (p0 :: t)) as [ru size] eqn:E. destruct (rune_step _ _ _ _ E) as (Hs1 & Hs & Hl).
  rewrite (no0_cut size), (rune_nul _ _ _ _ E). cbn [andb].
  destruct (ru =? 0); cbn [negb andb]; [rewrite andb_false_r; reflexivity|].
  destruct ((p0 =? HASH) && negb (is_empty t)); [reflexivity|]. cbn [negb andb].
  destruct (N.eqb_spec size 1) as [->|Hsz].
  - (* a one-byte step *)
    change (dropN 1 (p0 :: t)) with (dropN 0 t) in *. rewrite dropN_0 in *.
    destruct (((p0 =? PLUS) || (p0 =? HASH)) && negb (pb =? SLASH)); [reflexivity|].
    destruct t as [|d t']; cbn [is_empty negb].
    + destruct (p0 =? PLUS); cbn [bind negb]; rewrite Hs; cbn [bind]; rewrite IHfuel by (cbn; lia); reflexivity.
    + destruct (p0 =? PLUS).
      * unfold idx. change (dropN 1 (p0 :: d :: t')) with (dropN 0 (d :: t')). rewrite dropN_0. cbn [bind].
        destruct (d =? SLASH); cbn [negb]; [|reflexivity].
        rewrite Hs. cbn [bind]. rewrite IHfuel by lia. reflexivity.
      * cbn [bind negb]. rewrite Hs. cbn [bind]. rewrite IHfuel by lia. reflexivity.
  - (* a multi-byte rune: bytes >= 128, no checks *)
    cbn [bind negb]. rewrite Hs. cbn [bind]. rewrite IHfuel by lia.
    destruct (rune_multi _ _ _ _ E Hsz) as [Hp0 Hhigh].
    destruct (high_plain p0 Hp0) as (Hns & Hnp & Hnh). rewrite Hnp, Hnh. cbn [orb andb]. f_equal. f_equal.
    (* fb skips the rune's bytes as the loop does *)
    assert (Hfb : fb pb (p0 :: t) = fb p0 t) by (cbn [fb]; rewrite Hnp, Hnh; reflexivity).
    rewrite <- Hfb. symmetry. rewrite <- (take_drop _ (p0 :: t) size) at 1.
    apply fb_high; [assumption| |lia].
    cbn [takeN]. replace (size =? 0) with false by lia. discriminate.
Qed.

(* ValidTopicFilter(false, s) is the specification's predicate (MQTT 4.7.1 level rules, non-empty,
   no null byte), on every byte string *)
Theorem filter_bytes_exact : forall s, valid_topic_filter_impl false s = Ok (valid_filter_spec s && no_nul s).
Proof.
  intros s. unfold valid_topic_filter_impl, valid_filter_spec. destruct s as [|c t] eqn:Es; [reflexivity|].
  rewrite <- Es. rewrite filter_loop_bytes by lia. destruct (fb_levels s) as [HS _]. rewrite HS.
  unfold Sv. subst s. reflexivity.
Qed.

Lemma filter_loop_must : forall fuel prev p, valid_utf8_loop fuel p = Ok true ->
  valid_topic_filter_loop fuel true prev p = valid_topic_filter_loop fuel false prev p.
Proof.
  induction fuel; intros prev p H; [reflexivity|]. destruct p as [|p0 t]; [reflexivity|].
  cbn [valid_topic_filter_loop]. destruct (decode_rune (p0 :: t)) as [ru size] eqn:E.
  rewrite (loop_step _ _ _ _ _ E) in H. destruct (rune_step _ _ _ _ E) as (_ & Hs & _).
  destruct (good ru size) eqn:Hg; [|discriminate]. cbn [andb]. rewrite (good_no_error _ _ Hg).
  destruct (ru =? 0); [reflexivity|]. destruct (_ && _); [reflexivity|].
  match goal with |- bind ?x _ = bind ?x _ => destruct x as [ok| | |]; cbn [bind]; try reflexivity end.
  destruct (negb ok); [reflexivity|]. rewrite Hs. cbn [bind]. now apply IHfuel.
Qed.

(* on every string the decoder passes to it (ValidUTF8 accepted it),
   ValidTopicFilter(true, s) gives the verdict of the specification *)
Theorem filter_decoder_exact : forall s,
  valid_utf8_impl s = Ok true -> valid_topic_filter_impl true s = Ok (spec_topic_filter s).
Proof.
  intros s Hu. pose proof (valid_utf8_spec s Hu) as Hsu.
  transitivity (valid_topic_filter_impl false s).
  - unfold valid_topic_filter_impl. destruct s; [reflexivity|]. now apply filter_loop_must.
  - rewrite filter_bytes_exact, (G_no_nul s Hsu), andb_true_r. unfold spec_topic_filter. now rewrite Hsu.
Qed.

(* valid strings split at an ASCII byte into valid strings *)
Lemma G_split : forall g a rest, a < 128 -> G (g ++ a :: rest) = true -> G g = true /\ G (a :: rest) = true.
Proof.
  (* by induction on a bound n of the length of g *)
  intros g a rest Ha. pose proof (Nat.le_refl (length g)) as Hn. revert Hn. generalize (length g) at 2. intros n.
  revert g. induction n as [|n IHn]; intros g Hn H.
  { destruct g; [|cbn in Hn; lia]. split; [reflexivity|exact H]. }
  (* past a complete rune of g, what is left of g is shorter *)
  assert (Step : forall c g', (length g' <= n)%nat -> c && G (g' ++ a :: rest) = true ->
                   c && G g' = true /\ G (a :: rest) = true).
  { intros c g' Hl Hc. apply andb_prop in Hc. destruct Hc as [-> Hg]. now apply IHn. }
  (* the ASCII byte a does not continue a rune *)
  assert (Hna : cont a = false) by (unfold cont; lia).
  assert (Hr3 : forall x, r3 x a = false) by (intros x; unfold r3, cont; destruct (x =? 224), (x =? 237); lia).
  assert (Hr4 : forall x, r4 x a = false) by (intros x; unfold r4, cont; destruct (x =? 240), (x =? 244); lia).
  destruct g as [|c g1]; [split; [reflexivity|exact H]|].
  cbn [app length] in *. rewrite G_cons in H |- *.
  destruct (c <? 128); [apply Step; [lia|exact H]|].
  destruct (_ || _); [discriminate|].
  destruct (c <? 224).
  { destruct g1 as [|b g2]; cbn [app length] in *; [rewrite Hna in H; discriminate|]. apply Step; [lia|exact H]. }
  destruct (c <? 240).
  { destruct g1 as [|b [|c2 g3]]; cbn [app length] in *.
    - destruct rest; [discriminate|]. rewrite Hr3 in H. discriminate.
    - rewrite Hna, andb_false_r in H. discriminate.
    - apply Step; [lia|exact H]. }
  destruct g1 as [|b [|c2 [|d g4]]]; cbn [app length] in *.
  - destruct rest as [|x [|y rest']]; try discriminate. rewrite Hr4 in H. discriminate.
  - destruct rest; [discriminate|]. rewrite Hna, andb_false_r in H. discriminate.
  - rewrite Hna, andb_false_r in H. discriminate.
  - apply Step; [lia|exact H].
Qed.

(* the share-name scan, byte by byte *)
Fixpoint shb (u : list N) : res bool :=
  match u with
  | [] => Ok false
  | c :: t => if c =? SLASH then valid_topic_filter_impl true t
              else if (c =? PLUS) || (c =? HASH) then Ok false else shb t
  end.

Lemma shb_high : forall l rest, forallb (fun b => 128 <=? b) l = true -> shb (l ++ rest) = shb rest.
Proof.
  induction l as [|a l IH]; intros rest H; [reflexivity|]. cbn [forallb] in H. apply andb_prop in H. destruct H as [Ha Hl].
  cbn [app shb]. destruct (high_plain a) as (-> & -> & ->); [lia|]. now apply IH.
Qed.

Lemma share_loop_bytes : forall fuel u, (length u < fuel)%nat ->
  valid_utf8_loop fuel u = Ok true -> v5_share_loop fuel u = shb u.
Proof.
  induction fuel; intros u Hlen H; [lia|]. destruct u as [|c t]; [reflexivity|].
  cbn [v5_share_loop shb length] in *.
  destruct (decode_rune (c :: t)) as [ru size] eqn:E. destruct (rune_step _ _ _ _ E) as (H1 & Hs & Hl).
  rewrite (loop_step _ _ _ _ _ E) in H.
  destruct (good ru size) eqn:Hg; [|discriminate]. rewrite (good_no_error _ _ Hg).
  replace (ru =? 0) with false by (unfold good in Hg; lia).
  destruct (N.eqb_spec size 1) as [->|Hsz]; cbn [andb].
  - change (dropN 1 (c :: t)) with (dropN 0 t) in *. rewrite dropN_0 in *. rewrite Hs. cbn [bind].
    destruct (c =? SLASH); [reflexivity|]. destruct ((c =? PLUS) || (c =? HASH)); [reflexivity|].
    apply IHfuel; [lia|assumption].
  - destruct (rune_multi _ _ _ _ E Hsz) as [Hc Hhigh].
    destruct (high_plain c Hc) as (Hns & Hnp & Hnh). rewrite Hns, Hnp, Hnh. cbn [orb]. rewrite Hs. cbn [bind].
    rewrite IHfuel; [|lia|assumption].
    (* shb skips the rune's bytes as the loop does *)
    assert (Hshb : shb (c :: t) = shb t) by (cbn [shb]; rewrite Hns, Hnp, Hnh; reflexivity).
    rewrite <- Hshb. symmetry. rewrite <- (take_drop _ (c :: t) size) at 1. now apply shb_high.
Qed.

Lemma cut_slash_cons : forall c t, cut_slash (c :: t) =
  if c =? SLASH then ([], Some t) else (c :: fst (cut_slash t), snd (cut_slash t)).
Proof. intros. cbn [cut_slash]. destruct (c =? SLASH); [reflexivity|]. destruct (cut_slash t); reflexivity. Qed.

Lemma shb_cut : forall u, shb u =
  match cut_slash u with
  | (g, Some flt) => if has_wild g then Ok false else valid_topic_filter_impl true flt
  | (_, None) => Ok false
  end.
Proof.
  induction u as [|c t IH]; [reflexivity|]. cbn [shb]. rewrite cut_slash_cons.
  destruct (c =? SLASH); [reflexivity|]. rewrite IH. destruct (cut_slash t) as [g [flt|]]; cbn [fst snd].
  - rewrite has_wild_cons. destruct ((c =? PLUS) || (c =? HASH)); reflexivity.
  - destruct ((c =? PLUS) || (c =? HASH)); reflexivity.
Qed.

Lemma cut_slash_app : forall u g flt, cut_slash u = (g, Some flt) -> u = g ++ SLASH :: flt.
Proof.
  induction u as [|c t IH]; intros g flt H; [discriminate|]. rewrite cut_slash_cons in H.
  destruct (N.eqb_spec c SLASH) as [->|Hc].
  - inversion H; subst. reflexivity.
  - destruct (cut_slash t) as [g' r] eqn:E. cbn [fst snd] in H. inversion H; subst.
    cbn [app]. f_equal. now apply IH.
Qed.

Lemma share_prefix_inv : forall s, has_prefix SHARE_PREFIX s = true -> exists u, s = SHARE_PREFIX ++ u.
Proof.
  intros s H. unfold SHARE_PREFIX in *.
  do 7 (destruct s as [|? s]; [cbn in H; repeat (apply andb_prop in H; destruct H as [_ H]); discriminate|]).
  cbn [has_prefix] in H.
  repeat (apply andb_prop in H; let H1 := fresh in destruct H as [H1 H]; apply N.eqb_eq in H1; subst).
  eexists. reflexivity.
Qed.

(* ValidV5Topic on every string the decoder passes to it (ValidUTF8 accepted it):
   the verdict of the specification (4.7.1 filters, 4.8.2 shared subscriptions) *)
Theorem v5_decoder_exact : forall s,
  valid_utf8_impl s = Ok true -> valid_v5_topic_impl s = Ok (spec_v5_filter s).
Proof.
  intros s Hu. unfold valid_v5_topic_impl, spec_v5_filter.
  destruct s as [|s0 st] eqn:Es; [reflexivity|]. rewrite <- Es in *.
  destruct (has_prefix SHARE_PREFIX s) eqn:Hpre; [|now apply filter_decoder_exact].
  destruct (share_prefix_inv s Hpre) as [u Hs].
  assert (HG : G s = true) by (rewrite G_utf8 in Hu; congruence).
  assert (HGu : G u = true).
  { rewrite Hs in HG. change (SHARE_PREFIX ++ u) with ([36; 115; 104; 97; 114; 101] ++ 47 :: u) in HG.
    apply G_split in HG; [|reflexivity]. destruct HG as [_ HG]. rewrite G_1 in HG by reflexivity.
    apply andb_prop in HG. tauto. }
  assert (Hd7 : dropN 7 s = u) by (rewrite Hs; apply (dropN_app_exact SHARE_PREFIX u)).
  assert (Hlen : len s = 7 + len u) by (rewrite Hs, len_app; reflexivity).
  unfold spec_shared_filter. replace (skipn 7 s) with u by (rewrite Hs; reflexivity).
  rewrite shorter_spec. destruct (N.ltb_spec (len s) 9) as [Hshort|Hlong].
  { (* fewer than two bytes after "$share/" *)
    destruct u as [|x [|y u']]; [reflexivity| |rewrite !len_cons in Hlen; lia].
    rewrite cut_slash_cons. destruct (x =? SLASH); reflexivity. }
  destruct u as [|x ut] eqn:Eu; [rewrite len_nil in Hlen; lia|]. rewrite <- Eu in *.
  unfold idx. rewrite Hd7. rewrite Eu at 1. cbn [bind].
  destruct (N.eqb_spec x SLASH) as [->|Hx]; cbn [negb].
  { rewrite Eu, cut_slash_cons. reflexivity. }
  rewrite slice_from_ok by lia. rewrite Hd7. cbn [bind].
  rewrite share_loop_bytes; [|lia|].
  2:{ rewrite valid_utf8_loop_G by lia. now rewrite HGu. }
  rewrite shb_cut. destruct (cut_slash u) as [g [flt|]] eqn:Ecut; [|reflexivity].
  assert (Hgne : is_empty g = false).
  { rewrite Eu, cut_slash_cons in Ecut. replace (x =? SLASH) with false in Ecut by lia. inversion Ecut. reflexivity. }
  rewrite Hgne. cbn [negb andb].
  pose proof (cut_slash_app u g flt Ecut) as Hug.
  assert (HGs : G g = true /\ G (SLASH :: flt) = true).
  { rewrite Hug in HGu. apply G_split in HGu; [exact HGu|reflexivity]. }
  destruct HGs as [HGg HGf]. rewrite G_1 in HGf by reflexivity.
  apply andb_prop in HGf. destruct HGf as [_ HGf].
  rewrite (G_spec_utf8 g HGg), andb_true_r.
  destruct (has_wild g); [reflexivity|]. cbn [negb andb].
  apply filter_decoder_exact. rewrite G_utf8, HGf. reflexivity.
Qed.
