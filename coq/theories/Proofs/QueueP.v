(* Proofs about the model of the mem session queue (Model/Queue.v), for all histories:
   raw invariants (bound, cursor), shape invariant, absence of panics for well-formed
   callers, and refinement of the abstract queue of the C10 oracle (Oracle/C10O.v). *)
From Coq Require Import List NArith ZArith Bool Arith Lia Sorted.
Import ListNotations.
From GM Require Import Base.Topic Base.Msg Model.Queue Oracle.C10O.
From GM Require Export Proofs.ListP.
Open Scope N_scope.

Lemma remove_nth_length_le {A} (l : list A) : forall i, (length (remove_nth i l) <= length l)%nat.
Proof. induction l as [|x r IH]; intros [|i]; simpl; auto. specialize (IH i). lia. Qed.

Lemma remove_nth_length {A} (l : list A) : forall i, (i < length l)%nat ->
  length (remove_nth i l) = (length l - 1)%nat.
Proof.
  induction l as [|x r IH]; intros [|i] Hi; simpl in *; try lia.
  rewrite IH by lia. lia.
Qed.

Lemma replace_nth_length {A} (y : A) (l : list A) : forall i, length (replace_nth i y l) = length l.
Proof. induction l as [|x r IH]; intros [|i]; simpl; auto. Qed.

Lemma nth_error_lt {A} (l : list A) i x : nth_error l i = Some x -> (i < length l)%nat.
Proof. intros H. apply nth_error_Some. congruence. Qed.

Lemma remove_nth_app1 {A} (a b : list A) : forall i, (i < length a)%nat ->
  remove_nth i (a ++ b) = remove_nth i a ++ b.
Proof.
  induction a as [|x r IH]; intros [|i] Hi; simpl in *; try lia; auto.
  rewrite IH by lia. reflexivity.
Qed.

Lemma remove_nth_app2 {A} (a b : list A) : forall k,
  remove_nth (length a + k) (a ++ b) = a ++ remove_nth k b.
Proof. induction a as [|x r IH]; intros k; simpl; auto. rewrite IH. reflexivity. Qed.

Lemma replace_nth_app1 {A} (y : A) (a b : list A) : forall i, (i < length a)%nat ->
  replace_nth i y (a ++ b) = replace_nth i y a ++ b.
Proof.
  induction a as [|x r IH]; intros [|i] Hi; simpl in *; try lia; auto.
  rewrite IH by lia. reflexivity.
Qed.

Lemma replace_nth_mid {A} (y x : A) (a b : list A) :
  replace_nth (length a) y (a ++ x :: b) = a ++ y :: b.
Proof. induction a as [|z r IH]; simpl; auto. rewrite IH. reflexivity. Qed.

Lemma remove_nth_mid {A} (x : A) (a b : list A) :
  remove_nth (length a) (a ++ x :: b) = a ++ b.
Proof. induction a as [|z r IH]; simpl; auto. rewrite IH. reflexivity. Qed.

Lemma nth_error_mid {A} (a b : list A) : nth_error (a ++ b) (length a) = hd_error b.
Proof. induction a as [|z r IH]; simpl; auto. Qed.

Lemma map_remove_nth {A B} (f : A -> B) (l : list A) : forall i,
  map f (remove_nth i l) = remove_nth i (map f l).
Proof. induction l as [|x r IH]; intros [|i]; simpl; auto. rewrite IH. reflexivity. Qed.

Lemma map_replace_nth_same {A B} (f : A -> B) (l : list A) y : forall i old,
  nth_error l i = Some old -> f y = f old -> map f (replace_nth i y l) = map f l.
Proof.
  induction l as [|x r IH]; intros [|i] old Hn Hf; simpl in *; try discriminate.
  - inversion Hn; subst. rewrite Hf. reflexivity.
  - erewrite IH; eauto.
Qed.

Lemma Forall2_remove_nth {A B} (P : A -> B -> Prop) (l : list A) (m : list B) :
  Forall2 P l m -> forall i, Forall2 P (remove_nth i l) (remove_nth i m).
Proof.
  intros H. induction H as [|x y l m Hxy H IH]; intros [|i]; simpl; auto.
Qed.

Lemma Forall2_replace_nth {A B} (P : A -> B -> Prop) (l : list A) (m : list B) x y :
  Forall2 P l m -> P x y -> forall i, Forall2 P (replace_nth i x l) (replace_nth i y m).
Proof.
  intros H Hp. induction H as [|x0 y0 l m Hxy H IH]; intros [|i]; simpl; auto.
Qed.

Lemma Forall_remove_nth {A} (P : A -> Prop) (l : list A) :
  Forall P l -> forall i, Forall P (remove_nth i l).
Proof.
  intros H. induction H as [|x l Hx H IH]; intros [|i]; simpl; auto.
Qed.

Lemma Forall2_nth {A B} (P : A -> B -> Prop) l m : Forall2 P l m ->
  forall i x, nth_error l i = Some x -> exists y, nth_error m i = Some y /\ P x y.
Proof.
  intros H. induction H as [|x0 y0 l m Hxy H IH]; intros [|i] x Hn; simpl in *; try discriminate.
  - inversion Hn; subst. eauto.
  - eauto.
Qed.

Inductive subseq {A} : list A -> list A -> Prop :=
| ss_nil : subseq [] []
| ss_keep x l m : subseq l m -> subseq (x :: l) (x :: m)
| ss_skip x l m : subseq l m -> subseq l (x :: m).

Lemma subseq_refl {A} (l : list A) : subseq l l.
Proof. induction l; constructor; auto. Qed.

Lemma subseq_nil {A} (l : list A) : subseq [] l.
Proof. induction l; constructor; auto. Qed.

Lemma subseq_in {A} (l m : list A) : subseq l m -> forall x, In x l -> In x m.
Proof.
  intros H. induction H as [|x l m H IH|x l m H IH]; intros y Hy; simpl in *; auto.
  destruct Hy as [->|Hy]; auto.
Qed.

Lemma subseq_NoDup {A} (l m : list A) : subseq l m -> NoDup m -> NoDup l.
Proof.
  intros H. induction H as [|x l m H IH|x l m H IH]; intros Hn; auto.
  - inversion Hn; subst. constructor; auto. intros Hi. eapply subseq_in in Hi; eauto.
  - inversion Hn; subst. auto.
Qed.

Lemma subseq_app {A} (a b c d : list A) : subseq a b -> subseq c d -> subseq (a ++ c) (b ++ d).
Proof. intros H. induction H; intros Hc; simpl; auto; constructor; auto. Qed.

Lemma subseq_remove_nth {A} (l : list A) : forall i, subseq (remove_nth i l) l.
Proof.
  induction l as [|x r IH]; intros [|i]; simpl; try constructor; auto using subseq_refl.
Qed.

Lemma subseq_trans {A} (a b c : list A) : subseq a b -> subseq b c -> subseq a c.
Proof.
  intros Hab Hbc. revert a Hab. induction Hbc as [|x l m H IH|x l m H IH]; intros a Hab.
  - auto.
  - inversion Hab; subst; constructor; auto.
  - constructor; auto.
Qed.

Lemma subseq_app_l {A} (a b : list A) : subseq a (a ++ b).
Proof. rewrite <- (app_nil_r a) at 1. apply subseq_app; [apply subseq_refl|apply subseq_nil]. Qed.

Lemma subseq_app_r {A} (a b : list A) : subseq b (a ++ b).
Proof. apply (subseq_app [] a b b); [apply subseq_nil|apply subseq_refl]. Qed.

Lemma subseq_map {A B} (f : A -> B) l m : subseq l m -> subseq (map f l) (map f m).
Proof. induction 1; cbn [map]; now constructor. Qed.

Lemma subseq_filter {A} (p : A -> bool) (l : list A) : subseq (filter p l) l.
Proof. induction l as [|x l IH]; cbn [filter]; [constructor|]. destruct (p x); now constructor. Qed.

Lemma subseq_filter_mono {A} (p : A -> bool) (a b : list A) : subseq a b -> subseq (filter p a) (filter p b).
Proof. induction 1 as [|x l m H IH|x l m H IH]; cbn [filter]; [constructor| |]; destruct (p x); try constructor; exact IH. Qed.

Lemma Forall_subseq {A} (P : A -> Prop) a b : subseq a b -> Forall P b -> Forall P a.
Proof. rewrite !Forall_forall. intros Hs Hf x Hx. apply Hf. eapply subseq_in; eauto. Qed.

Lemma subseq_sorted {A} {R : A -> A -> Prop} (a b : list A) :
  subseq a b -> StronglySorted R b -> StronglySorted R a.
Proof.
  induction 1 as [|x l m H IH|x l m H IH]; intros Hs; [constructor| |].
  - inversion Hs as [|? ? Hm Hx]; subst. constructor; [now apply IH|]. eapply Forall_subseq; eauto.
  - inversion Hs; subst. now apply IH.
Qed.

Lemma skipn_remove_nth {A} (l : list A) : forall i, skipn i (remove_nth i l) = skipn (S i) l.
Proof. induction l as [|x r IH]; intros [|i]; try reflexivity. exact (IH i). Qed.

Lemma skipn_S_replace_nth {A} (y : A) (l : list A) : forall i, skipn (S i) (replace_nth i y l) = skipn (S i) l.
Proof. induction l as [|x r IH]; intros [|i]; try reflexivity. exact (IH i). Qed.

Lemma firstn_remove_nth {A} (l : list A) : forall i, firstn i (remove_nth i l) = firstn i l.
Proof. induction l as [|x r IH]; intros [|i]; simpl; try reflexivity. rewrite IH. reflexivity. Qed.

Lemma firstn_S_replace_nth {A} (y : A) (l : list A) : forall i v, nth_error l i = Some v ->
  firstn (S i) (replace_nth i y l) = firstn i l ++ [y].
Proof.
  induction l as [|x r IH]; intros [|i] v H; simpl in H; try discriminate; [reflexivity|].
  change (x :: firstn (S i) (replace_nth i y r) = x :: firstn i r ++ [y]). rewrite (IH i v H). reflexivity.
Qed.

(* the queued PUBLISH v (message m) as Read hands it out under packet id p *)
Definition hand (now ifexp p : N) (m : msg) (v : elem) : elem :=
  if ifexp =? 0 then with_body (QPub (set_pid p m)) v
  else with_expiry (Some (now + ifexp)) (with_body (QPub (set_pid p m)) v).

Definition ev_dropped (dr : elem * dropreason) : qev := EvDropped (fst dr) (snd dr).

(* Read walks over the queued elements `pre` with the packet ids `pids` at its disposal: the elements
   of `inf` take an id and stay, in flight; `drops` are removed and reported; `rs` is returned.
   The tests are those of read_loop, in its order. *)
Inductive reads (now limit : N) (v5 : bool) (ifexp : N) :
  list N -> list elem -> list elem -> list (elem * dropreason) -> list elem -> Prop :=
| rd_nil pids : reads now limit v5 ifexp pids [] [] [] []
| rd_expired pids v pre inf drops rs :
    expired now v = true ->
    reads now limit v5 ifexp pids pre inf drops rs ->
    reads now limit v5 ifexp pids (v :: pre) inf ((v, DExpired) :: drops) rs
| rd_oversize pids v m pre inf drops rs :
    expired now v = false -> e_body v = QPub m -> (limit <? msg_total_bytes v5 m) = true ->
    reads now limit v5 ifexp pids pre inf drops rs ->
    reads now limit v5 ifexp pids (v :: pre) inf ((v, DExceedsMax) :: drops) rs
| rd_qos0 pids v m pre inf drops rs :
    expired now v = false -> e_body v = QPub m -> (limit <? msg_total_bytes v5 m) = false ->
    (m_qos m =? 0) = true ->
    reads now limit v5 ifexp pids pre inf drops rs ->
    reads now limit v5 ifexp pids (v :: pre) inf drops (v :: rs)
| rd_hand p pids v m pre inf drops rs :
    expired now v = false -> e_body v = QPub m -> (limit <? msg_total_bytes v5 m) = false ->
    (m_qos m =? 0) = false ->
    reads now limit v5 ifexp pids pre inf drops rs ->
    reads now limit v5 ifexp (p :: pids) (v :: pre) (hand now ifexp p m v :: inf) drops (hand now ifexp p m v :: rs).

(* n rounds of the loop walk over the first n elements from the cursor on; what lies before the
   cursor and behind these n elements is not touched *)
Lemma read_loop_reads now limit v5 ifexp : forall n pids l cur dq di evs rs l' cur' dq' di' evs' rs',
  read_loop now n pids l cur limit v5 ifexp dq di evs rs = Some (l', cur', dq', di', evs', rs') ->
  exists inf drops rs2,
    reads now limit v5 ifexp pids (firstn n (skipn cur l)) inf drops rs2 /\
    l' = firstn cur l ++ inf ++ skipn n (skipn cur l) /\ cur' = (cur + length inf)%nat /\
    skipn cur' l' = skipn n (skipn cur l) /\
    dq' = (dq + Z.of_nat (length inf) - Z.of_nat (length (firstn n (skipn cur l))))%Z /\
    di' = (di + Z.of_nat (length inf))%Z /\
    evs' = evs ++ map ev_dropped drops /\ rs' = rs ++ rs2.
Proof.
  induction n as [|k IH]; intros pids l cur dq di evs rs l' cur' dq' di' evs' rs' H; simpl in H.
  - inversion H; subst. exists [], [], []. simpl. rewrite firstn_skipn, !app_nil_r.
    repeat split; try lia. constructor.
  - destruct (nth_error l cur) as [v|] eqn:Hn.
    2:{ inversion H; subst. apply nth_error_None in Hn.
        rewrite (skipn_all2 l' Hn), (firstn_all2 l' Hn). exists [], [], []. simpl. rewrite !app_nil_r.
        repeat split; try lia. constructor. }
    rewrite (skipn_nth_cons l cur v Hn), firstn_cons, skipn_cons. cbn [length].
    destruct (expired now v) eqn:Hx.
    { apply IH in H as (inf & drops & rs2 & Hr & -> & -> & Hs & -> & -> & -> & ->).
      rewrite skipn_remove_nth, firstn_remove_nth in *.
      exists inf, ((v, DExpired) :: drops), rs2. cbn [map]. rewrite <- app_assoc.
      repeat split; auto; try lia. constructor; assumption. }
    destruct (e_body v) as [m|p] eqn:Hb; [|discriminate].
    destruct (limit <? msg_total_bytes v5 m) eqn:Hlim.
    { apply IH in H as (inf & drops & rs2 & Hr & -> & -> & Hs & -> & -> & -> & ->).
      rewrite skipn_remove_nth, firstn_remove_nth in *.
      exists inf, ((v, DExceedsMax) :: drops), rs2. cbn [map]. rewrite <- app_assoc.
      repeat split; auto; try lia. econstructor; eassumption. }
    destruct (m_qos m =? 0) eqn:Hq.
    { apply IH in H as (inf & drops & rs2 & Hr & -> & -> & Hs & -> & -> & -> & ->).
      rewrite skipn_remove_nth, firstn_remove_nth in *.
      exists inf, drops, (v :: rs2). rewrite <- app_assoc.
      repeat split; auto; try lia. econstructor; eassumption. }
    destruct pids as [|p pids']; [discriminate|].
    apply IH in H as (inf & drops & rs2 & Hr & -> & -> & Hs & -> & -> & -> & ->).
    rewrite skipn_S_replace_nth in *. rewrite (firstn_S_replace_nth _ l cur v Hn) in *.
    exists (hand now ifexp p m v :: inf), drops, (hand now ifexp p m v :: rs2). rewrite <- !app_assoc in *.
    cbn [length]. rewrite <- Nat.add_succ_comm.
    repeat split; auto; try lia. econstructor; eassumption.
Qed.

Lemma reads_length now limit v5 ifexp pids pre inf drops rs :
  reads now limit v5 ifexp pids pre inf drops rs -> (length inf <= length pre)%nat.
Proof. induction 1; simpl; lia. Qed.

(* raw invariants: no hypothesis on the caller *)

Lemma q_run_fst_ind (P : queue -> Prop) :
  (forall q o, P q -> P (fst (q_step q o))) ->
  forall ops q, P q -> P (fst (q_run q ops)).
Proof.
  intros Hstep. induction ops as [|o r IH]; intros q Hq; simpl; auto.
  specialize (Hstep q o Hq). destruct (q_step q o) as [q' out] eqn:Hs. simpl in Hstep.
  specialize (IH q' Hstep).
  destruct (q_run q' r) as [q'' outs] eqn:Hr. simpl in IH.
  destruct out; simpl; auto.
Qed.

Definition raw_inv (M : nat) (q : queue) : Prop :=
  q_max q = M /\ (length (q_l q) <= M)%nat /\ (q_cur q <= length (q_l q))%nat.

Lemma read_loop_raw now n pids l cur limit v5 ifexp dq di evs rs l' cur' dq' di' evs' rs' :
  read_loop now n pids l cur limit v5 ifexp dq di evs rs = Some (l', cur', dq', di', evs', rs') ->
  (cur <= length l)%nat -> (length l' <= length l)%nat /\ (cur' <= length l')%nat.
Proof.
  intros H Hc. apply read_loop_reads in H as (inf & drops & rs2 & Hr & -> & -> & _).
  apply reads_length in Hr. rewrite firstn_length, skipn_length in Hr.
  rewrite !app_length, firstn_length, !skipn_length. lia.
Qed.

Lemma rif_loop_raw now ifexp : forall n l cur rs l' cur' dr rs',
  rif_loop now n l cur ifexp rs = (l', cur', dr, rs') ->
  (cur <= length l)%nat -> length l' = length l /\ (cur' <= length l')%nat.
Proof.
  induction n as [|k IH]; intros l cur rs l' cur' dr rs' H Hc; simpl in H.
  - inversion H; subst. auto.
  - destruct (nth_error l cur) as [e|] eqn:Hn.
    2:{ inversion H; subst. auto. }
    pose proof (nth_error_lt _ _ _ Hn) as Hlt.
    destruct (e_id e =? 0) eqn:Hid.
    { inversion H; subst. auto. }
    apply IH in H; rewrite replace_nth_length in *; lia.
Qed.

Lemma find_id_some pid : forall l n i j, find_id pid l n i = Some j ->
  exists k d, j = (i + k)%nat /\ (k < n)%nat /\ nth_error l k = Some d /\ e_id d = pid.
Proof.
  induction l as [|e r IH]; intros [|n] i j H; simpl in H; try discriminate.
  destruct (e_id e =? pid) eqn:He.
  - inversion H; subst. exists 0%nat, e. apply N.eqb_eq in He. repeat split; auto; lia.
  - apply IH in H as (k & d & -> & Hk & Hn & Hd). exists (S k), d. repeat split; auto; lia.
Qed.

Lemma raw_q_set M q l cur dr : q_max q = M -> (length l <= M)%nat -> (cur <= length l)%nat ->
  raw_inv M (q_set l cur dr q).
Proof. intros Hm Hl Hc. repeat split; assumption. Qed.

Lemma q_step_raw M q o : raw_inv M q -> raw_inv M (fst (q_step q o)).
Proof.
  intros H. pose proof H as (Hm & Hl & Hc). destruct o as [now e|now pids|now n|pid|e|c v lim|]; simpl.
  -     unfold q_add. destruct (q_max q <=? length (q_l q))%nat eqn:Hfull.
    + destruct (add_victim now e q) as [|r|i r]; simpl; try exact H.
      destruct (nth_error (q_l q) i) as [d|] eqn:Hn; simpl; [|exact H].
      apply nth_error_lt in Hn.
      apply raw_q_set; auto; rewrite app_length, remove_nth_length by auto; simpl; [lia|].
      destruct (i <? q_cur q)%nat; lia.
    + apply Nat.leb_gt in Hfull. apply raw_q_set; auto; rewrite app_length; simpl; lia.
  -     unfold q_read. destruct (negb (q_drained q)); simpl; [exact H|].
    destruct (q_closed q); simpl; [exact H|].
    destruct (q_cur q =? length (q_l q))%nat; simpl; [exact H|].
    destruct (read_loop _ _ _ _ _ _ _ _ _ _ _ _) as [[[[[[l' cur'] dq] di] evs] rs]|] eqn:Hr; simpl; [|exact H].
    apply read_loop_raw in Hr; auto. apply raw_q_set; auto; lia.
  -     unfold q_read_inflight.
    destruct ((length (q_l q) =? 0)%nat || (q_cur q =? length (q_l q))%nat); simpl; [apply raw_q_set; auto|].
    destruct (rif_loop _ _ _ _ _ _) as [[[l' cur'] dr] rs] eqn:Hr. simpl.
    apply rif_loop_raw in Hr; auto. apply raw_q_set; auto; lia.
  - (* Remove *)
    unfold q_remove. destruct (find_id pid (q_l q) (q_cur q) 0) as [i|] eqn:Hf; simpl; [|exact H].
    apply find_id_some in Hf as (k & d & -> & Hk & Hn & _). apply nth_error_lt in Hn.
    apply raw_q_set; auto; rewrite remove_nth_length by lia; lia.
  - (* Replace *)
    unfold q_replace. destruct (find_id (e_id e) (q_l q) (q_cur q) 0) as [i|] eqn:Hf; simpl; [|exact H].
    apply raw_q_set; auto; rewrite replace_nth_length; lia.
  - repeat split; simpl; auto; try lia. destruct c; simpl; lia.
  - exact H.
Qed.

Lemma q_run_raw max ifexp ops : raw_inv max (fst (q_run (q_new max ifexp) ops)).
Proof.
  apply q_run_fst_ind with (P := raw_inv max).
  - intros q o. apply q_step_raw.
  - repeat split; simpl; lia.
Qed.

Lemma q_bounded max ifexp ops : (1 <= max)%nat ->
  (length (q_l (fst (q_run (q_new max ifexp) ops))) <= max)%nat.
Proof. intros _. apply (q_run_raw max ifexp ops). Qed.

Lemma q_cursor_in_range max ifexp ops :
  (q_cur (fst (q_run (q_new max ifexp) ops)) <= length (q_l (fst (q_run (q_new max ifexp) ops))))%nat.
Proof. apply (q_run_raw max ifexp ops). Qed.

(* well-formed histories: what the broker guarantees *)

Definition is_pub0 (e : elem) : bool :=
  match e_body e with QPub m => m_pid m =? 0 | QRel _ => false end.

Fixpoint nodupb (l : list N) : bool :=
  match l with [] => true | x :: r => negb (memN x r) && nodupb r end.

(* Add gets a PUBLISH without packet id and with a fresh non-zero tag; Read is only called once
   the in-flight entries are drained and gets distinct non-zero ids that are not in flight;
   Replace gets a PUBREL with a non-zero id (its ghost tag is 0: the code never reads tags) *)
Definition wf_step (q : queue) (seen : list N) (o : qop) : bool :=
  match o with
  | OAdd _ e => is_pub0 e && negb (e_tag e =? 0) && negb (memN (e_tag e) seen)
  | ORead _ pids => q_drained q && forallb (fun p => negb (p =? 0)) pids && nodupb pids
                    && forallb (fun p => negb (existsb (fun e => e_id e =? p) (q_l q))) pids
  | OReplace e => match e_body e with QRel p => negb (p =? 0) && (e_tag e =? 0) | QPub _ => false end
  | _ => true
  end.

(* tags passed to Add since the last Init(clean) *)
Definition seen_step (seen : list N) (o : qop) : list N :=
  match o with OAdd _ e => e_tag e :: seen | OInit true _ _ => [] | _ => seen end.

Fixpoint wf_run (q : queue) (seen : list N) (ops : list qop) : bool :=
  match ops with
  | [] => true
  | o :: r => wf_step q seen o &&
              (let '(q', out) := q_step q o in
               match out with RPanic => true | _ => wf_run q' (seen_step seen o) r end)
  end.

Lemma memN_In x l : memN x l = true <-> In x l.
Proof.
  induction l as [|y r IH]; simpl; [split; [discriminate|tauto]|].
  rewrite orb_true_iff, IH, N.eqb_eq. split; intros [H|H]; auto.
Qed.

Definition eqos (e : elem) : N := match e_body e with QPub m => m_qos m | QRel _ => 1 end.

(* an in-flight element of the model and its abstract entry *)
Definition inf_rel (e : elem) (a : aent) : Prop :=
  e_id e <> 0 /\ a_pid a = e_id e /\ a_exp a = e_expiry e /\
  match e_body e with
  | QPub m => a_rel a = false /\ aqos a = m_qos m /\ a_tag a = e_tag e
  | QRel _ => a_rel a = true /\ e_tag e = 0
  end.

Definition tags_ok (seen : list N) (T : list N) : Prop :=
  NoDup T /\ (forall t, In t T -> t <> 0 /\ In t seen).

Lemma tags_ok_subseq seen T T' : tags_ok seen T -> subseq T' T -> tags_ok seen T'.
Proof.
  intros [Hn Hi] Hs. split.
  - eapply subseq_NoDup; eauto.
  - intros t Ht. apply Hi. eapply subseq_in; eauto.
Qed.

Lemma tags_ok_snoc seen T t : tags_ok seen T -> t <> 0 -> ~ In t seen -> tags_ok (t :: seen) (T ++ [t]).
Proof.
  intros [Hn Hi] Ht0 Hts. split.
  - apply NoDup_snoc; auto. intros Hx. apply Hts. apply Hi; auto.
  - intros x Hx. apply in_app_or in Hx. destruct Hx as [Hx|[<-|[]]].
    + destruct (Hi x Hx). split; auto. right; auto.
    + split; auto. left; auto.
Qed.

Lemma tags_ok_weaken seen t T : tags_ok seen T -> tags_ok (t :: seen) T.
Proof. intros [Hn Hi]. split; auto. intros x Hx. destruct (Hi x Hx). split; auto. right; auto. Qed.

Record R (q : queue) (seen : list N) (s : ast) (inf que : list elem) : Prop := {
  R_l : q_l q = inf ++ que;
  R_inf : Forall2 inf_rel inf (a_inf s);
  R_que : Forall (fun e => is_pub0 e = true) que;
  R_aq : a_q s = map ent_of_elem que;
  R_rem : (a_rem s <= length (a_inf s))%nat;
  R_cur : q_cur q = (length (a_inf s) - a_rem s)%nat;
  R_dr : q_drained q = true -> a_rem s = 0%nat;
  R_fdr : a_drained s = q_drained q;
  R_fcl : a_closed s = q_closed q;
  R_lim : a_limit s = q_limit q;
  R_v5 : a_v5 s = q_v5 q;
  R_max : a_max s = q_max q;
  R_ifexp : a_ifexp s = q_ifexp q;
  R_tags : tags_ok seen (map a_tag (a_inf s ++ a_q s));
  R_cq : a_cq s = Z.of_nat (length (a_inf s) + length (a_q s));
  R_ci : a_ci s = Z.of_nat (length (a_inf s));
  R_len : (length (a_inf s) + length (a_q s) <= a_max s)%nat }.

Definition Rx (q : queue) (seen : list N) (s : ast) : Prop := exists inf que, R q seen s inf que.

Lemma R_inv_ok q seen s : Rx q seen s -> inv_ok s = true.
Proof.
  intros (inf & que & H). unfold inv_ok.
  rewrite (R_cq _ _ _ _ _ H), (R_ci _ _ _ _ _ H), !Z.eqb_refl. simpl.
  apply orb_true_iff. left. apply Nat.leb_le. apply (R_len _ _ _ _ _ H).
Qed.

Lemma R_len_inf q seen s inf que : R q seen s inf que -> length inf = length (a_inf s).
Proof. intros H. apply (Forall2_length _ _ _ (R_inf _ _ _ _ _ H)). Qed.

Lemma R_len_que q seen s inf que : R q seen s inf que -> length que = length (a_q s).
Proof. intros H. rewrite (R_aq _ _ _ _ _ H), map_length. reflexivity. Qed.

Definition step_sim (q : queue) (seen : list N) (s : ast) (o : qop) : Prop :=
  snd (q_step q o) <> RPanic /\
  exists s', step_ok s o (oout_of (snd (q_step q o))) = Some s' /\
             Rx (fst (q_step q o)) (seen_step seen o) s'.

Lemma is_pub0_id e : is_pub0 e = true -> e_id e = 0.
Proof. unfold is_pub0, e_id. destruct (e_body e); [apply N.eqb_eq|discriminate]. Qed.

Lemma pub0_inv v : is_pub0 v = true -> exists m, e_body v = QPub m /\ m_pid m = 0.
Proof. unfold is_pub0. destruct (e_body v) as [m|p]; [|discriminate]. intros H. apply N.eqb_eq in H. eauto. Qed.

Lemma ent_pub v m : e_body v = QPub m ->
  ent_of_elem v = {| a_tag := e_tag v; a_pid := m_pid m; a_rel := false; a_msg := Some m; a_exp := e_expiry v |}.
Proof. intros H. unfold ent_of_elem. rewrite H. reflexivity. Qed.

Lemma ent_tag v : a_tag (ent_of_elem v) = e_tag v.
Proof. unfold ent_of_elem. destruct (e_body v); reflexivity. Qed.

Lemma map_ent_tag que : map a_tag (map ent_of_elem que) = map e_tag que.
Proof. rewrite map_map. apply map_ext, ent_tag. Qed.

Lemma ent_expired now v : aexpired now (ent_of_elem v) = expired now v.
Proof. unfold ent_of_elem, aexpired, expired. destruct (e_body v); reflexivity. Qed.

Lemma ent_qos e : aqos (ent_of_elem e) = eqos e.
Proof. unfold ent_of_elem, eqos, aqos. destruct (e_body e); reflexivity. Qed.

Lemma ent_size v5 v m : e_body v = QPub m -> asize v5 (ent_of_elem v) = msg_total_bytes v5 m.
Proof. intros H. rewrite (ent_pub v m H). reflexivity. Qed.

Lemma eqos_pub v m : e_body v = QPub m -> eqos v = m_qos m.
Proof. intros H. unfold eqos. rewrite H. reflexivity. Qed.

Lemma inf_rel_expired now e a : inf_rel e a -> aexpired now a = expired now e.
Proof. intros (_ & _ & Hx & _). unfold aexpired, expired. rewrite Hx. reflexivity. Qed.

Lemma inf_ids inf ainf : Forall2 inf_rel inf ainf -> Forall (fun e => e_id e <> 0) inf.
Proof. intros H. induction H as [|e a l al Hea H IH]; constructor; auto. destruct Hea; auto. Qed.

(* how R follows the queue when an entry leaves or a message is appended *)
Lemma R_remove_inflight q seen s inf que k ad ha dr : R q seen s inf que -> (k < length inf)%nat ->
  R (q_set (remove_nth k (q_l q)) (if (k <? q_cur q)%nat then (q_cur q - 1)%nat else q_cur q) (q_drained q) q) seen
    (upd s (remove_nth k (a_inf s)) (if (k <? length (a_inf s) - a_rem s)%nat then a_rem s else (a_rem s - 1)%nat)
         (a_q s) ad ha dr (a_cq s - 1)%Z (a_ci s - 1)%Z)
    (remove_nth k inf) que.
Proof.
  intros H Hk. pose proof (R_len_inf _ _ _ _ _ H) as Hli. destruct H.
  assert (Hlr : length (remove_nth k (a_inf s)) = (length (a_inf s) - 1)%nat) by (apply remove_nth_length; lia).
  rewrite R_cur0. constructor; simpl; auto; rewrite ?Hlr.
  - rewrite R_l0. apply remove_nth_app1. exact Hk.
  - apply Forall2_remove_nth. exact R_inf0.
  - destruct (Nat.ltb_spec k (length (a_inf s) - a_rem s)); lia.
  - destruct (Nat.ltb_spec k (length (a_inf s) - a_rem s)); lia.
  - intros Hd. apply R_dr0 in Hd. destruct (k <? length (a_inf s) - a_rem s)%nat; lia.
  - eapply tags_ok_subseq; [exact R_tags0|].
    apply subseq_map, subseq_app; [apply subseq_remove_nth|apply subseq_refl].
  - rewrite R_cq0. lia.
  - rewrite R_ci0. lia.
  - lia.
Qed.

Lemma R_remove_queued q seen s inf que k ad ha dr : R q seen s inf que -> (k < length que)%nat ->
  R (q_set (remove_nth (length inf + k) (q_l q))
           (if (length inf + k <? q_cur q)%nat then (q_cur q - 1)%nat else q_cur q) (q_drained q) q) seen
    (upd s (a_inf s) (a_rem s) (remove_nth k (a_q s)) ad ha dr (a_cq s - 1)%Z (a_ci s))
    inf (remove_nth k que).
Proof.
  intros H Hk. pose proof (R_len_inf _ _ _ _ _ H) as Hli. pose proof (R_len_que _ _ _ _ _ H) as Hlq. destruct H.
  assert (Hlr : length (remove_nth k (a_q s)) = (length (a_q s) - 1)%nat) by (apply remove_nth_length; lia).
  replace (length inf + k <? q_cur q)%nat with false by (symmetry; apply Nat.ltb_ge; lia).
  constructor; simpl; auto; rewrite ?Hlr.
  - rewrite R_l0. apply remove_nth_app2.
  - apply Forall_remove_nth. exact R_que0.
  - rewrite R_aq0. symmetry. apply map_remove_nth.
  - eapply tags_ok_subseq; [exact R_tags0|].
    apply subseq_map, subseq_app; [apply subseq_refl|apply subseq_remove_nth].
  - rewrite R_cq0. lia.
  - lia.
Qed.

Lemma R_append q seen s inf que e ad ha dr cq : R q seen s inf que ->
  is_pub0 e = true -> e_tag e <> 0 -> ~ In (e_tag e) seen ->
  (length (a_inf s) + length (a_q s) < a_max s)%nat -> cq = (a_cq s + 1)%Z ->
  R (q_set (q_l q ++ [e]) (q_cur q) (q_drained q) q) (e_tag e :: seen)
    (upd s (a_inf s) (a_rem s) (a_q s ++ [ent_of_elem e]) ad ha dr cq (a_ci s)) inf (que ++ [e]).
Proof.
  intros H Hpub Htag Hns Hroom ->. destruct H. constructor; simpl; auto.
  - rewrite R_l0, app_assoc. reflexivity.
  - apply Forall_app. split; auto.
  - rewrite R_aq0, map_app. reflexivity.
  - rewrite app_assoc, map_app. simpl. rewrite ent_tag. apply tags_ok_snoc; auto.
  - rewrite R_cq0, app_length. simpl. lia.
  - rewrite app_length. simpl. lia.
Qed.

(* Add on a full queue: an entry leaves and the newcomer is appended *)
Lemma R_drop_inflight q seen s inf que e k ad ha dr : R q seen s inf que ->
  is_pub0 e = true -> e_tag e <> 0 -> ~ In (e_tag e) seen -> (k < length inf)%nat ->
  R (q_set (remove_nth k (q_l q) ++ [e]) (if (k <? q_cur q)%nat then (q_cur q - 1)%nat else q_cur q) (q_drained q) q)
    (e_tag e :: seen)
    (upd s (remove_nth k (a_inf s)) (if (k <? length (a_inf s) - a_rem s)%nat then a_rem s else (a_rem s - 1)%nat)
         (a_q s ++ [ent_of_elem e]) ad ha dr (a_cq s) (a_ci s - 1)%Z)
    (remove_nth k inf) (que ++ [e]).
Proof.
  intros H Hpub Htag Hns Hk. pose proof (R_len_inf _ _ _ _ _ H) as Hli. pose proof (R_len _ _ _ _ _ H) as Hlen.
  apply (R_remove_inflight _ _ _ _ _ k ad ha dr) in H; [|exact Hk].
  apply (R_append _ _ _ _ _ e ad ha dr (a_cq s)) in H; auto; simpl; [|lia].
  rewrite remove_nth_length by lia. lia.
Qed.

Lemma R_drop_queued q seen s inf que e k ad ha dr : R q seen s inf que ->
  is_pub0 e = true -> e_tag e <> 0 -> ~ In (e_tag e) seen -> (k < length que)%nat ->
  R (q_set (remove_nth (length inf + k) (q_l q) ++ [e])
           (if (length inf + k <? q_cur q)%nat then (q_cur q - 1)%nat else q_cur q) (q_drained q) q)
    (e_tag e :: seen)
    (upd s (a_inf s) (a_rem s) (remove_nth k (a_q s) ++ [ent_of_elem e]) ad ha dr (a_cq s) (a_ci s))
    inf (remove_nth k que ++ [e]).
Proof.
  intros H Hpub Htag Hns Hk. pose proof (R_len_que _ _ _ _ _ H) as Hlq. pose proof (R_len _ _ _ _ _ H) as Hlen.
  apply (R_remove_queued _ _ _ _ _ k ad ha dr) in H; [|exact Hk].
  apply (R_append _ _ _ _ _ e ad ha dr (a_cq s)) in H; auto; simpl; [|lia].
  rewrite remove_nth_length by lia. lia.
Qed.

Lemma R_drop_new q seen s inf que t ad ha dr :
  R q seen s inf que ->
  R q (t :: seen) (upd s (a_inf s) (a_rem s) (a_q s) ad ha dr (a_cq s) (a_ci s)) inf que.
Proof.
  intros H. destruct H. constructor; simpl; auto. apply tags_ok_weaken. assumption.
Qed.

Lemma init_sim q seen s c v lim : Rx q seen s -> step_sim q seen s (OInit c v lim).
Proof.
  intros (inf & que & H). split; [discriminate|]. simpl.
  eexists; split; [reflexivity|]. destruct H. destruct c.
  - exists [], []. constructor; simpl; auto; try lia. split; [constructor|intros t []].
  - exists inf, que. constructor; simpl; auto; try lia.
Qed.

Lemma close_sim q seen s : Rx q seen s -> step_sim q seen s OClose.
Proof.
  intros (inf & que & H). split; [discriminate|]. simpl.
  eexists; split; [reflexivity|]. exists inf, que. destruct H. constructor; simpl; auto.
Qed.

Lemma find_id_sim pid que : forall inf ainf, Forall2 inf_rel inf ainf ->
  forall n i, (n <= length inf)%nat -> find_id pid (inf ++ que) n i = find_pid_idx pid ainf n i.
Proof.
  intros inf ainf H. induction H as [|e a inf ainf Hea H IH]; intros [|k] i Hn; simpl in *; try lia; auto.
  - destruct que; reflexivity.
  - destruct Hea as (_ & Hp & _). rewrite Hp. destruct (e_id e =? pid); auto. apply IH. lia.
Qed.

(* Remove and Replace look among the entries before the cursor, as the oracle does among those
   already delivered in this connection *)
Lemma R_find_id q seen s inf que pid : R q seen s inf que ->
  find_pid_idx pid (a_inf s) (length (a_inf s) - a_rem s) 0 = find_id pid (q_l q) (q_cur q) 0.
Proof.
  intros H. rewrite (R_l _ _ _ _ _ H), (R_cur _ _ _ _ _ H). symmetry.
  apply find_id_sim; [exact (R_inf _ _ _ _ _ H)|]. rewrite (R_len_inf _ _ _ _ _ H). lia.
Qed.

Lemma remove_sim q seen s pid : Rx q seen s -> step_sim q seen s (ORemove pid).
Proof.
  intros (inf & que & H). unfold step_sim. simpl. unfold q_remove, remove_ok.
  rewrite (R_find_id _ _ _ _ _ pid H).
  destruct (find_id pid (q_l q) (q_cur q) 0) as [i|] eqn:Hf; simpl; (split; [discriminate|]).
  - apply find_id_some in Hf as (k & d & -> & Hk & _). simpl.
    eexists; split; [reflexivity|]. exists (remove_nth k inf), que.
    pose proof (R_remove_inflight _ _ _ _ _ k (a_added s) (a_handed s) (a_dropped s) H) as HR.
    rewrite <- (R_cur _ _ _ _ _ H) in HR. rewrite (proj2 (Nat.ltb_lt _ _) Hk) in HR.
    apply HR. pose proof (R_len_inf _ _ _ _ _ H). pose proof (R_cur _ _ _ _ _ H). lia.
  - eexists; split; [reflexivity|]. exists inf, que. exact H.
Qed.

Lemma replace_sim q seen s e : Rx q seen s -> wf_step q seen (OReplace e) = true ->
  step_sim q seen s (OReplace e).
Proof.
  intros (inf & que & H) Hwf. pose proof (R_len_inf _ _ _ _ _ H) as Hli.
  simpl in Hwf. destruct (e_body e) as [m|p] eqn:Hb; [discriminate|].
  apply andb_true_iff in Hwf. destruct Hwf as [Hp Ht].
  apply negb_true_iff, N.eqb_neq in Hp. apply N.eqb_eq in Ht.
  assert (Hid : e_id e = p) by (unfold e_id; rewrite Hb; reflexivity).
  unfold step_sim. simpl. unfold q_replace, replace_ok.
  rewrite (R_find_id _ _ _ _ _ (e_id e) H). destruct H.
  destruct (find_id (e_id e) (q_l q) (q_cur q) 0) as [i|] eqn:Hf; simpl; (split; [discriminate|]).
  - apply find_id_some in Hf as (k & d & -> & Hk & _). simpl.
    destruct (nth_error (a_inf s) k) as [old|] eqn:Hold.
    2:{ apply nth_error_None in Hold. lia. }
    eexists; split; [reflexivity|]. exists (replace_nth k e inf), que.
    constructor; simpl; auto; rewrite ?replace_nth_length; auto.
    + rewrite R_l0. apply replace_nth_app1. lia.
    + apply Forall2_replace_nth; auto.
      unfold inf_rel, ent_of_elem. rewrite Hb, Hid. simpl. auto.
    + rewrite map_app. erewrite map_replace_nth_same; eauto. rewrite <- map_app. auto.
  - eexists; split; [reflexivity|]. exists inf, que. constructor; auto.
Qed.

Definition etouch (now ifexp : N) (e : elem) : elem :=
  if ifexp =? 0 then e else with_expiry (Some (now + ifexp)) e.
Definition atouch (now ifexp : N) (a : aent) : aent :=
  {| a_tag := a_tag a; a_pid := a_pid a; a_rel := a_rel a; a_msg := a_msg a;
     a_exp := if ifexp =? 0 then a_exp a else Some (now + ifexp) |}.
Definition isnil {A} (l : list A) : bool := match l with [] => true | _ => false end.

Lemma rif_loop_spec now ifexp que : Forall (fun e => is_pub0 e = true) que ->
  forall n mid pre rs, Forall (fun e => e_id e <> 0) mid ->
  rif_loop now n (pre ++ mid ++ que) (length pre) ifexp rs =
  (pre ++ map (etouch now ifexp) (firstn n mid) ++ skipn n mid ++ que,
   (length pre + length (firstn n mid))%nat,
   (length mid <? n)%nat && negb (isnil que),
   rs ++ map (etouch now ifexp) (firstn n mid)).
Proof.
  intros Hq. induction n as [|k IH]; intros mid pre rs Hm.
  - simpl. rewrite app_nil_r, Nat.add_0_r. reflexivity.
  - simpl rif_loop. rewrite nth_error_mid. destruct mid as [|e mid'].
    + simpl. rewrite app_nil_r, Nat.add_0_r. destruct que as [|e r]; simpl; [reflexivity|].
      inversion Hq; subst. rewrite (is_pub0_id e) by assumption. reflexivity.
    + inversion Hm; subst. simpl hd_error. cbv iota.
      destruct (e_id e =? 0) eqn:Hid; [apply N.eqb_eq in Hid; contradiction|].
      rewrite <- app_comm_cons, replace_nth_mid.
      change (pre ++ (if ifexp =? 0 then e else with_expiry (Some (now + ifexp)) e) :: mid' ++ que)
        with (pre ++ [etouch now ifexp e] ++ mid' ++ que).
      rewrite app_assoc.
      replace (S (length pre)) with (length (pre ++ [etouch now ifexp e])) by (rewrite app_length; simpl; lia).
      rewrite IH by assumption. simpl. rewrite !app_length. simpl.
      rewrite <- !app_assoc. simpl. f_equal. f_equal. f_equal. lia.
Qed.

(* ReadInflight in closed form: of the in-flight entries from the cursor on, the first n are re-armed
   and returned.  The queue counts as drained once the cursor has passed the in-flight part: when it
   stands at the end of the list at the start of the call, or meets a queued message within the budget. *)
Lemma q_read_inflight_eq now n q inf que :
  q_l q = inf ++ que -> Forall (fun e => e_id e <> 0) inf -> Forall (fun e => is_pub0 e = true) que ->
  (q_cur q <= length inf)%nat ->
  let pre := firstn (q_cur q) inf in
  let mid := skipn (q_cur q) inf in
  let rs := map (etouch now (q_ifexp q)) (firstn n mid) in
  q_read_inflight now n q =
  (q_set (pre ++ rs ++ skipn n mid ++ que) (q_cur q + length (firstn n mid))%nat
         (q_drained q || isnil mid && isnil que ||
          (length mid <? Nat.min n (length (q_l q)))%nat && negb (isnil que)) q, rs).
Proof.
  intros Hl Hinf Hque Hcur pre mid rs. unfold q_read_inflight.
  assert (Hpm : inf = pre ++ mid) by (symmetry; apply firstn_skipn).
  assert (Hlp : length pre = q_cur q) by (apply firstn_length_le; exact Hcur).
  assert (Hll : length (q_l q) = (q_cur q + length mid + length que)%nat).
  { rewrite Hl, app_length. f_equal. rewrite Hpm, app_length. lia. }
  destruct ((length (q_l q) =? 0)%nat || (q_cur q =? length (q_l q))%nat) eqn:Hc.
  - assert (Hz : length mid = 0%nat /\ length que = 0%nat).
    { apply orb_true_iff in Hc. destruct Hc as [Hc|Hc]; apply Nat.eqb_eq in Hc; lia. }
    destruct Hz as [Hm Hq]. apply length_zero_iff_nil in Hm, Hq. subst rs. rewrite Hl, Hpm, Hm, Hq. simpl.
    rewrite firstn_nil, skipn_nil. simpl. rewrite !app_nil_r, Nat.add_0_r, andb_false_r, orb_false_r, orb_true_r. reflexivity.
  - assert (Hnn : isnil mid && isnil que = false).
    { apply orb_false_iff in Hc. destruct Hc as [_ Hc]. apply Nat.eqb_neq in Hc.
      destruct mid; [|reflexivity]. destruct que; [simpl in Hll; lia|reflexivity]. }
    rewrite Hnn, orb_false_r.
    rewrite Hl, Hpm, <- app_assoc, <- Hlp.
    rewrite (rif_loop_spec now (q_ifexp q) que Hque) by (apply Forall_skipn; exact Hinf).
    rewrite firstn_min_len, skipn_min_len by (rewrite !app_length; lia). reflexivity.
Qed.

Lemma inf_rel_touch now ifexp e a : inf_rel e a -> inf_rel (etouch now ifexp e) (atouch now ifexp a).
Proof.
  unfold inf_rel, etouch, atouch. intros (H1 & H2 & H3 & H4).
  destruct (ifexp =? 0); simpl; auto.
Qed.

Lemma oelem_of_touch now ifexp e : oelem_of (etouch now ifexp e) = oelem_of e.
Proof. unfold etouch. destruct (ifexp =? 0); reflexivity. Qed.

Lemma inf_rel_matches e a : inf_rel e a -> oelem_matches (oelem_of e) a = true.
Proof.
  unfold inf_rel, oelem_of, e_id. intros (H1 & H2 & H3 & H4).
  destruct (e_body e) as [m|p]; simpl.
  - destruct H4 as (Hr & Hq & Ht). rewrite Hr, Hq, Ht, H2, !N.eqb_refl. reflexivity.
  - destruct H4 as (Hr & Ht). rewrite Hr, H2, N.eqb_refl. reflexivity.
Qed.

Lemma all2_matches now ifexp l al : Forall2 inf_rel l al ->
  all2 oelem_matches (map oelem_of (map (etouch now ifexp) l)) al = true.
Proof.
  intros H. induction H as [|e a l al Hea H IH]; simpl; auto.
  rewrite oelem_of_touch, inf_rel_matches, IH; auto.
Qed.

Lemma readinflight_ok_eq now n rs s apre amid :
  a_inf s = apre ++ amid -> length amid = a_rem s ->
  all2 oelem_matches rs (firstn n amid) = true ->
  readinflight_ok now n rs s =
  Some (set_flags (upd s (apre ++ map (atouch now (a_ifexp s)) (firstn n amid) ++ skipn n amid)
                         (a_rem s - length (firstn n amid))%nat (a_q s) (a_added s) (a_handed s) (a_dropped s) (a_cq s) (a_ci s))
                  (a_drained s || ((a_rem s =? 0)%nat && isnil (a_q s)) ||
                   ((length (firstn n amid) <? Nat.min n (length (a_inf s) + length (a_q s)))%nat && negb (isnil (a_q s))))
                  (a_closed s)).
Proof.
  intros Hi Hl Hall. unfold readinflight_ok.
  replace (length (a_inf s) - a_rem s)%nat with (length apre) by (rewrite Hi, app_length; lia).
  rewrite Hi, skipn_app_len, firstn_app_len, Hall, skipn_firstn_len. reflexivity.
Qed.

Lemma map_tag_touch now ifexp l : map a_tag (map (atouch now ifexp) l) = map a_tag l.
Proof. induction l; simpl; congruence. Qed.

Lemma readinflight_sim q seen s now n : Rx q seen s -> step_sim q seen s (OReadInflight now n).
Proof.
  intros (inf & que & H). pose proof (R_len_inf _ _ _ _ _ H) as Hli. pose proof (R_len_que _ _ _ _ _ H) as Hlq.
  destruct H.
  unfold step_sim. simpl.
  rewrite (q_read_inflight_eq now n q inf que R_l0 (inf_ids _ _ R_inf0) R_que0) by lia.
  set (pre := firstn (q_cur q) inf). set (mid := skipn (q_cur q) inf).
  assert (Hpm : inf = pre ++ mid) by (symmetry; apply firstn_skipn).
  assert (Hlm : length mid = a_rem s) by (unfold mid; rewrite skipn_length; lia).
  pose proof R_inf0 as Hf2. rewrite Hpm in Hf2. apply Forall2_app_inv_l in Hf2.
  destruct Hf2 as (apre & amid & Hfp & Hfm & Hai).
  pose proof (Forall2_length _ _ _ Hfp) as Hlap. pose proof (Forall2_length _ _ _ Hfm) as Hlam.
  simpl. split; [discriminate|].
  rewrite (readinflight_ok_eq now n _ s apre amid Hai); [|lia|apply all2_matches, Forall2_firstn, Hfm].
  eexists; split; [reflexivity|].
  exists (pre ++ map (etouch now (q_ifexp q)) (firstn n mid) ++ skipn n mid), que.
  assert (Hk : length (firstn n mid) = length (firstn n amid)) by (rewrite !firstn_length; lia).
  assert (Hlen' : length (apre ++ map (atouch now (a_ifexp s)) (firstn n amid) ++ skipn n amid) = length (a_inf s)).
  { rewrite Hai, !app_length, map_length, firstn_length, skipn_length. lia. }
  assert (Hll : length (q_l q) = (length (a_inf s) + length (a_q s))%nat) by (rewrite R_l0, app_length; lia).
  constructor; simpl; auto; rewrite ?Hlen'; auto.
  - rewrite <- !app_assoc. reflexivity.
  - apply Forall2_app; auto. apply Forall2_app.
    + rewrite R_ifexp0. apply Forall2_map2; [apply inf_rel_touch|]. apply Forall2_firstn; auto.
    + apply Forall2_skipn; auto.
  - lia.
  - rewrite firstn_length in *. lia.
  - rewrite firstn_length in *. intros Hd. rewrite !orb_true_iff, !andb_true_iff in Hd.
    destruct Hd as [[Hd|[Hd _]]|[Hd _]].
    + apply R_dr0 in Hd. lia.
    + destruct mid; [simpl in Hlm; lia|discriminate].
    + apply Nat.ltb_lt in Hd. lia.
  - assert (Hn : isnil (a_q s) = isnil que) by (rewrite R_aq0; destruct que; reflexivity).
    rewrite R_fdr0, Hll, <- Hlm, <- Hk, Hn, firstn_length. f_equal; [f_equal|f_equal].
    + destruct mid; reflexivity.
    + destruct (Nat.ltb_spec (Nat.min n (length mid)) (Nat.min n (length (a_inf s) + length (a_q s))));
      destruct (Nat.ltb_spec (length mid) (Nat.min n (length (a_inf s) + length (a_q s)))); auto; lia.
  - rewrite !map_app, map_tag_touch. rewrite <- (map_app a_tag (firstn n amid)), firstn_skipn, <- !map_app, <- Hai. auto.
Qed.
Lemma rw_nil now s q pids inf nq ni :
  read_walk now s q [] [] pids inf nq ni = Some (q, [], [], inf, nq, ni).
Proof. destruct q; reflexivity. Qed.

Lemma rw_expired now s a t q' rs drops' pids i0 h0 d0 nq ni :
  aexpired now a = true -> a_tag a = t ->
  read_walk now s (a :: q') rs ((t, DExpired) :: drops') pids (i0, h0, d0) nq ni =
  read_walk now s q' rs drops' pids (i0, h0, d0 ++ [t]) (nq - 1)%Z ni.
Proof. intros H <-. simpl. rewrite H, N.eqb_refl. destruct rs; reflexivity. Qed.

Lemma rw_oversize now s a t q' rs drops' pids i0 h0 d0 nq ni :
  aexpired now a = false -> (a_limit s <? asize (a_v5 s) a) = true -> a_tag a = t ->
  read_walk now s (a :: q') rs ((t, DExceedsMax) :: drops') pids (i0, h0, d0) nq ni =
  read_walk now s q' rs drops' pids (i0, h0, d0 ++ [t]) (nq - 1)%Z ni.
Proof. intros H1 H2 <-. simpl. rewrite H1, H2, N.eqb_refl. destruct rs; reflexivity. Qed.

Lemma rw_qos0 now s a t q' rs' drops pids i0 h0 d0 nq ni :
  aexpired now a = false -> (a_limit s <? asize (a_v5 s) a) = false -> a_tag a = t -> aqos a = 0 ->
  read_walk now s (a :: q') (OPub t 0 0 :: rs') drops pids (i0, h0, d0) nq ni =
  read_walk now s q' rs' drops pids (i0, h0 ++ [t], d0) (nq - 1)%Z ni.
Proof. intros H1 H2 <- H3. simpl. rewrite H1, H2, H3, N.eqb_refl. reflexivity. Qed.

Definition ahand (now ifexp p : N) (a : aent) : aent :=
  {| a_tag := a_tag a; a_pid := p; a_rel := false; a_msg := a_msg a;
     a_exp := if ifexp =? 0 then a_exp a else Some (now + ifexp) |}.

Lemma rw_qos1 now s a t q' rs' drops p pids' i0 h0 d0 nq ni :
  aexpired now a = false -> (a_limit s <? asize (a_v5 s) a) = false -> a_tag a = t -> aqos a <> 0 ->
  read_walk now s (a :: q') (OPub t p (aqos a) :: rs') drops (p :: pids') (i0, h0, d0) nq ni =
  read_walk now s q' rs' drops pids' (i0 ++ [ahand now (a_ifexp s) p a], h0 ++ [t], d0) nq (ni + 1)%Z.
Proof.
  intros H1 H2 <- H3. apply N.eqb_neq in H3. simpl. rewrite H1, H2, H3, !N.eqb_refl. reflexivity.
Qed.

Lemma inf_rel_hand now ifexp p m v : p <> 0 -> e_body v = QPub m ->
  inf_rel (hand now ifexp p m v) (ahand now ifexp p (ent_of_elem v)).
Proof.
  intros Hp Hb. rewrite (ent_pub v m Hb). unfold inf_rel, hand, ahand, e_id, aqos.
  destruct (ifexp =? 0); simpl; auto 10.
Qed.

Lemma oelem_of_hand now ifexp p m v : oelem_of (hand now ifexp p m v) = OPub (e_tag v) p (m_qos m).
Proof. unfold hand, oelem_of. destruct (ifexp =? 0); reflexivity. Qed.

Lemma read_loop_no_panic now limit v5 ifexp : forall n pids l cur dq di evs rs,
  Forall (fun e => is_pub0 e = true) (skipn cur l) -> (n <= length pids)%nat ->
  read_loop now n pids l cur limit v5 ifexp dq di evs rs <> None.
Proof.
  induction n as [|k IH]; intros pids l cur dq di evs rs Hq Hn; simpl; [discriminate|].
  destruct (nth_error l cur) as [v|] eqn:Hv; [|discriminate].
  rewrite (skipn_nth_cons l cur v Hv) in Hq. inversion Hq as [|? ? Hp Hq']; subst.
  destruct (pub0_inv v Hp) as (m & -> & _).
  assert (Hrm : Forall (fun e => is_pub0 e = true) (skipn cur (remove_nth cur l))) by (rewrite skipn_remove_nth; exact Hq').
  destruct (expired now v); [apply IH; [exact Hrm|lia]|].
  destruct (limit <? msg_total_bytes v5 m); [apply IH; [exact Hrm|lia]|].
  destruct (m_qos m =? 0); [apply IH; [exact Hrm|lia]|].
  destruct pids as [|p pids']; [simpl in Hn; lia|].
  apply IH; [rewrite skipn_S_replace_nth; exact Hq'|simpl in Hn; lia].
Qed.

Definition drop_tag (dr : elem * dropreason) : N * dropreason := (e_tag (fst dr), snd dr).

(* the oracle's walk accepts what Read did with the queued elements pre *)
Lemma reads_walk now s pids pre inf drops rs :
  reads now (a_limit s) (a_v5 s) (a_ifexp s) pids pre inf drops rs ->
  Forall (fun e => is_pub0 e = true) pre -> Forall (fun p => p <> 0) pids ->
  exists ainf, Forall2 inf_rel inf ainf /\ subseq (map a_tag ainf) (map e_tag pre) /\
    forall q' i0 h0 d0 nq ni, exists h1 d1,
      read_walk now s (map ent_of_elem pre ++ q') (map oelem_of rs) (map drop_tag drops) pids (i0, h0, d0) nq ni
      = Some (q', [], [], (i0 ++ ainf, h1, d1),
              (nq + Z.of_nat (length inf) - Z.of_nat (length pre))%Z, (ni + Z.of_nat (length inf))%Z).
Proof.
  induction 1 as [pids|pids v pre inf drops rs Hx _ IH|pids v m pre inf drops rs Hx Hb Hlim _ IH
                 |pids v m pre inf drops rs Hx Hb Hlim Hq0 _ IH|p pids v m pre inf drops rs Hx Hb Hlim Hq0 _ IH];
    intros Hpre Hpids.
  2-5: inversion Hpre as [|? ? Hv Hpre']; subst.
  (* while no id is used up, the entries that went in flight are those of the rest of the walk *)
  2-4: destruct (IH Hpre' Hpids) as (ainf & Hf & Hs & Hw); exists ainf; split; [exact Hf|];
       (split; [constructor; exact Hs|]); intros q' i0 h0 d0 nq ni; cbn [map app length].
  - exists []. split; [constructor|]. split; [constructor|].
    intros q' i0 h0 d0 nq ni. exists h0, d0. simpl. rewrite rw_nil, app_nil_r, !Z.add_0_r, Z.sub_0_r. reflexivity.
  - rewrite (rw_expired now s (ent_of_elem v) (e_tag v)) by (rewrite ?ent_expired; auto using ent_tag).
    destruct (Hw q' i0 h0 (d0 ++ [e_tag v]) (nq - 1)%Z ni) as (h1 & d1 & ->).
    exists h1, d1. do 3 f_equal. lia.
  - rewrite (rw_oversize now s (ent_of_elem v) (e_tag v)) by (rewrite ?ent_expired, ?(ent_size _ v m Hb); auto using ent_tag).
    destruct (Hw q' i0 h0 (d0 ++ [e_tag v]) (nq - 1)%Z ni) as (h1 & d1 & ->).
    exists h1, d1. do 3 f_equal. lia.
  - assert (Hpid : m_pid m = 0) by (unfold is_pub0 in Hv; rewrite Hb in Hv; apply N.eqb_eq; exact Hv).
    apply N.eqb_eq in Hq0. unfold oelem_of at 1. rewrite Hb, Hpid, Hq0.
    rewrite (rw_qos0 now s (ent_of_elem v) (e_tag v))
      by (rewrite ?ent_expired, ?(ent_size _ v m Hb), ?ent_qos, ?(eqos_pub v m Hb); auto using ent_tag).
    destruct (Hw q' i0 (h0 ++ [e_tag v]) d0 (nq - 1)%Z ni) as (h1 & d1 & ->).
    exists h1, d1. do 3 f_equal. lia.
  - inversion Hpids as [|? ? Hp Hpids']; subst.
    destruct (IH Hpre' Hpids') as (ainf & Hf & Hs & Hw).
    exists (ahand now (a_ifexp s) p (ent_of_elem v) :: ainf).
    split; [constructor; [apply inf_rel_hand; assumption|exact Hf]|].
    split; [cbn [map ahand a_tag]; rewrite ent_tag; constructor; exact Hs|].
    intros q' i0 h0 d0 nq ni. cbn [map app length].
    apply N.eqb_neq in Hq0. rewrite oelem_of_hand, <- (eqos_pub v m Hb), <- ent_qos.
    rewrite (rw_qos1 now s (ent_of_elem v) (e_tag v))
      by (rewrite ?ent_expired, ?(ent_size _ v m Hb), ?ent_qos, ?(eqos_pub v m Hb); auto using ent_tag).
    destruct (Hw q' (i0 ++ [ahand now (a_ifexp s) p (ent_of_elem v)]) (h0 ++ [e_tag v]) d0 nq (ni + 1)%Z) as (h1 & d1 & ->).
    exists h1, d1. rewrite <- app_assoc. do 2 f_equal; [f_equal|]; lia.
Qed.

Lemma split_evs_eq drops dq di :
  split_evs (map oev_of (map ev_dropped drops ++ [EvQueue dq; EvInflight di])) = Some (map drop_tag drops, dq, di).
Proof.
  unfold split_evs.
  (* the local fixpoint of split_evs, generalised over its accumulator *)
  match goal with |- ?go _ [] = _ =>
    enough (H : forall acc, go (map oev_of (map ev_dropped drops ++ [EvQueue dq; EvInflight di])) acc
                            = Some (acc ++ map drop_tag drops, dq, di)) by apply (H [])
  end.
  induction drops as [|dr drops IH]; intros acc.
  - simpl. rewrite app_nil_r. reflexivity.
  - cbn [map app ev_dropped oev_of]. rewrite IH, <- app_assoc. reflexivity.
Qed.

Lemma forallb_nz pids : forallb (fun p => negb (p =? 0)) pids = true -> Forall (fun p => p <> 0) pids.
Proof.
  intros H. apply Forall_forall. intros p Hp. rewrite forallb_forall in H.
  apply N.eqb_neq, negb_true_iff, H, Hp.
Qed.

Lemma read_sim q seen s now pids : Rx q seen s -> wf_step q seen (ORead now pids) = true ->
  step_sim q seen s (ORead now pids).
Proof.
  intros (inf & que & H) Hwf. pose proof (R_len_inf _ _ _ _ _ H) as Hli. destruct H.
  simpl in Hwf. rewrite !andb_true_iff in Hwf. destruct Hwf as [[[Hdr Hnz] _] _].
  apply forallb_nz in Hnz.
  pose proof (R_dr0 Hdr) as Hrem.
  assert (Hcur : q_cur q = length inf) by lia.
  unfold step_sim. simpl. unfold q_read. rewrite Hdr. simpl.
  destruct (q_closed q) eqn:Hcl.
  { simpl. split; [discriminate|]. rewrite R_fdr0, R_fcl0, Hdr. simpl.
    eexists; split; [reflexivity|]. exists inf, que. constructor; auto; congruence. }
  destruct (q_cur q =? length (q_l q))%nat eqn:Hbl.
  { apply Nat.eqb_eq in Hbl. rewrite R_l0, app_length in Hbl.
    assert (que = []) by (destruct que; [reflexivity|simpl in Hbl; lia]). subst que.
    simpl. split; [discriminate|]. rewrite R_fdr0, R_fcl0, Hdr, R_aq0. simpl.
    eexists; split; [reflexivity|]. exists inf, []. constructor; auto; congruence. }
  apply Nat.eqb_neq in Hbl.
  assert (Hque : que <> []) by (intros ->; rewrite R_l0, app_nil_r in Hbl; lia).
  rewrite R_l0, Hcur, <- R_lim0, <- R_v6, <- R_ifexp0.
  set (n := Nat.min (length (inf ++ que)) (length pids)).
  destruct (read_loop now n pids (inf ++ que) (length inf) (a_limit s) (a_v5 s) (a_ifexp s) 0 0 [] [])
    as [[[[[[l' cur'] dq] di] evs] rs]|] eqn:Hrl.
  2:{ exfalso. revert Hrl. apply read_loop_no_panic; [rewrite skipn_app_len; exact R_que0|lia]. }
  apply read_loop_reads in Hrl as (inf2 & drops & rs2 & Hrd & -> & -> & _ & -> & -> & -> & ->).
  rewrite skipn_app_len, firstn_app_len in *.
  destruct (reads_walk now s pids _ _ _ _ Hrd) as (ainf2 & Hf2 & Hss & Hw);
    [apply Forall_firstn; exact R_que0|exact Hnz|].
  cbn [fst snd app]. split; [discriminate|].
  cbn [oout_of step_ok]. unfold read_ok.
  rewrite R_fdr0, R_fcl0, Hdr. cbn [negb orb].
  assert (Hm : forall X : option ast, match a_q s with [] => None | _ :: _ => X end = X).
  { intros X. rewrite R_aq0. destruct que; [congruence|reflexivity]. }
  rewrite Hm, split_evs_eq.
  destruct (Hw (map ent_of_elem (skipn n que)) (a_inf s) (a_handed s) (a_dropped s) 0%Z 0%Z) as (h1 & d1 & Hw').
  rewrite <- map_app, firstn_skipn, <- R_aq0 in Hw'. rewrite Hw', !Z.eqb_refl. cbn [andb].
  eexists; split; [reflexivity|].
  exists (inf ++ inf2), (skipn n que).
  pose proof (Forall2_length _ _ _ Hf2) as Hl2.
  pose proof (reads_length _ _ _ _ _ _ _ _ _ Hrd) as Hl3.
  assert (Hl4 : (length (firstn n que) + length (skipn n que) = length que)%nat) by (rewrite <- app_length, firstn_skipn; reflexivity).
  constructor; cbn [upd q_set q_l q_cur q_drained q_closed q_max q_limit q_v5 q_ifexp
                    a_inf a_rem a_q a_cq a_ci a_limit a_v5 a_drained a_closed a_max a_ifexp]; auto; try congruence.
  - rewrite app_assoc. reflexivity.
  - apply Forall2_app; auto.
  - apply Forall_skipn. exact R_que0.
  - rewrite !app_length. lia.
  - rewrite !app_length. lia.
  - eapply tags_ok_subseq; [exact R_tags0|].
    rewrite R_aq0, !map_app, !map_ent_tag, <- app_assoc.
    apply subseq_app; [apply subseq_refl|]. rewrite <- (firstn_skipn n que) at 2. rewrite map_app.
    apply subseq_app; [exact Hss|apply subseq_refl].
  - rewrite R_cq0, R_aq0, !app_length, !map_length. lia.
  - rewrite R_ci0, !app_length. lia.
  - rewrite R_aq0 in R_len0. rewrite !app_length, !map_length in *. lia.
Qed.

Ltac splits := repeat match goal with |- _ /\ _ => split end.

Lemma fei_spec now que : Forall (fun e => is_pub0 e = true) que ->
  forall inf, Forall (fun e => e_id e <> 0) inf -> forall i,
  match first_expired_inflight now (inf ++ que) i with
  | None => existsb (expired now) inf = false
  | Some j => exists k d, j = (i + k)%nat /\ nth_error inf k = Some d /\ expired now d = true /\
                          existsb (expired now) (firstn k inf) = false
  end.
Proof.
  intros Hq inf H. induction H as [|e inf He H IH]; intros i; simpl.
  - destruct que as [|e r]; simpl; auto. inversion Hq; subst.
    rewrite (is_pub0_id e) by assumption. reflexivity.
  - apply N.eqb_neq in He. rewrite He. destruct (expired now e) eqn:Hx.
    + exists 0%nat, e. simpl. splits; auto; lia.
    + specialize (IH (S i)). destruct (first_expired_inflight now (inf ++ que) (S i)) as [j|]; [|exact IH].
      destruct IH as (k & d & -> & Hn & Hxd & Hpre). exists (S k), d. simpl. rewrite Hx. splits; auto; lia.
Qed.

Lemma add_scan_skip now : forall l1 l2 i q0, Forall (fun e => e_id e <> 0) l1 ->
  add_scan now (l1 ++ l2) i q0 = add_scan now l2 (i + length l1)%nat q0.
Proof.
  induction l1 as [|e r IH]; intros l2 i q0 H; simpl.
  - rewrite Nat.add_0_r. reflexivity.
  - inversion H; subst. unfold e_id in H2. destruct (e_body e) as [m|p].
    + apply N.eqb_neq in H2. rewrite H2. simpl. rewrite IH by assumption. f_equal. lia.
    + rewrite IH by assumption. f_equal. lia.
Qed.

Lemma add_scan_spec now : forall que i q0, Forall (fun e => is_pub0 e = true) que ->
  match add_scan now que i q0 with
  | SVictim j DExpired => exists k d, j = (i + k)%nat /\ nth_error que k = Some d /\ expired now d = true
  | SVictim j DFull => existsb (expired now) que = false /\
      match q0 with
      | Some j0 => j = j0
      | None => exists k d, j = (i + k)%nat /\ nth_error que k = Some d /\ eqos d = 0
      end
  | SVictim _ _ => False
  | SNone => existsb (expired now) que = false /\ q0 = None /\ existsb (fun e => eqos e =? 0) que = false
  end.
Proof.
  induction que as [|e r IH]; intros i q0 H; simpl.
  - destruct q0; auto.
  - inversion H as [|? ? He Hr]; subst. destruct (pub0_inv e He) as (m & Hb & Hp).
    rewrite Hb, (eqos_pub e m Hb). apply N.eqb_eq in Hp. rewrite Hp. simpl.
    destruct (expired now e) eqn:Hx.
    + exists 0%nat, e. simpl. splits; auto; lia.
    + destruct (m_qos m =? 0) eqn:Hq0; simpl.
      * destruct q0 as [j0|].
        -- specialize (IH (S i) (Some j0) Hr). destruct (add_scan now r (S i) (Some j0)) as [|j [| | |]]; auto.
           ++ destruct IH as (_ & Hc & _). discriminate.
           ++ destruct IH as (k & d & Hj & Hn & Hxd). exists (S k), d. simpl. splits; auto; lia.
        -- specialize (IH (S i) (Some i) Hr). destruct (add_scan now r (S i) (Some i)) as [|j [| | |]]; auto.
           ++ destruct IH as (_ & Hc & _). discriminate.
           ++ destruct IH as [Hex Hj]. split; auto. exists 0%nat, e. simpl. apply N.eqb_eq in Hq0.
              rewrite (eqos_pub e m Hb). splits; auto; lia.
           ++ destruct IH as (k & d & Hj & Hn & Hxd). exists (S k), d. simpl. splits; auto; lia.
      * specialize (IH (S i) q0 Hr). destruct (add_scan now r (S i) q0) as [|j [| | |]]; auto.
        -- destruct IH as [Hex Hj]. split; auto. destruct q0 as [j0|]; auto.
           destruct Hj as (k & d & Hj & Hn & Hqd). exists (S k), d. simpl. splits; auto; lia.
        -- destruct IH as (k & d & Hj & Hn & Hxd). exists (S k), d. simpl. splits; auto; lia.
Qed.

Lemma first_queued_skip : forall l1 l2 i, Forall (fun e => e_id e <> 0) l1 ->
  first_queued (l1 ++ l2) i = first_queued l2 (i + length l1)%nat.
Proof.
  induction l1 as [|e r IH]; intros l2 i H; simpl.
  - rewrite Nat.add_0_r. reflexivity.
  - inversion H; subst. apply N.eqb_neq in H2. rewrite H2, IH by assumption. f_equal. lia.
Qed.

(* Which element Add sacrifices when the list inf ++ que is full: the drop ladder, read off the model.
   An expired in-flight entry first (the oldest such); then an expired queued message; then a queued
   QoS 0 message; then the newcomer if it is QoS 0 or nothing is queued; then the oldest queued message. *)
Inductive add_case (now : N) (e : elem) (inf que : list elem) : victim -> Prop :=
| ac_inflight k d : nth_error inf k = Some d -> expired now d = true ->
    existsb (expired now) (firstn k inf) = false -> add_case now e inf que (VOld k DExpiredInflight)
| ac_expired k d : existsb (expired now) inf = false ->
    nth_error que k = Some d -> expired now d = true -> add_case now e inf que (VOld (length inf + k) DExpired)
| ac_qos0 k d : existsb (expired now) inf = false -> existsb (expired now) que = false ->
    nth_error que k = Some d -> eqos d = 0 -> add_case now e inf que (VOld (length inf + k) DFull)
| ac_new : existsb (expired now) inf = false -> existsb (expired now) que = false ->
    existsb (fun d => eqos d =? 0) que = false -> que = [] \/ eqos e = 0 -> add_case now e inf que (VNew DFull)
| ac_oldest d que' : existsb (expired now) inf = false -> existsb (expired now) que = false ->
    existsb (fun d => eqos d =? 0) que = false -> que = d :: que' -> eqos e <> 0 ->
    add_case now e inf que (VOld (length inf) DFull).

Lemma add_victim_case now e q inf que :
  q_l q = inf ++ que -> Forall (fun e => e_id e <> 0) inf -> Forall (fun e => is_pub0 e = true) que ->
  (q_cur q <= length inf)%nat -> is_pub0 e = true ->
  add_case now e inf que (add_victim now e q).
Proof.
  intros Hl Hinf Hque Hcur Hpub. unfold add_victim. rewrite Hl.
  pose proof (fei_spec now que Hque inf Hinf 0%nat) as Hfei.
  destruct (first_expired_inflight now (inf ++ que) 0) as [j|].
  { destruct Hfei as (k & d & -> & Hk & Hx & Hpre). eapply ac_inflight; eauto. }
  destruct (q_drained q && (q_cur q =? length (inf ++ que))%nat) eqn:Hdc.
  { apply andb_true_iff in Hdc. destruct Hdc as [_ Hc]. apply Nat.eqb_eq in Hc. rewrite app_length in Hc.
    assert (que = []) by (destruct que; [reflexivity|simpl in Hc; lia]). subst que.
    apply ac_new; auto. }
  rewrite skipn_app. replace (q_cur q - length inf)%nat with 0%nat by lia. simpl skipn.
  rewrite add_scan_skip, first_queued_skip by (apply Forall_skipn; exact Hinf).
  replace (q_cur q + length (skipn (q_cur q) inf))%nat with (length inf) by (rewrite skipn_length; lia).
  pose proof (add_scan_spec now que (length inf) None Hque) as Hsc.
  destruct (add_scan now que (length inf) None) as [|j [| | |]]; try contradiction.
  - destruct Hsc as (Hnx & _ & Hnq). destruct (pub0_inv e Hpub) as (m & Hb & _).
    rewrite Hb, <- (eqos_pub e m Hb). destruct (eqos e =? 0) eqn:Hq0.
    { apply N.eqb_eq in Hq0. apply ac_new; auto. }
    apply N.eqb_neq in Hq0. destruct que as [|d que']; [apply ac_new; auto|].
    inversion Hque; subst. simpl. rewrite (is_pub0_id d) by assumption. simpl.
    eapply ac_oldest; eauto.
  - destruct Hsc as (Hnx & k & d & -> & Hk & Hqd). eapply ac_qos0; eauto.
  - destruct Hsc as (k & d & -> & Hk & Hxd). eapply ac_expired; eauto.
Qed.

(* how the oracle finds the expired in-flight victim: by its tag, or, for a PUBREL entry (reported with
   tag 0), as the first expired PUBREL entry *)
Definition vidx (now t : N) : list aent -> nat -> option nat :=
  fix ix (l : list aent) (i : nat) : option nat :=
    match l with
    | [] => None
    | a :: r => if (if t =? 0 then a_rel a && aexpired now a else a_tag a =? t) then Some i else ix r (S i)
    end.

Lemma vidx_tag now t : t <> 0 -> forall l k a i, NoDup (map a_tag l) -> nth_error l k = Some a -> a_tag a = t ->
  vidx now t l i = Some (i + k)%nat.
Proof.
  intros Ht. apply N.eqb_neq in Ht. induction l as [|x r IH]; intros [|k] a i Hn Hk Hta; simpl in *; try discriminate; rewrite Ht.
  - inversion Hk; subst. rewrite N.eqb_refl. f_equal. lia.
  - inversion Hn; subst. destruct (a_tag x =? a_tag a) eqn:Hx.
    + apply N.eqb_eq in Hx. exfalso. apply H1. rewrite Hx. apply in_map. eapply nth_error_In; eauto.
    + rewrite (IH k a (S i)); auto. f_equal. lia.
Qed.

Lemma vidx_rel now : forall l k a i, existsb (aexpired now) (firstn k l) = false -> nth_error l k = Some a ->
  a_rel a = true -> aexpired now a = true -> vidx now 0 l i = Some (i + k)%nat.
Proof.
  induction l as [|x r IH]; intros [|k] a i Hf Hk Hr Hx; simpl in *; try discriminate.
  - inversion Hk; subst. rewrite Hr, Hx. simpl. f_equal. lia.
  - apply orb_false_iff in Hf. destruct Hf as [Hf1 Hf2]. rewrite Hf1, andb_false_r.
    rewrite (IH k a (S i)); auto. f_equal. lia.
Qed.

Lemma find_tag_nth : forall (l : list aent) k a, NoDup (map a_tag l) -> nth_error l k = Some a ->
  find_tag (a_tag a) l = Some a /\ remove_tag (a_tag a) l = remove_nth k l.
Proof.
  induction l as [|x r IH]; intros [|k] a Hn Hk; simpl in *; try discriminate.
  - inversion Hk; subst. rewrite N.eqb_refl. auto.
  - inversion Hn; subst. destruct (a_tag x =? a_tag a) eqn:Hx.
    + apply N.eqb_eq in Hx. exfalso. apply H1. rewrite Hx. apply in_map. eapply nth_error_In; eauto.
    + destruct (IH k a H2 Hk) as [-> ->]. auto.
Qed.

Lemma tags_split seen (ainf aq : list aent) : tags_ok seen (map a_tag (ainf ++ aq)) ->
  NoDup (map a_tag ainf) /\ NoDup (map a_tag aq) /\ (forall a, In a ainf -> a_tag a <> 0).
Proof.
  intros [Hn Hi]. rewrite map_app in *. splits.
  - eapply subseq_NoDup; [apply subseq_app_l|exact Hn].
  - eapply subseq_NoDup; [apply subseq_app_r|exact Hn].
  - intros a Ha. apply Hi. apply in_or_app. left. apply in_map. assumption.
Qed.

(* the k-th queued message, in the model's list and for the oracle, which finds it by its tag *)
Lemma R_queued_nth q seen s inf que k d : R q seen s inf que -> nth_error que k = Some d ->
  nth_error (q_l q) (length inf + k) = Some d /\
  find_tag (e_tag d) (a_q s) = Some (ent_of_elem d) /\ remove_tag (e_tag d) (a_q s) = remove_nth k (a_q s).
Proof.
  intros H Hk. destruct H. split.
  - rewrite R_l0, nth_error_app2 by lia. rewrite <- Hk. f_equal. lia.
  - rewrite <- (ent_tag d). apply find_tag_nth.
    + apply (tags_split _ _ _ R_tags0).
    + rewrite R_aq0. apply map_nth_error. exact Hk.
Qed.

Lemma add_sim q seen s now e : Rx q seen s -> wf_step q seen (OAdd now e) = true ->
  step_sim q seen s (OAdd now e).
Proof.
  intros (inf & que & H) Hwf. pose proof (R_len_inf _ _ _ _ _ H) as Hli. pose proof (R_len_que _ _ _ _ _ H) as Hlq.
  pose proof H as HR. destruct H.
  simpl in Hwf. rewrite !andb_true_iff, !negb_true_iff, N.eqb_neq in Hwf. destruct Hwf as [[Hpub Htag] Hfresh].
  assert (Hns : ~ In (e_tag e) seen) by (rewrite <- memN_In; congruence).
  assert (Hll : length (q_l q) = (length (a_inf s) + length (a_q s))%nat) by (rewrite R_l0, app_length; lia).
  unfold step_sim. simpl. unfold q_add, add_ok.
  destruct (q_max q <=? length (q_l q))%nat eqn:Hfull.
  2:{ (* there is room *)
    apply Nat.leb_gt in Hfull. simpl. split; [discriminate|].
    replace (length (a_inf s) + length (a_q s) <? a_max s)%nat with true by (symmetry; apply Nat.ltb_lt; lia).
    eexists; split; [reflexivity|]. exists inf, (que ++ [e]). apply R_append; auto. lia. }
  apply Nat.leb_le in Hfull.
  replace (length (a_inf s) + length (a_q s) <? a_max s)%nat with false by (symmetry; apply Nat.ltb_ge; lia).
  (* the oracle's tests, read on the model's lists *)
  pose proof (fun l al => existsb_Forall2 inf_rel (expired now) (aexpired now) l al (inf_rel_expired now)) as Hxi.
  rewrite (Hxi _ _ R_inf0).
  replace (existsb (aexpired now) (a_q s)) with (existsb (expired now) que)
    by (rewrite R_aq0, existsb_map; apply existsb_ext; intros x; rewrite ent_expired; reflexivity).
  replace (existsb (fun a => aqos a =? 0) (a_q s)) with (existsb (fun e => eqos e =? 0) que)
    by (rewrite R_aq0, existsb_map; apply existsb_ext; intros x; rewrite ent_qos; reflexivity).
  destruct (add_victim_case now e q inf que R_l0 (inf_ids _ _ R_inf0) R_que0 ltac:(lia) Hpub)
    as [k d Hk Hx Hpre|k d Hni Hk Hx|k d Hni Hnx Hk Hq0|Hni Hnx Hn0 Hc|d que' Hni Hnx Hn0 Hque Hc].
  - (* an expired in-flight entry *)
    pose proof (nth_error_lt _ _ _ Hk) as Hkl.
    rewrite R_l0, nth_error_app1, Hk by exact Hkl. simpl. split; [discriminate|].
    destruct (Forall2_nth _ _ _ R_inf0 k d Hk) as (a & Hna & Hda).
    assert (Hxa : aexpired now a = true) by (rewrite (inf_rel_expired now d a Hda); exact Hx).
    assert (Hvi : vidx now (e_tag d) (a_inf s) 0 = Some k).
    { destruct (tags_split _ _ _ R_tags0) as (Hnd_inf & _ & Hnz_inf).
      pose proof Hda as (_ & _ & _ & Hbd). destruct (e_body d) as [md|pd].
      - destruct Hbd as (_ & _ & <-). apply (vidx_tag now (a_tag a)) with (a := a) (i := 0%nat); auto.
        apply Hnz_inf. eapply nth_error_In; eauto.
      - destruct Hbd as (Hrel & ->). apply (vidx_rel now) with (a := a) (i := 0%nat); auto.
        rewrite (Hxi _ _ (Forall2_firstn _ _ _ R_inf0 k)). exact Hpre. }
    rewrite (existsb_nth_error _ _ _ _ Hk Hx). unfold vidx in Hvi. rewrite Hvi, Hna, Hxa.
    eexists; split; [reflexivity|]. exists (remove_nth k inf), (que ++ [e]).
    rewrite <- R_l0. apply R_drop_inflight; auto.
  - (* an expired queued message *)
    destruct (R_queued_nth _ _ _ _ _ k d HR Hk) as (Hn & Hf & Hr).
    rewrite Hn. simpl. split; [discriminate|].
    rewrite Hni, (existsb_nth_error _ _ _ _ Hk Hx), Hf, ent_expired, Hx, Hr.
    eexists; split; [reflexivity|]. exists inf, (remove_nth k que ++ [e]).
    apply R_drop_queued; auto. eapply nth_error_lt; eauto.
  - (* a queued QoS 0 message *)
    destruct (R_queued_nth _ _ _ _ _ k d HR Hk) as (Hn & Hf & Hr).
    rewrite Hn. simpl. split; [discriminate|].
    rewrite Hni, Hnx, (existsb_nth_error (fun e => eqos e =? 0) _ _ _ Hk), Hf, ent_qos, Hq0, Hr by (rewrite Hq0; reflexivity).
    eexists; split; [reflexivity|]. exists inf, (remove_nth k que ++ [e]).
    apply R_drop_queued; auto. eapply nth_error_lt; eauto.
  - (* the newcomer: QoS 0, or nothing queued *)
    simpl. split; [discriminate|]. rewrite Hni, Hnx, Hn0, ent_tag, ent_qos, N.eqb_refl.
    destruct (a_q s) as [|o rest] eqn:Haq.
    + eexists; split; [reflexivity|]. exists inf, que. rewrite <- Haq. apply R_drop_new. exact HR.
    + destruct Hc as [->|Hc]; [discriminate|]. rewrite Hc.
      eexists; split; [reflexivity|]. exists inf, que. rewrite <- Haq. apply R_drop_new. exact HR.
  - (* the oldest queued message *)
    destruct (R_queued_nth _ _ _ _ _ 0%nat d HR) as (Hn & _ & _); [rewrite Hque; reflexivity|]. rewrite Nat.add_0_r in Hn.
    rewrite Hn, Hni, Hnx, Hn0. simpl. split; [discriminate|]. apply N.eqb_neq in Hc.
    rewrite R_aq0, Hque. simpl. rewrite ent_qos, Hc, ent_tag, N.eqb_refl.
    eexists; split; [reflexivity|]. exists inf, (que' ++ [e]).
    pose proof (R_drop_queued _ _ _ _ _ e 0%nat (a_added s ++ [a_tag (ent_of_elem e)]) (a_handed s)
                  (a_dropped s ++ [e_tag d]) HR Hpub Htag Hns) as HR'.
    rewrite R_aq0, Hque, Nat.add_0_r in HR'. apply HR'. simpl. lia.
Qed.

Lemma step_sim_all q seen s o : Rx q seen s -> wf_step q seen o = true -> step_sim q seen s o.
Proof.
  intros HR Hwf. destruct o as [now e|now pids|now n|pid|e|c v lim|].
  - apply add_sim; assumption.
  - apply read_sim; assumption.
  - apply readinflight_sim; assumption.
  - apply remove_sim; assumption.
  - apply replace_sim; assumption.
  - apply init_sim; assumption.
  - apply close_sim; assumption.
Qed.

Fixpoint seen_run (q : queue) (seen : list N) (ops : list qop) : list N :=
  match ops with
  | [] => seen
  | o :: r => let '(q', out) := q_step q o in
              match out with RPanic => seen_step seen o | _ => seen_run q' (seen_step seen o) r end
  end.

Lemma run_sim : forall ops q seen s, Rx q seen s -> wf_run q seen ops = true ->
  trace_ok s ops (map oout_of (snd (q_run q ops))) = true /\
  ~ In RPanic (snd (q_run q ops)) /\
  exists s', Rx (fst (q_run q ops)) (seen_run q seen ops) s'.
Proof.
  induction ops as [|o r IH]; intros q seen s HR Hwf.
  - simpl. splits; auto. exists s. assumption.
  - simpl in Hwf. apply andb_true_iff in Hwf. destruct Hwf as [Hwf1 Hwf2].
    destruct (step_sim_all q seen s o HR Hwf1) as (Hnp & s' & Hok & HR').
    simpl. destruct (q_step q o) as [q' out] eqn:Hs. simpl in Hnp, Hok, HR'.
    pose proof (R_inv_ok _ _ _ HR') as Hinv.
    assert (Hrest : wf_run q' (seen_step seen o) r = true) by (destruct out; auto; congruence).
    destruct (IH q' (seen_step seen o) s' HR' Hrest) as (Ht & Hn & s'' & HR'').
    destruct (q_run q' r) as [q'' outs] eqn:Hr. simpl in Ht, Hn, HR''.
    destruct out; try congruence; simpl; simpl in Hok; rewrite Hok, Hinv; simpl;
      (splits; [assumption| intros [Hc|Hc]; [discriminate|contradiction] | exists s''; assumption]).
Qed.

Lemma R_init max ifexp : Rx (q_new max ifexp) [] (a_new max ifexp).
Proof.
  exists [], []. constructor; simpl; auto; try lia. split; [constructor|intros t []].
Qed.

(* no panic for well-formed callers *)
Lemma q_no_panic max ifexp ops : (1 <= max)%nat ->
  wf_run (q_new max ifexp) [] ops = true -> ~ In RPanic (snd (q_run (q_new max ifexp) ops)).
Proof.
  intros _ Hwf. destruct (run_sim ops _ _ _ (R_init max ifexp) Hwf) as (_ & Hn & _). assumption.
Qed.

(* refinement of the abstract queue of the statement *)
Theorem q_refines_abstract max ifexp ops : (1 <= max)%nat ->
  wf_run (q_new max ifexp) [] ops = true ->
  c10_ok max ifexp ops (map oout_of (model_outs max ifexp ops)) = true.
Proof.
  intros _ Hwf. unfold c10_ok, model_outs.
  destruct (run_sim ops _ _ _ (R_init max ifexp) Hwf) as (Ht & _ & _). assumption.
Qed.

(* the simulation step in the form: the abstract queue accepts the model's output, its invariant
   holds afterwards, and the relation is re-established *)
Corollary q_step_refines q seen s o : Rx q seen s -> wf_step q seen o = true ->
  snd (q_step q o) <> RPanic /\
  exists s', step_ok s o (oout_of (snd (q_step q o))) = Some s' /\ inv_ok s' = true /\
             Rx (fst (q_step q o)) (seen_step seen o) s'.
Proof.
  intros HR Hwf. destruct (step_sim_all q seen s o HR Hwf) as (Hnp & s' & Hok & HR').
  split; auto. exists s'. splits; auto. eapply R_inv_ok; eauto.
Qed.

(* the shape invariant of the model, stated on the model alone *)

Definition is_pub (e : elem) : bool := match e_body e with QPub _ => true | QRel _ => false end.
Definition pub_tags (l : list elem) : list N := map e_tag (filter is_pub l).

(* l = in-flight ++ queued; in-flight entries carry an id, queued ones are PUBLISH without id;
   the cursor is inside the in-flight part, at its end once drained; tags of PUBLISH entries are
   distinct, non-zero and were given to Add; PUBREL entries carry tag 0 *)
Definition shape (q : queue) (seen : list N) : Prop :=
  exists inf que,
    q_l q = inf ++ que /\
    Forall (fun e => e_id e <> 0) inf /\
    Forall (fun e => is_pub0 e = true) que /\
    (q_cur q <= length inf)%nat /\
    (q_drained q = true -> q_cur q = length inf) /\
    NoDup (pub_tags (q_l q)) /\
    (forall t, In t (pub_tags (q_l q)) -> t <> 0 /\ In t seen) /\
    Forall (fun e => is_pub e = false -> e_tag e = 0) (q_l q).

Lemma pub_tags_inf inf ainf : Forall2 inf_rel inf ainf -> subseq (pub_tags inf) (map a_tag ainf).
Proof.
  intros H. induction H as [|e a l al Hea H IH]; simpl; [constructor|].
  unfold pub_tags in *. simpl. destruct Hea as (_ & _ & _ & Hb). unfold is_pub at 1.
  destruct (e_body e) as [m|p]; simpl.
  - destruct Hb as (_ & _ & <-). constructor. assumption.
  - constructor. assumption.
Qed.

Lemma pub_tags_que que : Forall (fun e => is_pub0 e = true) que -> pub_tags que = map e_tag que.
Proof.
  intros H. induction H as [|e l He H IH]; simpl; auto. unfold pub_tags in *. simpl.
  destruct (pub0_inv e He) as (m & Hb & _). unfold is_pub at 1. rewrite Hb. simpl. congruence.
Qed.

Lemma Rx_shape q seen s : Rx q seen s -> shape q seen.
Proof.
  intros (inf & que & H). pose proof (R_len_inf _ _ _ _ _ H) as Hli. destruct H.
  assert (Hss : subseq (pub_tags (q_l q)) (map a_tag (a_inf s ++ a_q s))).
  { rewrite R_l0, R_aq0, map_app, map_ent_tag by assumption. unfold pub_tags.
    rewrite filter_app, map_app. apply subseq_app; [apply pub_tags_inf; assumption|].
    fold (pub_tags que). rewrite pub_tags_que by assumption. apply subseq_refl. }
  destruct (tags_ok_subseq _ _ _ R_tags0 Hss) as [Hnd Hin].
  exists inf, que. splits; auto.
  - eapply inf_ids; eauto.
  - lia.
  - intros Hd. apply R_dr0 in Hd. lia.
  - rewrite R_l0. apply Forall_app. split.
    + clear - R_inf0. induction R_inf0 as [|e a l al Hea H IH]; constructor; auto.
      destruct Hea as (_ & _ & _ & Hb). unfold is_pub. destruct (e_body e); [discriminate|tauto].
    + eapply Forall_impl; [|exact R_que0]. intros e He Hp.
      destruct (pub0_inv e He) as (m & Hb & _). unfold is_pub in Hp. rewrite Hb in Hp. discriminate.
Qed.

Theorem q_shape max ifexp ops : wf_run (q_new max ifexp) [] ops = true ->
  shape (fst (q_run (q_new max ifexp) ops)) (seen_run (q_new max ifexp) [] ops).
Proof.
  intros Hwf. destruct (run_sim ops _ _ _ (R_init max ifexp) Hwf) as (_ & _ & s' & HR).
  eapply Rx_shape; eauto.
Qed.

Definition xm (qos : N) : msg :=
  {| m_dup := false; m_qos := qos; m_retained := false; m_topic := [116]; m_payload := [49]; m_pid := 0;
     m_ctype := []; m_corr := []; m_expiry := 0; m_pfmt := 0; m_resp := []; m_subids := []; m_uprops := [] |}.
Definition xpub (tag qos : N) (exp : option N) : elem :=
  {| e_tag := tag; e_at := 0; e_expiry := exp; e_body := QPub (xm qos) |}.
Definition xrel (p : N) : elem := {| e_tag := 0; e_at := 0; e_expiry := None; e_body := QRel p |}.
Definition xouts max ifexp ops := map oout_of (model_outs max ifexp ops).

(* non-vacuity: add, full-queue drop, read, replace, remove, init(false), partial replays *)
Definition ex_hist : list qop :=
  [OInit true false 1000; OReadInflight 0 10;
   OAdd 0 (xpub 1 1 None); OAdd 0 (xpub 2 1 None); OAdd 0 (xpub 3 0 None);
   OAdd 0 (xpub 4 1 None);                       (* full: the queued QoS 0 message 3 is dropped *)
   ORead 0 [5; 6; 7];
   OReplace (xrel 5); ORemove 6;
   OAdd 1 (xpub 8 1 None);
   OInit false false 1000;
   OReadInflight 100 1;
   OAdd 105 (xpub 9 1 None);                     (* full: expired in-flight 4, not yet replayed, is dropped *)
   OReadInflight 106 5; OReadInflight 106 5;
   ORead 107 [6; 9]; OClose].

Example ex_hist_wf : wf_run (q_new 3 10) [] ex_hist = true.
Proof. vm_compute. reflexivity. Qed.

Example ex_hist_outs : xouts 3 10 ex_hist =
  [XUnit; XReadInflight []; XAdd [OvQueue 1]; XAdd [OvQueue 1]; XAdd [OvQueue 1];
   XAdd [OvDropped 3 DFull];
   XRead [OPub 1 5 1; OPub 2 6 1; OPub 4 7 1] [OvQueue 0; OvInflight 3];
   XReplace true; XRemove [OvQueue (-1); OvInflight (-1)];
   XAdd [OvQueue 1];
   XUnit;
   XReadInflight [ORel 5];
   XAdd [OvInflight (-1); OvDropped 4 DExpiredInflight];
   XReadInflight []; XReadInflight [];
   XRead [OPub 8 6 1; OPub 9 9 1] [OvQueue 0; OvInflight 2]; XUnit].
Proof. vm_compute. reflexivity. Qed.

Example ex_hist_ok : c10_ok 3 10 ex_hist (xouts 3 10 ex_hist) = true.
Proof. apply q_refines_abstract; [lia|apply ex_hist_wf]. Qed.

(* regression: an oracle whose add_ok caps the replay count (rem' := min (a_rem s) (length inf'))
   REJECTS this history although the model (and the Go code) behave as the statement
   says: the expired in-flight entry 2, not yet replayed, is sacrificed while the replay is in
   progress (cursor = 1), and the replay continues with entry 3 *)
Definition regress_hist : list qop :=
  [OInit true false 1000; OReadInflight 0 10;
   OAdd 0 (xpub 1 1 None); OAdd 0 (xpub 2 1 None); OAdd 0 (xpub 3 1 None);
   ORead 0 [5; 6; 7]; OInit false false 1000; OReadInflight 100 1;
   OAdd 105 (xpub 4 1 None); OReadInflight 106 5].

Example regress_wf : wf_run (q_new 3 10) [] regress_hist = true.
Proof. vm_compute. reflexivity. Qed.

Example regress_outs : xouts 3 10 regress_hist =
  [XUnit; XReadInflight []; XAdd [OvQueue 1]; XAdd [OvQueue 1]; XAdd [OvQueue 1];
   XRead [OPub 1 5 1; OPub 2 6 1; OPub 3 7 1] [OvQueue 0; OvInflight 3];
   XUnit; XReadInflight [OPub 1 5 1];
   XAdd [OvInflight (-1); OvDropped 2 DExpiredInflight];
   XReadInflight [OPub 3 7 1]].
Proof. vm_compute. reflexivity. Qed.

Example regress_ok : c10_ok 3 10 regress_hist (xouts 3 10 regress_hist) = true.
Proof. vm_compute. reflexivity. Qed.

(* the rungs of the drop ladder, max = 2 *)
Definition ladder_pre : list qop := [OInit true false 1000; OReadInflight 0 10].

(* expired queued message first, even behind a QoS 0 one *)
Example ladder_expired_queued :
  xouts 2 0 (ladder_pre ++ [OAdd 0 (xpub 1 0 None); OAdd 0 (xpub 2 1 (Some 50)); OAdd 100 (xpub 3 1 None)]) =
  [XUnit; XReadInflight []; XAdd [OvQueue 1]; XAdd [OvQueue 1]; XAdd [OvDropped 2 DExpired]].
Proof. vm_compute. reflexivity. Qed.

(* then a queued QoS 0 message, even if it is not the oldest *)
Example ladder_queued_qos0 :
  xouts 2 0 (ladder_pre ++ [OAdd 0 (xpub 1 1 None); OAdd 0 (xpub 2 0 None); OAdd 0 (xpub 3 1 None)]) =
  [XUnit; XReadInflight []; XAdd [OvQueue 1]; XAdd [OvQueue 1]; XAdd [OvDropped 2 DFull]].
Proof. vm_compute. reflexivity. Qed.

(* then the oldest queued message *)
Example ladder_oldest :
  xouts 2 0 (ladder_pre ++ [OAdd 0 (xpub 1 1 None); OAdd 0 (xpub 2 1 None); OAdd 0 (xpub 3 1 None)]) =
  [XUnit; XReadInflight []; XAdd [OvQueue 1]; XAdd [OvQueue 1]; XAdd [OvDropped 1 DFull]].
Proof. vm_compute. reflexivity. Qed.

(* a QoS 0 newcomer is dropped itself *)
Example ladder_newcomer_qos0 :
  xouts 2 0 (ladder_pre ++ [OAdd 0 (xpub 1 1 None); OAdd 0 (xpub 2 1 None); OAdd 0 (xpub 3 0 None)]) =
  [XUnit; XReadInflight []; XAdd [OvQueue 1]; XAdd [OvQueue 1]; XAdd [OvDropped 3 DFull]].
Proof. vm_compute. reflexivity. Qed.

(* nothing queued (everything in flight): the newcomer is dropped; an expired in-flight PUBREL
   is sacrificed first and reported with tag 0 *)
Example ladder_nothing_queued :
  xouts 2 10 (ladder_pre ++ [OAdd 0 (xpub 1 1 None); OAdd 0 (xpub 2 1 None); ORead 0 [5; 6];
                            OAdd 1 (xpub 3 1 None); OReplace (xrel 5); OAdd 100 (xpub 4 1 None);
                            OReplace {| e_tag := 0; e_at := 0; e_expiry := Some 150; e_body := QRel 5 |};
                            OAdd 200 (xpub 5 1 None)]) =
  [XUnit; XReadInflight []; XAdd [OvQueue 1]; XAdd [OvQueue 1];
   XRead [OPub 1 5 1; OPub 2 6 1] [OvQueue 0; OvInflight 2];
   XAdd [OvDropped 3 DFull]; XReplace true;
   XAdd [OvInflight (-1); OvDropped 2 DExpiredInflight];
   XReplace true;
   XAdd [OvInflight (-1); OvDropped 0 DExpiredInflight]].
Proof. vm_compute. reflexivity. Qed.
