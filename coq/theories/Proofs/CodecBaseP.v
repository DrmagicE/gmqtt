(* Lemmas about Model/CodecBase.v: slices, variable byte integers, fixed-width integers,
   strings, and the absence of panics / fuel exhaustion in the byte-level readers. *)
From Coq Require Import List NArith ZArith Bool Lia ZifyN ZifyNat ZifyBool.
Import ListNotations.
From GM Require Import Base.Topic Base.Msg Model.CodecBase.
Open Scope N_scope.

Lemma len_nil : len (@nil N) = 0. Proof. reflexivity. Qed.
Lemma len_cons : forall (x : N) l, len (x :: l) = 1 + len l.
Proof. intros. unfold len. cbn [length]. lia. Qed.
Lemma len_app : forall (a b : list N), len (a ++ b) = len a + len b.
Proof. intros. unfold len. rewrite app_length. lia. Qed.
Lemma len_length : forall (l : list N), N.to_nat (len l) = length l.
Proof. intros. unfold len. lia. Qed.

Lemma takeN_firstn : forall A (l : list A) n, takeN n l = firstn (N.to_nat n) l.
Proof.
  induction l; intros; cbn [takeN].
  - now rewrite firstn_nil.
  - destruct (N.eqb_spec n 0).
    + subst. reflexivity.
    + replace (N.to_nat n) with (S (N.to_nat (N.pred n))) by lia. cbn [firstn]. now rewrite IHl.
Qed.
Lemma dropN_skipn : forall A (l : list A) n, dropN n l = skipn (N.to_nat n) l.
Proof.
  induction l; intros; cbn [dropN].
  - now rewrite skipn_nil.
  - destruct (N.eqb_spec n 0).
    + subst. reflexivity.
    + replace (N.to_nat n) with (S (N.to_nat (N.pred n))) by lia. cbn [skipn]. now rewrite IHl.
Qed.
Lemma take_drop : forall A (l : list A) n, takeN n l ++ dropN n l = l.
Proof. intros. rewrite takeN_firstn, dropN_skipn. apply firstn_skipn. Qed.

Lemma shorter_spec : forall (l : list N) n, shorter l n = (len l <? n).
Proof.
  induction l; intros; cbn [shorter].
  - rewrite len_nil. reflexivity.
  - rewrite len_cons. destruct (N.eqb_spec n 0).
    + subst. symmetry. apply N.ltb_ge. lia.
    + rewrite IHl. destruct (N.ltb_spec (len l) (N.pred n)); destruct (N.ltb_spec (1 + len l) n); lia.
Qed.

Lemma takeN_app_exact : forall (a b : list N), takeN (len a) (a ++ b) = a.
Proof.
  intros. rewrite takeN_firstn, len_length.
  rewrite firstn_app, Nat.sub_diag, firstn_all. cbn. apply app_nil_r.
Qed.
Lemma dropN_app_exact : forall (a b : list N), dropN (len a) (a ++ b) = b.
Proof.
  intros. rewrite dropN_skipn, len_length.
  rewrite skipn_app, Nat.sub_diag, skipn_all. reflexivity.
Qed.
Lemma shorter_app_false : forall (a b : list N), shorter (a ++ b) (len a) = false.
Proof. intros. rewrite shorter_spec, len_app. lia. Qed.
Lemma dropN_length : forall A (l : list A) n, (length (dropN n l) <= length l)%nat.
Proof. intros. rewrite dropN_skipn, skipn_length. lia. Qed.
Lemma dropN_len : forall (l : list N) n, len (dropN n l) = len l - n.
Proof. intros. unfold len. rewrite dropN_skipn, skipn_length. lia. Qed.
Lemma takeN_len : forall (l : list N) n, len (takeN n l) = N.min n (len l).
Proof. intros. unfold len. rewrite takeN_firstn, firstn_length. lia. Qed.
Lemma dropN_0 : forall A (l : list A), dropN 0 l = l.
Proof. destruct l; reflexivity. Qed.
Lemma takeN_0 : forall A (l : list A), takeN 0 l = [].
Proof. destruct l; reflexivity. Qed.

(* a result that is a value or an error: neither a panic nor fuel exhaustion *)
Definition safe {A} (r : res A) : Prop := match r with Ok _ | Err _ => True | _ => False end.
(* a reader: safe, and what is left is a suffix no longer than the input *)
Definition safe_rd {A} (b : list N) (r : res (A * list N)) : Prop :=
  match r with Ok (_, rest) => (length rest <= length b)%nat | Err _ => True | _ => False end.
(* a reader that consumes at least one byte *)
Definition safe_rd1 {A} (b : list N) (r : res (A * list N)) : Prop :=
  match r with Ok (_, rest) => (length rest < length b)%nat | Err _ => True | _ => False end.

Lemma safe_rd1_rd : forall A b (r : res (A * list N)), safe_rd1 b r -> safe_rd b r.
Proof. intros A b [[x r]| | |]; cbn; auto. lia. Qed.
Lemma safe_remap : forall A e (r : res A), safe r -> safe (remap e r).
Proof. intros A e [ | | | ]; cbn; auto. Qed.
Lemma safe_rd_remap : forall A e b (r : res (A * list N)), safe_rd b r -> safe_rd b (remap e r).
Proof. intros A e b [[x r]| | |]; cbn; auto. Qed.
Lemma safe_rd1_remap : forall A e b (r : res (A * list N)), safe_rd1 b r -> safe_rd1 b (remap e r).
Proof. intros A e b [[x r]| | |]; cbn; auto. Qed.
Lemma safe_bind : forall A B (r : res A) (f : A -> res B),
  safe r -> (forall a, r = Ok a -> safe (f a)) -> safe (bind r f).
Proof. intros A B [a| | |] f H1 H2; cbn in *; auto. Qed.
(* a reader, then a continuation that may rely on the rest being no longer than the input *)
Lemma safe_rd_then : forall A B b (r : res (A * list N)) (f : A * list N -> res B),
  safe_rd b r -> (forall a rest, (length rest <= length b)%nat -> safe (f (a, rest))) -> safe (bind r f).
Proof. intros A B b [[a rest]| | |] f H1 H2; cbn in *; auto. Qed.

Lemma read_byte_safe : forall b, safe_rd1 b (read_byte b).
Proof. destruct b; cbn; auto. Qed.

Lemma read_uint16_safe : forall b, safe_rd1 b (read_uint16 b).
Proof.
  intros. unfold read_uint16. rewrite shorter_spec.
  destruct (N.ltb_spec (len b) 2); [exact I|].
  destruct b as [|x [|y r]]; unfold len in *; cbn in *; try lia.
  rewrite !dropN_0. cbn. lia.
Qed.
Lemma read_uint32_safe : forall b, safe_rd1 b (read_uint32 b).
Proof.
  intros. unfold read_uint32. rewrite shorter_spec.
  destruct (N.ltb_spec (len b) 4); [exact I|].
  destruct b as [|x [|y [|z [|w r]]]]; unfold len in *; cbn in *; try lia.
  rewrite !dropN_0. cbn. lia.
Qed.

Lemma read_vbi_safe : forall b vbi mult, safe_rd b (read_vbi b vbi mult).
Proof.
  induction b; intros; cbn [read_vbi]; cbn; auto.
  destruct (21 <? mult); [exact I|].
  destruct (_ <? _); [exact I|].
  destruct (N.land a 128 =? 0); [destruct (_ && _); cbn; [exact I|lia]|].
  specialize (IHb (N.lor vbi (shl32 (N.land a 127) mult)) ((mult + 7) mod 4294967296)).
  destruct (read_vbi b _ _) as [[v r]| | |]; cbn in *; auto.
Qed.
Lemma read_varint_safe : forall b, safe_rd b (read_varint b).
Proof. intros. apply read_vbi_safe. Qed.

(* an accepted variable byte integer: its value is below 2^28, it is read off the front of the input,
   and from at most four bytes [MQTT-1.5.5-1] - one per multiplier 0, 7, 14, 21 *)
Lemma read_vbi_ok : forall b vbi mult v r, read_vbi b vbi mult = Ok (v, r) ->
  v <= 268435455 /\ exists pre, b = pre ++ r /\ pre <> [] /\ 7 * len pre <= 28 - mult.
Proof.
  induction b as [|a b IH]; intros vbi mult v r H; cbn [read_vbi] in H; [discriminate|].
  destruct (N.ltb_spec 21 mult); [discriminate|].
  destruct (N.ltb_spec 268435455 (N.lor vbi (shl32 (N.land a 127) mult))); [discriminate|].
  destruct (N.land a 128 =? 0).
  - destruct (_ && _); [discriminate|]. inversion H; subst. split; [assumption|].
    exists [a]. repeat split; [discriminate|change (len [a]) with 1; lia].
  - rewrite N.mod_small in H by lia. apply IH in H. destruct H as (Hv & pre & -> & _ & Hl). split; [assumption|].
    exists (a :: pre). rewrite len_cons. repeat split; [discriminate|lia].
Qed.

Lemma read_vbi_safe1 : forall b vbi mult, safe_rd1 b (read_vbi b vbi mult).
Proof.
  intros. pose proof (read_vbi_safe b vbi mult) as Hs. pose proof (read_vbi_ok b vbi mult) as Hok.
  destruct (read_vbi b vbi mult) as [[v r]| | |]; cbn in *; try assumption.
  destruct (Hok v r eq_refl) as (_ & [|x pre] & -> & Hne & _); [congruence|]. cbn [app length]. rewrite app_length. lia.
Qed.
Lemma read_varint_bound : forall b v r, read_varint b = Ok (v, r) -> v <= 268435455.
Proof. intros b v r H. apply (read_vbi_ok _ _ _ _ _ H). Qed.
Lemma read_vbi_suffix : forall b vbi mult v r, read_vbi b vbi mult = Ok (v, r) -> exists pre, b = pre ++ r.
Proof. intros b vbi mult v r H. destruct (read_vbi_ok _ _ _ _ _ H) as (_ & pre & E & _). now exists pre. Qed.
Lemma read_varint_four : forall b v r, read_varint b = Ok (v, r) -> len r <= len b /\ len b - len r <= 4.
Proof. intros b v r H. destruct (read_vbi_ok _ _ _ _ _ H) as (_ & pre & -> & _ & Hl). rewrite len_app. lia. Qed.

Lemma testbit_small : forall a m i, a < 2 ^ m -> m <= i -> N.testbit a i = false.
Proof.
  intros a m i Ha Hi. destruct (N.eq_dec a 0) as [->|Hn]; [apply N.bits_0|].
  apply N.bits_above_log2. apply N.log2_lt_pow2; [lia|].
  eapply N.lt_le_trans; [exact Ha|]. apply N.pow_le_mono_r; lia.
Qed.
Lemma lor_disjoint : forall a x m, a < 2 ^ m -> N.lor a (N.shiftl x m) = a + x * 2 ^ m.
Proof.
  intros a x m Ha.
  assert (Hd : N.land a (N.shiftl x m) = 0).
  { apply N.bits_inj. intro i. rewrite N.land_spec, N.bits_0.
    destruct (N.lt_ge_cases i m).
    - rewrite N.shiftl_spec_low by assumption. apply andb_false_r.
    - rewrite (testbit_small a m i) by assumption. reflexivity. }
  rewrite <- N.lxor_lor, <- N.add_nocarry_lxor, N.shiftl_mul_pow2 by exact Hd. reflexivity.
Qed.
Lemma land_127 : forall d, N.land d 127 = d mod 128.
Proof. intros. change 127 with (N.ones 7). rewrite N.land_ones. reflexivity. Qed.
Lemma lor_128 : forall b, b < 128 -> N.lor b 128 = b + 128.
Proof. intros. change 128 with (N.shiftl 1 7) at 1. rewrite lor_disjoint by (cbn; lia). cbn. lia. Qed.
Lemma land_128_small : forall d, d < 128 -> N.land d 128 = 0.
Proof.
  intros. apply N.bits_inj. intro i. rewrite N.land_spec, N.bits_0.
  destruct (N.eq_dec i 7) as [->|Hn].
  - rewrite (testbit_small d 7 7); [reflexivity|cbn; lia|lia].
  - change 128 with (2 ^ 7). rewrite N.pow2_bits_false by congruence. apply andb_false_r.
Qed.
Lemma land_128_big : forall b, b < 128 -> N.land (b + 128) 128 = 128.
Proof.
  intros. apply N.bits_inj. intro i. rewrite N.land_spec.
  destruct (N.eq_dec i 7) as [->|Hn].
  - change 128 with (2 ^ 7) at 2 3. rewrite N.pow2_bits_true, andb_true_r.
    rewrite <- lor_128 by assumption. rewrite N.lor_spec.
    change 128 with (2 ^ 7). rewrite N.pow2_bits_true. apply orb_true_r.
  - change 128 with (2 ^ 7) at 2 3. rewrite N.pow2_bits_false by congruence. apply andb_false_r.
Qed.

(* seven more bits join the accumulator without carry, and the sum still fits 28 bits *)
Lemma vbi_acc : forall b vbi mult, b < 128 -> mult <= 21 -> vbi < 2 ^ mult ->
  N.lor vbi (shl32 b mult) = vbi + b * 2 ^ mult /\ vbi + b * 2 ^ mult <= 268435455.
Proof.
  intros b vbi mult Hb Hm Hv. unfold shl32. replace (mult <? 32) with true by lia.
  assert (Hp : 2 ^ mult <= 2 ^ 21) by (apply N.pow_le_mono_r; lia). change (2 ^ 21) with 2097152 in Hp.
  assert (b * 2 ^ mult < 268435456) by nia.
  rewrite (N.mod_small (N.shiftl b mult)) by (rewrite N.shiftl_mul_pow2; lia).
  rewrite lor_disjoint by assumption. split; [reflexivity|nia].
Qed.

(* one step of read_vbi on a continuation byte / a final byte *)
Lemma read_vbi_cont : forall b r vbi mult, b < 128 -> mult <= 21 -> vbi < 2 ^ mult ->
  read_vbi ((b + 128) :: r) vbi mult = read_vbi r (vbi + b * 2 ^ mult) (mult + 7).
Proof.
  intros b r vbi mult Hb Hm Hv. cbn [read_vbi]. replace (21 <? mult) with false by lia.
  rewrite land_127. replace ((b + 128) mod 128) with b by lia.
  destruct (vbi_acc b vbi mult Hb Hm Hv) as [-> Hle]. replace (268435455 <? vbi + b * 2 ^ mult) with false by lia.
  rewrite land_128_big by assumption. cbn [N.eqb Pos.eqb].
  rewrite N.mod_small by lia. reflexivity.
Qed.
Lemma read_vbi_last : forall b r vbi mult, b < 128 -> mult <= 21 -> vbi < 2 ^ mult -> (b <> 0 \/ mult = 0) ->
  read_vbi (b :: r) vbi mult = Ok (vbi + b * 2 ^ mult, r).
Proof.
  intros b r vbi mult Hb Hm Hv Hmin. cbn [read_vbi]. replace ((b =? 0) && negb (mult =? 0)) with false by lia.
  replace (21 <? mult) with false by lia. rewrite land_127, N.mod_small by assumption.
  destruct (vbi_acc b vbi mult Hb Hm Hv) as [-> Hle]. replace (268435455 <? vbi + b * 2 ^ mult) with false by lia.
  rewrite land_128_small by assumption. reflexivity.
Qed.

(* the bytes DecodeRemainLength writes *)
Definition varint_bytes (n : N) : list N :=
  if n <? 128 then [n]
  else if n <? 16384 then [n mod 128 + 128; n / 128]
  else if n <? 2097152 then [n mod 128 + 128; (n / 128) mod 128 + 128; n / 16384]
  else [n mod 128 + 128; (n / 128) mod 128 + 128; (n / 16384) mod 128 + 128; n / 2097152].

Lemma varint_bytes_len : forall n, n < 268435456 ->
  len (varint_bytes n) = if n <? 128 then 1 else if n <? 16384 then 2 else if n <? 2097152 then 3 else 4.
Proof.
  intros. unfold varint_bytes.
  destruct (n <? 128); [reflexivity|]. destruct (n <? 16384); [reflexivity|].
  destruct (n <? 2097152); reflexivity.
Qed.

(* varint_bytes as a recursion on n / 128 *)
Lemma varint_bytes_eq : forall n, n < 268435456 ->
  varint_bytes n = if n <? 128 then [n] else (n mod 128 + 128) :: varint_bytes (n / 128).
Proof.
  intros n H. unfold varint_bytes. destruct (N.ltb_spec n 128); [reflexivity|].
  replace (n / 128 <? 128) with (n <? 16384) by lia. replace (n / 128 <? 16384) with (n <? 2097152) by lia.
  replace (n / 128 <? 2097152) with true by lia. rewrite !N.div_div by discriminate.
  destruct (n <? 16384); [reflexivity|]. destruct (n <? 2097152); reflexivity.
Qed.

(* DecodeRemainLength's loop and the specification's pseudo-code (Model/CodecSpec.v, e_varint_fuel) are this
   recursion with fuel; given enough of it they produce varint_bytes *)
Lemma varint_bytes_unique : forall f : nat -> N -> list N,
  (forall k n, f (S k) n = if n <? 128 then [n] else (n mod 128 + 128) :: f k (n / 128)) ->
  forall k n, n < 128 ^ N.of_nat (S k) -> n < 268435456 -> f (S k) n = varint_bytes n.
Proof.
  intros f Hf. induction k as [|k IH]; intros n Hk Hn; rewrite Hf, varint_bytes_eq by assumption.
  - now replace (n <? 128) with true by (cbn in Hk; lia).
  - destruct (N.ltb_spec n 128); [reflexivity|]. f_equal.
    rewrite Nat2N.inj_succ, N.pow_succ_r' in Hk.
    apply IH; [apply N.div_lt_upper_bound; [discriminate|exact Hk]|].
    apply N.div_lt_upper_bound; lia.
Qed.

Lemma varint_loop_eq : forall k n,
  varint_loop (S k) n = if n <? 128 then [n] else (n mod 128 + 128) :: varint_loop k (n / 128).
Proof.
  intros. cbn [varint_loop]. destruct (N.ltb_spec n 128).
  - replace (0 <? n / 128) with false by lia. now rewrite N.mod_small.
  - replace (0 <? n / 128) with true by lia. rewrite lor_128 by lia. reflexivity.
Qed.

(* the loop fills exactly the slice that varint_size allotted *)
Lemma encode_varint_bytes : forall n, n < 268435456 -> encode_varint n = Ok (varint_bytes n).
Proof.
  intros n Hn. unfold encode_varint.
  rewrite (varint_bytes_unique varint_loop varint_loop_eq 5 n) by (cbn; lia).
  replace (varint_size n) with (Some (len (varint_bytes n))).
  - rewrite N.ltb_irrefl, N.sub_diag. apply f_equal, app_nil_r.
  - rewrite varint_bytes_len by assumption. unfold varint_size.
    destruct (n <? 128); [reflexivity|]. destruct (n <? 16384); [reflexivity|]. destruct (n <? 2097152); [reflexivity|].
    now replace (n <? 268435456) with true by lia.
Qed.

(* EncodeRemainLength reads back what DecodeRemainLength wrote, and stops there *)
Lemma varint_roundtrip : forall n rest, n < 268435456 ->
  read_varint (varint_bytes n ++ rest) = Ok (n, rest).
Proof.
  intros n rest Hn. unfold read_varint, varint_bytes.
  destruct (N.ltb_spec n 128).
  { cbn [app]. rewrite read_vbi_last by (cbn; lia). f_equal. f_equal. cbn. lia. }
  destruct (N.ltb_spec n 16384).
  { cbn [app]. rewrite read_vbi_cont by (cbn; lia).
    rewrite read_vbi_last by (cbn; lia). f_equal. f_equal. cbn. lia. }
  destruct (N.ltb_spec n 2097152).
  { cbn [app]. rewrite read_vbi_cont by (cbn; lia).
    rewrite read_vbi_cont by (cbn; lia).
    rewrite read_vbi_last by (cbn; lia). f_equal. f_equal. cbn. lia. }
  cbn [app]. rewrite read_vbi_cont by (cbn; lia).
  rewrite read_vbi_cont by (cbn; lia).
  rewrite read_vbi_cont by (cbn; lia).
  rewrite read_vbi_last by (cbn; lia). f_equal. f_equal. cbn. lia.
Qed.

Lemma encode_varint_or_nil_bytes : forall n, n < 268435456 -> encode_varint_or_nil n = varint_bytes n.
Proof. intros. unfold encode_varint_or_nil. now rewrite encode_varint_bytes. Qed.

(* getVariablelenght agrees with it *)
Lemma varint_bytes_varlen : forall n, n < 268435456 -> len (varint_bytes n) = varlen n.
Proof.
  intros n H. rewrite varint_bytes_len by assumption. unfold varlen.
  replace (n <=? 127) with (n <? 128) by lia. replace (n <=? 16383) with (n <? 16384) by lia.
  replace (n <=? 2097151) with (n <? 2097152) by lia. replace (n <=? 268435455) with true by lia.
  now destruct (n <? 128), (n <? 16384), (n <? 2097152).
Qed.

(* 2^28 and above do not fit four bytes *)
Lemma encode_varint_big : forall n, 268435456 <= n -> encode_varint n = Err MALFORMED.
Proof.
  intros n H. unfold encode_varint, varint_size.
  replace (n <? 128) with false by lia. replace (n <? 16384) with false by lia.
  replace (n <? 2097152) with false by lia. replace (n <? 268435456) with false by lia. reflexivity.
Qed.

Lemma encode_varint_safe : forall n, safe (encode_varint n).
Proof.
  intros. destruct (N.ltb_spec n 268435456).
  - rewrite encode_varint_bytes by assumption. exact I.
  - rewrite encode_varint_big by assumption. exact I.
Qed.

(* the number a big-endian byte string denotes, and the k low base-256 digits of x, most significant first *)
Definition be_val (l : list N) : N := fold_left (fun a b => a * 256 + b) l 0.
Fixpoint be_bytes (k : nat) (x : N) : list N :=
  match k with O => [] | S k => be_bytes k (x / 256) ++ [x mod 256] end.

Lemma be_val_snoc : forall l d, be_val (l ++ [d]) = be_val l * 256 + d.
Proof. intros. unfold be_val. now rewrite fold_left_app. Qed.

Lemma be_val_bytes : forall k x, x < 256 ^ N.of_nat k -> be_val (be_bytes k x) = x.
Proof.
  induction k as [|k IH]; intros x H.
  - apply N.lt_1_r in H. now subst.
  - rewrite Nat2N.inj_succ, N.pow_succ_r' in H.
    cbn [be_bytes]. rewrite be_val_snoc, IH by (apply N.div_lt_upper_bound; [discriminate|exact H]).
    rewrite N.mul_comm. symmetry. apply N.div_mod'.
Qed.

Lemma put16_be : forall x, put16 x = be_bytes 2 x.
Proof. reflexivity. Qed.
Lemma put32_be : forall x, put32 x = be_bytes 4 x.
Proof. intros. cbn [be_bytes app]. rewrite !N.div_div by discriminate. reflexivity. Qed.

Lemma len_put16 : forall x, len (put16 x) = 2. Proof. reflexivity. Qed.
Lemma len_put32 : forall x, len (put32 x) = 4. Proof. reflexivity. Qed.

(* readUint16 / readUint32 on k bytes l that decode to x, followed by rest *)
Lemma read_fixed : forall k (be : list N -> res N) l x rest, len l = k -> be l = Ok x ->
  (if shorter (l ++ rest) k then Err MALFORMED
   else let '(h, r) := buf_next k (l ++ rest) in do v <- be h; Ok (v, r)) = Ok (x, rest).
Proof.
  intros k be l x rest <- E. unfold buf_next. rewrite shorter_app_false, takeN_app_exact, dropN_app_exact, E.
  reflexivity.
Qed.
Lemma read_uint16_put16 : forall x rest, x < 65536 -> read_uint16 (put16 x ++ rest) = Ok (x, rest).
Proof.
  intros x rest H. apply (read_fixed 2 be16 (put16 x)); [reflexivity|].
  cbn [put16 be16]. f_equal. exact (be_val_bytes 2 x H).
Qed.
Lemma read_uint32_put32 : forall x rest, x < 4294967296 -> read_uint32 (put32 x ++ rest) = Ok (x, rest).
Proof.
  intros x rest H. apply (read_fixed 4 be32 (put32 x)); [reflexivity|].
  rewrite put32_be. transitivity (Ok (be_val (be_bytes 4 x))); [reflexivity|]. f_equal. exact (be_val_bytes 4 x H).
Qed.
