(* C07 (broker level) - retained messages in the broker model Model/Broker.v, for all states:
   what `retain_update` does to the retained store, that an accepted PUBLISH applies exactly
   `retain_update` to it, the gate of the retained replay in `handle_subscribe`, the contents
   of the replay (`replay_retained`), the RETAIN flag of replayed and of live copies.
   The store itself (last value per topic, lookups by filter) is Proofs/RetTrieP.v; its
   refinement relation `R` (trie database against flat map topic -> message) is used here
   for arbitrary databases, so that the statements hold of every state whose retained store
   is related to a flat map - every reachable state (`reachable_ret_history`, `ret_inv_run`). *)
From Coq Require Import List NArith ZArith Bool Arith Lia ZifyN ZifyNat ZifyBool.
Import ListNotations.
From GM Require Import Base.Topic Base.Msg Model.SubTrie Model.RetTrie Model.Queue Model.Limiter
  Model.TopicMatch Model.Broker Proofs.TopicP Proofs.RetTrieP.
From GM Require Proofs.ListP Proofs.AssocP Proofs.BrokerBasicP Proofs.DeliverP Proofs.BrokerInvP Proofs.BrokerQos2P Proofs.BrokerLimitsP Proofs.BrokerEditsP.
Open Scope N_scope.

(* what add_to_queue and the retained replay both do with the element they have built: Add it to the
   session queue, advance the ghost tag, report what Add dropped *)
Definition offer (cid : str) (e : elem) (s : st) : st * list out :=
  match aget cid (b_queues s) with
  | None => (s, [])
  | Some q =>
      match q_add (b_now s) e q with
      | QOk (q', evs) => (release_dropped cid evs (DeliverP.enq cid q' s), drops_of cid evs)
      | _ => (s, [])
      end
  end.

Lemma add_to_queue_offer cid m sb ids s :
  add_to_queue cid m sb ids s =
  if DeliverP.aq_skip cid m s then (s, []) else offer cid (DeliverP.aq_elem m sb ids (b_tag s) s) s.
Proof.
  rewrite DeliverP.add_to_queue_unfold. unfold offer.
  destruct (aget cid (b_queues s)); [reflexivity|now destruct (DeliverP.aq_skip cid m s)].
Qed.

Lemma offer_cases cid e s :
  offer cid e s = (s, []) \/
  exists q q' evs, aget cid (b_queues s) = Some q /\ q_add (b_now s) e q = QOk (q', evs) /\
    offer cid e s = (release_dropped cid evs (DeliverP.enq cid q' s), drops_of cid evs).
Proof.
  unfold offer. destruct (aget cid (b_queues s)) as [q|]; [|now left].
  destruct (q_add (b_now s) e q) as [[q' evs]| | |] eqn:Ea; [|now left..].
  right. now exists q, q', evs.
Qed.

Lemma offer_dframe cid e s : BrokerQos2P.dframe s (fst (offer cid e s)).
Proof.
  destruct (offer_cases cid e s) as [->|(q & q' & evs & _ & _ & ->)]; [apply BrokerQos2P.dframe_refl|]. cbn [fst].
  eapply BrokerQos2P.dframe_trans; [|apply BrokerQos2P.release_dropped_frame].
  eapply BrokerQos2P.dframe_trans; [apply BrokerQos2P.dframe_set_queues|apply BrokerQos2P.dframe_set_picks_tag].
Qed.

(* room in the queue: the element is appended, nothing is dropped *)
Lemma offer_room cid e s q :
  aget cid (b_queues s) = Some q -> (length (q_l q) < q_max q)%nat ->
  offer cid e s = (DeliverP.enq cid (DeliverP.q_push e q) s, []).
Proof.
  intros Hq Hr. unfold offer. rewrite Hq, (DeliverP.q_add_room _ _ _ Hr).
  rewrite DeliverP.release_dropped_noop; [reflexivity|]. intros el [H|[]]. discriminate.
Qed.

(* the retained store after a message: only RETAIN=1 touches it *)
Definition ret_after (m : msg) (d : rdb) : rdb := if m_retained m then rdb_step d (retain_op m) else d.

(* the flat view (topic -> message) after a message *)
Definition flat_after (m : msg) (sp : rspec) : rspec :=
  if m_retained m then match m_payload m with [] => adel (m_topic m) sp | _ => aset (m_topic m) m sp end else sp.

Lemma flat_after_step m sp : flat_after m sp = if m_retained m then rspec_step sp (retain_op m) else sp.
Proof. unfold flat_after, retain_op. destruct (m_retained m); [|reflexivity]. now destruct (m_payload m). Qed.

Lemma retain_update_set m s : retain_update m s = set_ret (ret_after m (b_ret s)) s.
Proof. unfold retain_update, ret_after. destruct (m_retained m); [reflexivity|]. destruct s; reflexivity. Qed.

Lemma ret_after_cases m d :
  (m_retained m = false -> ret_after m d = d) /\
  (m_retained m = true -> m_payload m <> [] -> ret_after m d = rdb_step d (RetTrie.RAdd m)) /\
  (m_retained m = true -> m_payload m = [] -> ret_after m d = rdb_step d (RetTrie.RRemove (m_topic m))).
Proof.
  unfold ret_after, retain_op. repeat split; intros H; rewrite H; [reflexivity| |].
  - intros Hp. destruct (m_payload m); [contradiction|reflexivity].
  - intros Hp. now rewrite Hp.
Qed.

(* the refinement relation of RetTrieP is kept, with the flat view updated at that one topic *)
Lemma R_ret_after m d sp : R d sp -> R (ret_after m d) (flat_after m sp).
Proof.
  intros H. rewrite flat_after_step. unfold ret_after. destruct (m_retained m); [|exact H]. now apply R_step.
Qed.

Lemma R_get d sp t : R d sp -> rdb_get t d = aget t sp.
Proof. intros (_ & _ & Hget). unfold rdb_get. rewrite r_find_msg_at. apply Hget. Qed.

Lemma aget_flat_after m sp t :
  NoDup (map fst sp) ->
  aget t (flat_after m sp) =
  if m_retained m && str_eqb t (m_topic m)
  then match m_payload m with [] => None | _ => Some m end
  else aget t sp.
Proof.
  intros Hnd. unfold flat_after. destruct (m_retained m); [|reflexivity]. cbn [andb].
  destruct (m_payload m).
  - now apply aget_adel.
  - apply aget_aset.
Qed.

(* lookups by filter, for every database related to a flat map (ret_matched_exact of RetTrieP
   is this statement for the databases `rdb_run ops`) *)
Lemma R_matched d sp f :
  R d sp -> valid_filter_spec f = true ->
  (forall m, In m (rdb_matched f d) <-> (aget (m_topic m) sp = Some m /\ topic_match (m_topic m) f = true)) /\
  NoDup (map m_topic (rdb_matched f d)).
Proof.
  intros HR Hv. unfold valid_filter_spec in Hv. apply andb_true_iff in Hv as [_ Hv].
  apply valid_filter_hash_last in Hv.
  pose proof HR as (Hinv & Hnd & Hget).
  unfold rdb_matched. rewrite (r_match_match' _ _ (split_nonempty f)), rdb_trie_of.
  destruct (Hinv (starts_dollar f)) as [Hwf Hp].
  split.
  - intros m. rewrite (in_match' (split f) _ Hwf Hv). split.
    + intros (p & Hm & Hl). destruct (Hp p m Hm) as [Hs Hb]. split.
      * exact (R_stored d sp _ p m HR Hm).
      * rewrite (topic_match_same_kind _ _ Hb), Hs. exact Hl.
    + intros [Ha Hm]. exists (split (m_topic m)). apply topic_match_kind in Hm as [Eb Hm].
      split; [|exact Hm]. rewrite <- Eb, <- rdb_trie_of, Hget. exact Ha.
  - apply nodup_topics. apply (nodup_match' (split f) _ Hwf Hv). exact (R_keyed d sp _ HR).
Qed.

Theorem retain_update_spec m s :
  let d := b_ret s in
  let d' := b_ret (retain_update m s) in
  (* only b_ret changes *)
  retain_update m s = set_ret d' s /\
  (* RETAIN=0: nothing; RETAIN=1: add-or-replace under the topic, or remove the topic *)
  (m_retained m = false -> d' = d) /\
  (m_retained m = true -> m_payload m <> [] -> d' = rdb_step d (RetTrie.RAdd m)) /\
  (m_retained m = true -> m_payload m = [] -> d' = rdb_step d (RetTrie.RRemove (m_topic m))) /\
  (* the flat view: that one topic updated *)
  (forall sp, R d sp ->
     R d' (flat_after m sp) /\
     forall t, rdb_get t d' =
               if m_retained m && str_eqb t (m_topic m)
               then match m_payload m with [] => None | _ => Some m end
               else rdb_get t d).
Proof.
  cbv zeta. rewrite retain_update_set. cbn [set_ret b_ret].
  destruct (ret_after_cases m (b_ret s)) as (H0 & H1 & H2).
  split; [reflexivity|]. split; [exact H0|]. split; [exact H1|]. split; [exact H2|].
  intros sp H. split.
  - now apply R_ret_after.
  - intros t. rewrite (R_get _ _ t (R_ret_after m _ _ H)), (R_get _ _ t H).
    apply aget_flat_after. now destruct H as (_ & Hnd & _).
Qed.

(* the copy of a stored message queued for the subscription sb *)
Definition replay_copy (sb : sub) (m : msg) : msg :=
  let qos := if s_qos sb <? m_qos m then s_qos sb else m_qos m in
  if s_id sb =? 0 then with_qos_etc m qos [] (m_retained m && s_rap sb)
  else with_qos_etc (as_dup m) qos [s_id sb] (m_retained m && s_rap sb).

Definition replay_elem (sb : sub) (now tag : N) (m : msg) : elem :=
  {| e_tag := tag; e_at := now;
     e_expiry := if m_expiry m =? 0 then None else Some (now + m_expiry m * 1000);
     e_body := QPub (replay_copy sb m) |}.

Definition replay_step (cid : str) (sb : sub) (acc : st * list out) (m : msg) : st * list out :=
  let '(s0, o0) := acc in
  match aget cid (b_queues s0) with
  | None => (s0, o0)
  | Some q =>
      match q_add (b_now s0) (replay_elem sb (b_now s0) (b_tag s0) m) q with
      | QOk (q', evs) =>
          (release_dropped cid evs (set_picks_tag (b_picks s0) (b_tag s0 + 1) (set_queues (aset cid q' (b_queues s0)) s0)),
           o0 ++ drops_of cid evs)
      | _ => (s0, o0)
      end
  end.

Lemma replay_retained_unfold c k sb s :
  replay_retained c k sb s = fold_left (replay_step (k_cid k) sb) (rdb_matched (s_filter sb) (b_ret s)) (s, []).
Proof. reflexivity. Qed.

Lemma replay_step_offer cid sb s o m :
  replay_step cid sb (s, o) m =
  let r := offer cid (replay_elem sb (b_now s) (b_tag s) m) s in (fst r, o ++ snd r).
Proof.
  unfold replay_step, offer. destruct (aget cid (b_queues s)) as [q|]; [|now rewrite app_nil_r].
  destruct (q_add _ _ q) as [[q' evs]| | |]; cbn [fst snd]; now rewrite ?app_nil_r.
Qed.

Lemma replay_copy_qos sb m : m_qos (replay_copy sb m) = N.min (m_qos m) (s_qos sb).
Proof.
  unfold replay_copy. cbv zeta. destruct (s_id sb =? 0); cbn [with_qos_etc m_qos];
    destruct (s_qos sb <? m_qos m) eqn:E; lia.
Qed.
Lemma replay_copy_dup sb m : m_dup (replay_copy sb m) = false.
Proof. unfold replay_copy. cbv zeta. now destruct (s_id sb =? 0). Qed.
Lemma replay_copy_retained sb m : m_retained (replay_copy sb m) = m_retained m && s_rap sb.
Proof. unfold replay_copy. cbv zeta. now destruct (s_id sb =? 0). Qed.
Lemma replay_copy_subids sb m : m_subids (replay_copy sb m) = if s_id sb =? 0 then m_subids m else [s_id sb].
Proof.
  unfold replay_copy. cbv zeta. destruct (s_id sb =? 0); cbn [with_qos_etc as_dup m_subids]; [apply app_nil_r|reflexivity].
Qed.
Lemma replay_copy_rest sb m :
  m_topic (replay_copy sb m) = m_topic m /\ m_payload (replay_copy sb m) = m_payload m /\
  m_pid (replay_copy sb m) = m_pid m /\ m_ctype (replay_copy sb m) = m_ctype m /\
  m_corr (replay_copy sb m) = m_corr m /\ m_expiry (replay_copy sb m) = m_expiry m /\
  m_pfmt (replay_copy sb m) = m_pfmt m /\ m_resp (replay_copy sb m) = m_resp m /\
  m_uprops (replay_copy sb m) = m_uprops m.
Proof. unfold replay_copy. cbv zeta. destruct (s_id sb =? 0); repeat split. Qed.

(* the elements appended for a list of stored messages: consecutive ghost tags *)
Fixpoint replay_elems (sb : sub) (now tag : N) (msgs : list msg) : list elem :=
  match msgs with
  | [] => []
  | m :: r => replay_elem sb now tag m :: replay_elems sb now (tag + 1) r
  end.

Lemma replay_elems_bodies sb now msgs : forall tag,
  map e_body (replay_elems sb now tag msgs) = map (fun m => QPub (replay_copy sb m)) msgs.
Proof. induction msgs as [|m r IH]; intros tag; cbn [replay_elems map]; [reflexivity|]. now rewrite IH. Qed.

Lemma replay_elems_length sb now msgs : forall tag, length (replay_elems sb now tag msgs) = length msgs.
Proof. induction msgs as [|m r IH]; intros tag; cbn [replay_elems length]; [reflexivity|]. now rewrite IH. Qed.

Lemma replay_elems_nth sb now msgs : forall tag i m,
  nth_error msgs i = Some m -> nth_error (replay_elems sb now tag msgs) i = Some (replay_elem sb now (tag + N.of_nat i) m).
Proof.
  induction msgs as [|m0 r IH]; intros tag i m H; [destruct i; discriminate|].
  destruct i as [|i]; cbn [nth_error replay_elems] in *.
  - injection H as <-. now rewrite N.add_0_r.
  - rewrite (IH _ _ _ H). do 2 f_equal. lia.
Qed.

Definition q_extend (l : list elem) (q : queue) : queue := q_set (q_l q ++ l) (q_cur q) (q_drained q) q.

Lemma q_extend_nil q : q_extend [] q = q.
Proof. exact (DeliverP.q_extend_nil q). Qed.

Lemma q_extend_push e l q : q_extend l (q_set (q_l q ++ [e]) (q_cur q) (q_drained q) q) = q_extend (e :: l) q.
Proof. exact (DeliverP.q_extend_push e l q). Qed.

Lemma st_eta_tag_queues s : set_picks_tag (b_picks s) (b_tag s) (set_queues (b_queues s) s) = s.
Proof. destruct s; reflexivity. Qed.

(* the queue of cid and the tag written a second time *)
Lemma enq_again cid q1 q2 t s :
  let s1 := DeliverP.enq cid q1 s in
  set_picks_tag (b_picks s1) t (set_queues (aset cid q2 (b_queues s1)) s1) =
  set_picks_tag (b_picks s) t (set_queues (aset cid q2 (b_queues s)) s).
Proof. cbn. unfold set_picks_tag, set_queues. cbn. now rewrite AssocP.aset_aset. Qed.

(* room for all of them: every copy is appended, nothing is dropped, nothing else moves *)
Lemma replay_fold_room cid sb msgs : forall s o q,
  aget cid (b_queues s) = Some q -> (length (q_l q) + length msgs <= q_max q)%nat ->
  fold_left (replay_step cid sb) msgs (s, o) =
  (set_picks_tag (b_picks s) (b_tag s + N.of_nat (length msgs))
     (set_queues (aset cid (q_extend (replay_elems sb (b_now s) (b_tag s) msgs) q) (b_queues s)) s), o).
Proof.
  induction msgs as [|m r IH]; intros s o q Hq Hroom; cbn [fold_left length replay_elems].
  - rewrite q_extend_nil, (AssocP.aset_aget_id _ _ _ Hq). cbn [N.of_nat]. rewrite N.add_0_r. now rewrite st_eta_tag_queues.
  - cbn [length] in Hroom. rewrite replay_step_offer, (offer_room _ _ _ _ Hq) by lia. cbn [fst snd]. rewrite app_nil_r.
    erewrite IH; [|cbn; apply AssocP.aget_aset_same|cbn; rewrite app_length; cbn; lia].
    rewrite enq_again. change (b_tag (DeliverP.enq _ _ s)) with (b_tag s + 1). change (b_now (DeliverP.enq _ _ s)) with (b_now s).
    unfold DeliverP.q_push. rewrite q_extend_push. do 2 f_equal. lia.
Qed.

(* no queue (the session is gone): nothing happens *)
Lemma replay_fold_noqueue cid sb msgs : forall s o,
  aget cid (b_queues s) = None -> fold_left (replay_step cid sb) msgs (s, o) = (s, o).
Proof.
  induction msgs as [|m r IH]; intros s o Hq; cbn [fold_left]; [reflexivity|].
  unfold replay_step at 2. rewrite Hq. now apply IH.
Qed.

(* the boolean no-drop condition: the session queue can take one more element per stored match *)
Definition replay_room (k : conn) (sb : sub) (s : st) : bool :=
  match aget (k_cid k) (b_queues s) with
  | Some q => (length (q_l q) + length (rdb_matched (s_filter sb) (b_ret s)) <=? q_max q)%nat
  | None => false
  end.

Lemma replay_retained_room c k sb s q :
  aget (k_cid k) (b_queues s) = Some q -> replay_room k sb s = true ->
  let msgs := rdb_matched (s_filter sb) (b_ret s) in
  replay_retained c k sb s =
  (set_picks_tag (b_picks s) (b_tag s + N.of_nat (length msgs))
     (set_queues (aset (k_cid k) (q_extend (replay_elems sb (b_now s) (b_tag s) msgs) q) (b_queues s)) s), []).
Proof.
  intros Hq Hr. cbv zeta. unfold replay_room in Hr. rewrite Hq in Hr. apply Nat.leb_le in Hr.
  rewrite replay_retained_unfold. now apply replay_fold_room.
Qed.

Lemma replay_retained_noqueue c k sb s :
  aget (k_cid k) (b_queues s) = None -> replay_retained c k sb s = (s, []).
Proof. intros Hq. rewrite replay_retained_unfold. now apply replay_fold_noqueue. Qed.

Theorem replay_contents c k sb s q :
  aget (k_cid k) (b_queues s) = Some q -> replay_room k sb s = true ->
  let cid := k_cid k in
  let msgs := rdb_matched (s_filter sb) (b_ret s) in
  let s' := fst (replay_retained c k sb s) in
  exists els,
    (* one element per stored match, in the order of the lookup, appended to the client's queue *)
    aget cid (b_queues s') = Some (q_extend els q) /\
    map e_body els = map (fun m => QPub (replay_copy sb m)) msgs /\
    (forall i m, nth_error msgs i = Some m ->
       nth_error els i = Some (replay_elem sb (b_now s) (b_tag s + N.of_nat i) m)) /\
    (* nothing is dropped, nothing is written *)
    snd (replay_retained c k sb s) = [] /\
    (* nothing else changes *)
    (forall c', c' <> cid -> aget c' (b_queues s') = aget c' (b_queues s)) /\
    b_subs s' = b_subs s /\ b_ret s' = b_ret s /\ b_sessions s' = b_sessions s /\ b_online s' = b_online s /\
    b_offline s' = b_offline s /\ b_wills s' = b_wills s /\ b_unacks s' = b_unacks s /\ b_conns s' = b_conns s /\
    b_cfg s' = b_cfg s /\ b_hooks s' = b_hooks s /\ b_now s' = b_now s /\ b_rt s' = b_rt s /\
    b_picks s' = b_picks s /\ b_auto s' = b_auto s /\ b_npick s' = b_npick s /\
    b_tag s' = b_tag s + N.of_nat (length msgs).
Proof.
  intros Hq Hr. cbv zeta. rewrite (replay_retained_room c k sb s q Hq Hr). cbn [fst snd].
  exists (replay_elems sb (b_now s) (b_tag s) (rdb_matched (s_filter sb) (b_ret s))).
  split; [cbn; apply AssocP.aget_aset_same|].
  split; [apply replay_elems_bodies|].
  split; [intros i m; apply replay_elems_nth|].
  split; [reflexivity|].
  split; [intros c' Hc; cbn; now apply AssocP.aget_aset_other|].
  cbn. repeat split.
Qed.

(* with the store theorem: the replayed messages are exactly the kept messages whose topic matches the
   filter, each once *)
Theorem replay_exact c k sb s q sp :
  aget (k_cid k) (b_queues s) = Some q -> replay_room k sb s = true ->
  R (b_ret s) sp -> valid_filter_spec (s_filter sb) = true ->
  exists msgs,
    aget (k_cid k) (b_queues (fst (replay_retained c k sb s))) =
      Some (q_extend (replay_elems sb (b_now s) (b_tag s) msgs) q) /\
    (forall m, In m msgs <-> (aget (m_topic m) sp = Some m /\ topic_match (m_topic m) (s_filter sb) = true)) /\
    NoDup (map m_topic msgs).
Proof.
  intros Hq Hr HR Hv. exists (rdb_matched (s_filter sb) (b_ret s)).
  rewrite (replay_retained_room c k sb s q Hq Hr). cbn [fst].
  split; [cbn; apply AssocP.aget_aset_same|]. now apply R_matched.
Qed.

(* what every reachable retained store satisfies (ret_inv_run): it is related to a flat map, and every
   kept message was stored by a RETAIN=1 publication *)
Definition ret_inv (d : rdb) : Prop :=
  exists sp, R d sp /\ forall t m, aget t sp = Some m -> m_retained m = true.

Lemma ret_inv_init : ret_inv rdb_init.
Proof. exists []. split; [exact R_init|]. intros t m H. discriminate. Qed.

Lemma ret_inv_after m d : ret_inv d -> ret_inv (ret_after m d).
Proof.
  intros (sp & HR & Hall). exists (flat_after m sp). split; [now apply R_ret_after|].
  intros t m' H. rewrite aget_flat_after in H by (now destruct HR as (_ & Hnd & _)).
  destruct (m_retained m) eqn:Em; cbn [andb] in H; [|now apply (Hall t)].
  destruct (str_eqb t (m_topic m)); [|now apply (Hall t)].
  destruct (m_payload m); [discriminate|]. injection H as <-. exact Em.
Qed.

Lemma ret_inv_matched d f m :
  ret_inv d -> valid_filter_spec f = true -> In m (rdb_matched f d) -> m_retained m = true.
Proof.
  intros (sp & HR & Hall) Hv Hin. destruct (R_matched d sp f HR Hv) as [Hm _].
  apply Hm in Hin as [Ha _]. exact (Hall _ _ Ha).
Qed.

Lemma replay_elems_forall (P : elem -> Prop) sb now msgs :
  (forall tag m, In m msgs -> P (replay_elem sb now tag m)) ->
  forall tag, Forall P (replay_elems sb now tag msgs).
Proof.
  induction msgs as [|m r IH]; intros H tag; cbn [replay_elems]; constructor.
  - apply H. now left.
  - apply IH. intros tag' m' Hin. apply H. now right.
Qed.

(* every replayed copy carries RETAIN exactly when the subscription has
   Retain-As-Published; so RETAIN=1 under Retain-As-Published, RETAIN=0 without it *)
Theorem replay_retain_flag c k sb s q :
  aget (k_cid k) (b_queues s) = Some q -> replay_room k sb s = true ->
  ret_inv (b_ret s) -> valid_filter_spec (s_filter sb) = true ->
  exists els,
    aget (k_cid k) (b_queues (fst (replay_retained c k sb s))) = Some (q_extend els q) /\
    length els = length (rdb_matched (s_filter sb) (b_ret s)) /\
    Forall (fun e => exists m', e_body e = QPub m' /\ m_retained m' = s_rap sb) els.
Proof.
  intros Hq Hr Hinv Hv. rewrite (replay_retained_room c k sb s q Hq Hr). cbn [fst].
  exists (replay_elems sb (b_now s) (b_tag s) (rdb_matched (s_filter sb) (b_ret s))).
  split; [cbn; apply AssocP.aget_aset_same|]. split; [apply replay_elems_length|].
  apply replay_elems_forall. intros tag m Hin. exists (replay_copy sb m). split; [reflexivity|].
  rewrite replay_copy_retained, (ret_inv_matched _ _ _ Hinv Hv Hin). reflexivity.
Qed.

Corollary replay_retain_flag_partial c k sb s q :
  aget (k_cid k) (b_queues s) = Some q -> replay_room k sb s = true ->
  ret_inv (b_ret s) -> valid_filter_spec (s_filter sb) = true ->
  s_rap sb = true ->
  exists els,
    aget (k_cid k) (b_queues (fst (replay_retained c k sb s))) = Some (q_extend els q) /\
    length els = length (rdb_matched (s_filter sb) (b_ret s)) /\
    Forall (fun e => exists m', e_body e = QPub m' /\ m_retained m' = true) els.
Proof.
  intros Hq Hr Hinv Hv Hrap. destruct (replay_retain_flag c k sb s q Hq Hr Hinv Hv) as (els & H1 & H2 & H3).
  exists els. rewrite Hrap in H3. now repeat split.
Qed.

(* the copy queued for the subscription sb of a message that is being published *)
Definition live_copy (m : msg) (sb : sub) (ids : list N) : msg :=
  with_qos_etc m (if s_qos sb <? m_qos m then s_qos sb else m_qos m)
               (filter (fun i => negb (i =? 0)) ids) (m_retained m && s_rap sb).

Lemma live_copy_retained m sb ids :
  m_retained (live_copy m sb ids) = true <-> (m_retained m = true /\ s_rap sb = true).
Proof. cbn [live_copy with_qos_etc m_retained]. apply andb_true_iff. Qed.

(* whatever add_to_queue does, the element it offers to the session queue is the live copy *)
Lemma add_to_queue_offers cid m sb ids s :
  add_to_queue cid m sb ids s = (s, []) \/
  exists q e q' evs,
    aget cid (b_queues s) = Some q /\ e_body e = QPub (live_copy m sb ids) /\
    q_add (b_now s) e q = QOk (q', evs) /\
    add_to_queue cid m sb ids s =
      (release_dropped cid evs (set_picks_tag (b_picks s) (b_tag s + 1) (set_queues (aset cid q' (b_queues s)) s)),
       drops_of cid evs).
Proof.
  rewrite add_to_queue_offer. destruct (DeliverP.aq_skip cid m s); [now left|].
  destruct (offer_cases cid (DeliverP.aq_elem m sb ids (b_tag s) s) s) as [E|(q & q' & evs & Hq & Ea & E)]; [now left|].
  right. now exists q, (DeliverP.aq_elem m sb ids (b_tag s) s), q', evs.
Qed.

Theorem live_retain_flag cid m sb ids s q :
  aget cid (b_queues s) = Some q ->
  negb (c_queue_qos0 (b_cfg s)) && negb (ahas cid (b_online s)) && (m_qos m =? 0) = false ->
  (length (q_l q) < q_max q)%nat ->
  exists e,
    aget cid (b_queues (fst (add_to_queue cid m sb ids s))) = Some (q_extend [e] q) /\
    snd (add_to_queue cid m sb ids s) = [] /\
    e_body e = QPub (live_copy m sb ids) /\
    (m_retained (live_copy m sb ids) = true <-> (m_retained m = true /\ s_rap sb = true)).
Proof.
  intros Hq Hskip Hroom. change (DeliverP.aq_skip cid m s = false) in Hskip.
  rewrite add_to_queue_offer, Hskip, (offer_room _ _ _ _ Hq Hroom).
  eexists. cbn [fst snd]. split; [cbn; apply AssocP.aget_aset_same|].
  split; [reflexivity|]. split; [reflexivity|]. apply live_copy_retained.
Qed.

Definition sub_subid (k : conn) (props : list prop) : N :=
  if (k_v k =? 5) && k_subid k then match p_subids props with i :: _ => i | [] => 0 end else 0.

Definition sub_action_of (k : conn) (t : topic_req) (s : st) : sub_action :=
  opt_or (match find (fun e => str_eqb (fst (fst e)) (k_cid k) && str_eqb (snd (fst e)) (tq_name t)) (h_sub (b_hooks s)) with
          | Some e => Some (snd e) | None => None end) SAccept.

(* the subscription made for the entry t of a SUBSCRIBE listing `topics` *)
Definition entry_sub (k : conn) (subid : N) (topics : list topic_req) (t : topic_req) (s : st) : sub :=
  let sb0 := sub_of_req (last_with_name (tq_name t) topics t) subid in
  match sub_action_of k t s with
  | SQos q => {| s_share := s_share sb0; s_filter := s_filter sb0; s_id := s_id sb0; s_qos := q;
                 s_nl := s_nl sb0; s_rap := s_rap sb0; s_rh := s_rh sb0 |}
  | _ => sb0
  end.

Definition entry_code (k : conn) (subid : N) (topics : list topic_req) (t : topic_req) (s : st) : N :=
  let v5 := k_v k =? 5 in
  let sb := entry_sub k subid topics t s in
  let shared := negb (is_empty (s_share sb)) in
  let code := s_qos sb in
  let code := if v5 && shared && negb (k_shared k) then 158 else code in
  let code := if v5 && negb (k_subid k) && negb (subid =? 0) then 161 else code in
  let code := if v5 && negb (k_wildcard k) && has_wildcard (s_filter sb) then 162 else code in
  match sub_action_of k t s with SReject cd => if v5 then cd else 128 | _ => code end.

(* the gate: is the retained replay done for a granted entry *)
Definition replay_gate (shared existed : bool) (rh : N) : bool :=
  negb shared && ((negb existed && negb (rh =? 2)) || (rh =? 0)).

Lemma replay_gate_spec shared existed rh :
  replay_gate shared existed rh = true <->
  (shared = false /\ ((existed = false /\ rh <> 2) \/ rh = 0)).
Proof.
  unfold replay_gate.
  rewrite andb_true_iff, orb_true_iff, andb_true_iff, !negb_true_iff, N.eqb_neq, N.eqb_eq. reflexivity.
Qed.

Definition sub_entry_step (c : N) (k : conn) (subid : N) (topics : list topic_req)
                          (acc : st * list out * list N) (t : topic_req) : st * list out * list N :=
  let '(s0, o0, cs) := acc in
  let sb := entry_sub k subid topics t s0 in
  let code := entry_code k subid topics t s0 in
  if code <? 128 then
    let '(d', existed) := db_subscribe (k_cid k) sb (b_subs s0) in
    let s1 := set_subs d' s0 in
    let '(s2, o2) := if replay_gate (negb (is_empty (s_share sb))) existed (tq_rh t)
                     then replay_retained c k sb s1 else (s1, []) in
    (s2, o0 ++ o2, cs ++ [code])
  else (s0, o0, cs ++ [code]).

(* handle_subscribe is the fold of the entry steps (by computation) *)
Lemma handle_subscribe_unfold c k pid props topics s :
  handle_subscribe c k pid props topics s =
  let v5 := k_v k =? 5 in
  let subid := sub_subid k props in
  if v5 && negb (c_subid (b_cfg s)) && negb (subid =? 0) then HErr s [] (Some 161)
  else
    match h_sub_all (b_hooks s) with
    | Some code => HOk s [OSend c (KSuback pid (map (fun _ => if v5 then code else 128) topics) [])]
    | None =>
        let '(s', o, codes) := fold_left (sub_entry_step c k subid topics) topics (s, [], []) in
        HOk s' (o ++ [OSend c (KSuback pid codes [])])
    end.
Proof. reflexivity. Qed.

(* the entry step, case by case *)
Theorem replay_gate_entry c k subid topics s0 o0 cs t :
  let sb := entry_sub k subid topics t s0 in
  let code := entry_code k subid topics t s0 in
  let shared := negb (is_empty (s_share sb)) in
  let d' := fst (db_subscribe (k_cid k) sb (b_subs s0)) in
  let existed := snd (db_subscribe (k_cid k) sb (b_subs s0)) in
  (* refused: no subscription, no replay *)
  (128 <= code -> sub_entry_step c k subid topics (s0, o0, cs) t = (s0, o0, cs ++ [code])) /\
  (* granted, gate open: subscribed, then the replay *)
  (code < 128 -> replay_gate shared existed (tq_rh t) = true ->
     sub_entry_step c k subid topics (s0, o0, cs) t =
       (fst (replay_retained c k sb (set_subs d' s0)), o0 ++ snd (replay_retained c k sb (set_subs d' s0)), cs ++ [code])) /\
  (* granted, gate closed: subscribed, nothing else *)
  (code < 128 -> replay_gate shared existed (tq_rh t) = false ->
     sub_entry_step c k subid topics (s0, o0, cs) t = (set_subs d' s0, o0, cs ++ [code])) /\
  (* the gate *)
  (replay_gate shared existed (tq_rh t) = true <->
     (shared = false /\ ((existed = false /\ tq_rh t <> 2) \/ tq_rh t = 0))).
Proof.
  cbv zeta. unfold sub_entry_step.
  destruct (db_subscribe (k_cid k) (entry_sub k subid topics t s0) (b_subs s0)) as [d' existed].
  cbn [fst snd]. split; [|split; [|split]].
  - intros H. destruct (entry_code k subid topics t s0 <? 128) eqn:E; [lia|reflexivity].
  - intros H Hg. destruct (entry_code k subid topics t s0 <? 128) eqn:E; [|lia]. rewrite Hg.
    now destruct (replay_retained c k (entry_sub k subid topics t s0) (set_subs d' s0)).
  - intros H Hg. destruct (entry_code k subid topics t s0 <? 128) eqn:E; [|lia]. rewrite Hg.
    now rewrite app_nil_r.
  - apply replay_gate_spec.
Qed.

(* the clauses of the property, on the gate *)
Corollary replay_gate_clauses shared existed rh :
  (* never for a shared subscription *)
  (shared = true -> replay_gate shared existed rh = false) /\
  (* Retain Handling 0 (all a v3 client can ask for): always *)
  (shared = false -> rh = 0 -> replay_gate shared existed rh = true) /\
  (* Retain Handling 1: only if the subscription is new *)
  (shared = false -> rh = 1 -> replay_gate shared existed rh = negb existed) /\
  (* Retain Handling 2: never *)
  (rh = 2 -> replay_gate shared existed rh = false).
Proof.
  unfold replay_gate. repeat split.
  - now intros ->.
  - intros -> ->. cbn. now rewrite orb_true_r.
  - intros -> ->. cbn. now rewrite orb_false_r, andb_true_r.
  - intros ->. cbn. now rewrite andb_false_r, andb_false_r.
Qed.

(* a SUBSCRIBE with one entry, no subscribe hooks: the whole handler *)
Lemma last_with_name_single t : last_with_name (tq_name t) [t] t = t.
Proof. cbn. now destruct (str_eqb (tq_name t) (tq_name t)). Qed.

Theorem subscribe_single c k pid props t s :
  let v5 := k_v k =? 5 in
  let subid := sub_subid k props in
  let sb := entry_sub k subid [t] t s in
  let code := entry_code k subid [t] t s in
  let shared := negb (is_empty (s_share sb)) in
  let d' := fst (db_subscribe (k_cid k) sb (b_subs s)) in
  let existed := snd (db_subscribe (k_cid k) sb (b_subs s)) in
  v5 && negb (c_subid (b_cfg s)) && negb (subid =? 0) = false ->
  h_sub_all (b_hooks s) = None ->
  code < 128 ->
  handle_subscribe c k pid props [t] s =
  if replay_gate shared existed (tq_rh t)
  then HOk (fst (replay_retained c k sb (set_subs d' s)))
           (snd (replay_retained c k sb (set_subs d' s)) ++ [OSend c (KSuback pid [code] [])])
  else HOk (set_subs d' s) [OSend c (KSuback pid [code] [])].
Proof.
  cbv zeta. intros H1 H2 Hc. rewrite handle_subscribe_unfold. cbv zeta. rewrite H1, H2. cbn [fold_left].
  pose proof (replay_gate_entry c k (sub_subid k props) [t] s [] [] t) as G. cbv zeta in G.
  destruct G as (_ & Gopen & Gclosed & _).
  destruct (replay_gate _ _ (tq_rh t)) eqn:Eg.
  - rewrite (Gopen Hc eq_refl). reflexivity.
  - rewrite (Gclosed Hc eq_refl). reflexivity.
Qed.

Lemma deliver_ret src m s : b_ret (fst (fst (deliver src m s))) = b_ret s.
Proof. apply DeliverP.df_ret, DeliverP.deliver_frame. Qed.

Definition hres_st (r : hres) : st := match r with HOk s _ => s | HErr s _ _ => s | HErrRead s _ => s end.

(* the stages of handle_publish, cut out of its text; handle_publish_stages shows that their
   composition IS handle_publish (by computation) *)
Definition rp_alias (v5 : bool) (k : conn) (topic : str) (props : list prop) (m0 : msg) : option (conn * msg) + N :=
  match (if v5 then p_alias props else None) with
  | None => inl (Some (k, m0))
  | Some a =>
      if (a =? 0) || (k_server_alias_max k <? a) then inr 148
      else
        match topic with
        | [] => match nget a (k_alias_in k) with
                | Some name => match name with [] => inr 148 | _ => inl (Some (k, with_topic name m0)) end
                | None => inr 148
                end
        | _ => inl (Some (set_alias_in (nset a topic (k_alias_in k)) k, m0))
        end
  end.

Definition rp_mark (c : N) (k : conn) (v5 : bool) (qos pid : N) (s : st) : st * bool :=
  if qos =? 2 then
    let u := opt_or (aget (k_cid k) (b_unacks s)) [] in
    let '(u', ex) := unack_set pid u in
    let s := set_unacks (aset (k_cid k) u' (b_unacks s)) s in
    let s := if ex && v5 then
               match nget c (b_conns s) with
               | Some k1 => if k_quota k1 <? k_recv_max k1 then upd_conn c (set_quota (k_quota k1 + 1) k1) s else s
               | None => s
               end
             else s in
    (s, ex)
  else (s, false).

Definition rp_action (m : msg) (s : st) : msg_action :=
  if h_msg_on (b_hooks s) then opt_or (aget (m_topic m) (h_msg (b_hooks s))) MAccept else MAccept.

Definition rp_fwd (k : conn) (m : msg) (isdup : bool) (s : st) : st * list out * bool * option N :=
  if isdup then (s, [], false, None)
  else
    match rp_action m s with
    | MReject code => (s, [], false, Some code)
    | MDrop => (s, [], false, None)
    | MAccept => let '(s', o, mt) := deliver (k_cid k) m (retain_update m s) in (s', o, mt, None)
    | MRewrite t p q => let m' := rewrite_msg t p q m in
                        let '(s', o, mt) := deliver (k_cid k) m' (retain_update m' s) in (s', o, mt, None)
    end.

Definition rp_finish (c : N) (k : conn) (v5 : bool) (qos pid : N) (r : st * list out * bool * option N) : hres :=
  let '(s, o, matched, err) := r in
  let code := if v5 then match err with Some cd => cd | None => if matched then 0 else 16 end else 0 in
  let s := if (qos =? 2) && (128 <=? code)
           then set_unacks (aset (k_cid k) (unack_remove pid (opt_or (aget (k_cid k) (b_unacks s)) [])) (b_unacks s)) s
           else s in
  let ack := if qos =? 1 then [OSend c (KPuback pid code [])]
             else if qos =? 2 then [OSend c (KPubrec pid code [])] else [] in
  let s := match nget c (b_conns s) with
           | Some k1 =>
               if v5 && ((qos =? 1) || ((qos =? 2) && (128 <=? code))) && (k_quota k1 <? k_recv_max k1)
               then upd_conn c (set_quota (k_quota k1 + 1) k1) s else s
           | None => s
           end in
  HOk s (o ++ ack).

Lemma handle_publish_stages c k dup qos retain topic payload pid props s :
  handle_publish c k dup qos retain topic payload pid props s =
  let v5 := k_v k =? 5 in
  if negb (k_retain_avail k) && retain then HErr s [] (Some 154)
  else
    match rp_alias v5 k topic props (msg_of_publish v5 dup qos retain topic payload pid props) with
    | inr code => HErr s [] (Some code)
    | inl None => HErr s [] None
    | inl (Some (k', m)) =>
        let '(s1, isdup) := rp_mark c k' v5 qos pid (upd_conn c k' s) in
        rp_finish c k' v5 qos pid (rp_fwd k' m isdup s1)
    end.
Proof. reflexivity. Qed.

(* is this QoS 2 PUBLISH a retransmission: its packet id is in the client's unack set *)
Definition rp_isdup (k : conn) (qos pid : N) (s : st) : bool :=
  if qos =? 2 then snd (unack_set pid (opt_or (aget (k_cid k) (b_unacks s)) [])) else false.

Lemma rp_mark_spec c k v5 qos pid s :
  snd (rp_mark c k v5 qos pid s) = rp_isdup k qos pid s /\
  b_ret (fst (rp_mark c k v5 qos pid s)) = b_ret s /\
  b_hooks (fst (rp_mark c k v5 qos pid s)) = b_hooks s.
Proof.
  destruct (BrokerEditsP.tracked_inv _ _ (BrokerEditsP.hp_dupcheck_tracked c k v5 qos pid s)) as (_ & Hh & _ & _ & _ & Hr & _).
  split; [|split; [exact Hr|exact Hh]].
  unfold rp_mark, rp_isdup. destruct (qos =? 2); [|reflexivity]. cbv zeta.
  now destruct (unack_set pid (opt_or (aget (k_cid k) (b_unacks s)) [])).
Qed.

Lemma rp_finish_ret c k v5 qos pid s o mt err :
  b_ret (hres_st (rp_finish c k v5 qos pid (s, o, mt, err))) = b_ret s.
Proof. apply (BrokerEditsP.tracked_inv _ _ (BrokerEditsP.hp_finish_tracked c k v5 qos pid o mt err s)). Qed.

(* what the PUBLISH does to the retained store: nothing, or retain_update of this message *)
Inductive pub_verdict := PubRefused | PubStored (m : msg).

Definition pub_verdict_of (k : conn) (dup : bool) (qos : N) (retain : bool) (topic payload : str) (pid : N)
                          (props : list prop) (s : st) : pub_verdict :=
  let v5 := k_v k =? 5 in
  if negb (k_retain_avail k) && retain then PubRefused        (* 0x9A: retain not supported *)
  else
    match rp_alias v5 k topic props (msg_of_publish v5 dup qos retain topic payload pid props) with
    | inl (Some (k', m)) =>
        if rp_isdup k' qos pid s then PubRefused                (* a QoS 2 retransmission: acknowledged, not forwarded *)
        else match rp_action m s with
             | MAccept => PubStored m
             | MRewrite t p q => PubStored (rewrite_msg t p q m)
             | MReject _ | MDrop => PubRefused
             end
    | _ => PubRefused                                           (* topic alias errors *)
    end.

Lemma rp_fwd_ret k m isdup s :
  b_ret (fst (fst (fst (rp_fwd k m isdup s)))) =
  if isdup then b_ret s
  else match rp_action m s with
       | MAccept => ret_after m (b_ret s)
       | MRewrite t p q => ret_after (rewrite_msg t p q m) (b_ret s)
       | _ => b_ret s
       end.
Proof.
  unfold rp_fwd. destruct isdup; [reflexivity|]. destruct (rp_action m s) as [|code| |t p q]; try reflexivity.
  - pose proof (deliver_ret (k_cid k) m (retain_update m s)) as H.
    destruct (deliver (k_cid k) m (retain_update m s)) as [[s' o] mt]. cbn [fst] in *.
    now rewrite H, retain_update_set.
  - cbv zeta. pose proof (deliver_ret (k_cid k) (rewrite_msg t p q m) (retain_update (rewrite_msg t p q m) s)) as H.
    destruct (deliver (k_cid k) (rewrite_msg t p q m) (retain_update (rewrite_msg t p q m) s)) as [[s' o] mt].
    cbn [fst] in *. now rewrite H, retain_update_set.
Qed.

Theorem publish_updates_retained c k dup qos retain topic payload pid props s :
  b_ret (hres_st (handle_publish c k dup qos retain topic payload pid props s)) =
  match pub_verdict_of k dup qos retain topic payload pid props s with
  | PubRefused => b_ret s
  | PubStored m => b_ret (retain_update m s)
  end.
Proof.
  rewrite handle_publish_stages. unfold pub_verdict_of. cbv zeta.
  destruct (negb (k_retain_avail k) && retain); [reflexivity|].
  destruct (rp_alias _ k topic props _) as [[[k' m]|]|code]; try reflexivity.
  destruct (rp_mark_spec c k' (k_v k =? 5) qos pid (upd_conn c k' s)) as (Hd & Hr & Hh).
  destruct (rp_mark c k' (k_v k =? 5) qos pid (upd_conn c k' s)) as [s1 isdup]. cbn [fst snd] in *.
  change (rp_isdup k' qos pid (upd_conn c k' s)) with (rp_isdup k' qos pid s) in Hd.
  pose proof (rp_fwd_ret k' m isdup s1) as Hf.
  destruct (rp_fwd k' m isdup s1) as [[[s2 o] mt] err]. cbn [fst] in Hf.
  rewrite rp_finish_ret, Hf, <- Hd.
  destruct isdup; [exact Hr|].
  assert (Ha : rp_action m s1 = rp_action m s) by (unfold rp_action; now rewrite Hh).
  rewrite Ha, Hr. cbn [upd_conn b_ret].
  destruct (rp_action m s); try reflexivity; now rewrite retain_update_set.
Qed.

Corollary publish_accepted_updates c k dup qos retain topic payload pid props s k' m :
  let v5 := k_v k =? 5 in
  negb (k_retain_avail k) && retain = false ->
  rp_alias v5 k topic props (msg_of_publish v5 dup qos retain topic payload pid props) = inl (Some (k', m)) ->
  rp_isdup k' qos pid s = false ->
  (h_msg_on (b_hooks s) = false \/ rp_action m s = MAccept) ->
  b_ret (hres_st (handle_publish c k dup qos retain topic payload pid props s)) = b_ret (retain_update m s).
Proof.
  cbv zeta. intros H1 H2 H3 H4. rewrite publish_updates_retained. unfold pub_verdict_of. cbv zeta.
  rewrite H1, H2, H3.
  assert (Ha : rp_action m s = MAccept).
  { destruct H4 as [H4|H4]; [|exact H4]. unfold rp_action. now rewrite H4. }
  now rewrite Ha.
Qed.

Corollary publish_rewritten_updates c k dup qos retain topic payload pid props s k' m t p q :
  let v5 := k_v k =? 5 in
  negb (k_retain_avail k) && retain = false ->
  rp_alias v5 k topic props (msg_of_publish v5 dup qos retain topic payload pid props) = inl (Some (k', m)) ->
  rp_isdup k' qos pid s = false ->
  rp_action m s = MRewrite t p q ->
  b_ret (hres_st (handle_publish c k dup qos retain topic payload pid props s)) =
    b_ret (retain_update (rewrite_msg t p q m) s).
Proof.
  cbv zeta. intros H1 H2 H3 H4. rewrite publish_updates_retained. unfold pub_verdict_of. cbv zeta.
  now rewrite H1, H2, H3, H4.
Qed.

Corollary publish_refused_keeps c k dup qos retain topic payload pid props s :
  let v5 := k_v k =? 5 in
  (negb (k_retain_avail k) && retain = true \/
   (forall k' m, rp_alias v5 k topic props (msg_of_publish v5 dup qos retain topic payload pid props) <> inl (Some (k', m))) \/
   (exists k' m, rp_alias v5 k topic props (msg_of_publish v5 dup qos retain topic payload pid props) = inl (Some (k', m)) /\
                 (rp_isdup k' qos pid s = true \/ (exists code, rp_action m s = MReject code) \/ rp_action m s = MDrop))) ->
  b_ret (hres_st (handle_publish c k dup qos retain topic payload pid props s)) = b_ret s.
Proof.
  cbv zeta. intros H. rewrite publish_updates_retained. unfold pub_verdict_of. cbv zeta.
  destruct (negb (k_retain_avail k) && retain); [reflexivity|].
  destruct H as [H|[H|(k' & m & H & H')]]; [discriminate| |].
  - destruct (rp_alias _ k topic props _) as [[[k' m]|]|code]; try reflexivity. now destruct (H k' m).
  - rewrite H. destruct (rp_isdup k' qos pid s); [reflexivity|].
    destruct H' as [H'|[(code & H')|H']]; [discriminate| |]; now rewrite H'.
Qed.

(* without the alias property (every v3 publish) the message is the packet's *)
Lemma rp_alias_none (v5 : bool) k topic props m0 :
  (if v5 then p_alias props else @None N) = None -> rp_alias v5 k topic props m0 = inl (Some (k, m0)).
Proof. unfold rp_alias. now intros ->. Qed.

(* d' is d after a sequence of RETAIN=1 publications *)
Definition ret_trace (d d' : rdb) : Prop :=
  exists msgs, Forall (fun m => m_retained m = true) msgs /\ d' = fold_left rdb_step (map retain_op msgs) d.

Lemma ret_trace_refl d : ret_trace d d.
Proof. exists []. split; [constructor|reflexivity]. Qed.

Lemma ret_trace_trans a b c : ret_trace a b -> ret_trace b c -> ret_trace a c.
Proof.
  intros (l1 & F1 & E1) (l2 & F2 & E2). exists (l1 ++ l2). split; [now apply Forall_app|].
  now rewrite map_app, fold_left_app, <- E1.
Qed.

Lemma ret_trace_after m d : ret_trace d (ret_after m d).
Proof.
  unfold ret_after. destruct (m_retained m) eqn:E; [|apply ret_trace_refl].
  exists [m]. split; [now constructor|reflexivity].
Qed.

Definition rt (s s' : st) : Prop := ret_trace (b_ret s) (b_ret s').

Lemma rt_eq s s' : b_ret s' = b_ret s -> rt s s'.
Proof. unfold rt. intros ->. apply ret_trace_refl. Qed.

Lemma rt_trans a b c : rt a b -> rt b c -> rt a c.
Proof. apply ret_trace_trans. Qed.

Lemma remove_session_ret cid s : b_ret (remove_session cid s) = b_ret s.
Proof. reflexivity. Qed.

(* the replay, in every case (drops included), and the SUBSCRIBE / UNSUBSCRIBE handlers *)
Lemma replay_retained_ret c k sb s : b_ret (fst (replay_retained c k sb s)) = b_ret s.
Proof.
  rewrite replay_retained_unfold. apply (BrokerBasicP.fold_inv (fun s' => b_ret s' = b_ret s)); [|reflexivity].
  intros s0 o0 m <-. rewrite replay_step_offer. apply BrokerQos2P.df_ret, offer_dframe.
Qed.

Lemma sub_entry_step_ret c k subid topics acc t :
  b_ret (fst (fst (sub_entry_step c k subid topics acc t))) = b_ret (fst (fst acc)).
Proof.
  destruct acc as [[s0 o0] cs]. unfold sub_entry_step. cbv zeta. cbn [fst].
  destruct (entry_code k subid topics t s0 <? 128); [|reflexivity].
  destruct (db_subscribe (k_cid k) (entry_sub k subid topics t s0) (b_subs s0)) as [d' existed].
  destruct (replay_gate _ existed (tq_rh t)); [|reflexivity].
  pose proof (replay_retained_ret c k (entry_sub k subid topics t s0) (set_subs d' s0)) as H.
  destruct (replay_retained c k (entry_sub k subid topics t s0) (set_subs d' s0)). exact H.
Qed.

Lemma handle_subscribe_ret c k pid props topics s : b_ret (hres_st (handle_subscribe c k pid props topics s)) = b_ret s.
Proof.
  rewrite handle_subscribe_unfold. cbv zeta.
  match goal with |- context [if ?b then HErr s [] (Some 161) else _] => destruct b end; [reflexivity|].
  destruct (h_sub_all (b_hooks s)); [reflexivity|].
  pose proof (BrokerBasicP.fold_inv (fun so => b_ret (fst so) = b_ret s) (sub_entry_step c k (sub_subid k props) topics) topics) as H.
  destruct (fold_left _ topics (s, [], [])) as [[s' o] codes] eqn:E.
  specialize (H ltac:(intros [s0 o0] cs t <-; apply sub_entry_step_ret) (s, []) [] eq_refl). now rewrite E in H.
Qed.

Lemma queue_op_ret cid f s : b_ret (queue_op cid f s) = b_ret s.
Proof. unfold queue_op. now destruct (aget cid (b_queues s)). Qed.

Lemma release_id_ret c pid s : b_ret (release_id c pid s) = b_ret s.
Proof. unfold release_id. now destruct (nget c (b_conns s)). Qed.


(* across an edit only a RETAIN=1 publication touches the store *)
Lemma edits_rt P fresh acks s o s' : BrokerEditsP.edits P fresh acks s o s' -> rt s s'.
Proof.
  induction 1; try (apply rt_eq; reflexivity).
  - apply rt_eq. apply (BrokerEditsP.tracked_inv _ _ H).
  - eapply rt_trans; eauto.
  - exists [m]. split; [now constructor|reflexivity].
Qed.

Lemma step_event_rt s e : rt s (fst (step_event s e)).
Proof.
  apply (rt_trans _ (BrokerEditsP.clocked s e)); [destruct e; now apply rt_eq|].
  exact (edits_rt _ _ _ _ _ _ (BrokerEditsP.step_event_ed_all s e)).
Qed.

Lemma step_rt s e : rt s (fst (step s e)).
Proof.
  unfold step. pose proof (step_event_rt s e) as H. destruct (step_event s e) as [s1 o1].
  pose proof (BrokerQos2P.df_ret _ _ (proj1 (BrokerQos2P.poll_all_frame s1))) as E. destruct (poll_all s1) as [s2 o2].
  eapply rt_trans; [exact H|now apply rt_eq].
Qed.

Lemma run_rt es s : rt s (fst (run s es)).
Proof.
  apply (BrokerBasicP.run_invariant (rt s)); [|now apply rt_eq].
  intros s1 e H. eapply rt_trans; [exact H|apply step_rt].
Qed.

(* the retained store of every reachable state is the store after the RETAIN=1 publications made so far:
   with C07_last_value / C07_lookup (Props/C07.v) it holds, per topic, exactly the last of them with a
   non-empty payload, and lookups by filter return exactly those *)
Theorem reachable_ret_history cf h picks es :
  exists msgs, Forall (fun m => m_retained m = true) msgs /\
               b_ret (fst (run (st_init cf h picks) es)) = rdb_run (map retain_op msgs).
Proof.
  destruct (run_rt es (st_init cf h picks)) as (msgs & F & E). exists msgs. split; [exact F|exact E].
Qed.

Lemma ret_trace_inv d d' : ret_trace d d' -> ret_inv d -> ret_inv d'.
Proof.
  intros (msgs & F & ->). revert d. induction F as [|m r Hm F IH]; intros d H; cbn [map fold_left]; [exact H|].
  apply IH. pose proof (ret_inv_after m d H) as H'. unfold ret_after in H'. now rewrite Hm in H'.
Qed.

Theorem ret_inv_run cf h picks es : ret_inv (b_ret (fst (run (st_init cf h picks) es))).
Proof. apply (ret_trace_inv rdb_init); [apply (run_rt es (st_init cf h picks))|apply ret_inv_init]. Qed.

Theorem ret_inv_step s e : ret_inv (b_ret s) -> ret_inv (b_ret (fst (step s e))).
Proof. apply ret_trace_inv. apply step_rt. Qed.

(* In every reachable state there is a history `hist` of RETAIN=1 publications such that a replay with room
   appends exactly one copy per topic that matches the filter and whose last publication in `hist` has a
   non-empty payload - the copy of that last publication. *)
Theorem replay_exact_reachable cf h picks es c k sb q :
  let s := fst (run (st_init cf h picks) es) in
  aget (k_cid k) (b_queues s) = Some q -> replay_room k sb s = true ->
  valid_filter_spec (s_filter sb) = true ->
  exists hist msgs,
    Forall (fun m => m_retained m = true) hist /\
    aget (k_cid k) (b_queues (fst (replay_retained c k sb s))) =
      Some (q_extend (replay_elems sb (b_now s) (b_tag s) msgs) q) /\
    (forall m, In m msgs <->
               (last_retained (m_topic m) hist None = Some m /\ topic_match (m_topic m) (s_filter sb) = true)) /\
    NoDup (map m_topic msgs).
Proof.
  cbv zeta. intros Hq Hr Hv.
  destruct (reachable_ret_history cf h picks es) as (hist & F & E).
  set (s := fst (run (st_init cf h picks) es)) in *.
  assert (HR : R (b_ret s) (rspec_run (map retain_op hist))) by (rewrite E; apply R_run).
  destruct (replay_exact c k sb s q _ Hq Hr HR Hv) as (msgs & H1 & H2 & H3).
  exists hist, msgs. split; [exact F|]. split; [exact H1|]. split; [|exact H3].
  intros m. rewrite H2, ret_last_value. reflexivity.
Qed.

Definition ex_cfg : cfg :=
  {| c_onlyonce := false; c_max_inflight := 10; c_max_queued := 10; c_queue_qos0 := true;
     c_session_expiry := 100; c_message_expiry := 0; c_recv_max := 10; c_alias_max := 0; c_max_packet := 1000;
     c_max_qos := 2; c_retain_avail := true; c_wildcard := true; c_subid := true; c_shared := true;
     c_max_keepalive := 60; c_allow_zero_len := true; c_inflight_expiry := 0 |}.

Definition ex_cn (v : N) (cid : str) : connect :=
  {| cn_ver := v; cn_cid := cid; cn_clean := true; cn_keepalive := 0; cn_user := None; cn_pass := None;
     cn_will := None; cn_props := [] |}.

(* a SUBSCRIBE entry for QoS 1 *)
Definition ex_tq (name : str) (rap : bool) (rh : N) : topic_req :=
  {| tq_name := name; tq_qos := 1; tq_nl := false; tq_rap := rap; tq_rh := rh |}.

(* "x" published to "t" with RETAIN=1, QoS 1 *)
Definition ex_pub : pkt := KPublish false 1 true [116] [120] 7 [].
Definition ex_m : msg := msg_of_publish false false 1 true [116] [120] 7 [].

(* publisher "p" (v3.1.1) on socket 1 has published ex_pub; subscriber "b" (v5) is connected on socket 2 *)
Definition ex_s0 : st := fst (run (st_init ex_cfg no_hooks []) [EConnect 1 (ex_cn 4 [112])]).
Definition ex_s1 : st := fst (run ex_s0 [ESend 1 ex_pub; EConnect 2 (ex_cn 5 [98])]).
Definition ex_k1 : conn := opt_or (nget 1 (b_conns ex_s0)) (fresh_conn [] 0).
Definition ex_k2 : conn := opt_or (nget 2 (b_conns ex_s1)) (fresh_conn [] 0).
Definition ex_q2 : queue := opt_or (aget [98] (b_queues ex_s1)) (q_new 0 0).
Definition ex_sb (rap : bool) : sub := sub_of_req (ex_tq [116] rap 0) 0.
(* "$share/g/t" *)
Definition ex_shared_name : str := [36; 115; 104; 97; 114; 101; 47; 103; 47; 116].

Lemma replay_copy_fields sb m :
  m_qos (replay_copy sb m) = N.min (m_qos m) (s_qos sb) /\
  m_dup (replay_copy sb m) = false /\
  m_retained (replay_copy sb m) = m_retained m && s_rap sb /\
  m_subids (replay_copy sb m) = (if s_id sb =? 0 then m_subids m else [s_id sb]) /\
  m_topic (replay_copy sb m) = m_topic m /\ m_payload (replay_copy sb m) = m_payload m /\
  m_pid (replay_copy sb m) = m_pid m /\ m_ctype (replay_copy sb m) = m_ctype m /\
  m_corr (replay_copy sb m) = m_corr m /\ m_expiry (replay_copy sb m) = m_expiry m /\
  m_pfmt (replay_copy sb m) = m_pfmt m /\ m_resp (replay_copy sb m) = m_resp m /\
  m_uprops (replay_copy sb m) = m_uprops m.
Proof.
  split; [apply replay_copy_qos|]. split; [apply replay_copy_dup|]. split; [apply replay_copy_retained|].
  split; [apply replay_copy_subids|]. apply replay_copy_rest.
Qed.

Lemma ex_s1_reachable :
  ex_s1 = fst (run (st_init ex_cfg no_hooks []) [EConnect 1 (ex_cn 4 [112]); ESend 1 ex_pub; EConnect 2 (ex_cn 5 [98])]).
Proof. vm_compute. reflexivity. Qed.

Lemma ex_s1_ret_inv : ret_inv (b_ret ex_s1).
Proof. rewrite ex_s1_reachable. apply ret_inv_run. Qed.

Lemma ex_s0_R : R (b_ret ex_s0) [].
Proof. assert (E : b_ret ex_s0 = rdb_init) by (vm_compute; reflexivity). rewrite E. exact R_init. Qed.

(* the hypotheses of the replay theorems hold of "b" subscribing to "t" in ex_s1, with one stored match *)
Lemma ex_replay_hyps rap :
  aget (k_cid ex_k2) (b_queues ex_s1) = Some ex_q2 /\ replay_room ex_k2 (ex_sb rap) ex_s1 = true /\
  ret_inv (b_ret ex_s1) /\ valid_filter_spec (s_filter (ex_sb rap)) = true /\ s_rap (ex_sb rap) = rap /\
  length (rdb_matched (s_filter (ex_sb rap)) (b_ret ex_s1)) = 1%nat.
Proof.
  split; [vm_compute; reflexivity|]. split; [destruct rap; vm_compute; reflexivity|].
  split; [exact ex_s1_ret_inv|]. split; [destruct rap; vm_compute; reflexivity|].
  split; [destruct rap; reflexivity|]. destruct rap; vm_compute; reflexivity.
Qed.

(* "every replayed copy carries RETAIN=1" is false of the model (and of the code:
   known finding kf_retained_replay_rap0) - a subscription without Retain-As-Published gets RETAIN=0 *)
Theorem replay_retain_flag_refuted :
  ~ (forall c k sb s q,
       aget (k_cid k) (b_queues s) = Some q -> replay_room k sb s = true ->
       ret_inv (b_ret s) -> valid_filter_spec (s_filter sb) = true ->
       forall q', aget (k_cid k) (b_queues (fst (replay_retained c k sb s))) = Some q' ->
       Forall (fun e => match e_body e with QPub m' => m_retained m' = true | QRel _ => True end)
              (skipn (length (q_l q)) (q_l q'))).
Proof.
  intros H. destruct (ex_replay_hyps false) as (H1 & H2 & H3 & H4 & _).
  pose (q' := opt_or (aget (k_cid ex_k2) (b_queues (fst (replay_retained 2 ex_k2 (ex_sb false) ex_s1)))) ex_q2).
  assert (E : aget (k_cid ex_k2) (b_queues (fst (replay_retained 2 ex_k2 (ex_sb false) ex_s1))) = Some q')
    by (vm_compute; reflexivity).
  specialize (H 2 ex_k2 (ex_sb false) ex_s1 ex_q2 H1 H2 H3 H4 q' E).
  vm_compute in H. inversion H as [|x l Hx Hl]. discriminate Hx.
Qed.
