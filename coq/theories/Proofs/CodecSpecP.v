(* The independent codec (Model/CodecSpec.v) against the model of pkg/packets, for PUBLISH under
   MQTT 3.1 / 3.1.1: same bytes from both encoders, and each decoder reads the other's bytes
   back to the same value.  (The other packet types and v5 are covered by the differential
   suites `codec` and `cenc`, not by a theorem.) *)
From Coq Require Import List NArith ZArith Bool Lia ZifyN ZifyNat ZifyBool.
Import ListNotations.
From GM Require Import Base.Topic Base.Msg Model.TopicMatch Model.CodecBase Model.CodecProps Model.CodecPackets
  Model.CodecSpec Oracle.C06O
  Proofs.CodecBaseP Proofs.CodecStrP Proofs.CodecTotalP Proofs.CodecPropsP Proofs.CodecPropsInvP
  Proofs.CodecRoundP Proofs.CodecReencP Proofs.CodecUtf8P Proofs.CodecTopicP.
Open Scope N_scope.

Lemma e_varint_bytes : forall n, n < 268435456 -> e_varint n = varint_bytes n.
Proof. intros n Hn. exact (varint_bytes_unique e_varint_fuel (fun _ _ => eq_refl) 3 n Hn Hn). Qed.

Lemma s_varint_bytes : forall m n rest, n < 268435456 -> s_varint m (varint_bytes n ++ rest) = SOk (n, rest).
Proof.
  intros m n rest Hn. unfold varint_bytes, s_varint.
  destruct (N.ltb_spec n 128).
  { cbn [app]. replace (n <? 128) with true by lia. cbn [N.ltb N.compare andb]. rewrite andb_false_r. reflexivity. }
  destruct (N.ltb_spec n 16384).
  { cbn [app]. replace (n mod 128 + 128 <? 128) with false by lia. replace (n / 128 <? 128) with true by lia.
    replace (n / 128 =? 0) with false by lia. rewrite andb_false_r. cbn [andb]. f_equal. f_equal. lia. }
  destruct (N.ltb_spec n 2097152).
  { cbn [app]. replace (n mod 128 + 128 <? 128) with false by lia.
    replace (n / 128 mod 128 + 128 <? 128) with false by lia. replace (n / 16384 <? 128) with true by lia.
    replace (n / 16384 =? 0) with false by lia. rewrite andb_false_r. cbn [andb]. f_equal. f_equal. lia. }
  cbn [app]. replace (n mod 128 + 128 <? 128) with false by lia.
  replace (n / 128 mod 128 + 128 <? 128) with false by lia.
  replace (n / 16384 mod 128 + 128 <? 128) with false by lia. replace (n / 2097152 <? 128) with true by lia.
  replace (n / 2097152 =? 0) with false by lia. rewrite andb_false_r. cbn [andb]. f_equal. f_equal. lia.
Qed.

Lemma e_u16_put16 : forall x, x < 65536 -> e_u16 x = put16 x.
Proof. intros. unfold e_u16, put16. f_equal. lia. Qed.
Lemma e_bin_put_bin : forall s, len s <= 65535 -> e_bin s = put_bin s.
Proof. intros. unfold e_bin, put_bin. rewrite N.mod_small by lia. rewrite e_u16_put16 by lia. reflexivity. Qed.

Lemma s_u16_put16 : forall x r, x < 65536 -> s_u16 (put16 x ++ r) = SOk (x, r).
Proof. intros. unfold put16, s_u16. cbn [app]. f_equal. f_equal. lia. Qed.
Lemma s_bin_put_bin : forall s r, len s <= 65535 -> s_bin (put_bin s ++ r) = SOk (s, r).
Proof.
  intros s r H. unfold s_bin, put_bin. rewrite N.mod_small by lia. rewrite <- app_assoc.
  rewrite s_u16_put16 by lia. cbn [sbind]. rewrite len_app. replace (len s + len r <? len s) with false by lia.
  rewrite len_length. rewrite firstn_app, Nat.sub_diag, firstn_all. cbn [firstn]. rewrite app_nil_r.
  rewrite skipn_app, Nat.sub_diag, skipn_all. reflexivity.
Qed.
Lemma s_str_put_bin : forall s r, len s <= 65535 -> spec_utf8 s = true -> s_str (put_bin s ++ r) = SOk (s, r).
Proof. intros s r H Hu. unfold s_str. rewrite s_bin_put_bin by assumption. cbn [sbind]. rewrite Hu. reflexivity. Qed.

Definition publish3 (v : N) (dup : bool) (qos : N) (retain : bool) (topic : str) (pid : N) (payload : str) : body :=
  BPublish v dup qos retain topic pid payload None.

Lemma publish_flag_bytes : forall dup qos retain, qos <= 2 ->
  let f := e_flag dup 8 + 2 * qos + e_flag retain 1 in
  f = N.lor (N.lor (b2n dup 8) (b2n retain 1)) ((qos * 2) mod 256) /\ f < 16
  /\ (16 * PUBLISH + f) / 16 = PUBLISH /\ (16 * PUBLISH + f) mod 16 = f
  /\ 16 * PUBLISH + f = N.lor ((PUBLISH * 16) mod 256) f
  /\ N.testbit f 3 = dup /\ (f / 2) mod 4 = qos /\ N.testbit f 0 = retain.
Proof.
  intros dup qos retain Hq. assert (Hc : qos = 0 \/ qos = 1 \/ qos = 2) by lia.
  destruct Hc as [ -> | [ -> | -> ] ]; destruct dup, retain; vm_compute; repeat split.
Qed.

Section Publish3.
  Variables (v : N) (dup : bool) (qos : N) (retain : bool) (topic : str) (pid : N) (payload : str).
  Let b := publish3 v dup qos retain topic pid payload.
  Hypothesis Hv : v = 3 \/ v = 4.
  Hypothesis Hwf : wf_packet b = true.

  Lemma p3_facts :
    qos <= 2 /\ negb ((qos =? 0) && dup) = true /\ len topic <= 65535 /\ spec_utf8 topic = true
    /\ has_ctl topic = false /\ has_wild topic = false /\ topic <> [] /\ pid < 65536
    /\ (qos = 0 -> pid = 0) /\ (qos <> 0 -> 1 <= pid) /\ (v =? 5) = false.
  Proof.
    assert (Hv5 : (v =? 5) = false) by (destruct Hv as [E|E]; rewrite E; reflexivity).
    pose proof Hwf as H. unfold wf_packet in H. apply andb_prop in H. destruct H as [H _].
    unfold b, publish3 in H. cbn [wf_body] in H. unfold wf_str, wf_oprops in H.
    rewrite Hv5, !andb_true_iff, !negb_true_iff in H.
    destruct H as ((((((((_ & Hq) & Hd) & ((Hl & Hu) & Hc)) & Hw) & Hp) & _) & _) & Hne).
    assert (Hpid : pid < 65536 /\ (qos = 0 -> pid = 0) /\ (qos <> 0 -> 1 <= pid))
      by (clear - Hp; unfold wf_pid in Hp; destruct (N.eqb_spec qos 0); lia).
    assert (Hd' : negb ((qos =? 0) && dup) = true) by now rewrite Hd.
    assert (Hne' : topic <> []) by (intros ->; discriminate Hne).
    (* lia is given only what it needs: it case-splits on every boolean hypothesis in sight *)
    apply N.ltb_lt in Hq. apply N.leb_le in Hl. repeat split; try assumption; clear - Hq Hl Hpid; lia.
  Qed.

  Let body_bytes : list N := put_bin topic ++ (if (qos =? 1) || (qos =? 2) then put16 pid else []) ++ payload.

  Lemma p3_spec_body : spec_encode_body b = (PUBLISH, e_flag dup 8 + 2 * qos + e_flag retain 1, body_bytes).
  Proof.
    destruct p3_facts as (Hq & Hd & Hl & Hu & Hc & Hw & Hne & Hp & Hp0 & Hp1 & Hv5).
    unfold b, publish3, body_bytes. cbn [spec_encode_body]. rewrite Hv5.
    rewrite e_bin_put_bin by assumption. cbn [app]. do 2 f_equal.
    destruct (N.eqb_spec qos 0) as [->|Hq0]; [reflexivity|].
    replace ((qos =? 1) || (qos =? 2)) with true by (clear - Hq Hq0; lia). rewrite e_u16_put16 by assumption. reflexivity.
  Qed.

  Lemma p3_len : len body_bytes < 268435456.
  Proof.
    pose proof Hwf as Hwf'. unfold wf_packet in Hwf'. apply andb_prop in Hwf'. destruct Hwf' as [_ Hl].
    rewrite p3_spec_body in Hl. cbn [snd] in Hl. lia.
  Qed.

  (* both encoders write the same bytes *)
  Theorem p3_same_bytes : pack b = Ok (spec_encode b).
  Proof.
    destruct p3_facts as (Hq & Hd & Hl & Hu & Hc & Hw & Hne & Hp & Hp0 & Hp1 & Hv5).
    destruct (publish_flag_bytes dup qos retain Hq) as (Hf & Hf16 & _ & _ & Hfirst & _).
    unfold spec_encode. rewrite p3_spec_body.
    unfold pack, pack_full, b, publish3. cbn [pack_body]. rewrite Hv5. cbn [bind app].
    fold body_bytes. unfold pack_fixhdr. cbn [fh_rl fh_type fh_flags].
    rewrite encode_varint_bytes by apply p3_len. cbn [bind]. rewrite e_varint_bytes by apply p3_len.
    rewrite <- Hf. rewrite <- Hfirst. reflexivity.
  Qed.

  Lemma p3_dec_inv : dec_inv v b.
  Proof.
    destruct p3_facts as (Hq & Hd & Hl & Hu & Hc & Hw & Hne & Hp & Hp0 & Hp1 & Hv5).
    assert (Hutf : valid_utf8_impl topic = Ok true).
    { apply wf_str_accepted. unfold wf_str. rewrite Hu, Hc, (proj2 (N.leb_le _ _) Hl). reflexivity. }
    unfold b, publish3. cbn [dec_inv]. unfold oprops_inv. rewrite Hv5.
    split; [reflexivity|]. split; [assumption|]. split; [assumption|].
    split; [unfold istr_ok, impl_utf8; rewrite Hutf; clear - Hl; lia|].
    split.
    { right. unfold impl_name. rewrite name_decoder_exact by assumption.
      unfold spec_topic_name, valid_name_spec. rewrite Hu, Hw. destruct topic; [congruence|reflexivity]. }
    split; [assumption|]. split; [assumption|].
    split; [intros Hq0; specialize (Hp1 Hq0); clear - Hp1 Hp; lia|].
    split; [reflexivity|].
    unfold pub_topic_ok. destruct topic; [congruence|reflexivity].
  Qed.

  (* the decoder of pkg/packets reads the specification encoder's bytes back to the same value *)
  Theorem p3_read_spec_encode :
    exists p', read_packet v (spec_encode b) = Ok (p', []) /\ p_body p' = b.
  Proof.
    pose proof p3_same_bytes as Hpack. unfold pack in Hpack.
    destruct (pack_full b) as [[bs fh]| | |] eqn:Ef; cbn [bind] in Hpack; try discriminate.
    inversion Hpack; subst bs; clear Hpack.
    unfold pack_full in Ef.
    destruct (pack_body b) as [[[t fl] bytes]| | |] eqn:Epb; cbn [bind] in Ef; try discriminate.
    destruct (pack_fixhdr _) as [h| | |] eqn:Eh; cbn [bind] in Ef; try discriminate.
    assert (Hbs : h ++ bytes = spec_encode b) by congruence. rewrite <- Hbs.
    assert (Hlen : len bytes < BIG) by (apply pack_fixhdr_len' in Eh; exact Eh).
    destruct (rt_publish v dup qos retain topic pid payload None t fl bytes p3_dec_inv Epb Hlen) as (-> & Hfl & Hpf & Hparse).
    eapply (read_packet_packed v PUBLISH fl bytes _ h); [reflexivity|exact Hfl|exact Hlen| |exact Eh].
    left. split.
    - unfold precheck. cbn [fh_type fh_flags]. cbn [N.eqb Pos.eqb PUBLISH CONNECT CONNACK]. rewrite Hpf. reflexivity.
    - unfold parse_body. cbn [fh_type fh_flags]. cbn [N.eqb Pos.eqb PUBLISH CONNECT CONNACK]. rewrite Hpf. exact Hparse.
  Qed.

  (* the specification decoder reads Pack's bytes back to the same value *)
  Theorem p3_spec_decode_pack : forall bs, pack b = Ok bs -> spec_decode v bs = SOk (b, []).
  Proof.
    intros bs Hbs. rewrite p3_same_bytes in Hbs. inversion Hbs; subst bs; clear Hbs.
    destruct p3_facts as (Hq & Hd & Hl & Hu & Hc & Hw & Hne & Hp & Hp0 & Hp1 & Hv5).
    destruct (publish_flag_bytes dup qos retain Hq) as (_ & Hf16 & Hdiv & Hmod & _ & Hb3 & Hqq & Hb0).
    unfold spec_encode. rewrite p3_spec_body.
    unfold spec_decode. rewrite Hdiv, Hmod. rewrite e_varint_bytes by apply p3_len.
    rewrite s_varint_bytes by apply p3_len. cbn [sbind].
    assert (Hv3 : v =? 5 = false) by exact Hv5. rewrite Hv3.
    cbn [PUBLISH CONNECT CONNACK PUBREL SUBSCRIBE UNSUBSCRIBE N.eqb Pos.eqb negb andb orb guard sbind].
    rewrite N.leb_refl. cbn [guard sbind].
    rewrite len_length, firstn_all, skipn_all.
    unfold s_publish. rewrite Hb3, Hqq, Hb0.
    replace (negb (qos =? 3)) with true by (clear - Hq; lia). cbn [guard sbind]. rewrite Hd. cbn [guard sbind].
    unfold body_bytes. rewrite s_str_put_bin by assumption. cbn [sbind].
    rewrite Hw. cbn [negb guard sbind]. rewrite Hv3.
    assert (Hne' : is_empty topic = false) by (destruct topic; [congruence|reflexivity]).
    rewrite Hne'. cbn [negb orb guard sbind].
    destruct (N.eqb_spec qos 0) as [Hq0|Hq0].
    - unfold b, publish3. rewrite (Hp0 Hq0), Hq0. cbn [N.eqb orb app sbind guard]. reflexivity.
    - replace ((qos =? 1) || (qos =? 2)) with true by (clear - Hq Hq0; lia). rewrite s_u16_put16 by assumption. cbn [sbind].
      replace (negb (pid =? 0)) with true by (clear - Hp1 Hq0; lia). rewrite orb_true_r. cbn [guard sbind]. unfold b, publish3. reflexivity.
  Qed.
End Publish3.

(* C06_spec_agree for PUBLISH under MQTT 3.1 / 3.1.1 *)
Theorem spec_agree_publish3 : forall v dup qos retain topic pid payload,
  (v = 3 \/ v = 4) ->
  let b := BPublish v dup qos retain topic pid payload None in
  wf_packet b = true ->
  pack b = Ok (spec_encode b)
  /\ spec_decode v (spec_encode b) = SOk (b, [])
  /\ exists p', read_packet v (spec_encode b) = Ok (p', []) /\ p_body p' = b.
Proof.
  intros v dup qos retain topic pid payload Hv b Hwf.
  split; [exact (p3_same_bytes v dup qos retain topic pid payload Hv Hwf)|].
  split; [|exact (p3_read_spec_encode v dup qos retain topic pid payload Hv Hwf)].
  apply (p3_spec_decode_pack v dup qos retain topic pid payload Hv Hwf).
  exact (p3_same_bytes v dup qos retain topic pid payload Hv Hwf).
Qed.
