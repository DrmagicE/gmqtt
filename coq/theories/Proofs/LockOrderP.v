(* C15 - proofs about the lock semantics of Model/LockOrder.v:
   lock_order_sound : if every request respects a strict partial order on lock classes, no
                      reachable state has a cycle in the wait-for graph (induction over runs);
   acyclicb_sound   : the executable check yields a ranking; a relation with a ranking has no
                      cycle (ranking_no_cycle) and admits no deadlock (ranking_no_deadlock);
   soundness of the small search functions (two_cycleb, reachb). *)
From Coq Require Import List Arith Bool String Relations Lia.
Import ListNotations.
From GM Require Import Model.LockOrder.

Section Sound.
  Context {L C : Type}.
  Context (cls : L -> C).
  Context (lt : C -> C -> Prop).
  Context (lt_irrefl : forall c, ~ lt c c).
  Context (lt_trans : forall a b c, lt a b -> lt b c -> lt a c).

  (* the invariant: a waiting thread waits for a lock above everything it holds *)
  Definition wait_inv (s : lstate L) : Prop := forall t l, waiting s t = Some l -> respects cls lt s t l.

  (* a step changes one thread t only; for every other thread the invariant is the old one *)
  Lemma wait_inv_step (s s' : lstate L) : wait_inv s -> lstep cls lt s s' -> wait_inv s'.
  Proof.
    intros I St. destruct St as [s t l Hw Hr | s t l Hw | s t l pre post Hw Hh];
      intros u m Hu m' Hm'; cbn in Hu, Hm'; unfold upd in Hu, Hm';
      destruct (Nat.eqb_spec u t) as [->|Ne]; try (eapply I; eassumption).
    - (* request *) injection Hu as <-. now apply Hr.
    - (* grant: the thread no longer waits *) discriminate.
    - (* release: only a thread that does not wait releases *) congruence.
  Qed.

  Lemma wait_inv_reach (s : lstate L) : lreach cls lt s -> wait_inv s.
  Proof. induction 1; [discriminate | eapply wait_inv_step; eassumption]. Qed.

  (* along a path of the wait-for graph the wanted classes strictly increase *)
  Lemma wait_path_increases (s : lstate L) : wait_inv s ->
    forall t t', clos_trans nat (wait_for s) t t' ->
      forall l', waiting s t' = Some l' -> exists l, waiting s t = Some l /\ lt (cls l) (cls l').
  Proof.
    intros I t t' P. induction P as [t t' [l [Hw Hin]] | t m t' _ IH1 _ IH2]; intros l' Hl'.
    - exists l. split; [assumption|]. eapply I; eassumption.
    - destruct (IH2 _ Hl') as [lm [Hm Hlt2]]. destruct (IH1 _ Hm) as [l [Hl Hlt1]].
      exists l. split; [assumption|]. eapply lt_trans; eassumption.
  Qed.

  Lemma wait_path_src_waits (s : lstate L) t t' : clos_trans nat (wait_for s) t t' -> exists l, waiting s t = Some l.
  Proof. induction 1 as [t t' [l [Hw _]] | t m t' _ IH1 _ _]; [now exists l | exact IH1]. Qed.

  Theorem lock_order_sound : forall s : lstate L, lreach cls lt s -> ~ deadlocked s.
  Proof.
    intros s R [t Cy]. pose proof (wait_inv_reach s R) as I.
    destruct (wait_path_src_waits s t t Cy) as [l Hl].
    destruct (wait_path_increases s I t t Cy l Hl) as [l0 [Hl0 Hlt]].
    rewrite Hl in Hl0. inversion Hl0; subst. exact (lt_irrefl _ Hlt).
  Qed.
End Sound.

Section ChecksP.
  Context {C : Type}.
  Context (eqb : C -> C -> bool).

  (* a ranking that increases along every edge *)
  Definition ranking (r : list (C * C)) (f : C -> nat) : Prop := forall a b, In (a, b) r -> f a < f b.

  Lemma rank_okb_sound rk r : rank_okb eqb rk r = true -> ranking r (lookup eqb rk).
  Proof.
    unfold rank_okb. intros H a b Hin. rewrite forallb_forall in H. specialize (H (a, b) Hin).
    cbn in H. now apply Nat.ltb_lt in H.
  Qed.

  Theorem acyclicb_sound r : acyclicb eqb r = true -> exists f, ranking r f.
  Proof. intros H. exists (lookup eqb (ranks eqb r)). now apply rank_okb_sound. Qed.

  Lemma ranking_path r f : ranking r f -> forall a b, clos_trans C (edge r) a b -> f a < f b.
  Proof. intros Rk a b P. induction P as [a b E | a m b _ IH1 _ IH2]; [now apply Rk | lia]. Qed.

  Theorem ranking_no_cycle r f : ranking r f -> forall x, ~ clos_trans C (edge r) x x.
  Proof. intros Rk x P. pose proof (ranking_path r f Rk x x P). lia. Qed.

  (* search functions: a positive answer exhibits what was searched for *)
  Context (eqb_eq : forall a b, eqb a b = true -> a = b).

  Theorem two_cycleb_sound r : two_cycleb eqb r = true ->
    exists a b, In (a, b) r /\ In (b, a) r.
  Proof.
    unfold two_cycleb. intros H. apply existsb_exists in H as [[a b] [Hin H]].
    apply existsb_exists in H as [[c d] [Hin' H]]. cbn in H.
    apply andb_true_iff in H as [H1 H2]. apply eqb_eq in H1. apply eqb_eq in H2. subst.
    now exists d, c.
  Qed.

  Corollary two_cycleb_cycle r : two_cycleb eqb r = true -> exists x, clos_trans C (edge r) x x.
  Proof.
    intros H. destruct (two_cycleb_sound r H) as [a [b [H1 H2]]]. exists a.
    eapply t_trans; apply t_step; [exact H1 | exact H2].
  Qed.

  Theorem reachb_sound r n : forall a b, reachb eqb r n a b = true -> clos_refl_trans C (edge r) a b.
  Proof.
    induction n as [|n IH]; intros a b H; cbn in H.
    - apply eqb_eq in H. subst. apply rt_refl.
    - apply orb_true_iff in H as [H|H].
      + apply eqb_eq in H. subst. apply rt_refl.
      + apply existsb_exists in H as [[c d] [Hin H]]. cbn in H. apply andb_true_iff in H as [H1 H2].
        apply eqb_eq in H1. subst. eapply rt_trans; [apply rt_step; exact Hin | now apply IH].
  Qed.

  (* a closed set that contains a contains everything reachable from a (no law of eqb needed) *)
  Theorem closed_setb_sound r S : closed_setb eqb r S = true ->
    forall a b, clos_refl_trans C (edge r) a b -> memb eqb a S = true -> memb eqb b S = true.
  Proof.
    intros H a b P. induction P as [a b E | a | a m b _ IH1 _ IH2]; intros Ha.
    - unfold closed_setb in H. rewrite forallb_forall in H. specialize (H (a, b) E). cbn in H.
      rewrite Ha in H. exact H.
    - exact Ha.
    - auto.
  Qed.
End ChecksP.

(* The combination used by C15: a relation R that contains every (held class, requested
   class) pair of the program and has a ranking excludes lock deadlocks. *)

Section Combined.
  Context {L C : Type}.
  Context (cls : L -> C).

  (* the discipline "every request is in R": the class of each held lock is R-related to the
     class of the requested one *)
  Definition in_relation (r : list (C * C)) (a b : C) : Prop := In (a, b) r.

  Lemma lreach_mono (lt lt' : C -> C -> Prop) : (forall a b, lt a b -> lt' a b) ->
    forall s : lstate L, lreach cls lt s -> lreach cls lt' s.
  Proof.
    intros M. induction 1 as [|s s' _ IH St]; [constructor|].
    eapply lreach_step; [exact IH|].
    destruct St as [s t l Hw Hr | s t l Hw | s t l pre post Hw Hh].
    - apply step_request; [assumption|]. intros l' Hl'. now apply M, Hr.
    - now apply step_grant.
    - eapply step_release; eassumption.
  Qed.

  (* every run that respects R also respects the strict order induced by the ranking *)
  Theorem ranking_no_deadlock (r : list (C * C)) f : ranking r f ->
    forall s : lstate L, lreach cls (in_relation r) s -> ~ deadlocked s.
  Proof.
    intros Rk s R. apply (lock_order_sound cls (fun a b => f a < f b)).
    - intros c. lia.
    - intros a b c. lia.
    - exact (lreach_mono _ _ Rk s R).
  Qed.
End Combined.
