(* Message.TotalBytes(version) = number of bytes Pack writes for MessageToPublish(msg, version). *)
From Coq Require Import List NArith ZArith Bool Lia ZifyN ZifyNat ZifyBool.
Import ListNotations.
From GM Require Import Base.Topic Base.Msg Model.CodecBase Model.CodecProps Model.CodecPackets
  Proofs.ListP Proofs.CodecBaseP Proofs.CodecStrP Proofs.CodecTotalP Proofs.CodecSizeP.
Open Scope N_scope.

Lemma varint_or_nil_len : forall n, len (encode_varint_or_nil n) = varlen n.
Proof.
  intros n. destruct (N.ltb_spec n 268435456).
  - rewrite encode_varint_or_nil_bytes by assumption. now apply varint_bytes_varlen.
  - unfold encode_varint_or_nil, varlen. rewrite encode_varint_big by assumption.
    replace (n <=? 127) with false by lia. replace (n <=? 16383) with false by lia.
    replace (n <=? 2097151) with false by lia. replace (n <=? 268435455) with false by lia. reflexivity.
Qed.

Lemma fold_subids : forall l a, fold_left (fun a v => a + 1 + varlen v) l a = a + len (flat_map pack_subid l).
Proof.
  induction l; intros a0; cbn [fold_left flat_map]; [rewrite len_nil; lia|].
  rewrite IHl, len_app. unfold pack_subid at 2. rewrite len_cons, varint_or_nil_len. lia.
Qed.
Lemma fold_uprops : forall (l : list (str * str)) a,
  fold_left (fun a kv => a + 5 + len (fst kv) + len (snd kv)) l a = a + len (flat_map pack_user l).
Proof.
  induction l; intros a0; cbn [fold_left flat_map]; [rewrite len_nil; lia|].
  rewrite IHl, len_app. unfold pack_user at 2. rewrite len_cons, len_app, !len_put_bin. lia.
Qed.

Lemma len_props_pack : forall p, len (props_pack (Some p)) = varlen (len (props_body p)) + len (props_body p).
Proof. intros. unfold props_pack. rewrite len_app, varint_or_nil_len. reflexivity. Qed.

(* the property block of a message *)
Definition msg_props_len (m : msg) : N :=
  (if m_pfmt m =? 1 then 2 else 0)
  + (if len (m_ctype m) =? 0 then 0 else 3 + len (m_ctype m))
  + (if len (m_corr m) =? 0 then 0 else 3 + len (m_corr m))
  + fold_left (fun a v => a + 1 + varlen v) (m_subids m) 0
  + (if m_expiry m =? 0 then 0 else 5)
  + (if len (m_resp m) =? 0 then 0 else 3 + len (m_resp m))
  + fold_left (fun a kv => a + 5 + len (fst kv) + len (snd kv)) (m_uprops m) 0.

(* MessageToPublish sets the single-valued properties from the largest identifier down, so ps_set puts each in
   front of those already there; all the identifiers are below 11, so Pack writes them before everything else *)
Definition osingle (id : N) (o : option pval) : list (N * pval) := match o with Some v => [(id, v)] | None => [] end.

Lemma add_front : forall id o l, Forall (fun e => id < fst e) l ->
  match o with Some v => ps_set id v l | None => l end = osingle id o ++ l.
Proof.
  intros id [v|] l H; [|reflexivity]. destruct l as [|[k w] r]; [reflexivity|].
  inversion H as [|e r' Hk _]; subst. cbn [ps_set fst osingle app] in *. apply N.ltb_lt in Hk. now rewrite Hk.
Qed.

Lemma osingle_ids : forall (P : N -> Prop) id o l,
  P id -> Forall (fun e => P (fst e)) l -> Forall (fun e => P (fst e)) (osingle id o ++ l).
Proof. intros P id o l Hid H. apply Forall_app. split; [destruct o; repeat constructor; exact Hid|exact H]. Qed.

Lemma props_body_low : forall p, Forall (fun e => fst e < 11) (pr_single p) ->
  props_body p = pack_singles (pr_single p) ++ flat_map pack_subid (pr_subid p) ++ flat_map pack_user (pr_user p).
Proof.
  intros p H. rewrite Forall_forall in H. unfold props_body.
  rewrite filter_all, !filter_none by (intros e He; specialize (H e He); lia). cbn [pack_singles flat_map app].
  now rewrite app_nil_r.
Qed.

Lemma len_osingle_str : forall id s,
  len (pack_singles (osingle id (opt_nonempty s))) = if len s =? 0 then 0 else 3 + len s.
Proof.
  intros id [|c t]; [reflexivity|]. cbn [opt_nonempty osingle pack_singles flat_map pack_single].
  rewrite app_nil_r, !len_cons, len_put_bin, len_cons. replace (1 + len t =? 0) with false by lia. lia.
Qed.

Lemma msg_props_body_len : forall m,
  match message_to_publish m 5 with
  | BPublish _ _ _ _ _ _ _ (Some p) => len (props_body p) = msg_props_len m
  | _ => False
  end.
Proof.
  intros m. unfold message_to_publish. cbn [N.eqb Pos.eqb].
  rewrite (add_front 9), (add_front 8), (add_front 3), (add_front 2), (add_front 1)
    by (repeat (apply osingle_ids; [reflexivity|]); constructor).
  rewrite props_body_low by (cbn [pr_single]; repeat (apply (osingle_ids (fun k => k < 11)); [reflexivity|]); constructor).
  cbn [pr_single pr_subid pr_user]. unfold pack_singles. rewrite !flat_map_app, !len_app. fold pack_singles.
  rewrite !len_osingle_str. unfold msg_props_len. rewrite fold_subids, fold_uprops.
  destruct (m_pfmt m =? 1), (m_expiry m =? 0); cbn [osingle pack_singles flat_map pack_single app];
    rewrite ?len_cons, ?len_app, ?len_put32, ?len_nil; lia.
Qed.

Lemma pack_body_publish_len : forall ver dup qos retain topic pid payload pr t fl bytes,
  pack_body (BPublish ver dup qos retain topic pid payload pr) = Ok (t, fl, bytes) ->
  len bytes = 2 + len topic + (if (qos =? 1) || (qos =? 2) then 2 else 0)
              + (if ver =? 5 then len (props_pack pr) else 0) + len payload.
Proof.
  intros. cbn [pack_body] in H. apply ok3_inj in H. destruct H as (_ & _ & <-).
  rewrite !len_app, len_put_bin.
  destruct ((qos =? 1) || (qos =? 2)); destruct (ver =? 5); rewrite ?len_put16, ?len_nil; lia.
Qed.

Lemma message_to_publish_shape : forall m v,
  exists pr, message_to_publish m v = BPublish v (m_dup m) (m_qos m) (m_retained m) (m_topic m) (m_pid m) (m_payload m) pr
             /\ (v = 5 -> exists p, pr = Some p /\ len (props_body p) = msg_props_len m).
Proof.
  intros m v. unfold message_to_publish. eexists. split; [reflexivity|]. intros ->.
  pose proof (msg_props_body_len m) as H. unfold message_to_publish in H. cbn [N.eqb Pos.eqb] in H |- *.
  eexists. split; [reflexivity|]. exact H.
Qed.

(* C06_size, second half *)
Theorem msg_total_bytes_pack : forall v m bs fh,
  m_qos m <= 2 -> pack_full (message_to_publish m v) = Ok (bs, fh) ->
  msg_total_bytes (v =? 5) m = len bs.
Proof.
  intros v m bs fh Hq Hp.
  rewrite <- (total_bytes_pack _ _ _ Hp).
  apply pack_full_inv in Hp. destruct Hp as (t & fl & bytes & h & Epb & -> & Hh & _).
  apply pack_fixhdr_len in Hh. destruct Hh as [Hlt _]. cbn [fh_rl] in Hlt.
  unfold total_bytes. cbn [p_fh fh_rl].
  destruct (message_to_publish_shape m v) as [pr [Hshape Hpr]]. rewrite Hshape in Epb.
  apply pack_body_publish_len in Epb.
  assert (Hpid : (if (m_qos m =? 1) || (m_qos m =? 2) then 2 else 0) = (if 0 <? m_qos m then 2 else 0)).
  { destruct (N.eqb_spec (m_qos m) 0) as [E|E]; [rewrite E; reflexivity|].
    replace ((m_qos m =? 1) || (m_qos m =? 2)) with true by lia. replace (0 <? m_qos m) with true by lia. reflexivity. }
  rewrite Hpid in Epb.
  assert (Hprops : (if v =? 5 then len (props_pack pr) else 0) = (if v =? 5 then msg_props_len m + varlen (msg_props_len m) else 0)).
  { destruct (N.eqb_spec v 5) as [E|E]; [|reflexivity]. destruct (Hpr E) as [p [-> Hl]].
    rewrite len_props_pack, Hl. lia. }
  rewrite Hprops in Epb.
  unfold msg_total_bytes. fold (msg_props_len m).
  assert (Hrl' : (let rl := len (m_payload m) + 2 + len (m_topic m) + (if 0 <? m_qos m then 2 else 0) in
                  if v =? 5 then rl + msg_props_len m + varlen (msg_props_len m) else rl) = len bytes).
  { cbv zeta. rewrite Epb. destruct (v =? 5); lia. }
  cbv zeta in Hrl'. rewrite Hrl'.
  destruct (len bytes <=? 127); [reflexivity|]. destruct (len bytes <=? 16383); [reflexivity|].
  destruct (len bytes <=? 2097151); [reflexivity|]. replace (len bytes <=? 268435455) with true by lia. reflexivity.
Qed.
