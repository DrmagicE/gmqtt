(* C15 - the reachable set of Model/ConnLife.v computed inside Coq and the theorems over it.

   Bounds of the instance: the peer delivers at most rx0 = 3 packets, the queue at most
   msgs0 = 2 messages, channel capacity 1, search depth <= fuel0 = 400 levels (the search
   returns None when the fuel does not suffice; `explored_some` states that it sufficed).
   Model of the code after the repairs 6670bb6 (readLoop) and b002260 (setError). *)
From Coq Require Import List Arith Bool PArith Lia.
Import ListNotations.
From GM Require Import Model.ConnLife Proofs.FiniteSys.

Definition code (s : st) : positive := enc (fields s).

Lemma code_inj : forall s s', code s = code s' -> s = s'.
Proof. enc_fields_inj. Qed.

Definition rx0 := 3.
Definition msgs0 := 2.
Definition init0 : st := init rx0 msgs0.
Definition fuel0 := 400.

Definition explored : option (list st) := explore next code fuel0 init0.
Definition reach_list : list st := match explored with Some l => l | None => [] end.

Definition reachable : st -> Prop := reachable_from next init0.

(* where a run may end: everything exited and `closed` closed *)
Definition good_end (s : st) : Prop := final s = true.

(* `close` is closed exactly when the Once has completed *)
Definition latch_inv (s : st) : bool := Bool.eqb (chClose s) (Nat.eqb (latch s) 2).

(* internalClose (close(closed)) only after every other goroutine has exited *)
Definition closed_inv (s : st) : bool :=
  negb (chClosed s)
  || (Nat.eqb (pR s) R5 && Nat.eqb (pW s) W3 && (Nat.eqb (pP s) PN || Nat.eqb (pP s) P3)
      && (Nat.eqb (pH s) HN || Nat.eqb (pH s) H4) && negb (sock s)).

(* `measure` with its sum nested to the right: unary addition recurses on its left argument, so
   this one is evaluated in one pass over the summands; the kernel's evaluator feels the difference *)
Definition measure_r (s : st) : nat :=
  rx s * wA + (inN s * wB + (msgs s * wC + (outN s * wD
  + (rankS s + (rankR s + (rankW s + (rankP s + rankH s))))))).

Lemma measure_r_eq s : measure_r s = measure s.
Proof. unfold measure_r, measure. lia. Qed.

(* everything that is checked of a state, so that the one evaluation below serves all theorems *)
Definition checks (s : st) : bool := stepb next measure_r final s && latch_inv s && closed_inv s.

(* Stated of the body of `explored`, and `explored` is unfolded by hand where it is met: a conversion
   between the two that starts at the wrong end runs the search in the kernel's slow evaluator. *)
Lemma explored_ok : checkb checks (explore next code fuel0 init0) = true.
Proof. vm_compute. reflexivity. Qed.

Lemma explored_some : is_some explored = true.
Proof. unfold explored. exact (checkb_some _ _ explored_ok). Qed.

Lemma reachable_checks s : reachable s ->
  stepb next measure_r final s = true /\ latch_inv s = true /\ closed_inv s = true.
Proof.
  intros R. apply (checkb_sound next code code_inj checks fuel0 init0 explored_ok) in R.
  unfold checks in R. rewrite !andb_true_iff in R. tauto.
Qed.

(* every state reachable by any run is in the computed list *)
Theorem reach_complete : forall s, reachable s -> In s reach_list.
Proof.
  pose proof explored_ok as H. unfold reach_list, explored.
  destruct (explore next code fuel0 init0) as [l|] eqn:E; [|discriminate].
  exact (explore_complete next code code_inj fuel0 init0 l E).
Qed.

(* a state without enabled transition is the final state: no stuck non-final state *)
Theorem stuck_classified : forall s, reachable s -> next s = [] -> good_end s.
Proof. intros s R. exact (proj1 (stepb_spec next measure_r final s (proj1 (reachable_checks s R)))). Qed.

Theorem measure_decreases : forall s s', reachable s -> In s' (next s) -> measure s' < measure s.
Proof.
  intros s s' R. rewrite <- !measure_r_eq.
  exact (proj2 (stepb_spec next measure_r final s (proj1 (reachable_checks s R))) s').
Qed.

(* every maximal run from every reachable state is finite (at most `measure init0` = 84 steps)
   and ends in the final state: all goroutines exited, `closed` closed *)
Theorem conn_no_stuck :
  forall s, reachable s -> ends_in next (fun s => final s = true) s /\ measure s <= measure init0.
Proof.
  intros s R. split.
  - exact (all_runs_end next measure good_end init0 stuck_classified measure_decreases s R).
  - exact (run_length_bounded next measure init0 measure_decreases s R).
Qed.

(* in particular from every reachable state in which `close` has been closed *)
Corollary conn_no_stuck_after_close :
  forall s, reachable s -> chClose s = true -> ends_in next (fun s => final s = true) s.
Proof. intros s R _. apply conn_no_stuck, R. Qed.

(* setError's once-semantics: `close` is closed exactly when the Once has completed; and
   close(closed) happens only after all other goroutines of the connection have exited and
   the socket has been closed *)
Theorem conn_once_and_order :
  forall s, reachable s -> chClose s = Nat.eqb (latch s) 2 /\ closed_inv s = true.
Proof.
  intros s R. destruct (reachable_checks s R) as (_ & L & C). split; [now apply Bool.eqb_prop | exact C].
Qed.

(* the situations of the two repaired findings still ARISE - they are no longer blocked states.
   [fields] order: pS pR pW pP pH inN inClosed outN close connected closed latch sock qclosed okc spawn rx msgs *)

(* the connect phase times out, the peer sends two more packets: `in` is full when the reader
   wants to hand over the second one; `close` is closed, so the packet is dropped *)
Definition run_full_in : list nat := [0; 0; 1; 0; 1; 1; 1].

(* a connected v5 client; the writer has failed on the socket and waits for setError, `out` is
   full, the handler is about to call setError with a *codes.Error: the DISCONNECT is dropped *)
Definition run_full_out : list nat := [1; 1; 1; 0; 0; 1; 1; 0; 0; 1; 0; 2; 3; 2; 6; 2].

(* a clean run of a connected client to the final state *)
Definition run_ok : list nat := [1; 1; 1; 0; 1; 3; 1; 1; 0; 1; 0; 1; 0; 2; 0; 1; 0; 0; 0; 0].

Lemma run_full_in_ok :
  reaches next (fun s => reader_waits_on_full_in s && chClose s && negb (stuck next s)) run_full_in init0 = true.
Proof. vm_compute. reflexivity. Qed.

Lemma run_full_out_ok :
  reaches next (fun s => Nat.eqb (pH s) H3q && Nat.eqb (outN s) cap && Nat.eqb (latch s) 0 && Nat.eqb (pW s) W2
                         && negb (stuck next s)) run_full_out init0 = true.
Proof. vm_compute. reflexivity. Qed.

Lemma run_ok_ok : reaches next (fun s => final s && okc s && chClosed s) run_ok init0 = true.
Proof. vm_compute. reflexivity. Qed.

(* non-vacuity *)
Theorem former_blocked_states_reachable :
  (exists s, reachable s /\ reader_waits_on_full_in s = true /\ chClose s = true /\ next s <> []) /\
  (exists s, reachable s /\ pH s = H3q /\ outN s = cap /\ latch s = 0 /\ pW s = W2 /\ next s <> []).
Proof.
  split.
  - destruct (reaches_spec _ _ _ _ run_full_in_ok) as [s [R H]].
    rewrite !andb_true_iff, negb_true_iff in H. destruct H as [[H1 H2] Hs].
    exists s. auto using not_stuck.
  - destruct (reaches_spec _ _ _ _ run_full_out_ok) as [s [R H]].
    rewrite !andb_true_iff, !Nat.eqb_eq, negb_true_iff in H. destruct H as [[[[H1 H2] H3] H4] Hs].
    exists s. repeat split; auto using not_stuck.
Qed.

Theorem final_reachable : exists s, reachable s /\ final s = true /\ okc s = true.
Proof.
  destruct (reaches_spec _ _ _ _ run_ok_ok) as [s [R H]].
  rewrite !andb_true_iff in H. exists s. tauto.
Qed.
