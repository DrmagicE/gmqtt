(* C14 (static half) - the loop shape found in initPluginHooks computes `compose`, and the
   statements over the generated table Gen/HookKinds.v. *)
From Coq Require Import List Arith Bool String Lia.
Import ListNotations.
From GM Require Import Gen.HookKinds Model.Hooks Proofs.ListP.

Section ComposeP.
  Context {H : Type}.

  Lemma compose_app (ws1 ws2 : list (H -> H)) base :
    compose (ws1 ++ ws2) base = compose ws1 (compose ws2 base).
  Proof. unfold compose. now rewrite fold_right_app. Qed.

  Lemma loop_desc_firstn (ws : list (H -> H)) :
    forall i h, i <= List.length ws -> loop_desc ws i h = compose (firstn i ws) h.
  Proof.
    induction i as [|i IH]; intros h Hi; [reflexivity|].
    cbn [loop_desc]. rewrite IH by lia.
    rewrite (firstn_S_nth ws i (fun x => x)) by lia. now rewrite compose_app.
  Qed.

  (* the descending loop of initPluginHooks installs compose ws base *)
  Theorem loop_desc_compose (ws : list (H -> H)) base :
    loop_desc ws (List.length ws) base = compose ws base.
  Proof. rewrite loop_desc_firstn by lia. now rewrite firstn_all. Qed.

  (* the ascending loop would install the wrappers in the opposite nesting *)
  Theorem loop_asc_compose_rev (ws : list (H -> H)) base :
    loop_asc ws base = compose (rev ws) base.
  Proof. unfold loop_asc, compose. now rewrite fold_left_rev_right. Qed.

  (* first plugin outermost *)
  Theorem compose_first_outermost (w : H -> H) ws base :
    compose (w :: ws) base = w (compose ws base).
  Proof. reflexivity. Qed.

  Theorem compose_nil (base : H) : compose [] base = base.
  Proof. reflexivity. Qed.
End ComposeP.

(* what initPluginHooks installs for a row, as a function of the contents of the local wrapper
   slices (`sl` maps the name of a slice to the wrappers collected into it, in plugin_order) and of
   the hook the fold starts from: the loop runs over the LENGTH of slice hr_bound and takes its
   wrappers from slice hr_indexed *)
Definition installed {H : Type} (row : hook_row) (sl : string -> list (H -> H)) (base : H) : H :=
  if hr_applied row then
    match hr_dir row with
    | Desc => loop_desc (sl (hr_indexed row)) (List.length (sl (hr_bound row))) base
    | Asc => loop_asc (firstn (List.length (sl (hr_bound row))) (sl (hr_indexed row))) base
    | NoLoop => base
    end
  else base.

(* shape of an apply block: folds downwards over the field's OWN slice (bound and indexed slice are
   the slice the field is collected into), starts from and stores to the hook of its kind *)
Definition row_order_ok (row : hook_row) : bool :=
  match hr_dir row with Desc => true | _ => false end
  && String.eqb (hr_bound row) (hr_slice row) && String.eqb (hr_indexed row) (hr_slice row)
  && String.eqb (hr_base row) (hr_kind row) && String.eqb (hr_store row) (hr_kind row).

Fixpoint strs_eqb (a b : list string) : bool :=
  match a, b with
  | [], [] => true
  | x :: a', y :: b' => String.eqb x y && strs_eqb a' b'
  | _, _ => false
  end.

Definition mem_str (x : string) (l : list string) : bool := existsb (String.eqb x) l.

(* the table has exactly one row per HookWrapper field, and the kinds are exactly the Hooks fields *)
Definition table_covers : bool :=
  strs_eqb (map hr_field hook_rows) hook_wrapper_fields
  && forallb (fun k => mem_str k hooks_fields) (map hr_kind hook_rows)
  && forallb (fun k => mem_str k (map hr_kind hook_rows)) hooks_fields
  && Nat.eqb (List.length hook_rows) (List.length hooks_fields).

Lemma table_covers_ok : table_covers = true.
Proof. vm_compute. reflexivity. Qed.

Definition reauth : string := "OnReAuthWrapper"%string.

(* FULL statement (holds since repair 00ceffb; before it OnReAuthWrapper was collected and never applied) *)
Lemma installed_all :
  forall row, In row hook_rows -> hr_collected row && hr_applied row = true.
Proof.
  apply forallb_forall with (f := fun row => hr_collected row && hr_applied row). vm_compute. reflexivity.
Qed.

Lemma reauth_row_installed :
  exists row, In row hook_rows /\ hr_field row = reauth /\ hr_collected row = true /\ hr_applied row = true.
Proof.
  assert (H : existsb (fun r => String.eqb (hr_field r) reauth) hook_rows = true) by (vm_compute; reflexivity).
  apply existsb_exists in H as (row & Hin & H). apply String.eqb_eq in H.
  pose proof (installed_all row Hin) as I. apply andb_true_iff in I. exists row. tauto.
Qed.

(* every apply block that exists folds right-to-left from the hook of its own kind *)
Lemma order_table :
  forall row, In row hook_rows -> hr_applied row = true -> row_order_ok row = true.
Proof.
  assert (H : forallb (fun r => negb (hr_applied r) || row_order_ok r) hook_rows = true)
    by (vm_compute; reflexivity).
  intros row Hin Ha. apply (proj1 (forallb_forall _ _) H) in Hin. now rewrite Ha in Hin.
Qed.

Theorem order_installed :
  forall row, In row hook_rows -> hr_applied row = true ->
    hr_base row = hr_kind row /\ hr_store row = hr_kind row /\
    hr_bound row = hr_slice row /\ hr_indexed row = hr_slice row /\
    forall (H : Type) (sl : string -> list (H -> H)) (base : H),
      installed row sl base = compose (sl (hr_slice row)) base.
Proof.
  intros row Hin Ha. pose proof (order_table row Hin Ha) as Ok.
  unfold row_order_ok in Ok. rewrite !andb_true_iff, !String.eqb_eq in Ok.
  destruct Ok as ((((Hd & Hbd) & Hi) & Hb) & Hs). repeat split; try assumption.
  intros H sl base. unfold installed. rewrite Ha, Hbd, Hi.
  destruct (hr_dir row); try discriminate. apply loop_desc_compose.
Qed.

(* the collect slices are pairwise different: no two fields share a slice *)
Fixpoint nodup_strs (l : list string) : bool :=
  match l with [] => true | x :: tl => negb (existsb (String.eqb x) tl) && nodup_strs tl end.

Lemma slices_distinct : nodup_strs (map hr_slice hook_rows) = true.
Proof. vm_compute. reflexivity. Qed.

(* a loop bounded by the length of ANOTHER slice installs something else: too short a bound drops
   the wrappers of the first plugins *)
Example wrong_bound_differs : loop_desc [tag 1; tag 2; tag 3] 1 [] = [1] /\ compose [tag 1; tag 2; tag 3] [] = [1; 2; 3].
Proof. split; reflexivity. Qed.

(* non-vacuity: the nesting matters, and the two loop shapes differ *)
Example compose_trace : compose [tag 1; tag 2; tag 3] [] = [1; 2; 3].
Proof. reflexivity. Qed.

Example loop_desc_trace : loop_desc [tag 1; tag 2; tag 3] 3 [] = [1; 2; 3].
Proof. reflexivity. Qed.

Example loop_asc_trace : loop_asc [tag 1; tag 2; tag 3] [] = [3; 2; 1].
Proof. reflexivity. Qed.

Example some_row_applied : exists row, In row hook_rows /\ hr_applied row = true.
Proof.
  destruct reauth_row_installed as (row & Hin & _ & _ & Ha). now exists row.
Qed.

Theorem loop_shape :
  forall (H : Type) (ws : list (H -> H)) (base : H),
    loop_desc ws (List.length ws) base = compose ws base /\ loop_asc ws base = compose (rev ws) base.
Proof. intros H ws base. split; [apply loop_desc_compose | apply loop_asc_compose_rev]. Qed.

Example nesting_matters :
  compose [tag 1; tag 2; tag 3] [] = [1; 2; 3] /\ loop_desc [tag 1; tag 2; tag 3] 3 [] = [1; 2; 3]
  /\ loop_asc [tag 1; tag 2; tag 3] [] = [3; 2; 1].
Proof. exact (conj compose_trace (conj loop_desc_trace loop_asc_trace)). Qed.
