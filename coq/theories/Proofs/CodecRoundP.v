(* Pack followed by Unpack, packet by packet, for every value satisfying the invariant the decoder
   establishes (dec_inv).  SUBSCRIBE and UNSUBSCRIBE are in CodecRound2P.v, CONNECT in CodecConnectP.v. *)
From Coq Require Import List NArith ZArith Bool Lia ZifyN ZifyNat ZifyBool Sorted.
Import ListNotations.
From GM Require Import Base.Topic Base.Msg Model.CodecBase Model.CodecProps Model.CodecPackets
  Proofs.CodecBaseP Proofs.CodecStrP Proofs.CodecTotalP Proofs.CodecPropsP Proofs.CodecPropsInvP.
Open Scope N_scope.

(* the first byte of the fixed header: PacketType<<4 | Flags, read back as first>>4, first&15 *)
Lemma hdr_byte : forall t f, t < 16 -> f < 16 ->
  N.shiftr (N.lor ((t * 16) mod 256) f) 4 = t /\ N.land (N.lor ((t * 16) mod 256) f) 15 = f.
Proof.
  intros t f Ht Hf. rewrite N.mod_small, N.lor_comm by lia.
  change (t * 16) with (t * 2 ^ 4). rewrite <- N.shiftl_mul_pow2, lor_disjoint by (cbn; lia).
  rewrite N.shiftr_div_pow2. change 15 with (N.ones 4). rewrite N.land_ones. change (2 ^ 4) with 16. lia.
Qed.

Definition n_of_bool (b : bool) : N := if b then 1 else 0.
Lemma publish_flags_rt : forall dup qos retain, qos <= 2 -> negb ((qos =? 0) && dup) = true ->
  publish_flags (N.lor (N.lor (b2n dup 8) (b2n retain 1)) ((qos * 2) mod 256)) = Ok (dup, qos, retain)
  /\ N.lor (N.lor (b2n dup 8) (b2n retain 1)) ((qos * 2) mod 256) < 16.
Proof.
  intros dup qos retain Hq Hd.
  assert (Hc : qos = 0 \/ qos = 1 \/ qos = 2) by lia.
  destruct Hc as [ -> | [ -> | -> ] ]; destruct dup, retain; cbn in Hd; try discriminate;
    split; vm_compute; reflexivity.
Qed.

Definition oprops_inv (v ctx : N) (pr : option props) : Prop :=
  if v =? 5 then exists p, pr = Some p /\ props_inv ctx p else pr = None.

(* reason code + properties of PUBACK..PUBCOMP, PUBREL, AUTH: absent (nil, code 0) or present *)
Definition ack_inv (present_ok : bool) (ctx code : N) (pr : option props) : Prop :=
  (pr = None /\ code = 0) \/ (present_ok = true /\ code < 256 /\ exists p, pr = Some p /\ props_inv ctx p).

(* a PUBLISH has a non-empty topic name, or (v5) a Topic Alias *)
Definition pub_topic_ok (v : N) (topic : str) (pr : option props) : bool :=
  negb ((len topic =? 0)
        && (negb (v =? 5) || match pr with Some p => negb (is_some (ps_get 35 (pr_single p))) | None => true end)).

Definition dec_inv (v : N) (b : body) : Prop :=
  match b with
  | BConnack ver code sp pr => ver = v /\ code < 256 /\ oprops_inv v CONNACK pr
  | BPublish ver dup qos retain topic pid payload pr =>
      ver = v /\ qos <= 2 /\ negb ((qos =? 0) && dup) = true /\ istr_ok topic = true
      /\ (topic = [] \/ impl_name topic = true)
      /\ pid < 65536 /\ (qos = 0 -> pid = 0) /\ (qos <> 0 -> pid <> 0)
      /\ oprops_inv v PUBLISH pr /\ pub_topic_ok v topic pr = true
  | BAck t ver pid code pr =>
      (t = PUBACK \/ t = PUBREC \/ t = PUBCOMP) /\ ver = v /\ pid < 65536 /\ ack_inv (v =? 5) t code pr
  | BPubrel pid code pr => pid < 65536 /\ ack_inv true PUBREL code pr
  | BSuback ver pid payload pr => ver = v /\ pid < 65536 /\ payload <> [] /\ oprops_inv v SUBACK pr
  | BUnsuback ver pid payload pr =>
      ver = v /\ pid < 65536 /\
      if is_v3x v then payload = [] /\ pr = None
      else payload <> [] /\ exists p, pr = Some p /\ props_inv UNSUBACK p
  | BPingreq | BPingresp => True
  | BDisconnect ver code pr =>
      ver = v /\ if v =? 5 then code < 256 /\ exists p, pr = Some p /\ props_inv DISCONNECT p else code = 0 /\ pr = None
  | BAuth code pr => ack_inv true AUTH code pr
  | _ => False       (* CONNECT, SUBSCRIBE, UNSUBSCRIBE: CodecRound2P.v *)
  end.

Definition BIG : N := 268435456.

Lemma len_lt_app_l : forall (a b : list N) n, len (a ++ b) < n -> len a < n.
Proof. intros a b n H. rewrite len_app in H. lia. Qed.
Lemma len_lt_app_r : forall (a b : list N) n, len (a ++ b) < n -> len b < n.
Proof. intros a b n H. rewrite len_app in H. lia. Qed.

Lemma props_pack_len : forall p, len (props_body p) <= len (props_pack (Some p)).
Proof. intros. unfold props_pack. rewrite len_app. lia. Qed.

Lemma props_rt : forall pt p rest, props_inv pt p -> len (props_pack (Some p)) < BIG ->
  props_unpack pt (props_pack (Some p) ++ rest) = Ok (p, rest).
Proof. intros. apply props_unpack_pack; [assumption|]. pose proof (props_pack_len p). unfold BIG in *. lia. Qed.
Lemma props_rt_nil : forall pt p, props_inv pt p -> len (props_pack (Some p)) < BIG ->
  props_unpack pt (props_pack (Some p)) = Ok (p, []).
Proof. intros. rewrite <- (app_nil_r (props_pack (Some p))). now apply props_rt. Qed.

(* the `if Version == 5 { Properties.Unpack }` of most packets, on `if Version == 5 { Properties.Pack }` *)
Lemma oprops_rt : forall v ctx pr rest,
  oprops_inv v ctx pr -> len ((if v =? 5 then props_pack pr else []) ++ rest) < BIG ->
  (if v =? 5 then do '(p, b') <- props_unpack ctx ((if v =? 5 then props_pack pr else []) ++ rest); Ok (Some p, b')
   else Ok (None, (if v =? 5 then props_pack pr else []) ++ rest)) = Ok (pr, rest).
Proof.
  intros v ctx pr rest Hpr Hlen. unfold oprops_inv in Hpr. destruct (v =? 5).
  - destruct Hpr as [p [-> Hinv]]. rewrite props_rt by eauto using len_lt_app_l. reflexivity.
  - subst pr. reflexivity.
Qed.

Lemma rt_publish : forall v dup qos retain topic pid payload pr t fl bytes,
  dec_inv v (BPublish v dup qos retain topic pid payload pr) ->
  pack_body (BPublish v dup qos retain topic pid payload pr) = Ok (t, fl, bytes) -> len bytes < BIG ->
  t = PUBLISH /\ fl < 16 /\ publish_flags fl = Ok (dup, qos, retain)
  /\ parse_publish v dup qos retain bytes = Ok (BPublish v dup qos retain topic pid payload pr).
Proof.
  intros v dup qos retain topic pid payload pr t fl bytes (_ & Hq & Hd & Ht & Hn & Hp & Hp0 & Hp1 & Hpr & Htok) Hpack Hlen.
  unfold pub_topic_ok in Htok. apply negb_true_iff in Htok.
  cbn [pack_body] in Hpack. apply ok3_inj in Hpack as (<- & <- & <-).
  destruct (publish_flags_rt dup qos retain Hq Hd) as [Hf Hlt].
  split; [reflexivity|]. split; [assumption|]. split; [assumption|].
  unfold parse_publish. rewrite istr_ok_rt by assumption. cbn [bind].
  assert (Hname : (if len topic =? 0 then Ok true else valid_topic_name_impl true topic) = Ok true).
  { destruct Hn as [->|Hn]; [reflexivity|]. destruct (len topic =? 0); [reflexivity|now apply ok_true_iff]. }
  rewrite Hname. cbn [bind negb].
  destruct (N.eqb_spec qos 0) as [->|Hq0].
  - cbn [N.ltb N.compare N.eqb orb app bind]. rewrite Hp0 by reflexivity.
    rewrite oprops_rt by eauto using len_lt_app_r.
    cbn [bind]. rewrite Htok. reflexivity.
  - replace (0 <? qos) with true by lia. replace ((qos =? 1) || (qos =? 2)) with true by lia.
    rewrite read_uint16_put16 by assumption. cbn [bind]. replace (pid =? 0) with false by (specialize (Hp1 Hq0); lia). cbn [bind].
    rewrite oprops_rt by eauto using len_lt_app_r.
    cbn [bind]. rewrite Htok. reflexivity.
Qed.

Lemma ack_tail_rt : forall pt code pr tail,
  ack_inv true pt code pr ->
  tail = (if negb (code =? 0) || is_some pr then code :: props_pack pr else []) -> len tail < BIG ->
  (tail = [] /\ pr = None /\ code = 0) \/
  (exists p, pr = Some p /\ tail = code :: props_pack (Some p) /\ read_byte tail = Ok (code, props_pack (Some p))
             /\ props_unpack pt (props_pack (Some p)) = Ok (p, [])).
Proof.
  intros pt code pr tail [[-> ->]|(_ & Hc & p & -> & Hinv)] -> Hlen.
  - left. cbn. auto.
  - right. exists p. cbn [is_some]. rewrite orb_true_r in *. repeat split.
    apply props_rt_nil; [assumption|]. unfold BIG in *. rewrite len_cons in Hlen. lia.
Qed.

Lemma rt_ack : forall v t pid code pr ty fl bytes,
  dec_inv v (BAck t v pid code pr) ->
  pack_body (BAck t v pid code pr) = Ok (ty, fl, bytes) -> len bytes < BIG ->
  ty = t /\ fl = 0 /\ parse_ack t v (len bytes) bytes = Ok (BAck t v pid code pr).
Proof.
  intros v t pid code pr ty fl bytes (Ht & _ & Hp & Hack) Hpack Hlen.
  cbn [pack_body] in Hpack. apply ok3_inj in Hpack as (<- & <- & <-).
  split; [reflexivity|]. split; [reflexivity|].
  unfold parse_ack. rewrite read_uint16_put16 by assumption. cbn [bind].
  rewrite len_app, len_put16 in *.
  destruct Hack as [[-> ->]|(Hv & Hc & p & -> & Hinv)].
  - cbn [is_some N.eqb negb orb andb]. rewrite andb_false_r. cbn [len length]. reflexivity.
  - rewrite Hv in *. cbn [is_some andb] in *. rewrite orb_true_r, len_cons in *.
    replace (2 + (1 + len (props_pack (Some p))) =? 2) with false by lia.
    cbn [read_byte remap bind]. rewrite props_rt_nil; [reflexivity|assumption|unfold BIG in *; lia].
Qed.

Lemma rt_pubrel : forall v pid code pr ty fl bytes,
  dec_inv v (BPubrel pid code pr) ->
  pack_body (BPubrel pid code pr) = Ok (ty, fl, bytes) -> len bytes < BIG ->
  ty = PUBREL /\ fl = 2 /\ parse_pubrel (len bytes) bytes = Ok (BPubrel pid code pr).
Proof.
  intros v pid code pr ty fl bytes (Hp & Hack) Hpack Hlen.
  cbn [pack_body] in Hpack. apply ok3_inj in Hpack as (<- & <- & <-).
  split; [reflexivity|]. split; [reflexivity|].
  unfold parse_pubrel. rewrite read_uint16_put16 by assumption. cbn [bind].
  destruct (ack_tail_rt PUBREL code pr _ Hack eq_refl (len_lt_app_r _ _ _ Hlen)) as [(-> & -> & ->)|(p & -> & -> & _ & Hrt)].
  - reflexivity.
  - rewrite len_app, len_put16, len_cons. replace (2 + (1 + len (props_pack (Some p))) =? 2) with false by lia.
    cbn [read_byte bind]. rewrite Hrt. reflexivity.
Qed.

Lemma rt_connack : forall v code sp pr ty fl bytes,
  dec_inv v (BConnack v code sp pr) ->
  pack_body (BConnack v code sp pr) = Ok (ty, fl, bytes) -> len bytes < BIG ->
  ty = CONNACK /\ fl = 0 /\ parse_connack v bytes = Ok (BConnack v code sp pr).
Proof.
  intros v code sp pr ty fl bytes (_ & Hc & Hpr) Hpack Hlen.
  cbn [pack_body] in Hpack. apply ok3_inj in Hpack as (<- & <- & <-).
  split; [reflexivity|]. split; [reflexivity|].
  unfold parse_connack. cbn [app].
  replace (0 <? N.land 127 (N.shiftr (b2n sp 1) 1)) with false by (destruct sp; reflexivity).
  cbn [read_byte remap bind]. replace (b2n sp 1 =? 1) with sp by (destruct sp; reflexivity).
  rewrite <- (app_nil_r (if v =? 5 then _ else _)).
  rewrite oprops_rt; [reflexivity|assumption|unfold BIG in *; cbn [app] in Hlen; rewrite !len_cons in Hlen; rewrite app_nil_r; lia].
Qed.

Lemma rt_suback : forall v pid payload pr ty fl bytes,
  dec_inv v (BSuback v pid payload pr) ->
  pack_body (BSuback v pid payload pr) = Ok (ty, fl, bytes) -> len bytes < BIG ->
  ty = SUBACK /\ fl = 0 /\ parse_suback v bytes = Ok (BSuback v pid payload pr).
Proof.
  intros v pid payload pr ty fl bytes (_ & Hp & Hne & Hpr) Hpack Hlen.
  cbn [pack_body] in Hpack. apply ok3_inj in Hpack as (<- & <- & <-).
  split; [reflexivity|]. split; [reflexivity|].
  unfold parse_suback. rewrite read_uint16_put16 by assumption. cbn [remap bind].
  rewrite oprops_rt by eauto using len_lt_app_r.
  cbn [bind]. destruct payload; [congruence|reflexivity].
Qed.

Lemma rt_unsuback : forall v pid payload pr ty fl bytes,
  (v = 3 \/ v = 4 \/ v = 5) ->
  dec_inv v (BUnsuback v pid payload pr) ->
  pack_body (BUnsuback v pid payload pr) = Ok (ty, fl, bytes) -> len bytes < BIG ->
  ty = UNSUBACK /\ fl = 0 /\ parse_unsuback v bytes = Ok (BUnsuback v pid payload pr).
Proof.
  intros v pid payload pr ty fl bytes Hv (_ & Hp & Hrest) Hpack Hlen.
  cbn [pack_body] in Hpack. apply ok3_inj in Hpack as (<- & <- & <-).
  split; [reflexivity|]. split; [reflexivity|].
  unfold parse_unsuback. rewrite read_uint16_put16 by assumption. cbn [bind].
  destruct Hv as [ -> | [ -> | -> ] ]; cbn [is_v3x N.eqb Pos.eqb orb] in *.
  - destruct Hrest as [-> ->]. reflexivity.
  - destruct Hrest as [-> ->]. reflexivity.
  - destruct Hrest as [Hne [p [-> Hinv]]].
    rewrite props_rt by eauto using len_lt_app_l, len_lt_app_r.
    cbn [bind]. destruct payload; [congruence|reflexivity].
Qed.

Lemma rt_disconnect : forall v code pr ty fl bytes,
  (v = 3 \/ v = 4 \/ v = 5) ->
  dec_inv v (BDisconnect v code pr) ->
  pack_body (BDisconnect v code pr) = Ok (ty, fl, bytes) -> len bytes < BIG ->
  ty = DISCONNECT /\ fl = 0 /\ parse_disconnect v (len bytes) bytes = Ok (BDisconnect v code pr).
Proof.
  intros v code pr ty fl bytes Hv (_ & Hrest) Hpack Hlen.
  destruct Hv as [ -> | [ -> | -> ] ]; cbn [pack_body is_v3x N.eqb Pos.eqb orb] in *.
  - apply ok3_inj in Hpack as (<- & <- & <-). destruct Hrest as [-> ->]. repeat split.
  - apply ok3_inj in Hpack as (<- & <- & <-). destruct Hrest as [-> ->]. repeat split.
  - destruct Hrest as [Hc [p [-> Hinv]]]. cbn [is_some] in Hpack. rewrite orb_true_r in Hpack.
    apply ok3_inj in Hpack as (<- & <- & <-). repeat split.
    unfold parse_disconnect. cbn [N.eqb Pos.eqb]. rewrite len_cons in *.
    replace (1 + len (props_pack (Some p)) =? 0) with false by lia.
    cbn [read_byte remap bind]. rewrite props_rt_nil; [reflexivity|assumption|unfold BIG in *; lia].
Qed.

Lemma rt_auth : forall v code pr ty fl bytes,
  dec_inv v (BAuth code pr) ->
  pack_body (BAuth code pr) = Ok (ty, fl, bytes) -> len bytes < BIG ->
  ty = AUTH /\ fl = 0 /\
  ((bytes = [] /\ code = 0 /\ pr = None) \/ (bytes <> [] /\ parse_auth bytes = Ok (BAuth code pr))).
Proof.
  intros v code pr ty fl bytes Hack Hpack Hlen.
  cbn [pack_body] in Hpack. apply ok3_inj in Hpack as (<- & <- & <-).
  split; [reflexivity|]. split; [reflexivity|].
  destruct (ack_tail_rt AUTH code pr _ Hack eq_refl Hlen) as [(-> & -> & ->)|(p & -> & -> & _ & Hrt)].
  - left. auto.
  - right. split; [discriminate|]. unfold parse_auth. cbn [read_byte remap bind]. rewrite Hrt. reflexivity.
Qed.
