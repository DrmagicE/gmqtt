(* C09, the two remaining clauses of the crash property, for ANY prefix of the command journal:

   The unack store (persistence/unack/redis; Model/Crash.v `ru_step`): every operation
   issues at most one command, so a cut never falls inside an operation: the store left by any
   prefix of the journal is the store after a whole number j of operations, and the set of
   QoS 2 packet ids a restarted broker reloads from it (HKEYS = `stored_unack`) is the abstract
   set after those j operations.

   The session queue (persistence/queue/redis; Model/RQueue.v as repaired): the list a
   restarted broker reloads (`lview` = what LRANGE on the key returns) after any prefix of the
   journal is the list after the last completed operation with a prefix of the commands of the
   operation in progress applied to it (`queue_cut_decomposition`), and
     - which intermediate lists exist, per operation (`*_shape`, `add_cut_lists`, ...);
     - provenance, run level: every reloaded element is an element supplied by an Add / a Replace
       of the history (or stored initially) up to packet id and expiry (`queue_cut_provenance`);
     - no duplication, run level: the list has at most one slot per RPUSH executed, only Add
       issues RPUSH, at most one per call (`queue_cut_length`, `only_add_pushes`);
     - no loss / order, one operation in progress on a consistent store (in-flight entries in
       front of the queued ones, cursor behind the in-flight entries): `add_cut_lists`,
       `readinflight_cut`, `read_cut`. *)
From Coq Require Import List NArith ZArith Bool Arith Lia.
Import ListNotations.
From GM Require Import Base.Topic Base.Msg Model.SubTrie Model.SubSpec Model.Queue Model.Redis Model.RQueue Model.Crash
  Proofs.TopicP Proofs.ListP Proofs.SubTrieP Proofs.CrashP.
Open Scope N_scope.

(* the abstract set of packet ids awaiting PUBREL *)
Definition ua_spec (st : list N) (o : ruop) : list N :=
  match o with
  | RUInit clean => if clean then [] else st
  | RUSet id => if memN id st then st else id :: st
  | RURemove id => delN id st
  | RURestart => st
  end.

Definition u16 (n : N) : Prop := n < 65536.
Definition seteq16 (a b : list N) : Prop := forall x, u16 x -> memN x a = memN x b.

Definition ruop_u16 (o : ruop) : Prop :=
  match o with RUSet id | RURemove id => u16 id | _ => True end.

(* the stored hash: distinct fields, every field the decimal form of a packet id *)
Definition uh_ok (h : list (str * blob)) : Prop :=
  NoDup (map fst h) /\ Forall (fun fv => exists n, u16 n /\ fst fv = dec n) h.

Definition ustore_ok (c : cid) (s : rstore) : Prop :=
  NoDup (map fst s) /\ (forall l, aget (unack_key c) s <> Some (RList l)) /\ uh_ok (unack_tb c s).

(* the cache of the store object only holds stored ids *)
Definition ucache_ok (c : cid) (s : rstore) (cache : list N) : Prop :=
  Forall (fun x => u16 x /\ memN x (stored_unack c s) = true) cache.

(* Packet ids are 16 bit numbers and the invariants above say so, but nothing depends on the bound
   (`dec` is injective on all of N): the same invariants without it *)
Definition uh_any (h : list (str * blob)) : Prop :=
  NoDup (map fst h) /\ Forall (fun fv => exists n, fst fv = dec n) h.
Definition ustore_any (c : cid) (s : rstore) : Prop :=
  NoDup (map fst s) /\ no_list (unack_key c) s /\ uh_any (unack_tb c s).
Definition ucache_any (c : cid) (s : rstore) (cache : list N) : Prop :=
  Forall (fun x => memN x (stored_unack c s) = true) cache.
Definition seteq (a b : list N) : Prop := forall x, memN x a = memN x b.

Lemma ustore_ok_any c s : ustore_ok c s -> ustore_any c s.
Proof.
  intros (H1 & H2 & H3 & H4). split; [exact H1|]. split; [exact H2|]. split; [exact H3|].
  eapply Forall_impl; [|exact H4]. intros fv (n & _ & E). now exists n.
Qed.

Lemma ids_mem h x : uh_any h ->
  memN x (ids_of_hash h) = match aget (dec x) h with Some _ => true | None => false end.
Proof.
  intros [_ Hf]. induction Hf as [|[f v] r (n & Hfn) _ IH]; [reflexivity|].
  cbn [fst] in Hfn. subst f. rewrite ids_of_hash_dec. cbn [memN aget]. rewrite IH, dec_eqb. now destruct (x =? n).
Qed.

Lemma uh_any_aset n v h : uh_any h -> uh_any (aset (dec n) v h).
Proof. intros [Hnd Hf]. split; [now apply NoDup_aset|]. apply Forall_aset; [exact Hf|]. now exists n. Qed.

Lemma uh_any_adel f h : uh_any h -> uh_any (adel f h).
Proof. intros [Hnd Hf]. split; [now apply NoDup_adel|now apply Forall_adel]. Qed.

Lemma uh_any_nil : uh_any [].
Proof. split; constructor. Qed.

(* a hash command on unack:<c> does to the stored hash what `hexec` says *)
Lemma ustore_exec c s cmd :
  ustore_any c s -> hcmd cmd -> cmd_key cmd = unack_key c -> uh_any (hexec (unack_tb c s) cmd) ->
  ustore_any c (exec s cmd) /\ unack_tb c (exec s cmd) = hexec (unack_tb c s) cmd.
Proof.
  intros (Hnd & Hl & _) Hh Hk Hu. destruct (hview_exec _ s cmd Hnd Hl Hk Hh) as [Hv Hl'].
  split; [|exact Hv]. split; [now apply exec_nodup|]. split; [exact Hl'|]. rewrite unack_tb_hview, Hv. exact Hu.
Qed.

Lemma memN_delN x y l : memN x (delN y l) = negb (x =? y) && memN x l.
Proof.
  induction l as [|z r IH]; cbn [delN memN]; [now rewrite andb_false_r|].
  destruct (N.eqb_spec y z) as [->|Hne].
  - rewrite IH. destruct (N.eqb_spec x z); cbn; [reflexivity|reflexivity].
  - cbn [memN]. rewrite IH. destruct (N.eqb_spec x z) as [->|H1]; cbn.
    + destruct (N.eqb_spec z y) as [->|H2]; [congruence|reflexivity].
    + reflexivity.
Qed.

Lemma memN_In x l : memN x l = true <-> In x l.
Proof.
  induction l as [|y r IH]; cbn [memN In]; [split; [discriminate|tauto]|].
  rewrite orb_true_iff, IH. destruct (N.eqb_spec x y) as [->|H]; split; intros [A|A]; auto; try discriminate; congruence.
Qed.

(* one operation: at most one command; the typing, the cache invariant and the abstract set follow *)
Lemma ru_step_spec fx c s cache o :
  ustore_any c s -> ucache_any c s cache ->
  let '(cache', _, cmds) := ru_step fx c s cache o in
  (length cmds <= 1)%nat /\
  ustore_any c (exec_all s cmds) /\ ucache_any c (exec_all s cmds) cache' /\
  seteq (stored_unack c (exec_all s cmds)) (ua_spec (stored_unack c s) o).
Proof.
  intros Hs Hc. pose proof Hs as (_ & _ & Hu).
  assert (Hold : forall x, memN x (stored_unack c s) = match aget (dec x) (unack_tb c s) with Some _ => true | None => false end).
  { intros x. rewrite stored_unack_view. now apply ids_mem. }
  (* no command: nothing changes *)
  assert (Hsame : forall cache' st, ucache_any c s cache' -> seteq (stored_unack c s) st ->
            (length (@nil rcmd) <= 1)%nat /\ ustore_any c (exec_all s []) /\ ucache_any c (exec_all s []) cache' /\
            seteq (stored_unack c (exec_all s [])) st).
  { intros cache' st H1 H2. split; [cbn; lia|]. now split. }
  (* one hash command on unack:<c> *)
  assert (Hone : forall cmd, hcmd cmd -> cmd_key cmd = unack_key c -> uh_any (hexec (unack_tb c s) cmd) ->
            ustore_any c (exec_all s [cmd]) /\
            forall x, memN x (stored_unack c (exec_all s [cmd])) =
                      match aget (dec x) (hexec (unack_tb c s) cmd) with Some _ => true | None => false end).
  { intros cmd Hh Hk Hu'. destruct (ustore_exec c s cmd Hs Hh Hk Hu') as [Hs' Ht]. split; [exact Hs'|].
    intros x. cbn [exec_all fold_left]. rewrite stored_unack_view, Ht. now apply ids_mem. }
  destruct o as [clean|id|id|]; cbn [ru_step ua_spec].
  - destruct clean.
    + destruct (Hone (CDel (unack_key c)) I eq_refl uh_any_nil) as [Hs' Hm].
      split; [cbn; lia|]. split; [exact Hs'|]. split; [constructor|]. intros x. now rewrite Hm.
    + apply Hsame; [|intros x; reflexivity]. destruct (fix_unack fx); [|exact Hc]. apply Forall_app. split; [|exact Hc].
      apply Forall_forall. intros x Hx. now apply memN_In.
  - destruct (memN id cache) eqn:Em.
    + apply Hsame; [exact Hc|]. apply memN_In in Em. unfold ucache_any in Hc. rewrite Forall_forall in Hc.
      rewrite (Hc id Em). intros x. reflexivity.
    + destruct (Hone (CHSet (unack_key c) [(dec id, BRaw ONE)]) I eq_refl (uh_any_aset id _ _ Hu)) as [Hs' Hm].
      assert (Hset : forall x, memN x (stored_unack c (exec_all s [CHSet (unack_key c) [(dec id, BRaw ONE)]]))
                               = (x =? id) || memN x (stored_unack c s)).
      { intros x. rewrite Hm, Hold. cbn [hexec hset_all]. rewrite aget_aset, dec_eqb. now destruct (x =? id). }
      split; [cbn; lia|]. split; [exact Hs'|]. split.
      * constructor; [rewrite Hset, N.eqb_refl; reflexivity|].
        eapply Forall_impl; [|exact Hc]. intros x Hm'. cbn beta. rewrite Hset, Hm'. apply orb_true_r.
      * intros x. rewrite Hset. destruct (memN id (stored_unack c s)) eqn:Eid; [|reflexivity].
        destruct (N.eqb_spec x id) as [->|Hne]; [now rewrite Eid|reflexivity].
  - destruct (Hone (CHDel (unack_key c) [dec id]) I eq_refl (uh_any_adel _ _ Hu)) as [Hs' Hm].
    assert (Hset : forall x, memN x (stored_unack c (exec_all s [CHDel (unack_key c) [dec id]]))
                             = negb (x =? id) && memN x (stored_unack c s)).
    { intros x. rewrite Hm, Hold. cbn [hexec hdel_all]. rewrite (aget_adel _ _ _ (proj1 Hu)), dec_eqb. now destruct (x =? id). }
    split; [cbn; lia|]. split; [exact Hs'|]. split.
    + apply Forall_forall. intros x Hx. apply memN_In in Hx. rewrite memN_delN in Hx. apply andb_true_iff in Hx as [Hne Hx].
      apply memN_In in Hx. unfold ucache_any in Hc. rewrite Forall_forall in Hc. rewrite Hset, Hne, (Hc x Hx). reflexivity.
    + intros x. rewrite Hset, memN_delN. reflexivity.
  - apply Hsame; [constructor|intros x; reflexivity].
Qed.

Lemma ua_spec_seteq a b o : seteq a b -> seteq (ua_spec a o) (ua_spec b o).
Proof.
  intros H. destruct o as [clean|id|id|]; cbn [ua_spec].
  - destruct clean; [intros x; reflexivity|exact H].
  - rewrite (H id). destruct (memN id b); [exact H|]. intros x. cbn [memN]. now rewrite (H x).
  - intros x. rewrite !memN_delN, (H x). reflexivity.
  - exact H.
Qed.

Lemma ua_fold_seteq ops : forall a b, seteq a b -> seteq (fold_left ua_spec ops a) (fold_left ua_spec ops b).
Proof. induction ops as [|o r IH]; intros a b H; [exact H|]. cbn [fold_left]. now apply IH, ua_spec_seteq. Qed.

(* any prefix of the journal is the journal of a whole number j of operations, and the id set reloaded
   from the store it leaves is the abstract set after them *)
Theorem unack_cut fx c : forall (ops : list ruop) (s : rstore) (cache : list N) (k : nat),
  ustore_any c s -> ucache_any c s cache ->
  exists j, (j <= length ops)%nat /\
    firstn k (snd (ru_run fx c s cache ops)) = snd (ru_run fx c s cache (firstn j ops)) /\
    seteq (stored_unack c (exec_all s (firstn k (snd (ru_run fx c s cache ops)))))
          (fold_left ua_spec (firstn j ops) (stored_unack c s)).
Proof.
  induction ops as [|o r IH]; intros s cache k Hs Hc.
  - exists 0%nat. cbn [ru_run snd length firstn]. rewrite firstn_nil. cbn [exec_all fold_left].
    split; [lia|]. split; [reflexivity|]. intros x. reflexivity.
  - destruct k as [|k]; [exists 0%nat; split; [lia|]; split; [reflexivity|]; intros x; reflexivity|].
    pose proof (ru_step_spec fx c s cache o Hs Hc) as Hst.
    cbn [ru_run]. destruct (ru_step fx c s cache o) as [[cache' out] cmds] eqn:Est.
    destruct Hst as (Hlen & Hs' & Hc' & Hset).
    specialize (IH (exec_all s cmds) cache').
    destruct (ru_run fx c (exec_all s cmds) cache' r) as [outs cmds'] eqn:Er. cbn [snd] in *.
    (* at most one command: the cut is behind the operation *)
    destruct (IH (S k - length cmds)%nat Hs' Hc') as (j & Hj & Hcut & Hseq).
    rewrite firstn_app, (firstn_all2 cmds) by lia. exists (S j). cbn [length firstn ru_run]. rewrite Est.
    destruct (ru_run fx c (exec_all s cmds) cache' (firstn j r)) as [outs2 cmds2] eqn:Er2. cbn [snd] in *.
    split; [lia|]. split; [now rewrite Hcut|].
    rewrite exec_all_app. cbn [fold_left]. intros x. rewrite (Hseq x). now apply ua_fold_seteq.
Qed.

(* C09, unack clause, for any prefix of the journal, as stated for 16 bit packet ids *)
Theorem unack_any_prefix fx c : forall (ops : list ruop) (s : rstore) (cache : list N) (k : nat),
  ustore_ok c s -> ucache_ok c s cache -> Forall ruop_u16 ops ->
  exists j, (j <= length ops)%nat /\
    firstn k (snd (ru_run fx c s cache ops)) = snd (ru_run fx c s cache (firstn j ops)) /\
    seteq16 (stored_unack c (exec_all s (firstn k (snd (ru_run fx c s cache ops)))))
            (fold_left ua_spec (firstn j ops) (stored_unack c s)).
Proof.
  intros ops s cache k Hs Hc _.
  destruct (unack_cut fx c ops s cache k (ustore_ok_any c s Hs) (Forall_impl _ (fun x H => proj2 H) Hc)) as (j & Hj & Hcut & Hseq).
  exists j. split; [exact Hj|]. split; [exact Hcut|]. intros x _. apply Hseq.
Qed.

(* the list under the queue key, and the commands as list operations *)
Definition lview (K : str) (s : rstore) : list blob :=
  match aget K s with Some (RList l) => l | _ => [] end.

Definition lexec (l : list blob) (c : rcmd) : list blob :=
  match c with
  | CRPush _ v => l ++ [v]
  | CLRem _ v => remove_first v l
  | CLSet _ i v => match norm_index i (length l) with Some j => replace_nth j v l | None => l end
  | CDel _ => []
  | _ => l
  end.
Definition lexec_all (l : list blob) (cs : list rcmd) : list blob := fold_left lexec cs l.

(* the key holds a list or nothing (redis: no WRONGTYPE on it) *)
Definition qstore_ok (K : str) (s : rstore) : Prop :=
  NoDup (map fst s) /\ forall h, aget K s <> Some (RHash h).

Lemma norm_index_0 i : norm_index i 0 = None.
Proof. unfold norm_index. cbn [Z.of_nat]. rewrite Z.add_0_r. destruct (i <? 0)%Z eqn:E; rewrite E; reflexivity. Qed.

Lemma lview_exec K s c : qstore_ok K s -> qcmd K c ->
  qstore_ok K (exec s c) /\ lview K (exec s c) = lexec (lview K s) c.
Proof.
  intros [Hnd Hh] Hc. rewrite <- (qcmd_key _ _ Hc) in *.
  assert (Hdel : aget (cmd_key c) (adel (cmd_key c) s) = None) by now rewrite aget_adel, str_eqb_refl.
  enough (H : (forall h, aget (cmd_key c) (exec s c) <> Some (RHash h)) /\ lview (cmd_key c) (exec s c) = lexec (lview (cmd_key c) s) c)
    by (split; [split; [now apply exec_nodup|apply H]|apply H]).
  unfold lview. destruct c as [k fvs|k fs|k|k v|k v|k i v]; try contradiction; cbn [exec lexec cmd_key] in *;
    [|destruct (aget k s) as [[h|l]|] eqn:E; [now destruct (Hh h)| |]..].
  - rewrite Hdel. now split.
  - rewrite aget_aset_same. now split.
  - rewrite aget_aset_same. now split.
  - destruct (remove_first v l); [rewrite Hdel|rewrite aget_aset_same]; now split.
  - rewrite E. now split.
  - destruct (norm_index i (length l)); [rewrite aget_aset_same|rewrite E]; now split.
  - rewrite E. cbn [length]. rewrite norm_index_0. now split.
Qed.

Lemma lview_exec_all K cs : forall s, qstore_ok K s -> Forall (qcmd K) cs ->
  qstore_ok K (exec_all s cs) /\ lview K (exec_all s cs) = lexec_all (lview K s) cs.
Proof.
  induction cs as [|c r IH]; intros s Hs Hc; [split; [exact Hs|reflexivity]|].
  inversion Hc as [|? ? H0 Hr]; subst. destruct (lview_exec K s c Hs H0) as [Hs' Hv].
  cbn [exec_all lexec_all fold_left]. destruct (IH (exec s c) Hs' Hr) as [Hs'' Hv'']. split; [exact Hs''|].
  unfold exec_all, lexec_all in Hv''. rewrite Hv'', Hv. reflexivity.
Qed.

Lemma lexec_all_app l a b : lexec_all l (a ++ b) = lexec_all (lexec_all l a) b.
Proof. unfold lexec_all. apply fold_left_app. Qed.

(* wherever the commands cs are cut, the list they leave from L is in T *)
Definition cuts (cs : list rcmd) (L : list blob) (T : list blob -> Prop) : Prop :=
  forall k, T (lexec_all L (firstn k cs)).

Lemma cuts_nil L (T : list blob -> Prop) : T L -> cuts [] L T.
Proof. intros H k. now rewrite firstn_nil. Qed.
Lemma cuts_cons c cs L (T : list blob -> Prop) : T L -> cuts cs (lexec L c) T -> cuts (c :: cs) L T.
Proof. intros H0 H [|k]; [exact H0|exact (H k)]. Qed.
Lemma cuts_impl {cs L} {T T' : list blob -> Prop} : (forall L', T L' -> T' L') -> cuts cs L T -> cuts cs L T'.
Proof. intros H Hc k. apply H, Hc. Qed.

Fixpoint rq_journal (s : rstore) (q : rq) (ops : list rqop) : list rcmd :=
  match ops with
  | [] => []
  | o :: r =>
      let x := rq_step s q o in
      match r_out x with
      | RPanic => r_cmds x
      | _ => r_cmds x ++ rq_journal (r_store x) (r_q x) r
      end
  end.

Lemma rq_journal_run ops : forall s q, snd (rq_run s q ops) = rq_journal s q ops.
Proof.
  induction ops as [|o r IH]; intros s q; cbn [rq_run rq_journal]; [reflexivity|].
  specialize (IH (r_store (rq_step s q o)) (r_q (rq_step s q o))).
  destruct (rq_run (r_store (rq_step s q o)) (r_q (rq_step s q o)) r) as [[[s' q'] outs] cmds]. cbn [snd] in IH.
  destruct (r_out (rq_step s q o)); cbn [snd]; try (now rewrite IH); reflexivity.
Qed.

Lemma rq_step_ok s q o : res_ok s q (rq_step s q o).
Proof.
  destruct o as [o|]; [destruct o|]; cbn [rq_step].
  - apply rq_add_ok.
  - apply rq_read_ok.
  - apply rq_read_inflight_ok.
  - apply rq_remove_ok.
  - apply rq_replace_ok.
  - apply rq_init_ok.
  - apply rq_close_ok.
  - apply rq_restart_ok.
Qed.

(* (s', q', rest): the state after some completed operations of the history, and what is left of it *)
Inductive reach : rstore -> rq -> list rqop -> rstore -> rq -> list rqop -> Prop :=
| reach_here s q ops : reach s q ops s q ops
| reach_step s q o r s' q' rest :
    r_out (rq_step s q o) <> RPanic ->
    reach (r_store (rq_step s q o)) (r_q (rq_step s q o)) r s' q' rest ->
    reach s q (o :: r) s' q' rest.

(* C09, queue clause, the frame: after ANY prefix of the journal the stored list is the list after
   the last completed operation with a prefix of the commands of the next one applied *)
Theorem queue_cut_decomposition : forall (ops : list rqop) (s : rstore) (q : rq) (k : nat),
  qstore_ok (rq_key q) s ->
  exists s' q' rest k',
    reach s q ops s' q' rest /\ rq_key q' = rq_key q /\ qstore_ok (rq_key q) s' /\
    lview (rq_key q) (exec_all s (firstn k (rq_journal s q ops))) =
      match rest with
      | [] => lview (rq_key q) s'
      | o :: _ => lexec_all (lview (rq_key q) s') (firstn k' (r_cmds (rq_step s' q' o)))
      end.
Proof.
  induction ops as [|o r IH]; intros s q k Hs.
  - exists s, q, [], 0%nat. cbn [rq_journal]. rewrite firstn_nil. repeat split; try apply Hs. constructor.
  - destruct (rq_step_ok s q o) as (Hc & Hk & Hst). cbn [rq_journal].
    set (G := fun J : list rcmd => exists s' q' rest k',
           reach s q (o :: r) s' q' rest /\ rq_key q' = rq_key q /\ qstore_ok (rq_key q) s' /\
           lview (rq_key q) (exec_all s (firstn k J)) =
             match rest with
             | [] => lview (rq_key q) s'
             | o' :: _ => lexec_all (lview (rq_key q) s') (firstn k' (r_cmds (rq_step s' q' o')))
             end).
    (* the cut falls inside the commands of o *)
    assert (Hin : G (r_cmds (rq_step s q o))).
    { exists s, q, (o :: r), k. split; [constructor|]. split; [reflexivity|]. split; [exact Hs|].
      apply (lview_exec_all (rq_key q)); [exact Hs|now apply Forall_firstn]. }
    (* ... or behind them: o is completed *)
    assert (Hgo : r_out (rq_step s q o) <> RPanic ->
                  G (r_cmds (rq_step s q o) ++ rq_journal (r_store (rq_step s q o)) (r_q (rq_step s q o)) r)).
    { intros Hnp. unfold G. destruct (firstn_app_cut k (r_cmds (rq_step s q o)) (rq_journal (r_store (rq_step s q o)) (r_q (rq_step s q o)) r))
        as [-> | ->]; [exact Hin|].
      destruct (lview_exec_all (rq_key q) _ s Hs Hc) as [Hs1 _]. rewrite <- Hst, <- Hk in Hs1.
      destruct (IH _ _ (k - length (r_cmds (rq_step s q o)))%nat Hs1) as (s' & q' & rest & k' & Hr & Hk' & Hs' & Hv).
      exists s', q', rest, k'. rewrite Hk in *. split; [now apply reach_step|]. split; [congruence|]. split; [exact Hs'|].
      rewrite exec_all_app, <- Hst. exact Hv. }
    (* the panicking operation ends the journal *)
    destruct (r_out (rq_step s q o)); try (apply Hgo; discriminate); exact Hin.
Qed.

(* invariants travel along `reach` *)
Lemma reach_inv (Inv : rstore -> rq -> Prop) (A : rqop -> Prop) :
  (forall s q o, A o -> Inv s q -> r_out (rq_step s q o) <> RPanic -> Inv (r_store (rq_step s q o)) (r_q (rq_step s q o))) ->
  forall s q ops s' q' rest, reach s q ops s' q' rest -> Forall A ops -> Inv s q -> Inv s' q' /\ Forall A rest.
Proof.
  intros Hstep s q ops s' q' rest Hr. induction Hr as [s q ops|s q o r s' q' rest Hnp Hr IH]; intros HA HI; [now split|].
  inversion HA as [|? ? Ho HAr]; subst. apply IH; [exact HAr|]. now apply Hstep.
Qed.

Lemma rq_journal_ok ops : forall s q, Forall (qcmd (rq_key q)) (rq_journal s q ops).
Proof.
  induction ops as [|o r IH]; intros s q; cbn [rq_journal]; [constructor|].
  pose proof (rq_step_ok s q o) as (Hc & Hk & _). specialize (IH (r_store (rq_step s q o)) (r_q (rq_step s q o))). rewrite Hk in IH.
  destruct (r_out (rq_step s q o)); try (apply Forall_app; split; assumption); exact Hc.
Qed.

(* v' is v with a packet id and/or an in-flight expiry written into it *)
Definition rewritten (v v' : elem) : Prop :=
  (exists x, v' = with_expiry x v) \/
  (exists m p, e_body v = QPub m /\ (v' = with_body (QPub (set_pid p m)) v \/ exists x, v' = with_expiry x (with_body (QPub (set_pid p m)) v))).

Lemma rewritten_handed now ifexp v m p : e_body v = QPub m ->
  rewritten v (if ifexp =? 0 then with_body (QPub (set_pid p m)) v
               else with_expiry (Some (now + ifexp)) (with_body (QPub (set_pid p m)) v)).
Proof. intros Eb. right. exists m, p. split; [exact Eb|]. destruct (ifexp =? 0); [now left|right; now eexists]. Qed.

Lemma elems_of_in v l : In v (elems_of l) -> In (BElem v) l.
Proof.
  induction l as [|b r IH]; cbn [elems_of]; [tauto|]. destruct b as [x|x|x]; cbn [In]; try (intros H; right; now apply IH).
  intros [->|H]; [now left|right; now apply IH].
Qed.

Lemma lrange_in K a b s x : In x (lrange K a b s) -> In x (lview K s).
Proof.
  unfold lrange, lview, lget. destruct (aget K s) as [[h|l]|]; cbn; try tauto.
  - destruct (lrange_window a b (length l)) as [st c]. intros H. eapply In_skipn, In_firstn, H.
  - destruct (lrange_window a b 0) as [st c]. intros H. apply In_firstn, In_skipn in H. exact H.
Qed.

(* the commands of Read and ReadInflight, in terms of the elements of the stored list *)
Lemma read_cmds (P : rcmd -> Prop) now pids s q :
  (forall v, In (BElem v) (lview (rq_key q) s) -> P (CLRem (rq_key q) (BElem v))) ->
  (forall v v' i, In (BElem v) (lview (rq_key q) s) -> rewritten v v' -> P (CLSet (rq_key q) i (BElem v'))) ->
  Forall P (r_cmds (rq_read now pids s q)).
Proof.
  intros Hrem Hset. unfold rq_read.
  destruct (negb (rq_drained q)); [constructor|]. destruct (rq_closed q); [constructor|].
  destruct (rq_len q <=? rq_cur q)%Z; [constructor|]. destruct (length pids =? 0)%nat; [constructor|].
  assert (Hin : forall v, In v (elems_of (lrange (rq_key q) (rq_cur q) (rq_cur q + Z.of_nat (length pids) - 1)%Z s)) ->
                          In (BElem v) (lview (rq_key q) s)).
  { intros v Hv. eapply lrange_in, elems_of_in, Hv. }
  match goal with |- context [rq_read_loop ?a ?b ?c ?d ?e ?l ?acc] =>
    pose proof (read_loop_cmds P a b c d e l (fun v Hv => Hrem v (Hin v Hv))
                  (fun v m p i Hv Eb => Hset v _ i (Hin v Hv) (rewritten_handed a e v m p Eb)) l acc (incl_refl _) (Forall_nil _)) as H;
    destruct (rq_read_loop a b c d e l acc) as [a' p] end.
  cbn [fst] in H. destruct p; exact H.
Qed.

Lemma read_inflight_cmds (P : rcmd -> Prop) now n s q :
  (forall e x i, In (BElem e) (lview (rq_key q) s) -> P (CLSet (rq_key q) i (BElem (with_expiry x e)))) ->
  Forall P (r_cmds (rq_read_inflight now n s q)).
Proof.
  intros Hset. unfold rq_read_inflight. destruct n as [|n']; [constructor|].
  destruct (elems_of _) as [|e0 l0] eqn:El; [constructor|].
  assert (Hin : forall v, In v (e0 :: l0) -> In (BElem v) (lview (rq_key q) s)).
  { intros v Hv. rewrite <- El in Hv. eapply lrange_in, elems_of_in, Hv. }
  pose proof (fun e x j He => Hset e x j (Hin e He)) as Hset'.
  match goal with |- context [rq_rif_loop ?a ?b ?c ?d ?e1 ?f ?g ?h ?i1] =>
    pose proof (rif_loop_cmds P a b c (e0 :: l0) Hset' d e1 f g h i1 (incl_refl _) (Forall_nil _)) as H;
    destruct (rq_rif_loop a b c d e1 f g h i1) as [[[[[cur cache] rs] cmds] dr] panicked] end.
  destruct panicked; exact H.
Qed.

(* Add: nothing, the RPUSH of the newcomer, or the LREM of one victim followed by that RPUSH.  The
   victim is an element of the stored list and is the element reported dropped *)
Lemma add_scan_in now cur L : forall l i cand front,
  incl l L -> (forall c, cand = Some c -> In c L) -> (forall c, front = Some c -> In c L) ->
  match rq_add_scan now cur l i cand front with
  | ASReturn d _ _ => In d L
  | ASPanic c => forall x, c = Some x -> In x L
  | ASEnd c f => (forall x, c = Some x -> In x L) /\ (forall x, f = Some x -> In x L)
  end.
Proof.
  induction l as [|e r IH]; intros i cand front Hl Hc Hf; cbn [rq_add_scan]; [now split|].
  assert (He : In e L) by (apply Hl; now left). assert (Hr : incl r L) by (intros x Hx; apply Hl; now right).
  destruct (negb (e_id e =? 0)).
  - destruct (expired now e); [exact He|]. now apply IH.
  - assert (Hf' : forall c, match front with None => Some e | Some _ => front end = Some c -> In c L).
    { intros c. destruct front as [f0|]; [apply Hf|]. intros E. injection E as <-. exact He. }
    destruct (e_body e) as [m|p]; [|exact Hc].
    destruct (expired now e); [exact He|].
    destruct ((m_qos m =? 0) && match cand with None => true | Some _ => false end).
    + apply IH; [exact Hr| |exact Hf']. intros c E. injection E as <-. exact He.
    + now apply IH.
Qed.

Definition add_reports (out : qout) (d : elem) : Prop :=
  out = RPanic \/ exists pre r, out = RAdd (pre ++ [EvDropped d r]).

Lemma add_finish_shape s q e victim r bk p :
  let x := rq_add_finish s q e victim r bk p in
  match victim with
  | None => r_cmds x = [] /\ add_reports (r_out x) e
  | Some d => r_cmds x = [CLRem (rq_key q) (BElem d); CRPush (rq_key q) (BElem e)] /\ add_reports (r_out x) d
  end.
Proof.
  unfold rq_add_finish. destruct victim as [d|]; cbn [done r_cmds r_out]; (split; [reflexivity|]);
    (destruct p; [now left|right; now eexists _, _]).
Qed.

Theorem add_shape now e s q :
  let x := rq_add now e s q in
  (r_cmds x = [] /\ add_reports (r_out x) e) \/
  (r_cmds x = [CRPush (rq_key q) (BElem e)] /\ r_out x = RAdd [EvQueue 1]) \/
  (exists d, r_cmds x = [CLRem (rq_key q) (BElem d); CRPush (rq_key q) (BElem e)] /\
             add_reports (r_out x) d /\ In (BElem d) (lview (rq_key q) s)).
Proof.
  cbn zeta.
  set (G := fun x : rqres =>
         (r_cmds x = [] /\ add_reports (r_out x) e) \/
         (r_cmds x = [CRPush (rq_key q) (BElem e)] /\ r_out x = RAdd [EvQueue 1]) \/
         (exists d, r_cmds x = [CLRem (rq_key q) (BElem d); CRPush (rq_key q) (BElem e)] /\
                    add_reports (r_out x) d /\ In (BElem d) (lview (rq_key q) s))).
  change (G (rq_add now e s q)). unfold rq_add. destruct (rq_max q <=? rq_len q)%Z; [|right; left; now split].
  set (L := elems_of (lrange (rq_key q) 0 (rq_len q) s)).
  (* whatever victim the scan of the list L chooses is an element of the stored list *)
  assert (Hfin : forall victim r bk p, (forall d, victim = Some d -> In d L) -> G (rq_add_finish s q e victim r bk p)).
  { intros victim r bk p Hv. pose proof (add_finish_shape s q e victim r bk p) as H. destruct victim as [d|]; [|left; exact H].
    right. right. exists d. destruct H as [H1 H2]. split; [exact H1|]. split; [exact H2|].
    eapply lrange_in, elems_of_in, Hv. reflexivity. }
  assert (Hn : forall c : elem, @None elem = Some c -> In c L) by (intros c E; discriminate).
  pose proof (add_scan_in now (rq_cur q) L L 0%Z None None (incl_refl _) Hn Hn) as Hsc.
  destruct (rq_add_scan now (rq_cur q) L 0 None None) as [d r bk|cand|cand front].
  - apply Hfin. intros d' E. injection E as <-. exact Hsc.
  - apply Hfin. exact Hsc.
  - destruct Hsc as [Hc Hf].
    destruct (rq_drained q && (rq_len q <=? rq_cur q)%Z); [apply Hfin; exact Hc|].
    destruct cand as [d|]; [apply Hfin; intros d' E; injection E as <-; now apply Hc|].
    destruct (e_body e) as [m|p]; [|apply Hfin; intros d' E; discriminate].
    destruct (m_qos m =? 0); [apply Hfin; intros d' E; discriminate|apply Hfin; exact Hf].
Qed.

(* the operations that issue at most one command: a cut never falls inside them *)
Theorem atomic_ops s q o :
  match o with
  | ROp (OAdd _ _) | ROp (ORead _ _) | ROp (OReadInflight _ _) => True
  | _ => (length (r_cmds (rq_step s q o)) <= 1)%nat
  end.
Proof.
  destruct o as [o|]; [destruct o|]; cbn [rq_step]; try exact I.
  - unfold rq_remove. destruct (rq_cache q) as [c|]; [destruct (cache_get pid c)|]; cbn; lia.
  - unfold rq_replace. destruct (rq_cur q <=? 0)%Z; [cbn; lia|]. destruct (find_id_z _ _ _); [destruct (rq_cache q)|]; cbn; lia.
  - unfold rq_init. destruct clean; cbn; lia.
  - cbn. lia.
  - cbn. lia.
Qed.

(* no duplication: one list slot per RPUSH, and only Add pushes, once *)
Definition is_rpush (c : rcmd) : bool := match c with CRPush _ _ => true | _ => false end.

Lemma remove_first_len v l : (length (remove_first v l) <= length l)%nat.
Proof. induction l as [|x r IH]; cbn [remove_first length]; [lia|]. destruct (blob_eqb x v); cbn [length]; lia. Qed.

Lemma replace_nth_len {A} j (v : A) l : length (replace_nth j v l) = length l.
Proof. revert j. induction l as [|x r IH]; intros [|j]; cbn [replace_nth length]; try reflexivity. now rewrite IH. Qed.

Lemma lexec_all_len cs : forall l, (length (lexec_all l cs) <= length l + length (filter is_rpush cs))%nat.
Proof.
  induction cs as [|c r IH]; intros l; cbn [lexec_all fold_left filter]; [lia|].
  specialize (IH (lexec l c)). unfold lexec_all in IH.
  destruct c as [k fvs|k fs|k|k v|k v|k i v]; cbn [lexec is_rpush length] in *; try lia.
  - rewrite app_length in IH. cbn [length] in IH. lia.
  - pose proof (remove_first_len v l). lia.
  - destruct (norm_index i (length l)); [rewrite replace_nth_len in IH|]; lia.
Qed.

Theorem queue_cut_length : forall (ops : list rqop) (s : rstore) (q : rq) (k : nat),
  qstore_ok (rq_key q) s ->
  (length (lview (rq_key q) (exec_all s (firstn k (rq_journal s q ops)))) <=
   length (lview (rq_key q) s) + length (filter is_rpush (firstn k (rq_journal s q ops))))%nat.
Proof.
  intros ops s q k Hs.
  destruct (lview_exec_all (rq_key q) (firstn k (rq_journal s q ops)) s Hs (Forall_firstn _ _ _ (rq_journal_ok ops s q))) as [_ Hv].
  rewrite Hv. apply lexec_all_len.
Qed.

Theorem only_add_pushes s q o :
  match o with
  | ROp (OAdd _ _) => (length (filter is_rpush (r_cmds (rq_step s q o))) <= 1)%nat
  | _ => filter is_rpush (r_cmds (rq_step s q o)) = []
  end.
Proof.
  destruct o as [o|]; [destruct o|]; cbn [rq_step].
  - destruct (add_shape now e s q) as [[H _]|[[H _]|(d & H & _)]]; rewrite H; cbn; lia.
  - apply filter_none, Forall_forall. apply read_cmds; intros; reflexivity.
  - apply filter_none, Forall_forall. apply read_inflight_cmds; intros; reflexivity.
  - unfold rq_remove. destruct (rq_cache q) as [c|]; [destruct (cache_get pid c)|]; reflexivity.
  - unfold rq_replace. destruct (rq_cur q <=? 0)%Z; [reflexivity|]. destruct (find_id_z _ _ _); [destruct (rq_cache q)|]; reflexivity.
  - unfold rq_init. destruct clean; reflexivity.
  - reflexivity.
  - reflexivity.
Qed.

(* Add in progress: the only element that can be missing is its reported victim *)
Theorem add_cut_lists now e s q k' :
  let L := lview (rq_key q) s in
  let x := rq_add now e s q in
  let L' := lexec_all L (firstn k' (r_cmds x)) in
  L' = L \/ L' = L ++ [BElem e] \/
  exists d, add_reports (r_out x) d /\ In (BElem d) L /\
            (L' = remove_first (BElem d) L \/ L' = remove_first (BElem d) L ++ [BElem e]).
Proof.
  cbn zeta. destruct (add_shape now e s q) as [[H _]|[[H _]|(d & H & Hr & Hin)]]; rewrite H.
  - left. destruct k'; reflexivity.
  - destruct k' as [|k']; [left; reflexivity|right; left; destruct k'; reflexivity].
  - destruct k' as [|[|k']]; [left; reflexivity| |]; right; right; exists d; (split; [exact Hr|]); (split; [exact Hin|]).
    + left. reflexivity.
    + right. destruct k'; reflexivity.
Qed.

Definition base_body (b : qbody) : qbody := match b with QPub m => QPub (set_pid 0 m) | QRel p => QRel p end.
(* x is e up to packet id and expiry *)
Definition fam (e x : elem) : Prop :=
  e_tag x = e_tag e /\ e_at x = e_at e /\ base_body (e_body x) = base_body (e_body e).

Lemma fam_refl e : fam e e.
Proof. repeat split. Qed.
Lemma fam_trans a b c : fam a b -> fam b c -> fam a c.
Proof. intros (H1 & H2 & H3) (H4 & H5 & H6). repeat split; congruence. Qed.
Lemma fam_rewritten v v' : rewritten v v' -> fam v v'.
Proof.
  intros [[x ->]|(m & p & Eb & [->|[x ->]])]; unfold fam, with_expiry, with_body; cbn [e_tag e_at e_body]; repeat split;
    rewrite Eb; reflexivity.
Qed.

Definition supplied_by (o : rqop) : list elem :=
  match o with ROp (OAdd _ e) => [e] | ROp (OReplace e) => [e] | _ => [] end.
Definition supplied (ops : list rqop) : list elem := flat_map supplied_by ops.

Definition prov (G : list elem) (b : blob) : Prop := exists x e, b = BElem x /\ In e G /\ fam e x.
Definition cmd_prov (G : list elem) (c : rcmd) : Prop :=
  match c with CRPush _ v | CLSet _ _ v => prov G v | _ => True end.

Lemma remove_first_incl v l x : In x (remove_first v l) -> In x l.
Proof. induction l as [|y r IH]; cbn [remove_first]; [tauto|]. destruct (blob_eqb y v); cbn [In]; [tauto|]. intros [->|H]; [now left|right; now apply IH]. Qed.

Lemma replace_nth_in {A} j (v : A) l x : In x (replace_nth j v l) -> x = v \/ In x l.
Proof.
  revert j. induction l as [|y r IH]; intros [|j]; cbn [replace_nth In]; try tauto.
  - intros [<-|H]; [now left|right; now right].
  - intros [<-|H]; [right; now left|]. apply IH in H as [H|H]; [now left|right; now right].
Qed.

Lemma lexec_prov G l c : Forall (prov G) l -> cmd_prov G c -> Forall (prov G) (lexec l c).
Proof.
  intros Hl Hc. destruct c as [k fvs|k fs|k|k v|k v|k i v]; cbn [lexec cmd_prov] in *; try exact Hl.
  - constructor.
  - apply Forall_app. split; [exact Hl|]. constructor; [exact Hc|constructor].
  - rewrite Forall_forall in *. intros x Hx. apply Hl. eapply remove_first_incl, Hx.
  - destruct (norm_index i (length l)) as [j|]; [|exact Hl].
    rewrite Forall_forall in *. intros x Hx. apply replace_nth_in in Hx as [->|Hx]; [exact Hc|now apply Hl].
Qed.

Lemma lexec_all_prov G cs : forall l, Forall (prov G) l -> Forall (cmd_prov G) cs -> Forall (prov G) (lexec_all l cs).
Proof.
  induction cs as [|c r IH]; intros l Hl Hc; [exact Hl|]. inversion Hc as [|? ? H0 Hr]; subst.
  cbn [lexec_all fold_left]. apply IH; [now apply lexec_prov|exact Hr].
Qed.

Lemma prov_in G l v : Forall (prov G) l -> In (BElem v) l -> exists e, In e G /\ fam e v.
Proof.
  intros Hl Hv. rewrite Forall_forall in Hl. destruct (Hl _ Hv) as (x & e & E & He & Hf). injection E as <-. now exists e.
Qed.

(* every value an operation writes is a supplied element or a rewritten element of the stored list *)
Lemma step_prov G s q o :
  Forall (prov G) (lview (rq_key q) s) -> incl (supplied_by o) G -> Forall (cmd_prov G) (r_cmds (rq_step s q o)).
Proof.
  intros HL HG. destruct o as [o|]; [destruct o|]; cbn [rq_step supplied_by] in *.
  - assert (He : prov G (BElem e)) by (exists e, e; split; [reflexivity|split; [apply HG; now left|apply fam_refl]]).
    destruct (add_shape now e s q) as [[H _]|[[H _]|(d & H & _)]]; rewrite H; repeat constructor; exact He.
  - apply read_cmds; cbn [cmd_prov]; [intros; exact I|].
    intros v v' i Hv Hw. destruct (prov_in G _ v HL Hv) as (e0 & He0 & Hf). exists v', e0. split; [reflexivity|]. split; [exact He0|].
    eapply fam_trans; [exact Hf|now apply fam_rewritten].
  - apply read_inflight_cmds. cbn [cmd_prov]. intros e x i He.
    destruct (prov_in G _ e HL He) as (e0 & He0 & Hf). exists (with_expiry x e), e0. split; [reflexivity|]. split; [exact He0|].
    eapply fam_trans; [exact Hf|]. apply fam_rewritten. left. now exists x.
  - unfold rq_remove. destruct (rq_cache q) as [c|]; [destruct (cache_get pid c)|]; repeat constructor.
  - assert (He : prov G (BElem e)) by (exists e, e; split; [reflexivity|split; [apply HG; now left|apply fam_refl]]).
    unfold rq_replace. destruct (rq_cur q <=? 0)%Z; [constructor|].
    destruct (find_id_z _ _ _); [destruct (rq_cache q)|]; repeat constructor; exact He.
  - unfold rq_init. destruct clean; repeat constructor.
  - constructor.
  - constructor.
Qed.

Lemma supplied_incl_cons o r G : incl (supplied (o :: r)) G -> incl (supplied_by o) G /\ incl (supplied r) G.
Proof. unfold supplied. cbn [flat_map]. intros H. split; intros x Hx; apply H, in_or_app; [now left|now right]. Qed.

Lemma journal_prov G ops : forall s q,
  qstore_ok (rq_key q) s -> Forall (prov G) (lview (rq_key q) s) -> incl (supplied ops) G ->
  Forall (cmd_prov G) (rq_journal s q ops).
Proof.
  induction ops as [|o r IH]; intros s q Hs HL HG; cbn [rq_journal]; [constructor|].
  destruct (supplied_incl_cons o r G HG) as [Ho Hr].
  pose proof (step_prov G s q o HL Ho) as Hc. pose proof (rq_step_ok s q o) as (Hqc & Hk & Hst).
  destruct (lview_exec_all (rq_key q) _ s Hs Hqc) as [Hs1 Hv1]. rewrite <- Hst in Hs1, Hv1.
  assert (HL1 : Forall (prov G) (lview (rq_key q) (r_store (rq_step s q o)))) by (rewrite Hv1; now apply lexec_all_prov).
  rewrite <- Hk in Hs1, HL1. specialize (IH _ _ Hs1 HL1 Hr).
  destruct (r_out (rq_step s q o)); try (apply Forall_app; split; assumption); exact Hc.
Qed.

(* C09, queue clause (b): after ANY prefix of the journal every stored element is, up to packet id and
   expiry, an element supplied by an Add or a Replace of the history (or stored initially) *)
Theorem queue_cut_provenance : forall (G : list elem) (ops : list rqop) (s : rstore) (q : rq) (k : nat),
  qstore_ok (rq_key q) s -> Forall (prov G) (lview (rq_key q) s) -> incl (supplied ops) G ->
  Forall (prov G) (lview (rq_key q) (exec_all s (firstn k (rq_journal s q ops)))).
Proof.
  intros G ops s q k Hs HL HG.
  destruct (lview_exec_all (rq_key q) (firstn k (rq_journal s q ops)) s Hs (Forall_firstn _ _ _ (rq_journal_ok ops s q))) as [_ Hv].
  rewrite Hv. apply lexec_all_prov; [exact HL|]. apply Forall_firstn. now apply journal_prov.
Qed.

(* the stored list is a list of queue elements E; `lrange` on it *)
Lemma lrange_lview K a b s : qstore_ok K s ->
  lrange K a b s = let '(st, c) := lrange_window a b (length (lview K s)) in firstn c (skipn st (lview K s)).
Proof.
  intros [_ Hh]. unfold lrange, lview, lget. destruct (aget K s) as [[h|l]|] eqn:E; [exfalso; now apply (Hh h)|reflexivity|reflexivity].
Qed.

Lemma firstn_more {A} n m (l : list A) : (length l <= n)%nat -> (length l <= m)%nat -> firstn n l = firstn m l.
Proof. intros H1 H2. now rewrite !firstn_all2. Qed.

(* LRANGE st (st+n-1) with 0 <= st, 1 <= n: the n elements from position st *)
Lemma window_spec {A} (l : list A) st n : (0 <= st)%Z -> (1 <= n)%nat ->
  (let '(a, c) := lrange_window st (st + Z.of_nat n - 1)%Z (length l) in firstn c (skipn a l)) = firstn n (skipn (Z.to_nat st) l).
Proof.
  intros Hst Hn. unfold lrange_window.
  assert (E1 : (st <? 0)%Z = false) by (apply Z.ltb_ge; lia). rewrite E1.
  assert (E2 : (st + Z.of_nat n - 1 <? 0)%Z = false) by (apply Z.ltb_ge; lia). rewrite E2, E1.
  destruct (Z.of_nat (length l) <=? st + Z.of_nat n - 1)%Z eqn:E3.
  - apply Z.leb_le in E3. destruct (Z.of_nat (length l) - 1 <? st)%Z eqn:E4.
    + apply Z.ltb_lt in E4. cbn [firstn]. rewrite skipn_all2 by lia. now rewrite firstn_nil.
    + apply Z.ltb_ge in E4. apply firstn_more; rewrite skipn_length; lia.
  - apply Z.leb_gt in E3. assert (E4 : (st + Z.of_nat n - 1 <? st)%Z = false) by (apply Z.ltb_ge; lia). rewrite E4.
    f_equal. lia.
Qed.

Lemma elems_of_map E : elems_of (map BElem E) = E.
Proof. induction E as [|e r IH]; cbn [map elems_of]; [reflexivity|now rewrite IH]. Qed.

Lemma window_elems K s q E n : qstore_ok K s -> lview K s = map BElem E -> (0 <= rq_cur q)%Z -> (1 <= n)%nat ->
  elems_of (lrange K (rq_cur q) (rq_cur q + Z.of_nat n - 1)%Z s) = firstn n (skipn (Z.to_nat (rq_cur q)) E).
Proof.
  intros Hs HL Hc Hn. rewrite (lrange_lview K _ _ s Hs), HL.
  rewrite (window_spec (map BElem E) (rq_cur q) n Hc Hn). rewrite skipn_map, firstn_map. apply elems_of_map.
Qed.

(* LSET at the position of an element, LREM of an element behind entries with other packet ids *)
Lemma norm_index_at (A X : list elem) (v : elem) :
  norm_index (Z.of_nat (length A)) (length (map BElem (A ++ v :: X))) = Some (length A).
Proof.
  unfold norm_index. rewrite map_length, app_length. cbn [length].
  assert (E1 : (Z.of_nat (length A) <? 0)%Z = false) by (apply Z.ltb_ge; lia). rewrite E1, E1.
  assert (E2 : (Z.of_nat (length A) <? Z.of_nat (length A + S (length X)))%Z = true) by (apply Z.ltb_lt; lia). rewrite E2.
  now rewrite Nat2Z.id.
Qed.

Lemma replace_nth_at {A} (P X : list A) (v v' : A) : replace_nth (length P) v' (P ++ v :: X) = P ++ v' :: X.
Proof. induction P as [|x r IH]; cbn [length app replace_nth]; [reflexivity|now rewrite IH]. Qed.

Lemma lset_exact key (A X : list elem) v v' :
  lexec (map BElem (A ++ v :: X)) (CLSet key (Z.of_nat (length A)) (BElem v')) = map BElem (A ++ v' :: X).
Proof.
  cbn [lexec]. rewrite norm_index_at. rewrite !map_app. cbn [map].
  rewrite <- (map_length BElem A). apply replace_nth_at.
Qed.

Lemma elem_eqb_refl e : elem_eqb e e = true.
Proof.
  unfold elem_eqb. rewrite N.eqb_refl. cbn [andb].
  assert (H1 : optN_eqb (e_expiry e) (e_expiry e) = true) by (destruct (e_expiry e); cbn; [apply N.eqb_refl|reflexivity]).
  rewrite H1. cbn [andb]. destruct (e_body e); cbn [qbody_eqb]; [apply msg_eqb_refl|apply N.eqb_refl].
Qed.

Lemma msg_eqb_pid a b : msg_eqb a b = true -> m_pid a = m_pid b.
Proof. unfold msg_eqb. intros H. repeat (apply andb_true_iff in H as [H ?]). now apply N.eqb_eq. Qed.

Lemma elem_eqb_id x v : elem_eqb x v = true -> e_id x = e_id v.
Proof.
  unfold elem_eqb, e_id. intros H. apply andb_true_iff in H as [_ H].
  destruct (e_body x), (e_body v); cbn [qbody_eqb] in H; try discriminate; [now apply msg_eqb_pid|now apply N.eqb_eq].
Qed.

Lemma lrem_exact key (A X : list elem) v :
  Forall (fun e => e_id e <> 0) A -> e_id v = 0 ->
  lexec (map BElem (A ++ v :: X)) (CLRem key (BElem v)) = map BElem (A ++ X).
Proof.
  intros HA Hv. cbn [lexec]. induction A as [|x r IH]; cbn [app map remove_first blob_eqb].
  - now rewrite elem_eqb_refl.
  - inversion HA as [|? ? Hx Hr]; subst. destruct (elem_eqb x v) eqn:E; [apply elem_eqb_id in E; congruence|].
    now rewrite (IH Hr).
Qed.

Definition rif_cmds (x : Z * option (list (N * elem)) * list elem * list rcmd * bool * bool) : list rcmd :=
  let '(_, _, _, c, _, _) := x in c.

(* e' is e, possibly with another in-flight expiry *)
Definition upto_expiry (e' e : elem) : Prop := e' = e \/ exists x, e' = with_expiry x e.

Lemma Forall2_refl_upto l : Forall2 upto_expiry l l.
Proof. induction l; constructor; [now left|assumption]. Qed.

Lemma rif_loop_exec now key ifexp (R : list elem) : forall l A cur cache rs cmds,
  exists cs, rif_cmds (rq_rif_loop now key ifexp l (Z.of_nat (length A)) cur cache rs cmds) = cmds ++ cs /\
    cuts cs (map BElem (A ++ l ++ R))
         (fun L' => exists l', L' = map BElem (A ++ l' ++ R) /\ Forall2 upto_expiry l' l).
Proof.
  induction l as [|e r IH]; intros A cur cache rs cmds; cbn [rq_rif_loop rif_cmds].
  - exists []. split; [now rewrite app_nil_r|]. apply cuts_nil. exists []. split; [reflexivity|constructor].
  - set (T := fun L' => exists l', L' = map BElem (A ++ l' ++ R) /\ Forall2 upto_expiry l' (e :: r)).
    assert (Hbase : T (map BElem (A ++ (e :: r) ++ R))) by (exists (e :: r); split; [reflexivity|apply Forall2_refl_upto]).
    assert (Hstop : exists cs, cmds = cmds ++ cs /\ cuts cs (map BElem (A ++ (e :: r) ++ R)) T)
      by (exists []; split; [now rewrite app_nil_r|now apply cuts_nil]).
    (* e goes on as e', in flight behind A *)
    assert (Hlift : forall e' L', upto_expiry e' e ->
              (exists l', L' = map BElem ((A ++ [e']) ++ l' ++ R) /\ Forall2 upto_expiry l' r) -> T L').
    { intros e' L' He (l' & -> & Hf). exists (e' :: l'). rewrite <- app_assoc. split; [reflexivity|now constructor]. }
    assert (Hlen : forall e', Z.of_nat (length (A ++ [e'])) = (Z.of_nat (length A) + 1)%Z) by (intros e'; rewrite app_length; cbn [length]; lia).
    destruct (e_id e =? 0); [exact Hstop|].
    destruct (ifexp =? 0) eqn:Ei.
    + destruct cache as [c|]; [|exact Hstop].
      destruct (IH (A ++ [e]) (cur + 1)%Z (Some (cache_set (e_id e) e c)) (rs ++ [e]) cmds) as (cs & Hcs & Hk).
      rewrite Hlen in Hcs. exists cs. split; [exact Hcs|]. rewrite <- app_assoc in Hk.
      exact (cuts_impl (fun L' => Hlift e L' (or_introl eq_refl)) Hk).
    + set (e' := with_expiry (Some (now + ifexp)) e).
      assert (He : upto_expiry e' e) by (right; now eexists).
      assert (Hset : lexec (map BElem (A ++ (e :: r) ++ R)) (CLSet key (Z.of_nat (length A)) (BElem e')) = map BElem ((A ++ [e']) ++ r ++ R)).
      { change ((e :: r) ++ R) with (e :: r ++ R). rewrite lset_exact. now rewrite <- app_assoc. }
      destruct cache as [c|].
      * destruct (IH (A ++ [e']) (cur + 1)%Z (Some (cache_set (e_id e) e' c)) (rs ++ [e'])
                    (cmds ++ [CLSet key (Z.of_nat (length A)) (BElem e')])) as (cs & Hcs & Hk).
        rewrite Hlen in Hcs. exists (CLSet key (Z.of_nat (length A)) (BElem e') :: cs).
        split; [rewrite Hcs, <- app_assoc; reflexivity|]. apply cuts_cons; [exact Hbase|]. rewrite Hset.
        exact (cuts_impl (fun L' => Hlift e' L' He) Hk).
      * exists [CLSet key (Z.of_nat (length A)) (BElem e')]. cbn [rif_cmds]. split; [reflexivity|].
        apply cuts_cons; [exact Hbase|]. rewrite Hset. apply cuts_nil, (Hlift e' _ He).
        exists r. split; [reflexivity|apply Forall2_refl_upto].
Qed.

(* C09, queue clause, ReadInflight in progress: whatever part of its LSETs was executed, the stored
   list has the same elements in the same order, some in-flight expiries rewritten *)
Theorem readinflight_cut now n s q E k' :
  qstore_ok (rq_key q) s -> lview (rq_key q) s = map BElem E -> (0 <= rq_cur q)%Z ->
  exists E', lexec_all (lview (rq_key q) s) (firstn k' (r_cmds (rq_read_inflight now n s q))) = map BElem E' /\
             Forall2 upto_expiry E' E.
Proof.
  intros Hs HL Hc. unfold rq_read_inflight. destruct n as [|n'].
  { exists E. cbn [done r_cmds]. rewrite firstn_nil. split; [exact HL|apply Forall2_refl_upto]. }
  rewrite (window_elems _ s q E (S n') Hs HL Hc) by lia.
  set (c := Z.to_nat (rq_cur q)). set (W := firstn (S n') (skipn c E)).
  destruct W as [|e0 W0] eqn:EW.
  { exists E. cbn [done r_cmds]. rewrite firstn_nil. split; [exact HL|apply Forall2_refl_upto]. }
  assert (Hlen : (c <= length E)%nat).
  { destruct (Nat.le_gt_cases c (length E)) as [H|H]; [exact H|]. unfold W in EW. rewrite skipn_all2 in EW by lia. now rewrite firstn_nil in EW. }
  assert (HE : E = firstn c E ++ (e0 :: W0) ++ skipn (S n') (skipn c E)).
  { rewrite <- EW. unfold W. rewrite firstn_skipn. now rewrite firstn_skipn. }
  assert (Hidx : rq_cur q = Z.of_nat (length (firstn c E))) by (rewrite firstn_length_le by exact Hlen; unfold c; lia).
  clear EW Hlen. clear W.
  remember (firstn c E) as P eqn:EP. remember (skipn (S n') (skipn c E)) as R eqn:ER. clear EP ER. subst E.
  destruct (rif_loop_exec now (rq_key q) (rq_ifexp q) R (e0 :: W0) P (rq_cur q) (rq_cache q) [] [])
    as (cs & Hcs & Hk).
  rewrite <- Hidx in Hcs. cbn [app] in Hcs.
  destruct (rq_rif_loop now (rq_key q) (rq_ifexp q) (e0 :: W0) (rq_cur q) (rq_cur q) (rq_cache q) [] []) as [[[[[cur cache] rs] cmds] dr] panicked].
  cbn [rif_cmds] in Hcs. subst cmds.
  destruct (Hk k') as (l' & Hl & Hf). exists (P ++ l' ++ R).
  split.
  - rewrite HL. destruct panicked; cbn [done r_cmds]; exact Hl.
  - apply Forall2_app; [apply Forall2_refl_upto|]. apply Forall2_app; [exact Hf|apply Forall2_refl_upto].
Qed.

(* processing a prefix of the window l behind the in-flight entries A: an element is removed (D),
   or rewritten (packet id, in-flight expiry) and thereby joins the in-flight entries, in order *)
Inductive rd : list elem -> list elem -> list elem -> list elem -> list elem -> Prop :=
| rd_here A l : rd A l [] A l
| rd_drop A v l D A' l' : rd A l D A' l' -> rd A (v :: l) (v :: D) A' l'
| rd_keep A v v' l D A' l' : rewritten v v' -> e_id v' <> 0 -> rd (A ++ [v']) l D A' l' -> rd A (v :: l) D A' l'.

(* the documented reasons for which Read removes an element *)
Definition removable (now limit : N) (v5 : bool) (v : elem) : Prop :=
  expired now v = true \/
  exists m, e_body v = QPub m /\ ((limit <? msg_total_bytes v5 m) = true \/ (m_qos m =? 0) = true).

Lemma e_id_rewritten_pub v m p x :
  e_id (with_body (QPub (set_pid p m)) v) = p /\ e_id (with_expiry x (with_body (QPub (set_pid p m)) v)) = p.
Proof. split; reflexivity. Qed.

Lemma read_loop_exec now key limit v5 ifexp (R : list elem) : forall l a A,
  ra_cur a = Z.of_nat (length A) -> Forall (fun e => e_id e <> 0) A -> Forall (fun e => e_id e = 0) l ->
  Forall (fun p => p <> 0) (ra_pids a) ->
  exists cs, ra_cmds (fst (rq_read_loop now key limit v5 ifexp l a)) = ra_cmds a ++ cs /\
    cuts cs (map BElem (A ++ l ++ R)) (fun L' => exists D A' l',
      rd A l D A' l' /\ Forall (removable now limit v5) D /\ L' = map BElem (A' ++ l' ++ R)).
Proof.
  induction l as [|v r IH]; intros a A Hcur HA Hl Hp; cbn [rq_read_loop].
  - exists []. cbn [fst]. split; [now rewrite app_nil_r|]. apply cuts_nil. exists [], A, [].
    split; [constructor|]. split; [constructor|reflexivity].
  - inversion Hl as [|? ? Hv Hr]; subst.
    set (T := fun L' => exists D A' l',
           rd A (v :: r) D A' l' /\ Forall (removable now limit v5) D /\ L' = map BElem (A' ++ l' ++ R)).
    assert (Hbase : T (map BElem (A ++ (v :: r) ++ R)))
      by (exists [], A, (v :: r); split; [constructor|split; [constructor|reflexivity]]).
    assert (Hstop : exists cs, ra_cmds a = ra_cmds a ++ cs /\ cuts cs (map BElem (A ++ (v :: r) ++ R)) T)
      by (exists []; split; [now rewrite app_nil_r|now apply cuts_nil]).
    (* the three removals share one argument *)
    assert (Hrm : forall a1, removable now limit v5 v -> ra_cur a1 = ra_cur a -> ra_pids a1 = ra_pids a ->
                   ra_cmds a1 = ra_cmds a ++ [CLRem key (BElem v)] ->
      exists cs, ra_cmds (fst (rq_read_loop now key limit v5 ifexp r a1)) = ra_cmds a ++ cs /\
                 cuts cs (map BElem (A ++ (v :: r) ++ R)) T).
    { intros a1 Hrem H1 H2 H3.
      destruct (IH a1 A) as (cs & Hcs & Hk); [congruence|exact HA|exact Hr|now rewrite H2|].
      exists (CLRem key (BElem v) :: cs). split; [rewrite Hcs, H3, <- app_assoc; reflexivity|].
      apply cuts_cons; [exact Hbase|]. change ((v :: r) ++ R) with (v :: r ++ R). rewrite (lrem_exact key A (r ++ R) v HA Hv).
      eapply cuts_impl; [|exact Hk]. intros L' (D & A' & l' & Hrd & HD & ->). exists (v :: D), A', l'.
      split; [now constructor|]. split; [now constructor|reflexivity]. }
    destruct (expired now v) eqn:Ex; [apply Hrm; try reflexivity; now left|].
    destruct (e_body v) as [m|p0] eqn:Eb; [|exact Hstop].
    destruct (limit <? msg_total_bytes v5 m) eqn:Elim; [apply Hrm; try reflexivity; right; exists m; split; [exact Eb|now left]|].
    destruct (m_qos m =? 0) eqn:Eq; [apply Hrm; try reflexivity; right; exists m; split; [exact Eb|now right]|].
    destruct (ra_pids a) as [|p pids'] eqn:Epids; [exact Hstop|].
    inversion Hp as [|? ? Hp0 Hpr]; subst.
    (* v is handed out as v', in flight behind A *)
    set (v' := if ifexp =? 0 then with_body (QPub (set_pid p m)) v
               else with_expiry (Some (now + ifexp)) (with_body (QPub (set_pid p m)) v)).
    assert (Hid : e_id v' = p) by (unfold v'; destruct (ifexp =? 0); reflexivity).
    assert (Hset : lexec (map BElem (A ++ (v :: r) ++ R)) (CLSet key (ra_cur a) (BElem v')) = map BElem ((A ++ [v']) ++ r ++ R)).
    { rewrite Hcur. change ((v :: r) ++ R) with (v :: r ++ R). rewrite lset_exact. now rewrite <- app_assoc. }
    assert (Hlift : forall L', (exists D A' l', rd (A ++ [v']) r D A' l' /\ Forall (removable now limit v5) D /\
                                                 L' = map BElem (A' ++ l' ++ R)) -> T L').
    { intros L' (D & A' & l' & Hrd & HD & ->). exists D, A', l'.
      split; [apply (rd_keep A v v'); [exact (rewritten_handed now ifexp v m p Eb)|congruence|exact Hrd]|now split]. }
    destruct (ra_cache a) as [c|].
    + match goal with |- context [rq_read_loop _ _ _ _ _ r ?acc] => destruct (IH acc (A ++ [v'])) as (cs & Hcs & Hk) end.
      * cbn [ra_cur]. rewrite Hcur, app_length. cbn [length]. lia.
      * apply Forall_app. split; [exact HA|]. constructor; [congruence|constructor].
      * exact Hr.
      * exact Hpr.
      * cbn [ra_cmds] in Hcs. exists (CLSet key (ra_cur a) (BElem v') :: cs).
        split; [rewrite Hcs, <- app_assoc; reflexivity|].
        apply cuts_cons; [exact Hbase|]. rewrite Hset. exact (cuts_impl Hlift Hk).
    + cbn [fst ra_cmds]. exists [CLSet key (ra_cur a) (BElem v')]. split; [reflexivity|].
      apply cuts_cons; [exact Hbase|]. rewrite Hset. apply cuts_nil, Hlift. exists [], (A ++ [v']), r.
      split; [constructor|]. split; [constructor|reflexivity].
Qed.

(* what `rd` says: the in-flight entries stay in front, untouched and in order, the handed-out elements
   follow them in the order of the window, the rest of the window is a suffix of it; no element is gone
   except the removed ones *)
Lemma rd_front A l D A' l' : rd A l D A' l' ->
  Forall (fun e => e_id e <> 0) A -> Forall (fun e => e_id e = 0) l ->
  (exists H, A' = A ++ H) /\ (exists pre, l = pre ++ l') /\ Forall (fun e => e_id e <> 0) A' /\ Forall (fun e => e_id e = 0) l'.
Proof.
  induction 1 as [A l|A v l D A' l' Hrd IH|A v v' l D A' l' Hrw Hid Hrd IH]; intros HA Hl.
  - split; [exists []; now rewrite app_nil_r|]. split; [now exists []|]. now split.
  - inversion Hl as [|? ? Hv Hr]; subst. destruct (IH HA Hr) as ((H & ->) & (pre & ->) & H3 & H4).
    split; [now exists H|]. split; [now exists (v :: pre)|]. now split.
  - inversion Hl as [|? ? Hv Hr]; subst.
    destruct IH as ((H & ->) & (pre & ->) & H3 & H4); [apply Forall_app; split; [exact HA|constructor; [exact Hid|constructor]]|exact Hr|].
    split; [exists (v' :: H); now rewrite <- app_assoc|]. split; [now exists (v :: pre)|]. now split.
Qed.

Lemma rd_complete A l D A' l' : rd A l D A' l' ->
  (forall a, In a A -> In a A') /\
  (forall v, In v l -> In v D \/ (exists v', rewritten v v' /\ In v' A') \/ In v l').
Proof.
  induction 1 as [A l|A v l D A' l' Hrd [IH1 IH2]|A v v' l D A' l' Hrw Hid Hrd [IH1 IH2]].
  - split; [tauto|]. intros v Hv. right. now right.
  - split; [exact IH1|]. intros x [<-|Hx]; [left; now left|]. destruct (IH2 x Hx) as [H|[H|H]]; [left; now right|right; now left|right; now right].
  - split; [intros a Ha; apply IH1, in_or_app; now left|].
    intros x [<-|Hx]; [right; left; exists v'; split; [exact Hrw|apply IH1, in_or_app; right; now left]|now apply IH2].
Qed.

(* C09, queue clause, Read in progress on a consistent store (in-flight entries `infl` in front of the
   queued ones `qd`, read cursor at the first queued one, non-zero packet ids supplied) *)
Theorem read_cut now pids s q infl qd k' :
  qstore_ok (rq_key q) s -> lview (rq_key q) s = map BElem (infl ++ qd) ->
  Forall (fun e => e_id e <> 0) infl -> Forall (fun e => e_id e = 0) qd ->
  rq_cur q = Z.of_nat (length infl) -> Forall (fun p => p <> 0) pids ->
  exists D A' l',
    rd infl (firstn (length pids) qd) D A' l' /\ Forall (removable now (rq_limit q) (rq_v5 q)) D /\
    lexec_all (lview (rq_key q) s) (firstn k' (r_cmds (rq_read now pids s q))) =
      map BElem (A' ++ l' ++ skipn (length pids) qd).
Proof.
  intros Hs HL Hi Hq Hcur Hp.
  assert (Hnone : exists D A' l', rd infl (firstn (length pids) qd) D A' l' /\ Forall (removable now (rq_limit q) (rq_v5 q)) D /\
            lexec_all (lview (rq_key q) s) (firstn k' []) = map BElem (A' ++ l' ++ skipn (length pids) qd)).
  { exists [], infl, (firstn (length pids) qd). rewrite firstn_nil. split; [constructor|]. split; [constructor|].
    cbn [lexec_all fold_left]. now rewrite firstn_skipn. }
  unfold rq_read. destruct (negb (rq_drained q)); [exact Hnone|]. destruct (rq_closed q); [exact Hnone|].
  destruct (rq_len q <=? rq_cur q)%Z; [exact Hnone|]. destruct (length pids =? 0)%nat eqn:En; [exact Hnone|].
  apply Nat.eqb_neq in En.
  rewrite (window_elems _ s q (infl ++ qd) (length pids) Hs HL) by lia.
  rewrite Hcur, Nat2Z.id, skipn_app, skipn_all, Nat.sub_diag. cbn [skipn app].
  match goal with |- context [rq_read_loop ?a ?b ?c ?d ?e ?l ?acc] =>
    destruct (read_loop_exec a b c d e (skipn (length pids) qd) l acc infl) as (cs & Hcs & Hk) end.
  - reflexivity.
  - exact Hi.
  - apply Forall_firstn. exact Hq.
  - cbn [ra_pids]. exact Hp.
  - cbn [ra_cmds app] in Hcs.
    destruct (rq_read_loop now (rq_key q) (rq_limit q) (rq_v5 q) (rq_ifexp q) (firstn (length pids) qd) _) as [a' p].
    cbn [fst] in Hcs. destruct (Hk k') as (D & A' & l' & Hrd & HD & Hx). exists D, A', l'. split; [exact Hrd|]. split; [exact HD|].
    rewrite HL. rewrite <- (firstn_skipn (length pids) qd) at 1.
    destruct p; cbn [done r_cmds]; rewrite Hcs; exact Hx.
Qed.

(* `fi E`: no queued element (packet id 0) is followed by an in-flight one *)
Fixpoint fi (l : list elem) : Prop :=
  match l with
  | [] => True
  | x :: r => (e_id x <> 0 /\ fi r) \/ Forall (fun e => e_id e = 0) (x :: r)
  end.

Lemma fi_zero l : Forall (fun e => e_id e = 0) l -> fi l.
Proof. destruct l as [|x r]; cbn [fi]; [trivial|now right]. Qed.

Lemma fi_parts a b : Forall (fun e => e_id e <> 0) a -> Forall (fun e => e_id e = 0) b -> fi (a ++ b).
Proof. intros Ha Hb. induction Ha as [|x r Hx Hr IH]; cbn [app]; [now apply fi_zero|]. cbn [fi]. left. now split. Qed.

Lemma fi_split l : fi l -> exists a b, l = a ++ b /\ Forall (fun e => e_id e <> 0) a /\ Forall (fun e => e_id e = 0) b.
Proof.
  induction l as [|x r IH]; cbn [fi]; intros H.
  - exists [], []. repeat split; constructor.
  - destruct H as [[Hx Hr]|Hz].
    + destruct (IH Hr) as (a & b & -> & Ha & Hb). exists (x :: a), b. repeat split; [now constructor|exact Hb].
    + exists [], (x :: r). repeat split; [constructor|exact Hz].
Qed.

Lemma fi_remove P x X : fi (P ++ x :: X) -> fi (P ++ X).
Proof.
  induction P as [|p P' IH]; cbn [app fi].
  - intros [[_ H]|H]; [exact H|]. inversion H; subst. now apply fi_zero.
  - intros [[Hp H]|H].
    + left. split; [exact Hp|now apply IH].
    + right. inversion H as [|? ? Hp Hr]; subst. constructor; [exact Hp|].
      apply Forall_app in Hr as [H1 H2]. inversion H2; subst. apply Forall_app. now split.
Qed.

Lemma fi_push l e : fi l -> e_id e = 0 -> fi (l ++ [e]).
Proof.
  intros Hl He. destruct (fi_split l Hl) as (a & b & -> & Ha & Hb). rewrite <- app_assoc.
  apply fi_parts; [exact Ha|]. apply Forall_app. split; [exact Hb|now repeat constructor].
Qed.

Lemma fi_ids l l' : map e_id l' = map e_id l -> fi l -> fi l'.
Proof.
  intros E H. destruct (fi_split l H) as (a & b & -> & Ha & Hb). rewrite map_app in E.
  apply map_eq_app in E as (a' & b' & -> & Ea & Eb).
  apply fi_parts; [apply (Forall_map e_id (fun n => n <> 0)); rewrite Ea|apply (Forall_map e_id (fun n => n = 0)); rewrite Eb];
    now apply Forall_map.
Qed.

Lemma upto_expiry_ids l' l : Forall2 upto_expiry l' l -> map e_id l' = map e_id l.
Proof. induction 1 as [|x' x r' r [->|[y ->]] Hr IH]; cbn [map]; [reflexivity|now rewrite IH|now rewrite IH]. Qed.

(* LREM on a list of elements removes one element, or nothing *)
Lemma remove_first_elems d E :
  remove_first (BElem d) (map BElem E) = map BElem E \/
  exists P x X, E = P ++ x :: X /\ remove_first (BElem d) (map BElem E) = map BElem (P ++ X).
Proof.
  induction E as [|y r IH]; cbn [map remove_first blob_eqb]; [now left|].
  destruct (elem_eqb y d).
  - right. exists [], y, r. now split.
  - destruct IH as [IH|(P & x & X & -> & IH)]; [left; now rewrite IH|].
    right. exists (y :: P), x, X. split; [reflexivity|]. now rewrite IH.
Qed.

Lemma fi_lrem d E : fi E -> exists E', remove_first (BElem d) (map BElem E) = map BElem E' /\ fi E'.
Proof.
  intros H. destruct (remove_first_elems d E) as [Hr|(P & x & X & -> & Hr)]; [now exists E|].
  exists (P ++ X). split; [exact Hr|now apply (fi_remove P x X)].
Qed.

Lemma find_id_split pid : forall l i k, find_id_z pid l i = Some k ->
  exists P x X, l = P ++ x :: X /\ e_id x = pid /\ k = (i + Z.of_nat (length P))%Z.
Proof.
  induction l as [|e r IH]; intros i k H; cbn [find_id_z] in H; [discriminate|].
  destruct (N.eqb_spec (e_id e) pid) as [E|E].
  - injection H as <-. exists [], e, r. cbn [length]. repeat split; [exact E|lia].
  - destruct (IH _ _ H) as (P & x & X & -> & Hx & ->). exists (e :: P), x, X. cbn [length]. repeat split; [exact Hx|lia].
Qed.

(* the operation's own consistency requirement: Add appends a not yet delivered element, Read is given
   non-zero packet ids and its cursor is behind the in-flight entries, the cursor is not negative *)
Definition op_pre (q : rq) (E : list elem) (o : rqop) : Prop :=
  match o with
  | ROp (OAdd _ e) => e_id e = 0
  | ROp (ORead _ pids) =>
      Forall (fun p => p <> 0) pids /\
      exists infl qd, E = infl ++ qd /\ Forall (fun e => e_id e <> 0) infl /\ Forall (fun e => e_id e = 0) qd /\
                      rq_cur q = Z.of_nat (length infl)
  | ROp (OReadInflight _ _) => (0 <= rq_cur q)%Z
  | _ => True
  end.

(* C09, queue clause (c), one operation in progress: if the stored list has the in-flight entries in
   front of the queued ones, so has the list left by ANY part of the operation's commands: a
   ReadInflight after the restart meets the in-flight entries first *)
Theorem one_op_order s q o E k' :
  qstore_ok (rq_key q) s -> lview (rq_key q) s = map BElem E -> fi E -> op_pre q E o ->
  exists E', lexec_all (lview (rq_key q) s) (firstn k' (r_cmds (rq_step s q o))) = map BElem E' /\ fi E'.
Proof.
  intros Hs HL Hfi Hpre. revert k'.
  set (T := fun L' => exists E', L' = map BElem E' /\ fi E').
  change (cuts (r_cmds (rq_step s q o)) (lview (rq_key q) s) T).
  assert (Hbase : T (lview (rq_key q) s)) by (exists E; now split).
  destruct o as [o|]; [destruct o|]; cbn [rq_step op_pre] in *.
  - (* Add *)
    destruct (add_shape now e s q) as [[-> _]|[[-> _]|(d & -> & _)]]; [now apply cuts_nil|apply cuts_cons; [exact Hbase|]..];
      cbn [lexec]; rewrite HL.
    + apply cuts_nil. exists (E ++ [e]). split; [now rewrite map_app|now apply fi_push].
    + destruct (fi_lrem d E Hfi) as (E' & -> & Hf). apply cuts_cons; [now exists E'|]. apply cuts_nil.
      exists (E' ++ [e]). cbn [lexec]. split; [now rewrite map_app|now apply fi_push].
  - (* Read *)
    intros k'. destruct Hpre as (Hp & infl & qd & -> & Hi & Hq & Hcur).
    destruct (read_cut now pids s q infl qd k' Hs HL Hi Hq Hcur Hp) as (D & A' & l' & Hrd & _ & Hx).
    exists (A' ++ l' ++ skipn (length pids) qd). split; [exact Hx|].
    destruct (rd_front _ _ _ _ _ Hrd Hi (Forall_firstn _ _ _ Hq)) as (_ & _ & HA' & Hl').
    apply fi_parts; [exact HA'|]. apply Forall_app. split; [exact Hl'|now apply Forall_skipn].
  - (* ReadInflight *)
    intros k'. destruct (readinflight_cut now maxsize s q E k' Hs HL Hpre) as (E' & Hx & Hf). exists E'. split; [exact Hx|].
    apply (fi_ids E); [now apply upto_expiry_ids|exact Hfi].
  - (* Remove *)
    unfold rq_remove. destruct (rq_cache q) as [c|]; [|now apply cuts_nil]. destruct (cache_get pid c) as [b|]; [|now apply cuts_nil].
    apply cuts_cons; [exact Hbase|]. apply cuts_nil. cbn [lexec]. rewrite HL. now apply fi_lrem.
  - (* Replace *)
    unfold rq_replace. destruct (rq_cur q <=? 0)%Z eqn:Ec; [now apply cuts_nil|]. apply Z.leb_gt in Ec.
    assert (Hw : elems_of (lrange (rq_key q) 0 (rq_cur q - 1) s) = firstn (Z.to_nat (rq_cur q)) E).
    { rewrite (lrange_lview _ _ _ s Hs), HL.
      replace (rq_cur q - 1)%Z with (0 + Z.of_nat (Z.to_nat (rq_cur q)) - 1)%Z by lia.
      rewrite (window_spec (map BElem E) 0 (Z.to_nat (rq_cur q))) by lia.
      cbn [Z.to_nat skipn]. rewrite firstn_map. apply elems_of_map. }
    rewrite Hw. destruct (find_id_z (e_id e) _ 0) as [k|] eqn:Ef; [|now apply cuts_nil].
    destruct (find_id_split _ _ _ _ Ef) as (P & x & X & HPX & Hx & ->). cbn [Z.add].
    assert (HE : E = P ++ x :: (X ++ skipn (Z.to_nat (rq_cur q)) E)).
    { rewrite <- (firstn_skipn (Z.to_nat (rq_cur q)) E) at 1. rewrite HPX, <- app_assoc. reflexivity. }
    assert (Hres : cuts [CLSet (rq_key q) (Z.of_nat (length P)) (BElem e)] (lview (rq_key q) s) T).
    { apply cuts_cons; [exact Hbase|]. apply cuts_nil. rewrite HL.
      exists (P ++ e :: (X ++ skipn (Z.to_nat (rq_cur q)) E)). split; [rewrite HE at 1; apply lset_exact|].
      apply (fi_ids E); [|exact Hfi]. rewrite HE at 2. rewrite !map_app. cbn [map]. now rewrite Hx. }
    destruct (rq_cache q); exact Hres.
  - (* Init *)
    unfold rq_init. cbn [r_cmds]. destruct clean; [|now apply cuts_nil].
    apply cuts_cons; [exact Hbase|]. apply cuts_nil. exists []. now split.
  - now apply cuts_nil.
  - now apply cuts_nil.
Qed.

(* the fresh broker: nothing stored yet *)
Lemma ustore_ok_nil c : ustore_ok c [].
Proof. split; [constructor|]. split; [intros l H; discriminate|split; constructor]. Qed.

Corollary unack_any_prefix_fresh fx c (ops : list ruop) (k : nat) :
  Forall ruop_u16 ops ->
  exists j, (j <= length ops)%nat /\
    firstn k (snd (ru_run fx c [] [] ops)) = snd (ru_run fx c [] [] (firstn j ops)) /\
    seteq16 (stored_unack c (exec_all [] (firstn k (snd (ru_run fx c [] [] ops))))) (fold_left ua_spec (firstn j ops) []).
Proof. intros H. exact (unack_any_prefix fx c ops [] [] k (ustore_ok_nil c) (Forall_nil _) H). Qed.

Lemma qstore_ok_nil K : qstore_ok K [].
Proof. split; [constructor|intros h H; discriminate]. Qed.

(* examples (non-vacuity) *)
Definition xq_msg (qos : N) (payload : str) : msg :=
  {| m_dup := false; m_qos := qos; m_retained := false; m_topic := [116]; m_payload := payload; m_pid := 0;
     m_ctype := []; m_corr := []; m_expiry := 0; m_pfmt := 0; m_resp := []; m_subids := []; m_uprops := [] |}.
Definition xq_elem (tag qos : N) : elem :=
  {| e_tag := tag; e_at := 1000; e_expiry := None; e_body := QPub (xq_msg qos [48 + tag]) |}.

(* unack: DEL, HSET 5, HSET 7, HDEL 5; after the restart the reloaded cache answers Set 7 without a command *)
Definition xu_ops : list ruop := [RUInit true; RUSet 5; RUSet 7; RURemove 5; RURestart; RUInit false; RUSet 7].
Example unack_example :
  length (snd (ru_run cur_code [99] [] [] xu_ops)) = 4%nat /\
  map (fun k => stored_unack [99] (exec_all [] (firstn k (snd (ru_run cur_code [99] [] [] xu_ops))))) [0; 1; 2; 3; 4]%nat
  = [[]; []; [5]; [5; 7]; [7]].
Proof. vm_compute. split; reflexivity. Qed.

(* queue, bound 2: the third Add drops the queued QoS 0 message: LREM e2, RPUSH e3.  Cut between the two:
   the victim is gone, the newcomer (not yet reported queued) is absent, e1 is there *)
Definition xq_hist : list rqop :=
  [ROp (OInit true true 1000); ROp (OReadInflight 1000 10); ROp (OAdd 1000 (xq_elem 1 1)); ROp (OAdd 1000 (xq_elem 2 0));
   ROp (OAdd 1000 (xq_elem 3 1)); ROp (ORead 1000 [7; 8])].
Example queue_example :
  let q0 := rq_new 2 0 [99] in
  let J := rq_journal [] q0 xq_hist in
  J = snd (rq_run [] q0 xq_hist) /\ length J = 7%nat /\
  map (fun k => map e_tag (elems_of (lview (rq_key q0) (exec_all [] (firstn k J))))) [3; 4; 5; 6; 7]%nat
    = [[1; 2]; [1]; [1; 3]; [1; 3]; [1; 3]] /\
  map (fun k => map e_id (elems_of (lview (rq_key q0) (exec_all [] (firstn k J))))) [5; 6; 7]%nat
    = [[0; 0]; [7; 0]; [7; 8]].
Proof. vm_compute. repeat split; reflexivity. Qed.
