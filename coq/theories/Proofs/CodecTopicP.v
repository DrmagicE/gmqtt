(* ValidUTF8 / ValidTopicName / ValidTopicFilter / ValidV5Topic against the specification's
   predicates: where they differ (witnesses), and where they provably agree. *)
From Coq Require Import List NArith ZArith Bool Lia ZifyN ZifyNat ZifyBool.
Import ListNotations.
From GM Require Import Base.Topic Base.Msg Model.TopicMatch Model.CodecBase Model.CodecSpec Oracle.C06O
  Proofs.CodecBaseP Proofs.CodecStrP Proofs.CodecUtf8P.
Open Scope N_scope.

(* "" is not a topic name; U+0000 is refused; "+a", "+a/#", "$share/g/+a" are refused;
   U+FFFD is accepted in names, filters, share names *)
Lemma empty_name_refused : valid_topic_name_impl true [] = Ok false /\ valid_topic_name_impl false [] = Ok false.
Proof. split; reflexivity. Qed.
Lemma nul_refused :
  valid_topic_name_impl true [97; 0] = Ok false /\ valid_topic_name_impl false [97; 0] = Ok false
  /\ valid_topic_filter_impl true [97; 0] = Ok false /\ valid_v5_topic_impl [97; 0] = Ok false
  /\ valid_v5_topic_impl [36; 115; 104; 97; 114; 101; 47; 0; 47; 97] = Ok false.
Proof. repeat split; vm_compute; reflexivity. Qed.
Lemma plus_prefix_refused :
  valid_topic_filter_impl true [43; 97] = Ok false /\ valid_topic_filter_impl false [43; 97; 47; 35] = Ok false
  /\ valid_v5_topic_impl [36; 115; 104; 97; 114; 101; 47; 103; 47; 43; 97] = Ok false.
Proof. repeat split; vm_compute; reflexivity. Qed.
Lemma fffd_topics_accepted :
  valid_topic_name_impl true [239; 191; 189] = Ok true /\ valid_topic_filter_impl true [239; 191; 189; 47; 35] = Ok true
  /\ valid_v5_topic_impl [36; 115; 104; 97; 114; 101; 47; 239; 191; 189; 47; 239; 191; 189] = Ok true.
Proof. repeat split; vm_compute; reflexivity. Qed.

Lemma has_wild_cut : forall n p, has_wild p = has_wild (takeN n p) || has_wild (dropN n p).
Proof. intros. rewrite <- (take_drop _ p n) at 1. apply existsb_app. Qed.
(* the bytes of a multi-byte rune are none of '/', '+', '#' *)
Lemma high_plain : forall c, 128 <= c -> (c =? SLASH) = false /\ (c =? PLUS) = false /\ (c =? HASH) = false.
Proof. unfold SLASH, PLUS, HASH. lia. Qed.

Lemma has_wild_high : forall l, forallb (fun x => 128 <=? x) l = true -> has_wild l = false.
Proof.
  induction l; intros H; [reflexivity|]. cbn [forallb] in H. apply andb_prop in H. destruct H as [Ha Hl].
  cbn [has_wild existsb]. fold (has_wild l). rewrite IHl by assumption.
  destruct (high_plain a) as (_ & -> & ->); [lia|reflexivity].
Qed.

(* the bytes DecodeRune steps over contain a wildcard only if it is a one-byte rune *)
Lemma rune_wild : forall p0 t ru size, decode_rune (p0 :: t) = (ru, size) ->
  has_wild (takeN size (p0 :: t)) = (size =? 1) && ((p0 =? PLUS) || (p0 =? HASH)).
Proof.
  intros p0 t ru size E. destruct (N.eqb_spec size 1) as [->|Hs].
  - change (takeN 1 (p0 :: t)) with (p0 :: takeN 0 t). rewrite takeN_0. cbn [has_wild existsb andb]. apply orb_false_r.
  - apply has_wild_high, (rune_multi _ _ _ _ E Hs).
Qed.

(* the bytes DecodeRune steps over contain U+0000 only if the rune is U+0000 *)
Lemma rune_nul : forall p0 t ru size, decode_rune (p0 :: t) = (ru, size) ->
  no0 (takeN size (p0 :: t)) = negb (ru =? 0).
Proof.
  intros p0 t ru size E. pose proof (decode_rune_zero p0 t) as Hz. rewrite E in Hz. cbn [fst] in Hz. rewrite Hz.
  destruct (N.eqb_spec size 1) as [->|Hs].
  - change (takeN 1 (p0 :: t)) with (p0 :: takeN 0 t). rewrite takeN_0, no0_cons. apply andb_true_r.
  - destruct (rune_multi _ _ _ _ E Hs) as [Hp0 Hh]. rewrite (no0_high _ Hh). now replace (p0 =? 0) with false by lia.
Qed.

Lemma valid_topic_name_loop_bytes : forall fuel p, (length p < fuel)%nat ->
  valid_topic_name_loop fuel false p = Ok (negb (has_wild p) && no0 p).
Proof.
  induction fuel; intros p Hf; [lia|]. destruct p as [|p0 t]; [reflexivity|].
  cbn [valid_topic_name_loop length] in *.
  destruct (decode_rune (p0 :: t)) as [ru size] eqn:E. destruct (rune_step _ _ _ _ E) as (_ & Hs & Hl).
  rewrite (has_wild_cut size), (no0_cut size), (rune_wild _ _ _ _ E), (rune_nul _ _ _ _ E). cbn [andb].
  destruct (ru =? 0); cbn [negb andb]; [now rewrite andb_false_r|].
  destruct ((size =? 1) && ((p0 =? PLUS) || (p0 =? HASH))); [reflexivity|].
  rewrite Hs. cbn [bind orb negb]. apply IHfuel. lia.
Qed.

(* ValidTopicName(false, p): non-empty, no wildcard byte, no null byte - MQTT 4.7.3-1, 4.7.1-1,
   4.7.3-2 - on every byte string *)
Theorem name_bytes_exact : forall s,
  valid_topic_name_impl false s = Ok (valid_name_spec s && no_nul s).
Proof.
  intros s. unfold valid_topic_name_impl. destruct s as [|c t] eqn:Es; [reflexivity|]. rewrite <- Es.
  rewrite valid_topic_name_loop_bytes by lia. unfold valid_name_spec. subst s. reflexivity.
Qed.

(* ValidUTF8 gives the verdict MQTT 1.5.4 asks for on EVERY byte string: it accepts what must be
   accepted, and refuses only ill-formed UTF-8, U+0000 and control characters (which a receiver
   may refuse) *)
Theorem utf8_verdict : forall s, utf8_verdict_ok s (tb_of (valid_utf8_impl s)) = true.
Proof.
  intros s. rewrite valid_utf8_impl_spec. cbn [tb_of]. unfold utf8_verdict_ok.
  destruct (spec_utf8 s) eqn:E1; destruct (has_ctl s) eqn:E2; cbn [andb negb orb]; try reflexivity; assumption.
Qed.

(* every string of a well-formed packet value (wf_str) passes ValidUTF8 *)
Theorem wf_str_accepted : forall s, wf_str s = true -> valid_utf8_impl s = Ok true.
Proof.
  intros s Hw. rewrite valid_utf8_impl_spec. unfold wf_str in Hw.
  destruct (spec_utf8 s); destruct (has_ctl s); cbn in *; try reflexivity; lia.
Qed.

(* the decoder always calls readUTF8String(true, ..) before ValidTopicName(true, ..): on such
   strings the invalid-encoding test (RuneError with size 1) never fires *)
Lemma good_no_error : forall ru size, good ru size = true -> (ru =? RUNE_ERROR) && (size <=? 1) = false.
Proof. intros ru size H. unfold good in H. destruct ((ru =? RUNE_ERROR) && (size <=? 1)); [|reflexivity]. lia. Qed.

Lemma name_loop_must : forall fuel p, valid_utf8_loop fuel p = Ok true ->
  valid_topic_name_loop fuel true p = valid_topic_name_loop fuel false p.
Proof.
  induction fuel; intros p H; [reflexivity|]. destruct p as [|p0 t]; [reflexivity|].
  cbn [valid_topic_name_loop]. destruct (decode_rune (p0 :: t)) as [ru size] eqn:E.
  rewrite (loop_step _ _ _ _ _ E) in H. destruct (rune_step _ _ _ _ E) as (_ & Hs & _).
  destruct (good ru size) eqn:Hg; [|discriminate]. cbn [andb]. rewrite (good_no_error _ _ Hg).
  destruct (ru =? 0); [reflexivity|]. destruct (_ && _); [reflexivity|].
  rewrite Hs. cbn [bind]. now apply IHfuel.
Qed.

Lemma G_no_nul : forall s, spec_utf8 s = true -> no_nul s = true.
Proof. intros s H. unfold spec_utf8 in H. apply andb_prop in H. unfold no_nul. tauto. Qed.

(* ValidTopicName(true, s) on every string the decoder passes to it gives the verdict of the
   specification *)
Theorem name_decoder_exact : forall s,
  valid_utf8_impl s = Ok true -> valid_topic_name_impl true s = Ok (spec_topic_name s).
Proof.
  intros s Hu. pose proof (valid_utf8_spec s Hu) as Hsu.
  transitivity (valid_topic_name_impl false s).
  - unfold valid_topic_name_impl. destruct s; [reflexivity|]. now apply name_loop_must.
  - rewrite name_bytes_exact, (G_no_nul s Hsu), andb_true_r. unfold spec_topic_name. now rewrite Hsu.
Qed.
