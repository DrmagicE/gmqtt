(* Finite transition systems given by an executable successor function: breadth-first search
   of the reachable set inside Coq (visited set of injective state codes, fuel = number of
   levels), the proof that a search which returns has found every reachable state, and the
   lemmas that turn one boolean check over the computed list into statements about ALL runs.
   Used by ConnLifeP.v and StopLifeP.v (C15). *)
From Coq Require Import List Arith Bool PArith MSets.MSetPositive Lia.
Import ListNotations.

Module PS := PositiveSet.

(* each number n as n one-bits followed by a zero-bit *)
Fixpoint enc (l : list nat) : positive :=
  match l with
  | [] => xH
  | n :: tl => Nat.iter n xI (xO (enc tl))
  end.

Lemma iter_xI_xO_inj n : forall m a b, Nat.iter n xI (xO a) = Nat.iter m xI (xO b) -> n = m /\ a = b.
Proof.
  induction n as [|n IH]; intros [|m] a b H; cbn in H.
  - inversion H. auto.
  - discriminate.
  - discriminate.
  - inversion H as [H']. apply IH in H' as [-> ->]. auto.
Qed.

Lemma iter_xI_xO_not_xH n a : Nat.iter n xI (xO a) <> xH.
Proof. destruct n; cbn; discriminate. Qed.

Lemma enc_inj : forall l1 l2, enc l1 = enc l2 -> l1 = l2.
Proof.
  induction l1 as [|n l1 IH]; intros [|m l2] H; cbn in H.
  - reflexivity.
  - symmetry in H. now apply iter_xI_xO_not_xH in H.
  - now apply iter_xI_xO_not_xH in H.
  - apply iter_xI_xO_inj in H as [-> H]. f_equal. now apply IH.
Qed.

Lemma b2n_inj b b' : Nat.b2n b = Nat.b2n b' -> b = b'.
Proof. destruct b, b'; cbn; congruence. Qed.

(* proves `forall s s', enc (fields s) = enc (fields s') -> s = s'` for a record s whose `fields`
   lists every component, numbers as they are and booleans through Nat.b2n *)
Ltac enc_fields_inj :=
  intros s s' H; apply enc_inj in H; destruct s, s'; cbn in H; injection H; intros;
  repeat match goal with E : Nat.b2n _ = Nat.b2n _ |- _ => apply b2n_inj in E end;
  subst; reflexivity.

Definition is_some {A} (o : option A) : bool := match o with Some _ => true | None => false end.

Section Sys.
  Context {St : Type}.
  Context (next : St -> list St).
  Context (code : St -> positive).
  Context (code_inj : forall s s', code s = code s' -> s = s').

  Definition add_new (acc : PS.t * list St) (s : St) : PS.t * list St :=
    let '(seen, fresh) := acc in
    if PS.mem (code s) seen then acc else (PS.add (code s) seen, s :: fresh).

  Fixpoint bfs (fuel : nat) (frontier : list St) (seen : PS.t) (all : list St) : option (list St) :=
    match fuel with
    | 0 => match frontier with [] => Some all | _ => None end
    | S f =>
        match frontier with
        | [] => Some all
        | _ =>
            let '(seen', fresh) := fold_left add_new (flat_map next frontier) (seen, []) in
            bfs f fresh seen' (fresh ++ all)
        end
    end.

  Definition explore (fuel : nat) (i0 : St) : option (list St) :=
    bfs fuel [i0] (PS.singleton (code i0)) [i0].

  Definition invb_of (inv : St -> bool) (l : list St) : bool := forallb inv l.

  (* the search has returned, and inv holds of every state it has found *)
  Definition checkb (inv : St -> bool) (found : option (list St)) : bool :=
    match found with Some l => invb_of inv l | None => false end.

  Definition stuck (s : St) : bool := match next s with [] => true | _ => false end.

  (* the termination argument at s: without successor s is good, and every step from s
     decreases the measure *)
  Definition stepb (measure : St -> nat) (good : St -> bool) (s : St) : bool :=
    let m := measure s in
    match next s with [] => good s | l => forallb (fun s' => measure s' <? m) l end.

  Inductive reachable_from (i0 : St) : St -> Prop :=
  | reach_init : reachable_from i0 i0
  | reach_step : forall s s', reachable_from i0 s -> In s' (next s) -> reachable_from i0 s'.

  (* every maximal run from s is finite and ends in a state satisfying P *)
  Inductive ends_in (P : St -> Prop) : St -> Prop :=
  | ends_here : forall s, next s = [] -> P s -> ends_in P s
  | ends_step : forall s, next s <> [] -> (forall s', In s' (next s) -> ends_in P s') -> ends_in P s.

  Lemma ends_in_weaken (P Q : St -> Prop) : (forall s, P s -> Q s) -> forall s, ends_in P s -> ends_in Q s.
  Proof.
    intros PQ s H. induction H as [s Hn Hp | s Hn _ IH].
    - apply ends_here; auto.
    - apply ends_step; auto.
  Qed.

  Lemma not_stuck s : stuck s = false -> next s <> [].
  Proof. unfold stuck. now destruct (next s). Qed.

  (* a run given by the index of the chosen successor at every step *)
  Fixpoint replay (choices : list nat) (s : St) : option St :=
    match choices with
    | [] => Some s
    | c :: tl => match nth_error (next s) c with Some s' => replay tl s' | None => None end
    end.

  Lemma replay_reachable i0 : forall choices s s',
    reachable_from i0 s -> replay choices s = Some s' -> reachable_from i0 s'.
  Proof.
    induction choices as [|c tl IH]; intros s s' R H; cbn in H.
    - inversion H. now subst.
    - destruct (nth_error (next s) c) as [x|] eqn:E; [|discriminate].
      eapply IH; [|exact H]. eapply reach_step; [exact R|]. eapply nth_error_In; exact E.
  Qed.

  (* the run `choices` from i0 exists and ends in a state satisfying p *)
  Definition reaches (p : St -> bool) (choices : list nat) (i0 : St) : bool :=
    match replay choices i0 with Some s => p s | None => false end.

  Lemma reaches_spec p choices i0 : reaches p choices i0 = true -> exists s, reachable_from i0 s /\ p s = true.
  Proof.
    unfold reaches. destruct (replay choices i0) as [s|] eqn:E; [|discriminate].
    intros H. exists s. split; [|exact H]. eapply replay_reachable; [apply reach_init | exact E].
  Qed.

  (* P stands for membership in `all`: a state whose code has been seen is a fresh one or
     satisfies P *)
  Definition seen_ok (P : St -> Prop) (acc : PS.t * list St) : Prop :=
    forall s, PS.mem (code s) (fst acc) = true -> In s (snd acc) \/ P s.

  Lemma add_new_spec P acc x : seen_ok P acc ->
    seen_ok P (add_new acc x) /\
    (forall s, x = s \/ PS.mem (code s) (fst acc) = true -> PS.mem (code s) (fst (add_new acc x)) = true).
  Proof.
    destruct acc as [seen fresh]. unfold seen_ok. intros H. cbn [add_new].
    destruct (PS.mem (code x) seen) eqn:E; cbn [fst snd] in *.
    - split; [exact H|]. now intros s [<-|Hs].
    - split; intros s; rewrite !PS.mem_spec, PS.add_spec, <- PS.mem_spec.
      + intros [Hs|Hs]; [left; left; symmetry; now apply code_inj|].
        destruct (H s Hs); [left; now right | now right].
      + intros [<-|Hs]; auto.
  Qed.

  (* one level of the search, over the successors xs *)
  Lemma add_new_fold P xs : forall acc, seen_ok P acc ->
    seen_ok P (fold_left add_new xs acc) /\
    (forall s, In s xs \/ PS.mem (code s) (fst acc) = true ->
               PS.mem (code s) (fst (fold_left add_new xs acc)) = true).
  Proof.
    induction xs as [|x xs IH]; intros acc H; cbn [fold_left].
    - split; [exact H|]. now intros s [[]|Hs].
    - destruct (add_new_spec P acc x H) as [H1 H2]. destruct (IH _ H1) as [H3 H4].
      split; [exact H3|]. intros s [[<-|Hs]|Hs]; apply H4; auto.
  Qed.

  (* The search maintains: `seen` holds codes of members of `all` only, and every member of `all`
     outside the frontier has its successors in `all`.  So what it returns is closed under `next`. *)
  Lemma bfs_closed : forall fuel frontier seen all l,
    bfs fuel frontier seen all = Some l ->
    (forall s, PS.mem (code s) seen = true -> In s all) ->
    (forall s, In s all -> In s frontier \/ incl (next s) all) ->
    incl all l /\ forall s, In s l -> incl (next s) l.
  Proof.
    induction fuel as [|fuel IH]; intros [|x fr] seen all l H Hseen Hall; cbn [bfs] in H; try discriminate.
    1, 2: injection H as <-; split; [apply incl_refl|]; intros s Hs; now destruct (Hall s Hs).
    destruct (add_new_fold (fun s => In s all) (flat_map next (x :: fr)) (seen, [])) as [H1 H2].
    { intros s Hs. right. now apply Hseen. }
    destruct (fold_left add_new (flat_map next (x :: fr)) (seen, [])) as [seen' fresh]. cbn [fst snd] in *.
    apply IH in H as [Hi Hc].
    - split; [|exact Hc]. intros s Hs. apply Hi, in_or_app. now right.
    - intros s Hs. apply in_or_app. now apply H1.
    - intros s Hs. apply in_app_or in Hs as [Hs|Hs]; [now left|]. right. intros s' Hs'.
      apply in_or_app. destruct (Hall s Hs) as [Hf|Hn].
      + apply H1, H2. left. apply in_flat_map. now exists s.
      + right. now apply Hn.
  Qed.

  Lemma explore_complete fuel i0 l : explore fuel i0 = Some l -> forall s, reachable_from i0 s -> In s l.
  Proof.
    intros H. apply bfs_closed in H as [Hi Hc].
    - induction 1 as [|s s' _ IH Hin]; [apply Hi; now left | exact (Hc s IH s' Hin)].
    - intros s Hs. left. apply code_inj. symmetry. now apply PS.singleton_spec, PS.mem_spec.
    - intros s [<-|[]]. left. now left.
  Qed.

  Lemma checkb_some inv found : checkb inv found = true -> is_some found = true.
  Proof. now destruct found. Qed.

  Lemma checkb_sound inv fuel i0 : checkb inv (explore fuel i0) = true ->
    forall s, reachable_from i0 s -> inv s = true.
  Proof.
    destruct (explore fuel i0) as [l|] eqn:E; [|discriminate]. intros H s R.
    apply (explore_complete _ _ _ E) in R. revert s R. now apply forallb_forall.
  Qed.

  (* ... and back to the list, for a weaker predicate *)
  Lemma checkb_list (inv inv' : St -> bool) found : (forall s, inv s = true -> inv' s = true) ->
    checkb inv found = true -> invb_of inv' (match found with Some l => l | None => [] end) = true.
  Proof.
    intros W. destruct found as [l|]; [|discriminate]. unfold checkb, invb_of. rewrite !forallb_forall. auto.
  Qed.

  Lemma stepb_spec measure good s : stepb measure good s = true ->
    (next s = [] -> good s = true) /\ (forall s', In s' (next s) -> measure s' < measure s).
  Proof.
    unfold stepb. destruct (next s) as [|x l]; intros H.
    - split; [auto | intros s' []].
    - split; [discriminate|]. intros s' Hs. apply Nat.ltb_lt. revert s' Hs. now apply forallb_forall.
  Qed.

  (* a measure that decreases along every step from a reachable state bounds the runs *)
  Section Runs.
    Context (measure : St -> nat) (good : St -> Prop) (i0 : St).
    Context (Hgood : forall s, reachable_from i0 s -> next s = [] -> good s).
    Context (Hdecr : forall s s', reachable_from i0 s -> In s' (next s) -> measure s' < measure s).

    Lemma all_runs_end : forall s, reachable_from i0 s -> ends_in good s.
    Proof.
      intros s. remember (measure s) as n eqn:E. revert s E.
      induction n as [n IH] using lt_wf_ind. intros s E R.
      destruct (next s) as [|x xs] eqn:Hn.
      - apply ends_here; auto.
      - apply ends_step; [rewrite Hn; discriminate|]. intros s' Hin.
        apply (IH (measure s')); [subst n; auto | reflexivity | eapply reach_step; eassumption].
    Qed.

    Lemma run_length_bounded : forall s, reachable_from i0 s -> measure s <= measure i0.
    Proof. induction 1 as [|s s' R IH Hin]; [lia|]. specialize (Hdecr s s' R Hin). lia. Qed.
  End Runs.
End Sys.
