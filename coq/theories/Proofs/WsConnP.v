From Coq Require Import List NArith Arith Lia.
Import ListNotations.
From GM Require Import Model.WsConn Proofs.ListP.

(* longest prefix of binary messages *)
Fixpoint upto_text (msgs : list wsmsg) : list wsmsg :=
  match msgs with
  | (Binary, b) :: rest => (Binary, b) :: upto_text rest
  | _ => []
  end.

Lemma upto_text_all_binary msgs : all_binary msgs = true -> upto_text msgs = msgs.
Proof.
  induction msgs as [|[t b] rest IH]; cbn; [reflexivity|].
  destruct t; cbn; [|discriminate]. intros H; now rewrite IH.
Qed.

Lemma payloads_cons m msgs : payloads (m :: msgs) = snd m ++ payloads msgs.
Proof. reflexivity. Qed.

(* state invariant: the cursor is 0 when no message is buffered *)
Definition ws_wf (s : wsst) : Prop := buf s = None -> rpos s = 0.

(* one copy hands out a chunk, and the chunk plus what stays pending = what was pending *)
Lemma copy_step_spec b r p :
  exists c s', copy_step b r p = (RData c, s') /\ ws_wf s' /\ c ++ pending s' = skipn r b.
Proof.
  unfold copy_step, reset_cond, ws_wf. set (c := firstn p (skipn r b)). exists c. eexists. split; [reflexivity|].
  rewrite <- (firstn_skipn p (skipn r b)) at 1. rewrite <- (skipn_firstn_len _ p). fold c. rewrite <- skipn_add.
  destruct (Nat.leb_spec (length b) (r + length c)) as [Hle|Hlt].
  - split; [reflexivity|]. now rewrite (skipn_all2 _ Hle).
  - split; [discriminate | reflexivity].
Qed.

(* The fetched message is copied from offset 0 (uses ws_wf): stated separately so the
   conservation lemma below is really about the messages' payloads. *)
Lemma ws_read_fetch_from_zero s p b rest :
  ws_wf s -> buf s = None ->
  ws_read s p ((Binary, b) :: rest) =
    (let '(r, s') := copy_step b 0 p in (r, s', rest)).
Proof. intros Hwf Hb. unfold ws_read. rewrite Hb, (Hwf Hb). reflexivity. Qed.

(* what Read has not handed out yet, up to the first text message *)
Definition stream_of (s : wsst) (msgs : list wsmsg) : list N :=
  pending s ++ payloads (upto_text msgs).

(* What one Read does to the stream; the proofs about runs use only this. *)
Lemma ws_read_spec s p msgs r s' msgs' : ws_wf s -> ws_read s p msgs = (r, s', msgs') ->
  ws_wf s' /\ (all_binary msgs = true -> all_binary msgs' = true /\ r <> RErrType) /\
  match r with
  | RData c => c ++ stream_of s' msgs' = stream_of s msgs
  | RErrType => stream_of s msgs = []
  | RErrEOF => s' = s /\ msgs' = msgs /\ msgs = [] /\ stream_of s msgs = []
  end.
Proof.
  intros Hwf. unfold stream_of, pending at 2 3 4, ws_read. destruct (buf s) as [b0|] eqn:Eb.
  - destruct (copy_step_spec b0 (rpos s) p) as (c & s0 & -> & Hwf0 & Hc).
    intros [= <- <- <-]. rewrite app_assoc, Hc. repeat split; auto; discriminate.
  - rewrite (Hwf Eb). destruct msgs as [|[[|] b] rest].
    + intros [= <- <- <-]. repeat split; auto; discriminate.
    + destruct (copy_step_spec b 0 p) as (c & s0 & -> & Hwf0 & Hc). intros [= <- <- <-].
      cbn [upto_text app]. rewrite payloads_cons, app_assoc, Hc. repeat split; auto; discriminate.
    + intros [= <- <- <-]. repeat split; auto; discriminate.
Qed.

Lemma ws_reads_stream ps : forall s msgs cs e s' msgs',
  ws_wf s ->
  ws_reads s ps msgs = (cs, e, s', msgs') ->
  (e <> Some RErrType -> concat cs ++ stream_of s' msgs' = stream_of s msgs) /\
  (e = Some RErrType -> concat cs = stream_of s msgs) /\
  (e = Some RErrEOF -> stream_of s' msgs' = [] /\ msgs' = []) /\
  (forall c, e <> Some (RData c)) /\
  (all_binary msgs = true -> all_binary msgs' = true /\ e <> Some RErrType).
Proof.
  induction ps as [|p ps IH]; intros s msgs cs e s' msgs' Hwf H; cbn [ws_reads] in H.
  - injection H as <- <- <- <-. repeat split; auto; discriminate.
  - destruct (ws_read s p msgs) as [[r s1] msgs1] eqn:Er.
    destruct (ws_read_spec _ _ _ _ _ _ Hwf Er) as (Hwf1 & Hb1 & Hr). destruct r as [c| |].
    + destruct (ws_reads s1 ps msgs1) as [[[cs1 e1] s2] msgs2] eqn:Ers. injection H as <- <- <- <-.
      destruct (IH _ _ _ _ _ _ Hwf1 Ers) as (Hok & Hty & Heof & Hnd & Hb).
      cbn [concat]. rewrite <- Hr, <- app_assoc. repeat split; try tauto.
      * intros Hne. now rewrite (Hok Hne).
      * intros He. now rewrite (Hty He).
    + injection H as <- <- <- <-. rewrite Hr. intuition congruence.
    + injection H as <- <- <- <-. destruct Hr as (-> & -> & Hm & ->). intuition congruence.
Qed.


Lemma ws_wf_init : ws_wf ws_init.
Proof. now intros _. Qed.

(* For every list of binary messages and every sequence of read sizes: what Read handed
   out, followed by what is still buffered or not yet fetched, is exactly the
   concatenation of the payloads: nothing lost, duplicated or reordered; no error other
   than end-of-stream, and at end-of-stream everything has been handed out. *)
Lemma read_stream_binary msgs ps cs e s' msgs' :
  all_binary msgs = true ->
  ws_reads ws_init ps msgs = (cs, e, s', msgs') ->
  concat cs ++ pending s' ++ payloads msgs' = payloads msgs /\
  (e = None \/ e = Some RErrEOF) /\
  (e = Some RErrEOF -> concat cs = payloads msgs).
Proof.
  intros Hb H.
  destruct (ws_reads_stream ps _ _ _ _ _ _ ws_wf_init H) as (Hok & _ & Heof & Hnd & Hbin).
  destruct (Hbin Hb) as [Hb' Hne]. specialize (Hok Hne).
  unfold stream_of in *. rewrite (upto_text_all_binary _ Hb) in *.
  rewrite (upto_text_all_binary _ Hb') in *. cbn [pending ws_init buf app] in *.
  split; [exact Hok|]. split.
  - destruct e as [[c| |]|]; auto; [now destruct (Hnd c) | congruence].
  - intros He. destruct (Heof He) as [H0 _]. now rewrite H0, app_nil_r in Hok.
Qed.

(* A text message is rejected, and exactly the binary payloads before it are handed out:
   nothing of the text message or of anything after it. *)
Lemma read_stream_text msgs ps cs e s' msgs' :
  ws_reads ws_init ps msgs = (cs, e, s', msgs') ->
  (exists rest, payloads (upto_text msgs) = concat cs ++ rest) /\
  (e = Some RErrType -> concat cs = payloads (upto_text msgs)).
Proof.
  intros H.
  destruct (ws_reads_stream ps _ _ _ _ _ _ ws_wf_init H) as (Hok & Hty & _).
  unfold stream_of in *. cbn [pending ws_init buf app] in *.
  split; [|exact Hty].
  assert (D : e = Some RErrType \/ e <> Some RErrType) by (destruct e as [[c| |]|]; auto; right; discriminate).
  destruct D as [He|Hne].
  - exists []. now rewrite app_nil_r, Hty.
  - eexists. symmetry. exact (Hok Hne).
Qed.

Lemma first_text_rejected s p x rest :
  buf s = None -> ws_read s p ((Text, x) :: rest) = (RErrType, s, rest).
Proof. intros Hb; unfold ws_read; now rewrite Hb. Qed.

Lemma write_stream ps :
  payloads (ws_writes ps) = concat ps /\ all_binary (ws_writes ps) = true /\
  forall p, snd (ws_write p) = length p.
Proof.
  split; [|split; [|reflexivity]].
  - unfold payloads, ws_writes. rewrite map_map. cbn. now rewrite map_id.
  - unfold ws_writes, all_binary. rewrite forallb_forall. intros m Hm.
    apply in_map_iff in Hm. destruct Hm as (p & <- & _). reflexivity.
Qed.
