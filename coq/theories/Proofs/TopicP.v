(* Lemmas about byte strings, split/join and MQTT 4.7 level matching (Base/Topic.v). *)
From Coq Require Import List NArith Bool Arith Lia.
Import ListNotations.
From GM Require Import Base.Topic Proofs.ListP.

Lemma str_eqb_eq (a b : str) : str_eqb a b = true <-> a = b.
Proof.
  revert b; induction a as [|x a IH]; intros [|y b]; cbn; split; intros H; try discriminate; try reflexivity.
  - apply andb_true_iff in H as [H1 H2]. apply N.eqb_eq in H1. apply IH in H2. now subst.
  - inversion H; subst. rewrite N.eqb_refl. cbn. now apply IH.
Qed.

Lemma str_eqb_refl (a : str) : str_eqb a a = true.
Proof. now apply str_eqb_eq. Qed.

Lemma str_eqb_neq (a b : str) : str_eqb a b = false <-> a <> b.
Proof.
  split.
  - intros H E. apply str_eqb_eq in E. congruence.
  - intros H. destruct (str_eqb a b) eqn:E; [|reflexivity]. apply str_eqb_eq in E. contradiction.
Qed.

Lemma str_eqb_spec (a b : str) : reflect (a = b) (str_eqb a b).
Proof.
  destruct (str_eqb a b) eqn:E; constructor.
  - now apply str_eqb_eq.
  - now apply str_eqb_neq.
Qed.

Lemma is_empty_true (s : str) : is_empty s = true <-> s = [].
Proof. destruct s; cbn; split; intros H; try reflexivity; discriminate. Qed.

Lemma is_empty_false (s : str) : is_empty s = false <-> s <> [].
Proof. destruct s; cbn; split; intros H; try reflexivity; try discriminate; congruence. Qed.

Lemma split_nonempty (s : str) : split s <> [].
Proof.
  destruct s as [|c s']; cbn [split]; [discriminate|].
  destruct (N.eqb c SLASH); [discriminate|].
  destruct (split s'); discriminate.
Qed.

Lemma split_cons_slash (s : str) : split (SLASH :: s) = [] :: split s.
Proof. reflexivity. Qed.

Lemma split_cons_ns (c : N) (s : str) :
  N.eqb c SLASH = false ->
  exists l ls, split s = l :: ls /\ split (c :: s) = (c :: l) :: ls.
Proof.
  intros E. cbn [split]. rewrite E.
  destruct (split s) as [|l ls] eqn:Es; [now apply split_nonempty in Es|].
  now exists l, ls.
Qed.

(* the two ways a leading byte extends the levels of the rest *)
Lemma split_cons_cases (c : N) (s : str) :
  (c = SLASH /\ split (c :: s) = [] :: split s) \/
  (N.eqb c SLASH = false /\ exists l ls, split s = l :: ls /\ split (c :: s) = (c :: l) :: ls).
Proof.
  destruct (N.eqb c SLASH) eqn:E; [apply N.eqb_eq in E; left; now subst|right].
  split; [reflexivity|now apply split_cons_ns].
Qed.

Lemma join_cons_cons (l l2 : level) (ls : list level) :
  join (l :: l2 :: ls) = l ++ SLASH :: join (l2 :: ls).
Proof. reflexivity. Qed.

Lemma join_split (s : str) : join (split s) = s.
Proof.
  induction s as [|c s' IH]; [reflexivity|].
  destruct (split_cons_cases c s') as [[-> Ec]|(E & l & ls & Es & Ec)]; rewrite Ec.
  - destruct (split s') as [|l ls] eqn:Es; [now apply split_nonempty in Es|].
    rewrite join_cons_cons, IH. reflexivity.
  - rewrite Es in IH.
    destruct ls as [|l2 ls].
    + cbn [join] in IH |- *. now rewrite IH.
    + rewrite join_cons_cons in IH. rewrite join_cons_cons.
      rewrite <- app_comm_cons. now rewrite IH.
Qed.

Lemma no_slash_cons (c : N) (s : str) :
  no_slash (c :: s) = true <-> N.eqb c SLASH = false /\ no_slash s = true.
Proof.
  unfold no_slash. cbn [forallb]. rewrite andb_true_iff, negb_true_iff. reflexivity.
Qed.

Lemma split_no_slash (s : str) : Forall (fun l => no_slash l = true) (split s).
Proof.
  induction s as [|c s' IH].
  - constructor; [reflexivity|constructor].
  - destruct (split_cons_cases c s') as [[-> Ec]|(E & l & ls & Es & Ec)]; rewrite Ec.
    + constructor; [reflexivity|exact IH].
    + rewrite Es in IH.
      inversion IH as [|l0 ls0 Hl Hls]; subst.
      constructor; [|exact Hls].
      apply no_slash_cons. now split.
Qed.

Lemma split_no_slash_id (l : str) : no_slash l = true -> split l = [l].
Proof.
  induction l as [|c l IH]; intros H; [reflexivity|].
  apply no_slash_cons in H as [E Hl].
  cbn [split]. rewrite E, (IH Hl). reflexivity.
Qed.

Lemma split_app_slash (l s : str) :
  no_slash l = true -> split (l ++ SLASH :: s) = l :: split s.
Proof.
  induction l as [|c l IH]; intros H.
  - reflexivity.
  - apply no_slash_cons in H as [E Hl].
    rewrite <- app_comm_cons. cbn [split]. rewrite E, (IH Hl). reflexivity.
Qed.

Lemma split_join (ls : list level) :
  ls <> [] -> Forall (fun l => no_slash l = true) ls -> split (join ls) = ls.
Proof.
  induction ls as [|l ls IH]; intros Hne HF; [contradiction|].
  inversion HF as [|l0 ls0 Hl HF']; subst.
  destruct ls as [|l2 ls].
  - cbn [join]. now apply split_no_slash_id.
  - rewrite join_cons_cons, split_app_slash by exact Hl.
    f_equal. apply IH; [discriminate|exact HF'].
Qed.

Lemma split_inj (a b : str) : split a = split b -> a = b.
Proof.
  intros H. rewrite <- (join_split a), <- (join_split b). now rewrite H.
Qed.

Lemma split_first_level_dollar (s : str) :
  starts_dollar s = true -> exists l ls, split s = (DOLLAR :: l) :: ls.
Proof.
  destruct s as [|c s']; cbn [starts_dollar]; intros H; [discriminate|].
  apply N.eqb_eq in H. subst c.
  destruct (split_cons_ns DOLLAR s' eq_refl) as (l & ls & _ & Ec).
  now exists l, ls.
Qed.

Lemma split_first_level_not_dollar (s : str) :
  starts_dollar s = false -> exists l ls, split s = l :: ls /\ starts_dollar l = false.
Proof.
  destruct s as [|c s']; cbn [starts_dollar]; intros H.
  - exists [], []. split; reflexivity.
  - destruct (split_cons_cases c s') as [[-> Ec]|(E & l & ls & _ & Ec)].
    + exists [], (split s'). split; reflexivity.
    + exists (c :: l), ls. split; [exact Ec|exact H].
Qed.

(* the first byte of a non-empty first level is the first byte of the string *)
Lemma split_head (s : str) (c : N) (l : level) (ls : list level) :
  split s = (c :: l) :: ls -> exists s', s = c :: s'.
Proof.
  destruct s as [|c0 s']; intros H.
  - cbn [split] in H. discriminate.
  - destruct (split_cons_cases c0 s') as [[-> Ec]|(E & l1 & ls1 & _ & Ec)]; rewrite Ec in H.
    + discriminate.
    + injection H as Hc _ _. subst c0. now exists s'.
Qed.

Lemma path_eq_dec (p q : list level) : {p = q} + {p <> q}.
Proof. apply list_eq_dec. apply list_eq_dec. apply N.eq_dec. Qed.

Lemma is_hash_eq (l : level) : is_hash l = true <-> l = [HASH].
Proof. apply str_eqb_eq. Qed.

Lemma is_plus_eq (l : level) : is_plus l = true <-> l = [PLUS].
Proof. apply str_eqb_eq. Qed.

Lemma is_hash_neq (l : level) : is_hash l = false <-> l <> [HASH].
Proof. apply str_eqb_neq. Qed.

Lemma is_plus_neq (l : level) : is_plus l = false <-> l <> [PLUS].
Proof. apply str_eqb_neq. Qed.

Lemma is_plus_cons_false (c : N) (l : level) : N.eqb c PLUS = false -> is_plus (c :: l) = false.
Proof. intros H. unfold is_plus. cbn [str_eqb]. now rewrite H. Qed.

Lemma is_hash_cons_false (c : N) (l : level) : N.eqb c HASH = false -> is_hash (c :: l) = false.
Proof. intros H. unfold is_hash. cbn [str_eqb]. now rewrite H. Qed.

Lemma lm_hash (t : list level) : lm t [[HASH]] = true.
Proof. destruct t; reflexivity. Qed.

Lemma lm_cons_nohash (tl fl : level) (t' f' : list level) :
  is_hash fl = false ->
  lm (tl :: t') (fl :: f') = (is_plus fl || str_eqb fl tl) && lm t' f'.
Proof. intros H. cbn [lm]. now rewrite H. Qed.

Lemma lm_nil (f : list level) : lm [] f = true <-> f = [] \/ f = [[HASH]].
Proof.
  destruct f as [|fl f']; cbn [lm].
  - split; [now left|reflexivity].
  - destruct (is_hash fl) eqn:Eh.
    + apply is_hash_eq in Eh. subst fl.
      destruct f' as [|fl2 f'']; split; intros H; try reflexivity; try discriminate.
      * now right.
      * destruct H as [H|H]; discriminate.
    + split; [discriminate|]. intros [H|H]; [discriminate|].
      injection H as H1 _. subst fl. discriminate.
Qed.

(* The candidates for a possibly empty rest of a topic: past the last level only the end of
   the filter and a trailing "#" match.  [cands] of a non-empty topic is built from this list of
   its rest ([cands_cons]), and with it
   candidates and [lm] agree without a side condition on the length of the topic. *)
Definition cands0 (ts : list level) : list (list level) :=
  match ts with [] => [[]; [[HASH]]] | _ => cands ts end.

Lemma cands_cons (t : level) (rest : list level) :
  cands (t :: rest) = [[HASH]] :: map (cons [PLUS]) (cands0 rest) ++ map (cons t) (cands0 rest).
Proof. destruct rest; reflexivity. Qed.

(* every matching filter path is a candidate (no side condition on the topic) *)
Lemma cands0_complete (ts f : list level) : lm ts f = true -> In f (cands0 ts).
Proof.
  revert f. induction ts as [|t rest IH]; intros f H.
  - apply lm_nil in H as [->| ->]; cbn; tauto.
  - change (cands0 (t :: rest)) with (cands (t :: rest)). rewrite cands_cons.
    destruct f as [|fl f']; [discriminate|].
    destruct (is_hash fl) eqn:Eh.
    + cbn [lm] in H. rewrite Eh in H. apply is_hash_eq in Eh. subst fl.
      destruct f'; [now left|discriminate].
    + rewrite (lm_cons_nohash _ _ _ _ Eh) in H. apply andb_true_iff in H as [Hfl Hrest].
      right. apply in_or_app. apply IH in Hrest.
      apply orb_true_iff in Hfl as [Hp|He]; [left; apply is_plus_eq in Hp|right; apply str_eqb_eq in He];
        subst fl; now apply in_map.
Qed.

(* every candidate matches, provided no topic level is the literal "#" *)
Lemma cands0_sound (ts f : list level) :
  forallb (fun l => negb (is_hash l)) ts = true -> In f (cands0 ts) -> lm ts f = true.
Proof.
  revert f. induction ts as [|t rest IH]; intros f Hnh Hin.
  - destruct Hin as [<-|[<-|[]]]; reflexivity.
  - change (cands0 (t :: rest)) with (cands (t :: rest)) in Hin. rewrite cands_cons in Hin.
    cbn [forallb] in Hnh. apply andb_true_iff in Hnh as [Ht Hrest]. apply negb_true_iff in Ht.
    destruct Hin as [<-|Hin]; [reflexivity|].
    apply in_app_or in Hin as [Hin|Hin]; apply in_map_iff in Hin as (f' & <- & Hin').
    + rewrite (lm_cons_nohash t [PLUS]) by reflexivity. now apply IH.
    + rewrite (lm_cons_nohash _ _ _ _ Ht), str_eqb_refl, orb_true_r. now apply IH.
Qed.

(* Without the hypothesis on "#" the candidates over-approximate: *)
Lemma cands_lm_counterexample :
  In [[HASH]; [HASH]] (cands [[HASH]]) /\ lm [[HASH]] [[HASH]; [HASH]] = false.
Proof. split; [cbn; tauto|reflexivity]. Qed.

Lemma no_wild_cons (t : level) (rest : list level) :
  no_wild_levels (t :: rest) = true <->
  t <> [PLUS] /\ t <> [HASH] /\ no_wild_levels rest = true.
Proof.
  unfold no_wild_levels. cbn [forallb].
  rewrite andb_true_iff, negb_true_iff, orb_false_iff, is_plus_neq, is_hash_neq. tauto.
Qed.

Lemma no_wild_no_hash (ts : list level) :
  no_wild_levels ts = true -> forallb (fun l => negb (is_hash l)) ts = true.
Proof.
  induction ts as [|t rest IH]; intros H; [reflexivity|].
  apply no_wild_cons in H as (_ & Hh & Hrest).
  cbn [forallb]. apply is_hash_neq in Hh. rewrite Hh. cbn [negb andb]. now apply IH.
Qed.

(* the form used with well-formed topic names *)
Lemma cands_lm_nowild (ts f : list level) :
  ts <> [] -> no_wild_levels ts = true -> (In f (cands ts) <-> lm ts f = true).
Proof.
  intros Hne Hnw. apply no_wild_no_hash in Hnw. destruct ts as [|t rest]; [contradiction|].
  split; [exact (cands0_sound (t :: rest) f Hnw)|exact (cands0_complete (t :: rest) f)].
Qed.

Lemma cands0_nodup (ts : list level) : no_wild_levels ts = true -> NoDup (cands0 ts).
Proof.
  induction ts as [|t rest IH]; intros Hnw.
  - constructor; [intros [E|[]]; discriminate|constructor; [intros []|constructor]].
  - apply no_wild_cons in Hnw as (Hp & Hh & Hrest). specialize (IH Hrest).
    change (cands0 (t :: rest)) with (cands (t :: rest)). rewrite cands_cons. constructor.
    + intros Hin. apply in_app_or in Hin as [Hin|Hin];
        apply in_map_iff in Hin as (x & Ex & _); injection Ex as Ex _; congruence.
    + apply NoDup_app_disjoint; [now apply NoDup_map_cons|now apply NoDup_map_cons|].
      intros x Hx Hy.
      apply in_map_iff in Hx as (x1 & Ex1 & _).
      apply in_map_iff in Hy as (x2 & Ex2 & _).
      subst x. injection Ex2 as Ex2 _. congruence.
Qed.

Lemma cands_nodup (ts : list level) : no_wild_levels ts = true -> NoDup (cands ts).
Proof. destruct ts; [constructor|apply cands0_nodup]. Qed.

Lemma str_eqb_sym (a b : str) : str_eqb a b = str_eqb b a.
Proof.
  destruct (str_eqb b a) eqn:E.
  - apply str_eqb_eq in E. subst. apply str_eqb_refl.
  - apply str_eqb_neq in E. apply str_eqb_neq. congruence.
Qed.

Lemma str_eqb_dollar_false (l l' : level) :
  starts_dollar l' = false -> str_eqb l' (DOLLAR :: l) = false.
Proof.
  destruct l' as [|c l'']; cbn [starts_dollar str_eqb]; intros H; [reflexivity|].
  now rewrite H.
Qed.

Lemma dollar_topic_plain_filter (t f : str) :
  starts_dollar t = true -> starts_dollar f = false -> topic_match t f = false.
Proof.
  intros Ht Hf. unfold topic_match. rewrite Ht.
  destruct (starts_wild f) eqn:Ew; [reflexivity|]. cbn [negb andb].
  destruct (split_first_level_dollar t Ht) as (l & ls & Et).
  destruct (split_first_level_not_dollar f Hf) as (l' & ls' & Ef & Hl').
  rewrite Et, Ef.
  destruct (is_hash l') eqn:Eh.
  { apply is_hash_eq in Eh. subst l'.
    apply split_head in Ef as (f' & ->). cbn in Ew. discriminate. }
  rewrite (lm_cons_nohash _ _ _ _ Eh).
  destruct (is_plus l') eqn:Ep.
  { apply is_plus_eq in Ep. subst l'.
    apply split_head in Ef as (f' & ->). cbn in Ew. discriminate. }
  rewrite (str_eqb_dollar_false l l' Hl'). reflexivity.
Qed.

Lemma plain_topic_dollar_filter (t f : str) :
  starts_dollar t = false -> starts_dollar f = true -> topic_match t f = false.
Proof.
  intros Ht Hf. unfold topic_match. apply andb_false_iff. right.
  destruct (split_first_level_dollar f Hf) as (l & ls & Ef).
  destruct (split_first_level_not_dollar t Ht) as (l' & ls' & Et & Hl').
  rewrite Et, Ef.
  assert (Eh : is_hash (DOLLAR :: l) = false) by reflexivity.
  assert (Ep : is_plus (DOLLAR :: l) = false) by reflexivity.
  rewrite (lm_cons_nohash _ _ _ _ Eh), Ep, str_eqb_sym, (str_eqb_dollar_false l l' Hl').
  reflexivity.
Qed.

Lemma topic_match_same_kind (t f : str) :
  starts_dollar t = starts_dollar f -> topic_match t f = lm (split t) (split f).
Proof.
  intros H. unfold topic_match. destruct (starts_dollar t) eqn:Et; [|reflexivity].
  symmetry in H. destruct f as [|c f']; cbn [starts_dollar] in H; [discriminate|].
  apply N.eqb_eq in H. subst c. reflexivity.
Qed.

(* a filter matches only names of its own kind ('$' or not), and then level by level *)
Lemma topic_match_kind (t f : str) :
  topic_match t f = true -> starts_dollar t = starts_dollar f /\ lm (split t) (split f) = true.
Proof.
  intros H. destruct (starts_dollar t) eqn:Et, (starts_dollar f) eqn:Ef.
  - split; [reflexivity|]. rewrite <- topic_match_same_kind; [exact H|congruence].
  - rewrite (dollar_topic_plain_filter t f Et Ef) in H. discriminate.
  - rewrite (plain_topic_dollar_filter t f Et Ef) in H. discriminate.
  - split; [reflexivity|]. rewrite <- topic_match_same_kind; [exact H|congruence].
Qed.

Lemma cut_slash_no_slash (s : str) : no_slash s = true -> cut_slash s = (s, None).
Proof.
  induction s as [|c s IH]; intros H; [reflexivity|].
  apply no_slash_cons in H as [E Hs].
  cbn [cut_slash]. rewrite E, (IH Hs). reflexivity.
Qed.

Lemma cut_slash_app (g f : str) :
  no_slash g = true -> cut_slash (g ++ SLASH :: f) = (g, Some f).
Proof.
  induction g as [|c g IH]; intros H; [reflexivity|].
  apply no_slash_cons in H as [E Hg].
  rewrite <- app_comm_cons. cbn [cut_slash]. rewrite E, (IH Hg). reflexivity.
Qed.

Lemma has_prefix_app (p s : str) : has_prefix p (p ++ s) = true.
Proof.
  induction p as [|x p IH]; [reflexivity|].
  cbn [app has_prefix]. now rewrite N.eqb_refl, IH.
Qed.

Lemma split_topic_share (g f : str) :
  no_slash g = true -> split_topic (SHARE_PREFIX ++ g ++ SLASH :: f) = (g, f).
Proof.
  intros H. unfold split_topic. rewrite has_prefix_app.
  change (skipn 7 (SHARE_PREFIX ++ g ++ SLASH :: f)) with (g ++ SLASH :: f).
  now rewrite (cut_slash_app g f H).
Qed.

Lemma split_topic_plain (t : str) :
  has_prefix SHARE_PREFIX t = false -> split_topic t = ([], t).
Proof. intros H. unfold split_topic. now rewrite H. Qed.

From GM Require Import Base.Msg.

Lemma list_eqb_refl : forall A (eqb : A -> A -> bool), (forall x, eqb x x = true) -> forall l, list_eqb eqb l l = true.
Proof. intros A eqb H. induction l as [|x l IH]; cbn [list_eqb]; [reflexivity|]. now rewrite H, IH. Qed.

Lemma msg_eqb_refl : forall m, msg_eqb m m = true.
Proof.
  intros m. unfold msg_eqb. rewrite !Bool.eqb_reflx, !N.eqb_refl, !str_eqb_refl.
  rewrite (list_eqb_refl _ N.eqb N.eqb_refl).
  rewrite list_eqb_refl; [reflexivity|]. intros [k v]. cbn [fst snd]. now rewrite !str_eqb_refl.
Qed.
