(* Association lists.  Model/SubTrie.v (aget/aset/adel over byte strings) and Model/SubSpec.v
   (sp_get/sp_set/sp_del over subscription keys) define the same three fixpoints over different
   key types.  What does not depend on the key type is proved here for any boolean equality and
   restated for the string-keyed lists; Proofs/SubTrieP.v restates it for the specification. *)
From Coq Require Import List Bool.
Import ListNotations.
From GM Require Import Base.Topic Model.SubTrie Proofs.TopicP Proofs.ListP.

Section Generic.
  Context {K V : Type} (eqb : K -> K -> bool).
  Implicit Types (k : K) (v : V) (l : list (K * V)) (e : K * V).

  Fixpoint gget k l : option V :=
    match l with
    | [] => None
    | (k', v) :: r => if eqb k k' then Some v else gget k r
    end.
  Fixpoint gset k v l : list (K * V) :=
    match l with
    | [] => [(k, v)]
    | (k', v') :: r => if eqb k k' then (k, v) :: r else (k', v') :: gset k v r
    end.
  Fixpoint gdel k l : list (K * V) :=
    match l with
    | [] => []
    | (k', v') :: r => if eqb k k' then r else (k', v') :: gdel k r
    end.

  Hypothesis eqb_spec : forall a b, reflect (a = b) (eqb a b).

  Lemma gget_gset k' k v l : gget k' (gset k v l) = if eqb k' k then Some v else gget k' l.
  Proof.
    induction l as [|[k0 v0] r IH]; cbn [gset gget]; [reflexivity|].
    destruct (eqb_spec k k0) as [E|E]; cbn [gget].
    - subst k0. destruct (eqb k' k); reflexivity.
    - rewrite IH. destruct (eqb_spec k' k0) as [E1|E1]; [|reflexivity].
      subst k0. destruct (eqb_spec k' k) as [E2|E2]; [congruence|reflexivity].
  Qed.

  Lemma gget_none k l : gget k l = None <-> ~ In k (map fst l).
  Proof.
    induction l as [|[k0 v0] r IH]; cbn [gget map fst In]; [tauto|].
    destruct (eqb_spec k k0) as [E|E].
    - split; [discriminate|]. intros H. exfalso. apply H. now left.
    - rewrite IH. split; [intros H [E1|H1]; [congruence|contradiction]|tauto].
  Qed.

  Lemma gget_In k v l : gget k l = Some v -> In (k, v) l.
  Proof.
    induction l as [|[k0 v0] r IH]; cbn [gget In]; intros H; [discriminate|].
    destruct (eqb_spec k k0) as [E|E]; [left; congruence|right; now apply IH].
  Qed.

  Lemma In_gget k v l : NoDup (map fst l) -> In (k, v) l -> gget k l = Some v.
  Proof.
    induction l as [|[k0 v0] r IH]; cbn [gget map fst In]; intros Hnd Hin; [destruct Hin|].
    inversion Hnd as [|x xs Hx Hnd']; subst.
    destruct (eqb_spec k k0) as [E|E], Hin as [E1|Hin]; try congruence.
    - subst k0. exfalso. apply Hx. now apply (in_map fst) in Hin.
    - now apply IH.
  Qed.

  Lemma in_gset e k v l : In e (gset k v l) -> e = (k, v) \/ In e l.
  Proof.
    induction l as [|[k0 v0] r IH]; cbn [gset In]; [intuition|].
    destruct (eqb k k0); cbn [In]; intuition.
  Qed.

  Lemma in_gdel e k l : In e (gdel k l) -> In e l.
  Proof.
    induction l as [|[k0 v0] r IH]; cbn [gdel In]; [tauto|].
    destruct (eqb k k0); cbn [In]; tauto.
  Qed.

  Lemma in_keys_gset k' k v l : In k' (map fst (gset k v l)) -> k' = k \/ In k' (map fst l).
  Proof.
    intros H. apply in_map_iff in H as (e & <- & H). apply in_gset in H as [->|H]; [now left|].
    right. now apply in_map.
  Qed.

  Lemma in_keys_gdel k' k l : In k' (map fst (gdel k l)) -> In k' (map fst l).
  Proof. intros H. apply in_map_iff in H as (e & <- & H). apply in_map. now apply in_gdel in H. Qed.

  Lemma NoDup_gset k v l : NoDup (map fst l) -> NoDup (map fst (gset k v l)).
  Proof.
    induction l as [|[k0 v0] r IH]; cbn [gset map fst]; intros Hnd.
    - constructor; [intros []|constructor].
    - inversion Hnd as [|x xs Hx Hnd']; subst.
      destruct (eqb_spec k k0) as [E|E]; cbn [map fst].
      + subst k0. now constructor.
      + constructor; [|now apply IH].
        intros Hin. apply in_keys_gset in Hin as [Hin|Hin]; [congruence|contradiction].
  Qed.

  Lemma NoDup_gdel k l : NoDup (map fst l) -> NoDup (map fst (gdel k l)).
  Proof.
    induction l as [|[k0 v0] r IH]; cbn [gdel map fst]; intros Hnd; [constructor|].
    inversion Hnd as [|x xs Hx Hnd']; subst.
    destruct (eqb k k0); [exact Hnd'|]. cbn [map fst].
    constructor; [|now apply IH].
    intros Hin. apply Hx. now apply in_keys_gdel in Hin.
  Qed.

  (* deleting another key never disturbs a lookup; for the deleted key itself the answer
     is None only if it occurred once *)
  Lemma gget_gdel_other k' k l : k' <> k -> gget k' (gdel k l) = gget k' l.
  Proof.
    intros Hne. induction l as [|[k0 v0] r IH]; cbn [gdel gget]; [reflexivity|].
    destruct (eqb_spec k k0) as [E|E]; cbn [gget]; [|now rewrite IH].
    subst k0. destruct (eqb_spec k' k); [congruence|reflexivity].
  Qed.

  Lemma gget_gdel k' k l :
    NoDup (map fst l) -> gget k' (gdel k l) = if eqb k' k then None else gget k' l.
  Proof.
    intros Hnd. destruct (eqb_spec k' k) as [E|E]; [subst k'|now apply gget_gdel_other].
    induction l as [|[k0 v0] r IH]; cbn [gdel gget]; [reflexivity|].
    inversion Hnd as [|x xs Hx Hnd']; subst.
    destruct (eqb_spec k k0) as [E|E]; cbn [gget].
    - subst k0. now apply gget_none.
    - destruct (eqb_spec k k0); [congruence|now apply IH].
  Qed.
End Generic.

Section Assoc.
  Context {V : Type}.
  Implicit Types (l : list (str * V)) (k : str) (v : V).

  Lemma aget_aset k' k v l :
    aget k' (aset k v l) = if str_eqb k' k then Some v else aget k' l.
  Proof. exact (gget_gset _ str_eqb_spec k' k v l). Qed.

  Lemma aget_aset_same k v l : aget k (aset k v l) = Some v.
  Proof. now rewrite aget_aset, str_eqb_refl. Qed.

  Lemma aget_aset_other k' k v l : k' <> k -> aget k' (aset k v l) = aget k' l.
  Proof. intros H. rewrite aget_aset. apply str_eqb_neq in H. now rewrite H. Qed.

  Lemma aget_none k l : aget k l = None <-> ~ In k (map fst l).
  Proof. exact (gget_none _ str_eqb_spec k l). Qed.

  Lemma aget_notin k l : ~ In k (map fst l) -> aget k l = None.
  Proof. apply aget_none. Qed.

  Lemma aget_In k v l : aget k l = Some v -> In (k, v) l.
  Proof. exact (gget_In _ str_eqb_spec k v l). Qed.

  Lemma aget_in_keys k v l : aget k l = Some v -> In k (map fst l).
  Proof. intros H. apply aget_In in H. now apply (in_map fst) in H. Qed.

  Lemma In_aget k v l : NoDup (map fst l) -> In (k, v) l -> aget k l = Some v.
  Proof. exact (In_gget _ str_eqb_spec k v l). Qed.

  Lemma in_aset k v l x : In x (aset k v l) -> x = (k, v) \/ In x l.
  Proof. exact (in_gset str_eqb x k v l). Qed.

  Lemma in_adel x k l : In x (adel k l) -> In x l.
  Proof. exact (in_gdel str_eqb x k l). Qed.

  Lemma in_keys_aset k' k v l : In k' (map fst (aset k v l)) -> k' = k \/ In k' (map fst l).
  Proof. exact (in_keys_gset str_eqb k' k v l). Qed.

  Lemma in_keys_adel k' k l : In k' (map fst (adel k l)) -> In k' (map fst l).
  Proof. exact (in_keys_gdel str_eqb k' k l). Qed.

  Lemma NoDup_aset k v l : NoDup (map fst l) -> NoDup (map fst (aset k v l)).
  Proof. exact (NoDup_gset _ str_eqb_spec k v l). Qed.

  Lemma NoDup_adel k l : NoDup (map fst l) -> NoDup (map fst (adel k l)).
  Proof. exact (NoDup_gdel str_eqb k l). Qed.

  Lemma aget_adel k' k l :
    NoDup (map fst l) -> aget k' (adel k l) = if str_eqb k' k then None else aget k' l.
  Proof. exact (gget_gdel _ str_eqb_spec k' k l). Qed.

  Lemma aget_adel_other k' k l : k' <> k -> aget k' (adel k l) = aget k' l.
  Proof. exact (gget_gdel_other _ str_eqb_spec k' k l). Qed.

  (* membership of a key, as the lookup sees it *)
  Lemma in_keys_aget k l : In k (map fst l) <-> aget k l <> None.
  Proof.
    split; [intros H E; now apply aget_none in E|].
    destruct (aget k l) as [v|] eqn:E; [intros _; now apply aget_in_keys in E|congruence].
  Qed.

  Lemma in_keys_aset_iff k' k v l : In k' (map fst (aset k v l)) <-> k' = k \/ In k' (map fst l).
  Proof.
    rewrite !in_keys_aget, aget_aset.
    destruct (str_eqb_spec k' k); [split; [now left|discriminate]|tauto].
  Qed.

  Lemma in_keys_adel_iff k' k l :
    NoDup (map fst l) -> In k' (map fst (adel k l)) <-> k' <> k /\ In k' (map fst l).
  Proof.
    intros Hnd. rewrite !in_keys_aget, aget_adel by exact Hnd.
    destruct (str_eqb_spec k' k); tauto.
  Qed.

  Lemma adel_nil_inv k l : adel k l <> [] -> l <> [].
  Proof. destruct l; cbn; [intros H; exact H|discriminate]. Qed.

  Lemma adel_absent k l : aget k l = None -> adel k l = l.
  Proof.
    induction l as [|[k0 v0] r IH]; cbn [adel aget]; intros H; [reflexivity|].
    destruct (str_eqb k k0); [discriminate|]. now rewrite IH.
  Qed.

  Lemma aset_aget_id k v l : aget k l = Some v -> aset k v l = l.
  Proof.
    induction l as [|[k0 v0] r IH]; cbn [aset aget]; intros H; [discriminate|].
    destruct (str_eqb_spec k k0) as [E|E]; [congruence|]. now rewrite IH.
  Qed.

  Lemma aset_aset k v v' l : aset k v (aset k v' l) = aset k v l.
  Proof.
    induction l as [|[k0 v0] r IH]; cbn [aset]; [now rewrite str_eqb_refl|].
    destruct (str_eqb k k0) eqn:E; cbn [aset]; [now rewrite str_eqb_refl|]. now rewrite E, IH.
  Qed.

  Lemma Forall_aset (P : str * V -> Prop) k v l : Forall P l -> P (k, v) -> Forall P (aset k v l).
  Proof.
    rewrite !Forall_forall. intros Hl Hv x Hx. apply in_aset in Hx as [->|Hx]; auto.
  Qed.

  Lemma Forall_adel (P : str * V -> Prop) k l : Forall P l -> Forall P (adel k l).
  Proof. rewrite !Forall_forall. intros Hl x Hx. apply Hl. now apply in_adel in Hx. Qed.

  Lemma ahas_some k v l : aget k l = Some v -> ahas k l = true.
  Proof. unfold ahas. now intros ->. Qed.

  Lemma ahas_none k l : aget k l = None -> ahas k l = false.
  Proof. unfold ahas. now intros ->. Qed.

  Lemma ahas_true k l : ahas k l = true -> exists v, aget k l = Some v.
  Proof. unfold ahas. destruct (aget k l) as [v|]; [now exists v|discriminate]. Qed.

  Lemma ahas_false k l : ahas k l = false -> aget k l = None.
  Proof. unfold ahas. destruct (aget k l); [discriminate|reflexivity]. Qed.

  Lemma ahas_aset k' k v l : ahas k' (aset k v l) = str_eqb k' k || ahas k' l.
  Proof. unfold ahas. rewrite aget_aset. destruct (str_eqb k' k); reflexivity. Qed.

  Lemma ahas_adel k' k l : NoDup (map fst l) -> ahas k' (adel k l) = negb (str_eqb k' k) && ahas k' l.
  Proof. intros H. unfold ahas. rewrite aget_adel by exact H. destruct (str_eqb k' k); reflexivity. Qed.

  Lemma ahas_in_keys k l : ahas k l = true <-> In k (map fst l).
  Proof. rewrite in_keys_aget. unfold ahas. destruct (aget k l); split; congruence. Qed.

  Lemma adel_notin k l : ahas k l = false -> adel k l = l.
  Proof. intros H. now apply adel_absent, ahas_false. Qed.

  Lemma In_aset_self k v l : In (k, v) (aset k v l).
  Proof.
    induction l as [|[k0 v0] r IH]; cbn [aset]; [now left|].
    destruct (str_eqb k k0); [now left|now right].
  Qed.

  Lemma adel_filter k l :
    NoDup (map fst l) -> adel k l = filter (fun e => negb (str_eqb k (fst e))) l.
  Proof.
    induction l as [|[k0 v0] r IH]; intros Hnd; [reflexivity|]. cbn [adel filter fst map] in *.
    inversion Hnd as [|x xs Hx Hnd']; subst.
    destruct (str_eqb_spec k k0) as [->|E]; cbn [negb].
    - symmetry. apply filter_all. intros [k1 v1] Hin. cbn [fst]. apply negb_true_iff, str_eqb_neq.
      intros <-. apply Hx. apply in_map_iff. now exists (k0, v1).
    - f_equal. now apply IH.
  Qed.
End Assoc.

(* a table of lists, one of which is filtered and the entry dropped if nothing is left, while
   the filter keeps all of the others: the concatenation is filtered *)
Lemma flat_map_snd_filter {V} (keep : V -> bool) (g : str) (l : list V) (sh : list (str * list V)) :
  NoDup (map fst sh) -> aget g sh = Some l ->
  (forall g' l', In (g', l') sh -> g' <> g -> filter keep l' = l') ->
  flat_map snd (match filter keep l with [] => adel g sh | _ :: _ => aset g (filter keep l) sh end) =
  filter keep (flat_map snd sh).
Proof.
  induction sh as [|[k0 v0] r IH]; intros Hnd Hg Ho; [discriminate|]. cbn [aget map fst] in *.
  inversion Hnd as [|x xs Hx Hnd']; subst. cbn [flat_map snd]. rewrite filter_app.
  destruct (str_eqb_spec g k0) as [->|E].
  - injection Hg as ->.
    assert (Hr : filter keep (flat_map snd r) = flat_map snd r).
    { rewrite filter_flat_map. apply flat_map_ext_in. intros [g' l'] Hin. apply (Ho g' l'); [now right|].
      intros ->. apply Hx. apply in_map_iff. now exists (k0, l'). }
    rewrite Hr. destruct (filter keep l); cbn [adel aset]; rewrite str_eqb_refl; reflexivity.
  - rewrite (Ho k0 v0 (or_introl eq_refl)) by congruence.
    rewrite <- (IH Hnd' Hg (fun g' l' Hin => Ho g' l' (or_intror Hin))).
    apply str_eqb_neq in E. destruct (filter keep l); cbn [adel aset]; rewrite E; reflexivity.
Qed.
