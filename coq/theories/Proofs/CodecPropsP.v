(* The invariant the decoder establishes on a Properties value (props_inv), and what the loop of
   Properties.Unpack / UnpackWillProperties makes of each segment of what Pack writes for such a value. *)
From Coq Require Import List NArith ZArith Bool Lia ZifyN ZifyNat ZifyBool Sorted.
Import ListNotations.
From GM Require Import Base.Topic Base.Msg Model.CodecBase Model.CodecProps
  Proofs.ListP Proofs.CodecBaseP Proofs.CodecStrP Proofs.CodecTotalP.
Open Scope N_scope.

Definition impl_utf8 (s : str) : bool := match valid_utf8_impl s with Ok true => true | _ => false end.
Definition impl_name (s : str) : bool := match valid_topic_name_impl true s with Ok true => true | _ => false end.
Definition istr_ok (s : str) : bool := (len s <=? 65535) && impl_utf8 s.

(* a value the decoder can have stored for single-valued property id *)
Definition sval_ok (id : N) (v : pval) : bool :=
  match prop_kind id, v with
  | Some KBool, PVByte o => (o =? 0) || (o =? 1)
  | Some KU16, PVU16 x => (x <? 65536) && negb (((id =? 33) || (id =? 35)) && (x =? 0))
  | Some KU32, PVU32 x => (x <? 4294967296) && negb ((id =? 39) && (x =? 0))
  | Some KStr, PVStr s => istr_ok s && (negb (id =? 8) || impl_name s)
  | Some KBin, PVStr s => len s <=? 65535
  | _, _ => false
  end.

Definition id_lt (a b : N * pval) : Prop := fst a < fst b.

Definition props_inv (pt : N) (p : props) : Prop :=
  StronglySorted id_lt (pr_single p)
  /\ (forall e, In e (pr_single p) -> validate_id pt (fst e) = true /\ sval_ok (fst e) (snd e) = true)
  /\ match pr_subid p with
     | [] => True
     | [v] => validate_id pt 11 = true /\ 1 <= v < 268435456
     | _ => False
     end
  /\ (pr_user p <> [] -> validate_id pt 38 = true)
  /\ (forall kv, In kv (pr_user p) -> istr_ok (fst kv) = true /\ istr_ok (snd kv) = true)
  /\ (is_some (ps_get 22 (pr_single p)) = true -> is_some (ps_get 21 (pr_single p)) = true).

Lemma ok_true_iff : forall r : res bool, match r with Ok true => true | _ => false end = true <-> r = Ok true.
Proof. intros [[|]| | |]; split; congruence. Qed.

Lemma istr_ok_rt : forall s rest, istr_ok s = true -> read_utf8_string true (put_bin s ++ rest) = Ok (s, rest).
Proof.
  intros s rest H. unfold istr_ok in H. apply andb_prop in H. destruct H as [H1 H2].
  apply read_utf8_string_put_bin; [lia|]. intros _. now apply ok_true_iff.
Qed.

Lemma pack_single_head : forall id v, exists t, pack_single (id, v) = id :: t.
Proof. intros id [x|x|x|s]; eexists; reflexivity. Qed.

Definition with_singles (p : props) (l : list (N * pval)) : props :=
  {| pr_single := l; pr_subid := pr_subid p; pr_user := pr_user p |}.

(* sorted association lists: an id above all those present is absent, and is added at the end *)
Lemma ps_set_snoc : forall id v l, (forall e, In e l -> fst e < id) -> ps_set id v l = l ++ [(id, v)].
Proof.
  induction l as [|[k w] l IH]; intros H; [reflexivity|]. cbn [ps_set app].
  assert (Hk : k < id) by (apply (H (k, w)); left; reflexivity).
  replace (id <? k) with false by lia. replace (id =? k) with false by lia.
  f_equal. apply IH. intros e He. apply H. right. assumption.
Qed.
Lemma ps_get_none : forall id l, (forall e, In e l -> fst e < id) -> ps_get id l = None.
Proof.
  induction l as [|[k w] l IH]; intros H; [reflexivity|]. cbn [ps_get].
  assert (Hk : k < id) by (apply (H (k, w)); left; reflexivity).
  replace (k =? id) with false by lia. apply IH. intros e He. apply H. right. assumption.
Qed.

(* a value the decoder can have stored reads back, and lands behind the smaller ids already read *)
Lemma prop_reader_single : forall id v p rest,
  sval_ok id v = true -> (forall e, In e (pr_single p) -> fst e < id) ->
  exists t, pack_single (id, v) = id :: t
            /\ prop_reader id p (t ++ rest) = Ok (with_singles p (pr_single p ++ [(id, v)]), rest).
Proof.
  intros id v p rest Hok Hlt. unfold with_singles. rewrite <- (ps_set_snoc id v) by assumption. fold (set_single id v p).
  pose proof (ps_get_none id _ Hlt) as Hget. unfold sval_ok in Hok.
  destruct (prop_kind id) as [k|] eqn:Ek; [|discriminate].
  assert (H11 : (id =? 11) = false) by (destruct (N.eqb_spec id 11); [subst; discriminate|reflexivity]).
  assert (H38 : (id =? 38) = false) by (destruct (N.eqb_spec id 38); [subst; discriminate|reflexivity]).
  unfold prop_reader. rewrite H11, H38, Ek. unfold read_single. rewrite Hget. cbn [is_some].
  destruct k, v; try discriminate; (eexists; split; [reflexivity|]).
  - (* KBool *) cbn [app]. replace (negb (v =? 0) && negb (v =? 1)) with false by lia. reflexivity.
  - (* KU16 *) rewrite read_uint16_put16 by lia. cbn [remap bind].
    replace ((id =? 33) && (v =? 0)) with false by lia. replace ((id =? 35) && (v =? 0)) with false by lia. reflexivity.
  - (* KU32 *) rewrite read_uint32_put32 by lia. cbn [remap bind].
    replace ((id =? 39) && (v =? 0)) with false by lia. reflexivity.
  - (* KStr *) apply andb_prop in Hok. destruct Hok as [Hs Hn].
    rewrite istr_ok_rt by assumption. cbn [bind].
    destruct (id =? 8); [|reflexivity].
    cbn [negb orb] in Hn. apply ok_true_iff in Hn. rewrite Hn. reflexivity.
  - (* KBin *) rewrite read_utf8_string_put_bin by (try lia; discriminate). reflexivity.
Qed.

Section Run.
  Variable rd : N -> props -> list N -> res (props * list N).
  Hypothesis rd_safe : forall id p r, safe_rd r (rd id p r).

  Lemma gen_loop_fuel : forall f1 f2 p b, (length b < f1)%nat -> (length b < f2)%nat ->
    gen_loop rd f1 p b = gen_loop rd f2 p b.
  Proof.
    induction f1; intros f2 p b H1 H2; [lia|]. destruct f2; [lia|].
    destruct b as [|id r]; [reflexivity|]. cbn [gen_loop].
    pose proof (rd_safe id p r) as Hs.
    destruct (rd id p r) as [[p' r']| | |]; cbn [bind safe_rd] in Hs |- *; try reflexivity.
    apply IHf1; cbn [length] in *; lia.
  Qed.

  Definition gen_run (p : props) (b : list N) : res props := gen_loop rd (S (length b)) p b.

  Lemma gen_run_cons : forall p id r, gen_run p (id :: r) = do '(p', r') <- rd id p r; gen_run p' r'.
  Proof.
    intros. unfold gen_run at 1. cbn [gen_loop].
    pose proof (rd_safe id p r) as Hs.
    destruct (rd id p r) as [[p' r']| | |]; cbn [bind safe_rd] in Hs |- *; try reflexivity.
    apply gen_loop_fuel; cbn [length]; lia.
  Qed.

  (* the wrapper around the loop: Property Length, then a body the loop reads back to p *)
  Lemma gen_unpack_pack : forall chk body p rest,
    len body < 268435456 -> gen_run props_empty body = Ok p -> chk p = false ->
    gen_unpack rd chk (encode_varint_or_nil (len body) ++ body ++ rest) = Ok (p, rest).
  Proof.
    intros chk body p rest Hlen Hrun Hchk. unfold gen_unpack.
    rewrite encode_varint_or_nil_bytes, varint_roundtrip by assumption. cbn [bind].
    destruct (N.eqb_spec (len body) 0) as [E|E].
    - destruct body; [|rewrite len_cons in E; lia]. injection Hrun as <-. reflexivity.
    - rewrite shorter_spec. replace (len (body ++ rest) <? len body) with false by (rewrite len_app; lia).
      rewrite takeN_app_exact, dropN_app_exact. fold (gen_run props_empty body). rewrite Hrun. cbn [bind].
      rewrite Hchk. reflexivity.
  Qed.
End Run.

Section Segments.
  Variable rd : N -> props -> list N -> res (props * list N).
  Variable okid : N -> bool.
  Hypothesis rd_safe : forall id p r, safe_rd r (rd id p r).
  (* on the ids okid admits, rd is the reader of Properties.Unpack *)
  Hypothesis rd_ok : forall id p r, okid id = true -> rd id p r = prop_reader id p r.

  Lemma run_singles : forall seg p rest,
    StronglySorted id_lt seg ->
    (forall e, In e seg -> okid (fst e) = true /\ sval_ok (fst e) (snd e) = true) ->
    (forall e e0, In e seg -> In e0 (pr_single p) -> fst e0 < fst e) ->
    gen_run rd p (pack_singles seg ++ rest) = gen_run rd (with_singles p (pr_single p ++ seg)) rest.
  Proof.
    induction seg as [|[id v] seg IH]; intros p rest Hs Hok Hlt.
    - cbn [pack_singles flat_map app]. rewrite app_nil_r. destruct p; reflexivity.
    - unfold pack_singles. cbn [flat_map]. fold (pack_singles seg). rewrite <- app_assoc.
      destruct (Hok (id, v) (or_introl eq_refl)) as [Hv Hsv]. cbn [fst snd] in Hv, Hsv.
      destruct (prop_reader_single id v p (pack_singles seg ++ rest) Hsv) as [t [-> Er]].
      { intros e0. apply (Hlt (id, v)). left. reflexivity. }
      cbn [app]. rewrite (gen_run_cons rd rd_safe), rd_ok, Er by assumption. cbn [bind].
      inversion Hs as [|a l Hs' Hall]; subst.
      rewrite IH; [|assumption|intros e He; apply Hok; right; assumption|]; cbn [with_singles pr_single pr_subid pr_user].
      + rewrite <- app_assoc. reflexivity.
      + intros e e0 He He0. apply in_app_or in He0. destruct He0 as [He0|[<-|[]]].
        * apply (Hlt e e0); [right|]; assumption.
        * rewrite Forall_forall in Hall. apply (Hall e He).
  Qed.

  Lemma run_subids : forall ids p rest,
    pr_subid p = [] ->
    match ids with [] => True | [v] => okid 11 = true /\ 1 <= v < 268435456 | _ => False end ->
    gen_run rd p (flat_map pack_subid ids ++ rest) =
    gen_run rd {| pr_single := pr_single p; pr_subid := ids; pr_user := pr_user p |} rest.
  Proof.
    intros ids p rest Hp Hi. destruct ids as [|v [|w ids]]; [| |contradiction].
    - cbn [flat_map app]. rewrite <- Hp. destruct p; reflexivity.
    - destruct Hi as [Hv Hr]. cbn [flat_map]. rewrite app_nil_r. unfold pack_subid. cbn [app].
      rewrite (gen_run_cons rd rd_safe), rd_ok by assumption. unfold prop_reader. cbn [N.eqb Pos.eqb].
      unfold read_subid. rewrite Hp.
      rewrite encode_varint_or_nil_bytes by lia. rewrite varint_roundtrip by lia. cbn [remap bind].
      replace (v =? 0) with false by lia. reflexivity.
  Qed.

  Lemma run_users : forall us p rest,
    (us <> [] -> okid 38 = true) ->
    (forall kv, In kv us -> istr_ok (fst kv) = true /\ istr_ok (snd kv) = true) ->
    gen_run rd p (flat_map pack_user us ++ rest) =
    gen_run rd {| pr_single := pr_single p; pr_subid := pr_subid p; pr_user := pr_user p ++ us |} rest.
  Proof.
    induction us as [|[k v] us IH]; intros p rest Hv Hok.
    - cbn [flat_map app]. rewrite app_nil_r. destruct p; reflexivity.
    - cbn [flat_map]. unfold pack_user at 1. cbn [fst snd]. cbn [app]. rewrite <- !app_assoc.
      rewrite (gen_run_cons rd rd_safe), rd_ok by (apply Hv; discriminate). unfold prop_reader. cbn [N.eqb Pos.eqb].
      unfold read_user.
      destruct (Hok (k, v) (or_introl eq_refl)) as [Hk Hvv]. cbn [fst snd] in Hk, Hvv.
      rewrite istr_ok_rt by assumption. cbn [remap bind].
      rewrite istr_ok_rt by assumption. cbn [remap bind].
      rewrite IH; [|intros _; apply Hv; discriminate|intros kv Hkv; apply Hok; right; assumption].
      cbn [pr_single pr_subid pr_user]. rewrite <- app_assoc. reflexivity.
  Qed.

End Segments.

Lemma varint_app_nonnil : forall n z, varint_bytes n ++ z <> [].
Proof. intros n z. unfold varint_bytes. repeat destruct (_ <? _); discriminate. Qed.

Definition f_lo (e : N * pval) : bool := fst e <? 11.
Definition f_mid (e : N * pval) : bool := (11 <? fst e) && (fst e <? 38).
Definition f_hi (e : N * pval) : bool := 38 <? fst e.

Lemma split3 : forall l, StronglySorted id_lt l -> (forall e, In e l -> fst e <> 11 /\ fst e <> 38) ->
  l = filter f_lo l ++ filter f_mid l ++ filter f_hi l.
Proof.
  induction l as [|[k v] l IH]; intros Hs Hn; [reflexivity|].
  inversion Hs as [|a l' Hs' Hall]; subst. rewrite Forall_forall in Hall. unfold id_lt in Hall. cbn [fst] in Hall.
  destruct (Hn (k, v) (or_introl eq_refl)) as [N1 N2]. cbn [fst] in N1, N2.
  specialize (IH Hs' (fun e He => Hn e (or_intror He))).
  cbn [filter]. unfold f_lo at 1, f_mid at 1, f_hi at 1. cbn [fst].
  (* what follows an id of 11 or more has no id below 11 *)
  destruct (N.ltb_spec k 11);
    [|rewrite (filter_none f_lo l) in * by (intros x Hx; specialize (Hall x Hx); unfold f_lo; lia)].
  - replace (11 <? k) with false by lia. replace (38 <? k) with false by lia. cbn [andb app]. f_equal. exact IH.
  - replace (11 <? k) with true by lia. destruct (N.ltb_spec k 38); cbn [andb app].
    + replace (38 <? k) with false by lia. f_equal. exact IH.
    + replace (38 <? k) with true by lia.
      rewrite (filter_none f_mid l), (filter_all f_hi l)
        by (intros x Hx; specialize (Hall x Hx); unfold f_mid, f_hi; lia).
      reflexivity.
Qed.

Lemma sval_ok_id : forall id v, sval_ok id v = true -> id <> 11 /\ id <> 38.
Proof.
  intros id v H. unfold sval_ok in H. split; intros ->; discriminate.
Qed.

