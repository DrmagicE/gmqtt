(* Proofs about the federation event-stream model (Model/FedQueue.v), for all schedules:
   the sequence B applies is, epoch by epoch, a duplicate-free prefix of what A emitted;
   nextRead never dangles. *)
From Coq Require Import List NArith Bool Arith Lia ZifyN ZifyNat ZifyBool Permutation.
Import ListNotations.
From GM Require Import Base.Topic Base.Msg Model.SubTrie Model.SubSpec Model.RetTrie Model.FedQueue Oracle.C16O Proofs.ListP Proofs.SubTrieP.
Open Scope N_scope.

Definition nlen {A} (l : list A) : N := N.of_nat (length l).

Lemma nlen_nil {A} : nlen (@nil A) = 0.
Proof. reflexivity. Qed.
Lemma nlen_cons {A} (x : A) l : nlen (x :: l) = nlen l + 1.
Proof. unfold nlen. cbn [length]. lia. Qed.
Lemma nlen_one {A} (x : A) : nlen [x] = 1.
Proof. reflexivity. Qed.
Lemma nlen_app {A} (a b : list A) : nlen (a ++ b) = nlen a + nlen b.
Proof. unfold nlen. rewrite app_length. lia. Qed.
Lemma nlen_0 {A} (l : list A) : nlen l = 0 -> l = [].
Proof. destruct l; [reflexivity|rewrite nlen_cons; lia]. Qed.

Notation ievent := (N * fevent)%type.

(* ids b, b+1, b+2, ... *)
Fixpoint consec (b : N) (l : list ievent) : Prop :=
  match l with
  | [] => True
  | (i, _) :: r => i = b /\ consec (b + 1) r
  end.

Lemma consec_app b l1 l2 : consec b (l1 ++ l2) <-> consec b l1 /\ consec (b + nlen l1) l2.
Proof.
  revert b. induction l1 as [|[i e] r IH]; intros b; cbn [app consec].
  - rewrite nlen_nil, N.add_0_r. tauto.
  - rewrite IH, nlen_cons. replace (b + 1 + nlen r) with (b + (nlen r + 1)) by lia. tauto.
Qed.

Lemma consec_head b X x e Y : consec b (X ++ (x, e) :: Y) -> x = b + nlen X.
Proof. intros H. apply consec_app in H as [_ H]. cbn [consec] in H. tauto. Qed.

Lemma has_id_consec b l id : consec b l -> has_id id l = (b <=? id) && (id <? b + nlen l).
Proof.
  revert b. induction l as [|[i e] r IH]; intros b H; cbn [has_id existsb].
  - rewrite nlen_nil. lia.
  - cbn [consec] in H. destruct H as [-> H]. unfold has_id in IH. rewrite (IH _ H), nlen_cons.
    cbn [fst]. lia.
Qed.

Lemma drop_until_consec b l1 l2 : consec b (l1 ++ l2) -> l2 <> [] ->
  drop_until (b + nlen l1) (l1 ++ l2) = l2.
Proof.
  revert b. induction l1 as [|[i e] r IH]; intros b H Hne; cbn [app].
  - rewrite nlen_nil, N.add_0_r. destruct l2 as [|[i e] r]; [congruence|].
    cbn [consec] in H. destruct H as [-> _]. cbn [drop_until]. now rewrite N.eqb_refl.
  - cbn [app consec] in H. destruct H as [-> H]. cbn [drop_until]. rewrite nlen_cons.
    destruct (N.eqb_spec b (b + (nlen r + 1))) as [E|_]; [lia|].
    replace (b + (nlen r + 1)) with (b + 1 + nlen r) by lia. now apply IH.
Qed.

(* on a consecutive list an ack removes the front part up to and including id *)
Lemma ack_list_cut b l id : consec b l ->
  exists l1, l = l1 ++ ack_list id l /\ nlen l1 = N.min (nlen l) (id + 1 - b).
Proof.
  revert b. induction l as [|[i e] r IH]; intros b H; cbn [ack_list]; [exists []; split; [reflexivity|rewrite nlen_nil; lia]|].
  cbn [consec] in H. destruct H as [-> H]. rewrite nlen_cons.
  destruct (N.eqb_spec b id) as [E|Hne]; [exists [(b, e)]; split; [reflexivity|rewrite nlen_one; lia]|].
  destruct (IH _ H) as (l1 & Hl & Hn). destruct (N.leb_spec b id).
  - exists ((b, e) :: l1). split; [cbn [app]; now rewrite <- Hl|rewrite nlen_cons; lia].
  - replace l1 with (@nil ievent) in Hl by (symmetry; apply nlen_0; lia). exists []. split; [cbn [app] in *; now rewrite <- Hl|rewrite nlen_nil; lia].
Qed.

Lemma app_eq_prefix {A} (pre L X U : list A) :
  pre ++ L = X ++ U -> (length pre <= length X)%nat -> exists l1, L = l1 ++ U /\ X = pre ++ l1.
Proof.
  revert X. induction pre as [|a pre IH]; intros X H Hlen; cbn [app] in *.
  - exists X. now split.
  - destruct X as [|x X]; cbn [length] in Hlen; [lia|]. cbn [app] in H. injection H as -> H.
    destruct (IH X H) as (l1 & -> & ->); [lia|]. exists l1. now split.
Qed.

Definition head_id (l : list ievent) : option N := match l with [] => None | (i, _) :: _ => Some i end.

(* in a list numbered from 0 the id of an element is its position *)
Lemma head_id_consec X U : consec 0 (X ++ U) ->
  head_id U = None \/ exists r, head_id U = Some r /\ r = nlen X /\ r < nlen (X ++ U).
Proof.
  intros H. destruct U as [|[r e] U']; [now left|right]. exists r. split; [reflexivity|].
  apply consec_head in H. rewrite nlen_app, nlen_cons. lia.
Qed.

Lemma consec_skipn_head b l k x : consec b l -> head_id (skipn k l) = Some x -> x = b + N.of_nat k.
Proof.
  revert b l. induction k as [|k IH]; intros b l Hc H.
  - cbn [skipn] in H. destruct l as [|[i e] r]; [discriminate|]. cbn [consec head_id] in *. destruct Hc as [-> _]. injection H as <-. lia.
  - destruct l as [|[i e] r]; [discriminate|]. cbn [skipn] in H. cbn [consec] in Hc. destruct Hc as [-> Hc].
    rewrite (IH _ _ Hc H). lia.
Qed.

(* what fetchEvents finds from the read position on is the unsent part *)
Lemma drop_until_read pre L X r e U :
  consec 0 (pre ++ L) -> pre ++ L = X ++ (r, e) :: U -> nlen pre <= nlen X -> drop_until r L = (r, e) :: U.
Proof.
  intros Hc HE Hle. destruct (app_eq_prefix pre L X ((r, e) :: U) HE) as (l1 & -> & _); [unfold nlen in Hle; lia|].
  apply consec_app in Hc as [_ Hc]. rewrite (consec_head _ _ _ _ _ Hc) at 1.
  apply drop_until_consec; [exact Hc|discriminate].
Qed.

Lemma In_drop_until x id l : In x (drop_until id l) -> In x l.
Proof.
  induction l as [|[i e] r IH]; cbn [drop_until]; [tauto|]. destruct (i =? id); [tauto|]. intros H. right. now apply IH.
Qed.

Lemma mem_n_In x l : mem_n x l = true <-> In x l.
Proof.
  unfold mem_n. rewrite existsb_exists. split.
  - intros (y & Hy & E). apply N.eqb_eq in E. now subst.
  - intros H. exists x. split; [exact H|apply N.eqb_refl].
Qed.

Lemma lru_set_in id seen : In id (snd (lru_set id seen)).
Proof.
  unfold lru_set. destruct (mem_n id seen) eqn:Hm; cbn [snd]; [now apply mem_n_In|].
  apply in_or_app. right. now left.
Qed.

Definition untag (t : tagged) : ievent := (snd (fst t), snd t).
Definition proj (ep : N) (l : list tagged) : list ievent :=
  map untag (filter (fun t : tagged => fst (fst t) =? ep) l).
Definition tag (ep : N) (ie : ievent) : tagged := (ep, fst ie, snd ie).

Definition prefix {A} (a b : list A) : Prop := exists r, b = a ++ r.

Lemma tag_inj ep a b : tag ep a = tag ep b -> a = b.
Proof. destruct a, b. unfold tag. cbn [fst snd]. intros H. now injection H as -> ->. Qed.

Lemma proj_app ep a b : proj ep (a ++ b) = proj ep a ++ proj ep b.
Proof. unfold proj. now rewrite filter_app, map_app. Qed.

Lemma proj_one_same ep id e : proj ep [(ep, id, e)] = [(id, e)].
Proof. unfold proj. cbn [filter fst]. now rewrite N.eqb_refl. Qed.

Lemma proj_one_other ep ep' id e : ep' <> ep -> proj ep [(ep', id, e)] = [].
Proof. intros H. unfold proj. cbn [filter fst]. destruct (N.eqb_spec ep' ep); [congruence|reflexivity]. Qed.

Lemma proj_snoc_other ep ep' l id e : ep' <> ep -> proj ep (l ++ [(ep', id, e)]) = proj ep l.
Proof. intros H. rewrite proj_app, proj_one_other by exact H. apply app_nil_r. Qed.

Lemma proj_snoc_same ep l id e : proj ep (l ++ [(ep, id, e)]) = proj ep l ++ [(id, e)].
Proof. now rewrite proj_app, proj_one_same. Qed.

Lemma proj_none ep l : (forall t, In t l -> fst (fst t) <> ep) -> proj ep l = [].
Proof.
  intros H. unfold proj. induction l as [|t r IH]; [reflexivity|]. cbn [filter].
  destruct (N.eqb_spec (fst (fst t)) ep) as [E|_].
  - exfalso. apply (H t); [now left|exact E].
  - apply IH. intros t' Ht'. apply H. now right.
Qed.

(* a new epoch starts with empty logs *)
Lemma proj_above ep l : (forall t, In t l -> fst (fst t) <= ep) -> proj (ep + 1) l = [].
Proof. intros H. apply proj_none. intros t Ht. apply H in Ht. lia. Qed.

Lemma In_proj ep x l : In x (proj ep l) -> exists t, In t l /\ untag t = x.
Proof. unfold proj. intros H. apply in_map_iff in H as (t & Ht & Hin). apply filter_In in Hin as [Hin _]. now exists t. Qed.

Lemma prefix_refl {A} (a : list A) : prefix a a.
Proof. exists []. now rewrite app_nil_r. Qed.
Lemma prefix_app_r {A} (a b c : list A) : prefix a b -> prefix a (b ++ c).
Proof. intros [r ->]. exists (r ++ c). now rewrite app_assoc. Qed.

Ltac sfields :=
  cbn [a_index a_topics a_ret a_peer a_sidctr a_epoch st_up c2s s2c fb_peer fb_sess fb_fed fb_ret fb_ops
       emitted applied published handled set_local set_peer set_stream set_server add_handled
       p_sid p_q evq_next evq_l evq_read evq_closed evq_bad fs_id fs_next fs_seen] in *.

(* A's local store, who knows whom and under which session id; B's store for A *)
Definition aframe (s : fstate) :=
  (a_index s, a_topics s, a_ret s, a_epoch s, a_sidctr s, option_map p_sid (a_peer s), fb_peer s, option_map fs_id (fb_sess s)).
Definition bstore (s : fstate) := (fb_fed s, fb_ops s, applied s).

(* s' differs from s in the stream, in the content of A's queue and in what B holds *)
Definition aside (s s' : fstate) : Prop := aframe s' = aframe s /\ emitted s' = emitted s.
(* ... in the stream and in the content of A's queue only *)
Definition stream_only (s s' : fstate) : Prop := aside s s' /\ bstore s' = bstore s.

Lemma aside_trans s1 s2 s3 : aside s1 s2 -> aside s2 s3 -> aside s1 s3.
Proof. intros (A1 & E1) (A2 & E2). split; congruence. Qed.

Lemma stream_only_trans s1 s2 s3 : stream_only s1 s2 -> stream_only s2 s3 -> stream_only s1 s3.
Proof. intros (A1 & B1) (A2 & B2). split; [now apply (aside_trans _ s2)|congruence]. Qed.

Lemma set_queue_some q s p : a_peer s = Some p ->
  set_queue q s = set_peer (Some {| p_sid := p_sid p; p_q := q |}) (a_sidctr s) (a_epoch s) (emitted s) s.
Proof. intros H. unfold set_queue. now rewrite H. Qed.

Lemma set_queue_frame q s : stream_only s (set_queue q s).
Proof. unfold set_queue, stream_only, aside, aframe. destruct (a_peer s) as [p|] eqn:Hp; sfields; now rewrite ?Hp. Qed.

(* a stream that is up is cut: what was in flight is gone, the queue is closed *)
Definition close_peer (p : fpeer) : fpeer := {| p_sid := p_sid p; p_q := eq_set_closed true (p_q p) |}.

Lemma fq_cut_up s : st_up s = true ->
  fq_cut s = set_peer (option_map close_peer (a_peer s)) (a_sidctr s) (a_epoch s) (emitted s) (set_stream false [] [] s).
Proof. unfold fq_cut, set_queue. intros ->. destruct s as [? ? ? [p|]]; reflexivity. Qed.

Lemma fq_cut_down s : st_up s = false -> fq_cut s = s.
Proof. unfold fq_cut. now intros ->. Qed.

Lemma cut_frame s : stream_only s (fq_cut s).
Proof.
  destruct (st_up s) eqn:Hup; [rewrite (fq_cut_up s Hup)|now rewrite (fq_cut_down s Hup)].
  unfold stream_only, aside, aframe. sfields. now destruct (a_peer s).
Qed.

Lemma st_up_cut s : st_up (fq_cut s) = false.
Proof. destruct (st_up s) eqn:Hup; [now rewrite (fq_cut_up s Hup)|now rewrite (fq_cut_down s Hup)]. Qed.

Lemma send_frame s : stream_only s (fq_send s).
Proof.
  unfold fq_send. destruct (st_up s); [|now split]. destruct (a_peer s) as [p|]; [|now split].
  destruct (eq_fetch (p_q p)) as [[| |batch] q']; try now split.
  destruct (forallb _ batch); [|eapply stream_only_trans; [|apply cut_frame]]; apply (set_queue_frame q' s).
Qed.

Lemma ack_deliver_frame s : stream_only s (fq_ack_deliver s).
Proof.
  unfold fq_ack_deliver. destruct (st_up s); [|now split]. destruct (s2c s) as [|id rest]; [now split|].
  destruct (a_peer s) as [p|]; [|now split]. apply (set_queue_frame _ (set_stream true (c2s s) rest s)).
Qed.

(* emitting touches the queue and the log of emitted events *)
Lemma emit1_frame e s :
  aframe (emit1 e s) = aframe s /\ bstore (emit1 e s) = bstore s /\ st_up (emit1 e s) = st_up s /\ fb_sess (emit1 e s) = fb_sess s.
Proof. unfold emit1, aframe. destruct (a_peer s) as [p|] eqn:Hp; sfields; now rewrite ?Hp. Qed.

Lemma emit_list_frame es s :
  aframe (emit_list es s) = aframe s /\ bstore (emit_list es s) = bstore s /\
  st_up (emit_list es s) = st_up s /\ fb_sess (emit_list es s) = fb_sess s.
Proof.
  unfold emit_list. revert s. induction es as [|e r IH]; intros s; cbn [fold_left]; [auto|].
  destruct (IH (emit1 e s)) as (H1 & H2 & H3 & H4). destruct (emit1_frame e s) as (H5 & H6 & H7 & H8).
  rewrite H1, H2, H3, H4. auto.
Qed.

(* a peer under the same session id *)
Lemma aframe_peer s s' p : aframe s' = aframe s -> a_peer s = Some p -> exists p', a_peer s' = Some p' /\ p_sid p' = p_sid p.
Proof.
  unfold aframe. intros H Hp. injection H as _ _ _ _ _ H _ _. rewrite Hp in H.
  destruct (a_peer s') as [p'|]; [|discriminate]. exists p'. split; [reflexivity|]. now injection H.
Qed.

(* the state of the known-finding scan that corresponds to a model state *)
Definition matched (s : fstate) : bool :=
  match a_peer s, fb_sess s with
  | Some p, Some se => fs_id se =? p_sid p
  | _, _ => false
  end.

Definition is_some {A} (o : option A) : bool := match o with Some _ => true | None => false end.

Definition kof (s : fstate) : kst :=
  {| k_apeer := is_some (a_peer s); k_bpeer := fb_peer s; k_match := matched s |}.

Lemma matched_ids s s' :
  option_map p_sid (a_peer s') = option_map p_sid (a_peer s) -> option_map fs_id (fb_sess s') = option_map fs_id (fb_sess s) ->
  matched s' = matched s.
Proof.
  unfold matched. intros H1 H2.
  destruct (a_peer s') as [p'|], (a_peer s) as [p|]; try discriminate; cbn [option_map] in H1; [|reflexivity].
  destruct (fb_sess s') as [se'|], (fb_sess s) as [se|]; try discriminate; cbn [option_map] in H2; congruence.
Qed.

Lemma kof_aframe s s' : aframe s' = aframe s -> kof s' = kof s.
Proof.
  unfold aframe, kof. intros H. injection H as _ _ _ _ _ H1 -> H2. rewrite (matched_ids _ _ H1 H2).
  now destruct (a_peer s'), (a_peer s).
Qed.

Lemma kof_aside s s' : aside s s' -> kof s' = kof s.
Proof. intros [H _]. now apply kof_aframe. Qed.

Lemma kof_matched s p se : a_peer s = Some p -> fb_sess s = Some se -> (fs_id se =? p_sid p) = true ->
  kof s = {| k_apeer := true; k_bpeer := fb_peer s; k_match := true |}.
Proof. intros Hp Hse Hid. unfold kof, matched. now rewrite Hp, Hse, Hid. Qed.

Definition Eof (s : fstate) : list ievent := proj (a_epoch s) (emitted s).
Definition Aof (s : fstate) : list ievent := proj (a_epoch s) (applied s).

(* the session B holds is the one A's peer presents: the events of the current epoch are
   E = D ++ C ++ U - D handled and acknowledged by B's loop (|D| = nextEventID), C in
   flight, U not yet sent on this stream; what B applied is D, or D and the next event
   (applied, ack not sent: its id is in the LRU) *)
Definition MI (E A : list ievent) (ep : N) (up : bool) (cs : list tagged) (sc : list N)
           (rd : option N) (nx : N) (seen : list N) (pre : list ievent) : Prop :=
  exists D C U,
    E = D ++ C ++ U /\ nlen D = nx /\ nlen pre <= nlen D /\ cs = map (tag ep) C /\
    (up = true -> rd = head_id U) /\
    (up = false -> C = [] /\ (rd = None \/ exists r, rd = Some r /\ nx <= r)) /\
    (A = D \/ exists x e rest, C ++ U = (x, e) :: rest /\ A = D ++ [(x, e)] /\ In nx seen) /\
    (forall i, In i seen -> i < nlen A) /\
    (forall i, In i sc -> i < nx).

(* the queue holds the events of the current epoch minus an acknowledged front part *)
Definition QI (E A : list ievent) (ep : N) (up : bool) (cs : list tagged) (sc : list N)
           (q : equeue) (sess : option fsession) (sid : N) : Prop :=
  exists pre,
    E = pre ++ evq_l q /\ consec 0 E /\ evq_next q = nlen E /\ evq_bad q = false /\
    (evq_read q = None \/ exists r, evq_read q = Some r /\ nlen pre <= r /\ r < nlen E) /\
    match sess with
    | Some se => if fs_id se =? sid then MI E A ep up cs sc (evq_read q) (fs_next se) (fs_seen se) pre else up = false
    | None => up = false
    end.

Definition INV (s : fstate) : Prop :=
  (forall e, prefix (proj e (applied s)) (proj e (emitted s))) /\
  (forall t, In t (emitted s) -> fst (fst t) <= a_epoch s) /\
  (forall t, In t (applied s) -> fst (fst t) <= a_epoch s) /\
  (forall t, In t (c2s s) -> fst (fst t) = a_epoch s) /\
  (st_up s = false -> c2s s = [] /\ s2c s = []) /\
  (forall se, fb_sess s = Some se -> fs_id se < a_sidctr s /\ fb_peer s = true) /\
  match a_peer s with
  | None => st_up s = false
  | Some p => p_sid p < a_sidctr s /\
              QI (Eof s) (Aof s) (a_epoch s) (st_up s) (c2s s) (s2c s) (p_q p) (fb_sess s) (p_sid p)
  end.

(* splits a conjunction into its parts; those a step leaves as they were are then closed
   by `trivial` *)
Ltac conjs := repeat match goal with |- _ /\ _ => split end.

Lemma INV_init ret : INV (fq_init ret).
Proof.
  unfold INV, fq_init. sfields. conjs; trivial; [|intros t []..|now split|discriminate].
  intros e. apply prefix_refl.
Qed.

Lemma INV_set_local ix tp s : INV s -> INV (set_local ix tp s).
Proof. intros H. exact H. Qed.

(* what the invariant depends on *)
Definition core (s : fstate) :=
  (a_peer s, a_sidctr s, a_epoch s, st_up s, c2s s, s2c s, fb_peer s, fb_sess s, emitted s, applied s).

Lemma INV_core s s' : core s = core s' -> INV s -> INV s'.
Proof.
  unfold core. intros H. injection H as H1 H2 H3 H4 H5 H6 H7 H8 H9 H10.
  unfold INV, Eof, Aof. now rewrite H1, H2, H3, H4, H5, H6, H7, H8, H9, H10.
Qed.

Lemma fed_op_core s o : core (fed_op s o) = core s /\ fb_ret (fed_op s o) = fb_ret s /\ published (fed_op s o) = published s.
Proof. unfold fed_op, core. sfields. auto. Qed.

Lemma MI_prefix {E A ep up cs sc rd nx seen pre} : MI E A ep up cs sc rd nx seen pre -> prefix A E.
Proof.
  intros (D & C & U & -> & _ & _ & _ & _ & _ & HA & _).
  destruct HA as [->|(x & e & rest & HCU & -> & _)]; [now exists (C ++ U)|].
  exists rest. now rewrite HCU, <- app_assoc.
Qed.

(* while the stream is up the read position is at or beyond nextEventID, inside the list *)
Lemma MI_read_up {E A ep cs sc rd nx seen pre} :
  MI E A ep true cs sc rd nx seen pre -> consec 0 E ->
  rd = None \/ exists r, rd = Some r /\ nlen pre <= r /\ nx <= r /\ r < nlen E.
Proof.
  intros (D & C & U & HD & HnD & Hpd & _ & Hup & _) Hcons. rewrite (Hup eq_refl). rewrite HD, app_assoc in Hcons |- *.
  destruct (head_id_consec _ _ Hcons) as [->|(r & -> & Hr & Hlt)]; [now left|right].
  exists r. split; [reflexivity|]. rewrite nlen_app in Hr. lia.
Qed.

Lemma MI_emit E A ep up cs sc rd nx seen pre x :
  MI E A ep up cs sc rd nx seen pre -> consec 0 E -> fst x = nlen E ->
  MI (E ++ [x]) A ep up cs sc (match rd with None => Some (fst x) | r => r end) nx seen pre.
Proof.
  intros (D & C & U & HD & HnD & Hpd & Hc2 & Hup & Hdn & HA & Hseen & Hs2) Hcons Hx.
  exists D, C, (U ++ [x]). conjs; trivial.
  - rewrite HD, <- !app_assoc. reflexivity.
  - intros Hu. rewrite (Hup Hu). destruct U as [|[i e'] U']; [destruct x|]; reflexivity.
  - intros Hd. destruct (Hdn Hd) as [-> Hr]. split; [reflexivity|]. right.
    destruct Hr as [->|(r & -> & Hr)]; [|now exists r].
    exists (fst x). split; [reflexivity|]. rewrite Hx, HD, !nlen_app. lia.
  - destruct HA as [HA|(y & e' & rest & HCU & HA & Hin)]; [now left|right].
    exists y, e', (rest ++ [x]). split; [rewrite app_assoc, HCU; reflexivity|now split].
Qed.

Lemma QI_emit E A ep up cs sc q sess sid e :
  QI E A ep up cs sc q sess sid -> QI (E ++ [(evq_next q, e)]) A ep up cs sc (eq_add e q) sess sid.
Proof.
  intros (pre & HEq & Hcons & Hnext & Hbad & Hread & Hm). unfold eq_add. exists pre. sfields.
  assert (Hpre : nlen pre <= nlen E) by (rewrite HEq, nlen_app; lia).
  conjs; trivial.
  - rewrite HEq at 1. now rewrite app_assoc.
  - apply consec_app. split; [exact Hcons|]. cbn [consec]. rewrite Hnext. split; [lia|exact I].
  - rewrite nlen_app, Hnext. reflexivity.
  - right. rewrite nlen_app, nlen_one. destruct Hread as [->|(r & -> & H1 & H2)].
    + exists (evq_next q). split; [reflexivity|]. lia.
    + exists r. split; [reflexivity|]. lia.
  - destruct sess as [se|]; [|exact Hm]. destruct (fs_id se =? sid); [|exact Hm].
    pose proof (MI_emit E A ep up cs sc (evq_read q) (fs_next se) (fs_seen se) pre (evq_next q, e) Hm Hcons Hnext) as H.
    cbn [fst] in H. destruct (evq_read q); exact H.
Qed.

Lemma INV_emit1 e s : INV s -> INV (emit1 e s).
Proof.
  intros H. unfold emit1. destruct (a_peer s) as [p|] eqn:Hp; [|exact H].
  destruct H as (Hpre & Hem & Hap & Hc & Hdown & Hsess & Hq). rewrite Hp in Hq. destruct Hq as [Hsid Hq].
  unfold INV, Eof, Aof. sfields. conjs; trivial.
  - intros ep. rewrite proj_app. now apply prefix_app_r.
  - intros t Ht. apply in_app_or in Ht as [Ht|[<-|[]]]; [now apply Hem|cbn [fst]; lia].
  - rewrite proj_snoc_same. now apply QI_emit.
Qed.

Lemma INV_emit_list es s : INV s -> INV (emit_list es s).
Proof. unfold emit_list. revert s. induction es as [|e r IH]; intros s H; cbn [fold_left]; [exact H|]. apply IH. now apply INV_emit1. Qed.

(* closing / opening the queue does not matter *)
Lemma QI_closed E A ep up cs sc q sess sid b :
  QI E A ep up cs sc q sess sid -> QI E A ep up cs sc (eq_set_closed b q) sess sid.
Proof. intros H. exact H. Qed.

Lemma MI_cut E A ep up cs sc rd nx seen pre :
  MI E A ep up cs sc rd nx seen pre -> consec 0 E -> MI E A ep false [] [] rd nx seen pre.
Proof.
  intros Hm Hcons.
  (* what was in flight is unsent again: the read position is beyond nextEventID *)
  assert (Hrd : rd = None \/ exists r, rd = Some r /\ nx <= r).
  { destruct up; [|now destruct Hm as (D & C & U & _ & _ & _ & _ & _ & Hdn & _); destruct (Hdn eq_refl)].
    destruct (MI_read_up Hm Hcons) as [->|(r & -> & _ & Hr & _)]; [now left|right; now exists r]. }
  destruct Hm as (D & C & U & HD & HnD & Hpd & Hc2 & Hup & Hdn & HA & Hseen & Hs2).
  exists D, [], (C ++ U). cbn [app map]. conjs; trivial; [discriminate|now split|intros i []].
Qed.

Lemma QI_cut E A ep up cs sc q sess sid :
  QI E A ep up cs sc q sess sid -> QI E A ep false [] [] q sess sid.
Proof.
  intros (pre & HEq & Hcons & Hnext & Hbad & Hread & Hm). exists pre. conjs; trivial.
  destruct sess as [se|]; [|reflexivity]. destruct (fs_id se =? sid); [|reflexivity].
  now apply MI_cut with (up := up) (cs := cs) (sc := sc).
Qed.

Lemma INV_cut s : INV s -> INV (fq_cut s).
Proof.
  intros H. destruct (st_up s) eqn:Hup; [rewrite (fq_cut_up s Hup)|now rewrite (fq_cut_down s Hup)].
  destruct H as (Hpre & Hem & Hap & Hc & Hdown & Hsess & Hq).
  destruct (a_peer s) as [p|]; [|congruence]. destruct Hq as [Hsid Hq].
  unfold INV, Eof, Aof. sfields. cbn [option_map close_peer]. conjs; trivial; [intros t []|now split|].
  apply QI_closed. eapply QI_cut; exact Hq.
Qed.

(* one sendEvents iteration *)
Lemma eq_fetch_events q batch q' : eq_fetch q = (FEvents batch, q') ->
  exists r, evq_read q = Some r /\ batch = firstn FETCH_MAX (drop_until r (evq_l q)) /\
    q' = {| evq_next := evq_next q; evq_l := evq_l q;
            evq_read := head_id (skipn FETCH_MAX (drop_until r (evq_l q)));
            evq_closed := evq_closed q; evq_bad := evq_bad q |}.
Proof.
  unfold eq_fetch. destruct (evq_closed q); [discriminate|].
  destruct (evq_l q) as [|x l] eqn:Hl; [discriminate|]. destruct (evq_read q) as [r|]; [|discriminate].
  intros H. injection H as <- <-. exists r. split; [reflexivity|]. split; [reflexivity|]. reflexivity.
Qed.

Lemma eq_fetch_other q x q' : eq_fetch q = (x, q') -> (forall b, x <> FEvents b) -> q' = q.
Proof.
  unfold eq_fetch. destruct (evq_closed q); [intros H; now injection H|].
  destruct (evq_l q) as [|y l]; [intros H; now injection H|]. destruct (evq_read q) as [r|]; [|intros H; now injection H].
  intros H Hne. injection H as <- _. now destruct (Hne _ eq_refl).
Qed.

Lemma eq_fetch_open q r : evq_closed q = false -> evq_read q = Some r -> evq_l q <> [] ->
  eq_fetch q = (FEvents (firstn FETCH_MAX (drop_until r (evq_l q))),
                {| evq_next := evq_next q; evq_l := evq_l q;
                   evq_read := head_id (skipn FETCH_MAX (drop_until r (evq_l q)));
                   evq_closed := evq_closed q; evq_bad := evq_bad q |}).
Proof. intros Ho Hr Hl. unfold eq_fetch. rewrite Ho, Hr. destruct (evq_l q); [congruence|reflexivity]. Qed.

Lemma MI_send {E A ep cs sc r nx seen pre L} k :
  MI E A ep true cs sc (Some r) nx seen pre -> E = pre ++ L -> consec 0 E ->
  MI E A ep true (cs ++ map (tag ep) (firstn k (drop_until r L))) sc (head_id (skipn k (drop_until r L))) nx seen pre.
Proof.
  intros (D & C & U & HD & HnD & Hpd & Hc2 & Hup & Hdn & HA & Hseen & Hs2) HEq Hcons.
  pose proof (Hup eq_refl) as Hr. destruct U as [|[r' e0] U1]; [discriminate|]. cbn [head_id] in Hr. injection Hr as <-.
  rewrite (drop_until_read pre L (D ++ C) r e0 U1);
    [|rewrite <- HEq; exact Hcons|rewrite <- HEq, <- app_assoc; exact HD|rewrite nlen_app; lia].
  set (U0 := (r, e0) :: U1) in *.
  exists D, (C ++ firstn k U0), (skipn k U0). rewrite <- app_assoc, firstn_skipn. conjs; trivial; [|discriminate].
  rewrite map_app, Hc2. reflexivity.
Qed.

Lemma QI_send {E A ep cs sc q sess sid batch q'} :
  QI E A ep true cs sc q sess sid -> eq_fetch q = (FEvents batch, q') ->
  QI E A ep true (cs ++ map (tag ep) batch) sc q' sess sid.
Proof.
  intros (pre & HEq & Hcons & Hnext & Hbad & Hread & Hm) Hf.
  destruct (eq_fetch_events _ _ _ Hf) as (r & Hr & -> & ->).
  destruct sess as [se|]; [|discriminate]. destruct (fs_id se =? sid) eqn:Hid; [|discriminate].
  rewrite Hr in Hm. pose proof (MI_send FETCH_MAX Hm HEq Hcons) as Hm'.
  exists pre. sfields. rewrite Hid. conjs; trivial.
  destruct (MI_read_up Hm' Hcons) as [->|(i & -> & Hi & _ & Hlt)]; [now left|right; now exists i].
Qed.

Lemma INV_send s : INV s -> INV (fq_send s).
Proof.
  intros H. unfold fq_send. destruct (st_up s) eqn:Hup; [|exact H].
  destruct (a_peer s) as [p|] eqn:Hp; [|exact H].
  destruct (eq_fetch (p_q p)) as [[| |batch] q'] eqn:Hf; try exact H.
  (* the state in which the whole batch is in flight *)
  set (s1 := set_queue q' s).
  set (s2 := set_stream true (c2s s1 ++ map (fun ie : ievent => (a_epoch s1, fst ie, snd ie)) batch) (s2c s1) s1).
  assert (H2 : INV s2).
  { destruct H as (Hpre & Hem & Hap & Hc & Hdown & Hsess & Hq). rewrite Hp in Hq. destruct Hq as [Hsid Hq].
    subst s2 s1. rewrite (set_queue_some _ _ p Hp). unfold INV, Eof, Aof. sfields. rewrite Hup in Hq.
    conjs; trivial; [|discriminate|exact (QI_send Hq Hf)].
    intros t Ht. apply in_app_or in Ht as [Ht|Ht]; [now apply Hc|].
    apply in_map_iff in Ht as (ie & <- & _). reflexivity. }
  destruct (forallb (fun ie : ievent => marshal_ok (snd ie)) batch); [exact H2|].
  replace (fq_cut s1) with (fq_cut s2); [now apply INV_cut|].
  subst s2 s1. rewrite (set_queue_some _ _ p Hp). unfold fq_cut. sfields. now rewrite Hup.
Qed.

(* one EventStream iteration *)
Lemma fq_deliver_cases b s : fq_deliver b s = s \/
  exists ep id e rest se, st_up s = true /\ c2s s = (ep, id, e) :: rest /\ fb_sess s = Some se.
Proof.
  unfold fq_deliver. destruct (st_up s); [|now left]. destruct (c2s s) as [|[[ep id] e] rest]; [now left|].
  destruct (fb_sess s) as [se|]; [|now left]. right. now exists ep, id, e, rest, se.
Qed.

(* The state after the iteration, field by field (B's retained store and its log of
   published messages are of no concern here).  The setters of the model nest; simplifying
   them symbolically makes terms that grow with every level, so the state stays a variable
   and the two sides are only compared, once it is known whether the id is in the LRU,
   which event it is and whether the ack goes out. *)
Lemma fq_deliver_eq b s ep id e rest se :
  st_up s = true -> c2s s = (ep, id, e) :: rest -> fb_sess s = Some se ->
  let dup := fst (lru_set id (fs_seen se)) in
  let sB := if dup then s else apply_event e s in
  fq_deliver b s =
  {| a_index := a_index s; a_topics := a_topics s; a_ret := a_ret s;
     a_peer := if b then a_peer s else option_map close_peer (a_peer s);
     a_sidctr := a_sidctr s; a_epoch := a_epoch s;
     st_up := b; c2s := if b then rest else []; s2c := if b then s2c s ++ [id] else [];
     fb_peer := fb_peer s;
     fb_sess := Some {| fs_id := fs_id se; fs_next := if b then id + 1 else fs_next se;
                        fs_seen := snd (lru_set id (fs_seen se)) |};
     fb_fed := fb_fed sB; fb_ret := fb_ret sB; fb_ops := fb_ops sB;
     emitted := emitted s; applied := if dup then applied s else applied s ++ [(ep, id, e)];
     published := published sB; handled := handled s ++ [(ep, id, dup)] |}.
Proof.
  intros Hup Hc Hse. cbv zeta. unfold fq_deliver. rewrite Hup, Hc, Hse.
  destruct (lru_set id (fs_seen se)) as [dup seen']. cbn [fst snd].
  destruct b; [|rewrite fq_cut_up by (destruct dup; [|destruct e]; reflexivity)];
    (destruct dup; [|destruct e]; reflexivity).
Qed.

(* the event at the head of the stream is applied unless its id is in the LRU *)
Lemma MI_apply E A ep id e cs' sc rd nx seen pre :
  MI E A ep true ((ep, id, e) :: cs') sc rd nx seen pre -> consec 0 E ->
  MI E (if fst (lru_set id seen) then A else A ++ [(id, e)]) ep true ((ep, id, e) :: cs') sc rd nx (snd (lru_set id seen)) pre.
Proof.
  intros Hm Hcons. unfold lru_set. destruct (mem_n id seen) eqn:Hmem; cbn [fst snd]; [exact Hm|].
  destruct Hm as (D & C & U & HD & HnD & Hpd & Hc2 & Hup & Hdn & HA & Hseen & Hs2).
  destruct C as [|[id' e'] C']; [discriminate|]. cbn [map] in Hc2. injection Hc2 as Hid He Hc2. cbn [fst snd] in Hid, He. subst id' e'.
  assert (Hidx : id = nx) by (rewrite HD in Hcons; cbn [app] in Hcons; apply consec_head in Hcons; lia).
  (* not in the LRU, so not applied yet *)
  assert (HAD : A = D).
  { destruct HA as [HA|(_ & _ & _ & _ & _ & Hin)]; [exact HA|]. rewrite <- Hidx in Hin. apply mem_n_In in Hin. congruence. }
  exists D, ((id, e) :: C'), U. conjs; trivial.
  - cbn [map]. now rewrite <- Hc2.
  - right. exists id, e, (C' ++ U). split; [reflexivity|]. split; [now rewrite HAD|].
    apply in_or_app. right. left. now symmetry.
  - intros i Hi. rewrite nlen_app, nlen_one. apply in_app_or in Hi as [Hi|[<-|[]]]; [|rewrite HAD; lia].
    assert (In i seen) by (destruct (Nat.eqb (length seen) LRU_SIZE); [now apply In_tl|exact Hi]).
    apply Hseen in H. lia.
Qed.

(* the ack is sent for an applied event: nextEventID advances *)
Lemma MI_ack {E A ep id e cs' sc rd nx seen pre} :
  MI E A ep true ((ep, id, e) :: cs') sc rd nx seen pre -> consec 0 E -> In id seen ->
  MI E A ep true cs' (sc ++ [id]) rd (id + 1) seen pre.
Proof.
  intros (D & C & U & HD & HnD & Hpd & Hc2 & Hup & Hdn & HA & Hseen & Hs2) Hcons Hin.
  destruct C as [|[id' e'] C']; [discriminate|]. cbn [map] in Hc2. injection Hc2 as Hid He Hc2. cbn [fst snd] in Hid, He. subst id' e'.
  assert (Hidx : id = nx) by (rewrite HD in Hcons; cbn [app] in Hcons; apply consec_head in Hcons; lia).
  assert (HAD : A = D ++ [(id, e)]).
  { destruct HA as [HA|(x & e0 & rest & HCU & HA & _)]; [apply Hseen in Hin; rewrite HA in Hin; lia|].
    cbn [app] in HCU. now injection HCU as <- <- _. }
  exists (D ++ [(id, e)]), C', U. rewrite nlen_app, nlen_one. conjs; trivial; [|lia..|discriminate|now left|].
  - rewrite HD, <- app_assoc. reflexivity.
  - intros i Hi. apply in_app_or in Hi as [Hi|[<-|[]]]; [apply Hs2 in Hi|]; lia.
Qed.

Lemma INV_deliver b s : INV s -> INV (fq_deliver b s).
Proof.
  intros H. destruct (fq_deliver_cases b s) as [->|(ep & id & e & rest & se & Hup & Hcs & Hse)]; [exact H|].
  rewrite (fq_deliver_eq b s ep id e rest se Hup Hcs Hse).
  destruct H as (Hpre & Hem & Hap & Hc & Hdown & Hsess & Hq).
  destruct (a_peer s) as [p|] eqn:Hp; [|congruence].
  destruct Hq as [Hsid (pre & HEq & Hcons & Hnext & Hbad & Hread & Hm)].
  assert (Hep : ep = a_epoch s) by (apply (Hc (ep, id, e)); rewrite Hcs; now left). subst ep.
  rewrite Hse in Hm. destruct (fs_id se =? p_sid p) eqn:Hmatch; [|congruence].
  rewrite Hup, Hcs in Hm. apply MI_apply in Hm; [|exact Hcons].
  destruct (Hsess se Hse) as [Hsidse Hbp]. pose proof (lru_set_in id (fs_seen se)) as Hin.
  set (dup := fst (lru_set id (fs_seen se))) in *. set (seen' := snd (lru_set id (fs_seen se))) in *.
  assert (HA' : proj (a_epoch s) (if dup then applied s else applied s ++ [(a_epoch s, id, e)]) =
                if dup then Aof s else Aof s ++ [(id, e)]) by (destruct dup; [reflexivity|apply proj_snoc_same]).
  unfold INV, Eof, Aof. sfields. conjs; trivial.
  - intros e0. destruct (N.eq_dec e0 (a_epoch s)) as [->|Hne]; [rewrite HA'; exact (MI_prefix Hm)|].
    destruct dup; [apply Hpre|]. rewrite proj_snoc_other by congruence. apply Hpre.
  - intros t Ht. destruct dup; [now apply Hap|].
    apply in_app_or in Ht as [Ht|[<-|[]]]; [now apply Hap|cbn [fst]; lia].
  - destruct b; [|intros t []]. intros t Ht. apply Hc. rewrite Hcs. now right.
  - destruct b; [discriminate|now split].
  - intros se' Hs'. injection Hs' as <-. now split.
  - destruct b; cbn [option_map]; (split; [exact Hsid|]); exists pre; unfold close_peer; sfields; rewrite Hmatch, HA'; conjs; trivial.
    + (* the ack is sent: nextEventID advances *)
      exact (MI_ack Hm Hcons Hin).
    + (* the ack cannot be sent: the stream is gone, nextEventID stays *)
      now apply MI_cut with (up := true) (cs := (a_epoch s, id, e) :: rest) (sc := s2c s).
Qed.

(* one readLoop iteration *)
Lemma QI_ack E A ep cs id sc' q sess sid :
  QI E A ep true cs (id :: sc') q sess sid -> QI E A ep true cs sc' (eq_ack id q) sess sid.
Proof.
  intros (pre & HEq & Hcons & Hnext & Hbad & Hread & Hm).
  destruct sess as [se|]; [|discriminate]. destruct (fs_id se =? sid) eqn:Hid; [|discriminate].
  pose proof (MI_read_up Hm Hcons) as Hrd.
  destruct Hm as (D & C & U & HD & HnD & Hpd & Hc2 & Hup & Hdn & HA & Hseen & Hs2).
  assert (Hlt : id < fs_next se) by (apply Hs2; now left).
  (* the acknowledged front part joins what was acknowledged before *)
  pose proof Hcons as HcL. rewrite HEq in HcL. apply consec_app in HcL as [_ HcL].
  destruct (ack_list_cut _ _ id HcL) as (l1 & HL & Hl1).
  assert (HEq' : E = (pre ++ l1) ++ ack_list id (evq_l q)) by (rewrite <- app_assoc, <- HL; exact HEq).
  assert (Hpre' : nlen pre <= nlen (pre ++ l1) <= fs_next se) by (rewrite nlen_app; clear - Hl1 Hlt Hpd HnD; lia).
  exists (pre ++ l1). unfold eq_ack. sfields. rewrite Hid. conjs; trivial.
  - (* the read position is beyond what was acknowledged *)
    rewrite Hbad. destruct Hrd as [->|(r & -> & _ & Hr1 & Hr2)]; [reflexivity|].
    rewrite HEq' in Hcons, Hr2. apply consec_app in Hcons as [_ Hc']. rewrite nlen_app in Hr2.
    rewrite (has_id_consec _ _ r Hc'). replace (_ && (r <? _)) with true by (clear - Hpre' Hr1 Hr2; lia). apply andb_false_r.
  - destruct Hrd as [->|(r & -> & _ & Hr1 & Hr2)]; [now left|right]. exists r. split; [reflexivity|]. clear - Hpre' Hr1 Hr2. lia.
  - exists D, C, U. conjs; trivial; [clear - Hpre' HnD; lia|]. intros i Hi. apply Hs2. now right.
Qed.

Lemma INV_ack_deliver s : INV s -> INV (fq_ack_deliver s).
Proof.
  intros H. unfold fq_ack_deliver. destruct (st_up s) eqn:Hup; [|exact H].
  destruct (s2c s) as [|id rest] eqn:Hsc; [exact H|].
  destruct (a_peer s) as [p|] eqn:Hp; [|exact H].
  destruct H as (Hpre & Hem & Hap & Hc & Hdown & Hsess & Hq). rewrite Hp in Hq. destruct Hq as [Hsid Hq].
  rewrite (set_queue_some _ _ p) by (sfields; exact Hp).
  unfold INV, Eof, Aof. sfields. conjs; trivial; [discriminate|]. rewrite Hup, Hsc in Hq. now apply QI_ack.
Qed.

(* resume: setReadPosition(nextEventID), then (if the stream opens) open *)
Lemma QI_resume E A ep q se sid up' :
  QI E A ep false [] [] q (Some se) sid -> (fs_id se =? sid) = true ->
  QI E A ep up' [] [] (eq_set_read (fs_next se) q) (Some se) sid.
Proof.
  intros (pre & HEq & Hcons & Hnext & Hbad & Hread & Hm) Hid. rewrite Hid in Hm.
  destruct Hm as (D & C & U & HD & HnD & Hpd & Hc2 & _ & Hdn & HA & Hseen & Hs2).
  destruct (Hdn eq_refl) as [-> Hrd]. cbn [app] in HD, HA.
  pose proof Hcons as HcL. rewrite HEq in HcL. apply consec_app in HcL as [_ HcL].
  (* the new read position is the head of the unsent part, which starts at nextEventID *)
  assert (Hnew : (if has_id (fs_next se) (evq_l q) then Some (fs_next se) else evq_read q) = head_id U /\
                 (head_id U = None \/ exists r, head_id U = Some r /\ nlen pre <= r /\ fs_next se <= r /\ r < nlen E)).
  { rewrite (has_id_consec _ _ _ HcL). pose proof (f_equal nlen HEq) as HlE. pose proof (f_equal nlen HD) as HlD.
    rewrite nlen_app in HlE, HlD. destruct U as [|[r e] U'].
    - rewrite nlen_nil in HlD. split; [|now left]. replace (_ && _) with false by (clear - HlE HlD HnD; lia).
      destruct Hrd as [->|(r & Hr & Hge)]; [reflexivity|].
      destruct Hread as [Hn|(r' & Hr' & _ & Hlt)]; [congruence|]. rewrite Hr in Hr'. injection Hr' as <-. clear - HlD HnD Hge Hlt. lia.
    - rewrite HD in Hcons. apply consec_head in Hcons. rewrite nlen_cons in HlD. cbn [head_id].
      replace (_ && _) with true by (clear - HlE HlD HnD Hpd; lia).
      split; [f_equal; clear - Hcons HnD; lia|right]. exists r. split; [reflexivity|]. clear - Hcons HlD HnD Hpd. lia. }
  destruct Hnew as [Hnew HU]. exists pre. unfold eq_set_read. sfields. rewrite Hid, Hnew. conjs; trivial.
  - destruct HU as [->|(r & -> & H1 & _ & H2)]; [now left|right]. now exists r.
  - exists D, [], U. cbn [app map]. conjs; trivial. intros _. split; [reflexivity|].
    destruct HU as [->|(r & -> & _ & H & _)]; [now left|right]. now exists r.
Qed.

(* clean start: B made a fresh session for A's session id; A clears its queue *)
Lemma INV_clean s p (fed : db) (ops : list op) :
  INV s -> st_up s = false -> a_peer s = Some p -> fb_peer s = true ->
  INV (set_peer (Some {| p_sid := p_sid p; p_q := eq_clear (p_q p) |}) (a_sidctr s) (a_epoch s + 1) (emitted s)
         (set_server true (Some {| fs_id := p_sid p; fs_next := 0; fs_seen := [] |}) fed (fb_ret s) ops (applied s) (published s) s)).
Proof.
  intros H Hup Hp Hbp. destruct H as (Hpre & Hem & Hap & Hc & Hdown & Hsess & Hq).
  rewrite Hp in Hq. destruct Hq as [Hsid (pre & _ & _ & _ & Hbad & _)]. destruct (Hdown Hup) as [Hc0 Hs0].
  unfold INV, Eof, Aof. sfields. rewrite Hc0, Hs0, Hup, (proj_above _ _ Hem), (proj_above _ _ Hap).
  conjs; trivial; [intros t Ht; apply Hem in Ht; lia|intros t Ht; apply Hap in Ht; lia|intros t []|now split|
                   intros se Hs; injection Hs as <-; now split|].
  exists []. unfold eq_clear. sfields. rewrite N.eqb_refl. conjs; trivial; [exact I|now left|].
  exists [], [], []. cbn [app map]. conjs; trivial; [lia|intros _; split; [reflexivity|now left]|now left|intros i []..].
Qed.

Lemma eq_set_closed_same q : eq_set_closed (evq_closed q) q = q.
Proof. destruct q; reflexivity. Qed.

(* B's side of a clean start, A's side of it, and the part of the handshake after B has
   answered and A has (if told so) rebuilt its queue *)
Definition fresh_session (sid : N) (s : fstate) : fstate :=
  let s1 := fed_op s (OUnsubAll NODE_A) in
  set_server (fb_peer s1) (Some {| fs_id := sid; fs_next := 0; fs_seen := [] |})
             (fb_fed s1) (fb_ret s1) (fb_ops s1) (applied s1) (published s1) s1.

Definition resync (p : fpeer) (order : list fevent) (s1 : fstate) : fstate :=
  emit_list (resync_events s1 order)
            (set_peer (Some {| p_sid := p_sid p; p_q := eq_clear (p_q p) |}) (a_sidctr s1) (a_epoch s1 + 1) (emitted s1) s1).

Definition hello_tail (fail_open : bool) (next : N) (s2 : fstate) : fstate :=
  let s3 := match a_peer s2 with Some p2 => set_queue (eq_set_read next (p_q p2)) s2 | None => s2 end in
  if fail_open then s3
  else match a_peer s3 with
       | Some p3 => set_stream true [] [] (set_queue (eq_set_closed false (p_q p3)) s3)
       | None => s3
       end.

Lemma hello_tail_frame fo next s : stream_only s (hello_tail fo next s).
Proof.
  unfold hello_tail. destruct (a_peer s) as [p|] eqn:Hp; [|destruct fo; [|rewrite Hp]; now split].
  destruct fo; [apply set_queue_frame|]. rewrite (set_queue_some _ _ p Hp). sfields.
  unfold set_queue, stream_only, aside, aframe. sfields. now rewrite Hp.
Qed.

Lemma INV_hello_tail (fo : bool) s p se :
  INV s -> st_up s = false -> a_peer s = Some p -> fb_sess s = Some se -> (fs_id se =? p_sid p) = true ->
  INV (hello_tail fo (fs_next se) s).
Proof.
  intros (Hpre & Hem & Hap & Hc & Hdown & Hsess & Hq) Hup Hp Hse Hid.
  rewrite Hp in Hq. destruct Hq as [Hsid Hq]. destruct (Hdown Hup) as [Hc0 Hs0]. rewrite Hup, Hc0, Hs0, Hse in Hq.
  apply (QI_resume _ _ _ _ _ _ (negb fo)) in Hq; [|exact Hid].
  unfold hello_tail. rewrite Hp, (set_queue_some _ _ p Hp).
  destruct fo; [|sfields; unfold set_queue; sfields]; unfold INV, Eof, Aof; sfields; rewrite ?Hup, ?Hc0, ?Hs0;
    conjs; trivial; [intros t []|now split| |intros t []|discriminate|]; rewrite Hse; exact Hq.
Qed.

Lemma INV_clean_resync s p order :
  INV s -> st_up s = false -> a_peer s = Some p -> fb_peer s = true ->
  let s2 := resync p order (fresh_session (p_sid p) s) in
  INV s2 /\ st_up s2 = false /\ (exists p2, a_peer s2 = Some p2 /\ p_sid p2 = p_sid p) /\
  fb_sess s2 = Some {| fs_id := p_sid p; fs_next := 0; fs_seen := [] |} /\ fb_peer s2 = true.
Proof.
  intros H Hup Hp Hbp. cbv zeta. unfold resync. generalize (resync_events (fresh_session (p_sid p) s) order). intros evs.
  match goal with |- INV (emit_list evs ?X) /\ _ => set (sC := X) end.
  assert (HC : INV sC).
  { apply INV_core with (s := set_peer (Some {| p_sid := p_sid p; p_q := eq_clear (p_q p) |}) (a_sidctr s) (a_epoch s + 1) (emitted s)
         (set_server true (Some {| fs_id := p_sid p; fs_next := 0; fs_seen := [] |}) (db_step (fb_fed s) (OUnsubAll NODE_A))
                     (fb_ret s) (fb_ops s ++ [OUnsubAll NODE_A]) (applied s) (published s) s)).
    - subst sC. unfold core, fresh_session, fed_op. sfields. now rewrite Hbp.
    - now apply INV_clean. }
  destruct (emit_list_frame evs sC) as (Ha & _ & Hu & Hs).
  split; [now apply INV_emit_list|]. split; [rewrite Hu; exact Hup|].
  split; [exact (aframe_peer sC _ {| p_sid := p_sid p; p_q := eq_clear (p_q p) |} Ha eq_refl)|]. split; [rewrite Hs; reflexivity|].
  unfold aframe in Ha. injection Ha as _ _ _ _ _ _ -> _. exact Hbp.
Qed.

Lemma INV_hello_clean fo s p order :
  INV s -> st_up s = false -> a_peer s = Some p -> fb_peer s = true ->
  let s' := hello_tail fo 0 (resync p order (fresh_session (p_sid p) s)) in
  INV s' /\ kof s' = {| k_apeer := true; k_bpeer := true; k_match := true |}.
Proof.
  intros H Hup Hp Hbp. cbv zeta.
  destruct (INV_clean_resync s p order H Hup Hp Hbp) as (HI & Hu2 & (p2 & Hp2 & Hsid2) & Hse2 & Hb2). cbv zeta in *.
  assert (Hid2 : (p_sid p =? p_sid p2) = true) by (apply N.eqb_eq; congruence).
  split; [exact (INV_hello_tail fo _ p2 _ HI Hu2 Hp2 Hse2 Hid2)|].
  rewrite (kof_aside _ _ (proj1 (hello_tail_frame fo 0 _))), (kof_matched _ p2 _ Hp2 Hse2 Hid2), Hb2. reflexivity.
Qed.

(* serveStream, by outcome: nothing but the cut happens (no peer, the Hello does not reach
   B, B does not know A); B still holds the session A presents: resume; otherwise B starts
   a fresh session and, if A gets the reply, A resynchronises *)
Definition reaches (mode : hmode) : bool := match mode with HsLostReq => false | _ => true end.
Definition fail_open (mode : hmode) : bool := match mode with HsFailOpen => true | _ => false end.

(* serveStream in terms of the three parts *)
Lemma fq_reconnect_eq mode order s0 :
  fq_reconnect mode order s0 =
  let s := fq_cut s0 in
  match a_peer s with
  | Some p =>
      if reaches mode then
        match server_hello (p_sid p) s with
        | Some (clean, next, s1) =>
            match mode with
            | HsLostResp => s1
            | _ => hello_tail (fail_open mode) next (if clean then resync p order s1 else s1)
            end
        | None => s
        end
      else s
  | None => s
  end.
Proof.
  unfold fq_reconnect. cbv zeta. destruct (a_peer (fq_cut s0)) as [p|]; [|reflexivity].
  destruct mode; try reflexivity; destruct (server_hello (p_sid p) (fq_cut s0)) as [[[clean next] s1]|]; reflexivity.
Qed.

Lemma fq_reconnect_cases mode order s0 :
  let s := fq_cut s0 in let r := fq_reconnect mode order s0 in
  r = s /\ reaches mode && is_some (a_peer s) && fb_peer s = false \/
  exists p, reaches mode = true /\ a_peer s = Some p /\ fb_peer s = true /\
    ((exists se, fb_sess s = Some se /\ (fs_id se =? p_sid p) = true /\
        r = match mode with HsLostResp => s | _ => hello_tail (fail_open mode) (fs_next se) s end) \/
     (matched s = false /\
        r = match mode with
            | HsLostResp => fresh_session (p_sid p) s
            | _ => hello_tail (fail_open mode) 0 (resync p order (fresh_session (p_sid p) s))
            end)).
Proof.
  cbv zeta. rewrite fq_reconnect_eq. cbv zeta. unfold matched, server_hello.
  destruct (a_peer (fq_cut s0)) as [p|]; [|left; split; [reflexivity|now rewrite andb_false_r]].
  destruct (reaches mode); [|now left]. destruct (fb_peer (fq_cut s0)); [|now left].
  right. exists p. repeat (split; [reflexivity|]).
  destruct (fb_sess (fq_cut s0)) as [se|]; [destruct (fs_id se =? p_sid p) eqn:Hid|];
    [left; exists se; now split|right; now split..].
Qed.

Lemma kstep_reconnect k mode : fst (kstep k (QReconnect mode)) =
  if reaches mode && k_apeer k && k_bpeer k then {| k_apeer := true; k_bpeer := true; k_match := true |} else k.
Proof. destruct mode; cbn [kstep reaches andb fst]; try reflexivity; now destruct (k_apeer k && k_bpeer k). Qed.

Lemma kstep_lost_resp s : snd (kstep (kof s) (QReconnect HsLostResp)) = false ->
  is_some (a_peer s) = true -> fb_peer s = true -> matched s = true.
Proof.
  intros Hno Ha Hb. cbn [kstep kof k_apeer k_bpeer k_match] in Hno. rewrite Ha, Hb in Hno. cbn [andb snd] in Hno.
  destruct (matched s); [reflexivity|discriminate].
Qed.

Lemma INV_reconnect mode order s0 :
  INV s0 ->
  (mode = HsLostResp -> is_some (a_peer s0) = true -> fb_peer s0 = true -> matched s0 = true) ->
  INV (fq_reconnect mode order s0) /\ kof (fq_reconnect mode order s0) = fst (kstep (kof s0) (QReconnect mode)).
Proof.
  intros H0 Hno. pose proof (INV_cut _ H0) as H. pose proof (st_up_cut s0) as Hup.
  assert (Hno' : mode = HsLostResp -> k_apeer (kof s0) = true -> k_bpeer (kof s0) = true -> k_match (kof s0) = true) by exact Hno.
  rewrite kstep_reconnect. rewrite <- (kof_aside _ _ (proj1 (cut_frame s0))) in Hno' |- *. cbn [kof k_apeer k_bpeer k_match] in *. clear Hno.
  destruct (fq_reconnect_cases mode order s0) as [[-> Hc]|(p & Hr & Hp & Hbp & [(se & Hse & Hid & ->)|(Hm & ->)])];
    [rewrite Hc; now split|rewrite Hr, Hp, Hbp; cbn [is_some andb]..].
  - (* B holds the session: resume *)
    assert (Hk : kof (fq_cut s0) = {| k_apeer := true; k_bpeer := true; k_match := true |})
      by (rewrite (kof_matched _ p se Hp Hse Hid), Hbp; reflexivity).
    assert (Ht : forall fo, INV (hello_tail fo (fs_next se) (fq_cut s0)) /\
                            kof (hello_tail fo (fs_next se) (fq_cut s0)) = {| k_apeer := true; k_bpeer := true; k_match := true |}).
    { intros fo. split; [now apply INV_hello_tail with (p := p)|]. now rewrite (kof_aside _ _ (proj1 (hello_tail_frame fo _ _))). }
    destruct mode; [apply Ht|discriminate|now split|apply Ht].
  - (* a fresh session: had the reply been lost, B and A would now disagree *)
    pose proof (fun fo => INV_hello_clean fo _ p order H Hup Hp Hbp) as Ht.
    destruct mode; [apply Ht|discriminate| |apply Ht].
    rewrite Hno' in Hm; [discriminate|reflexivity|now rewrite Hp|exact Hbp].
Qed.

(* both loops until idle: what the three steps preserve, draining preserves *)
Section DrainInd.
  Variable P : fstate -> Prop.
  Hypothesis Psend : forall s, P s -> P (fq_send s).
  Hypothesis Pdeliver : forall s, P s -> P (fq_deliver true s).
  Hypothesis Pack : forall s, P s -> P (fq_ack_deliver s).

  Lemma drain_round_ind s : P s -> P (fq_drain_round s).
  Proof.
    assert (Hd : forall n s, P s -> P (fq_deliver_all n s)).
    { induction n as [|n IH]; intros s' H; cbn [fq_deliver_all]; [exact H|]. destruct (_ && _); [apply IH, Pdeliver, H|exact H]. }
    assert (Ha : forall n s, P s -> P (fq_ack_all n s)).
    { induction n as [|n IH]; intros s' H; cbn [fq_ack_all]; [exact H|]. destruct (_ && _); [apply IH, Pack, H|exact H]. }
    intros H. apply Ha, Hd, Psend, H.
  Qed.

  Lemma drain_ind s : P s -> P (fq_drain s).
  Proof.
    unfold fq_drain. destruct (a_peer s) as [p|]; [|trivial]. generalize (length (evq_l (p_q p)) + 2)%nat. intros n. revert s.
    induction n as [|n IH]; intros s H; cbn [fq_drain_loop]; [exact H|].
    destruct (_ || _); [exact H|apply IH, drain_round_ind, H].
  Qed.
End DrainInd.

Lemma deliver_aside b s : aside s (fq_deliver b s).
Proof.
  destruct (fq_deliver_cases b s) as [->|(ep & id & e & rest & se & Hup & Hcs & Hse)]; [now split|].
  rewrite (fq_deliver_eq b s ep id e rest se Hup Hcs Hse). unfold aside, aframe. sfields. rewrite Hse. cbn [option_map fs_id].
  split; [|reflexivity]. now destruct (a_peer s), b.
Qed.

Lemma drain_round_aside s : aside s (fq_drain_round s).
Proof.
  apply (drain_round_ind (aside s)); [| | |now split]; intros s' H; apply (aside_trans _ _ _ H);
    [apply send_frame|apply deliver_aside|apply ack_deliver_frame].
Qed.

Lemma drain_aside s : aside s (fq_drain s).
Proof.
  apply (drain_ind (aside s)); [| | |now split]; intros s' H; apply (aside_trans _ _ _ H);
    [apply send_frame|apply deliver_aside|apply ack_deliver_frame].
Qed.

Lemma INV_drain s : INV s -> INV (fq_drain s).
Proof. apply drain_ind; [exact INV_send|exact (INV_deliver true)|exact INV_ack_deliver]. Qed.

Lemma INV_forget s bp fed ret ops :
  INV s -> st_up s = false -> INV (set_server bp None fed ret ops (applied s) (published s) s).
Proof.
  intros (Hpre & Hem & Hap & Hc & Hdown & Hsess & Hq) Hup. unfold INV, Eof, Aof. sfields.
  conjs; trivial; [intros se Hs; discriminate|].
  destruct (a_peer s) as [p|]; [|exact Hq]. destruct Hq as [Hsid (pre & HEq & Hcons & Hnext & Hbad & Hread & Hm)].
  split; [exact Hsid|]. exists pre. conjs; trivial.
Qed.

Lemma INV_peer_lost s : INV s ->
  let s1 := fed_op s (OUnsubAll NODE_A) in
  INV (fq_cut (set_server false None (fb_fed s1) (fb_ret s1) (fb_ops s1) (applied s1) (published s1) s1)).
Proof.
  intros H. cbv zeta.
  apply INV_core with (s := set_server false None (db_step (fb_fed s) (OUnsubAll NODE_A)) (fb_ret s) (fb_ops s ++ [OUnsubAll NODE_A])
                                        (applied (fq_cut s)) (published (fq_cut s)) (fq_cut s)).
  - unfold fq_cut, fed_op, set_queue, core. sfields. destruct (st_up s); [|reflexivity]. sfields.
    destruct (a_peer s); reflexivity.
  - apply INV_forget; [now apply INV_cut|apply st_up_cut].
Qed.

Lemma INV_peer_join s : INV s -> INV (set_server true (fb_sess s) (fb_fed s) (fb_ret s) (fb_ops s) (applied s) (published s) s).
Proof.
  intros (Hpre & Hem & Hap & Hc & Hdown & Hsess & Hq). unfold INV, Eof, Aof. sfields. conjs; trivial.
  intros se Hs. split; [now apply Hsess|reflexivity].
Qed.

Lemma INV_drop_peer s : INV s -> INV (set_peer None (a_sidctr (fq_cut s)) (a_epoch (fq_cut s)) (emitted (fq_cut s)) (fq_cut s)).
Proof.
  intros H. pose proof (INV_cut s H) as (Hpre & Hem & Hap & Hc & Hdown & Hsess & Hq).
  unfold INV, Eof, Aof. sfields. conjs; trivial. apply st_up_cut.
Qed.

Lemma INV_join_peer s : INV s -> a_peer s = None ->
  INV (set_peer (Some {| p_sid := a_sidctr s; p_q := eq_new |}) (a_sidctr s + 1) (a_epoch s + 1) (emitted s) s).
Proof.
  intros (Hpre & Hem & Hap & Hc & Hdown & Hsess & Hq) Hp. rewrite Hp in Hq. destruct (Hdown Hq) as [Hc0 Hs0].
  unfold INV, Eof, Aof. sfields. rewrite (proj_above _ _ Hem), (proj_above _ _ Hap).
  conjs; trivial; [intros t Ht; apply Hem in Ht; lia|intros t Ht; apply Hap in Ht; lia|rewrite Hc0; intros t []|
                   intros se Hs; destruct (Hsess se Hs); split; [lia|assumption]|lia|].
  exists []. unfold eq_new. sfields. conjs; trivial; [exact I|now left|].
  destruct (fb_sess s) as [se|] eqn:Hse; [|exact Hq].
  destruct (Hsess se eq_refl) as [Hlt _]. destruct (N.eqb_spec (fs_id se) (a_sidctr s)) as [E|_]; [lia|exact Hq].
Qed.

Lemma step_inv s ev order : INV s -> snd (kstep (kof s) ev) = false ->
  INV (fq_step s ev order) /\ kof (fq_step s ev order) = fst (kstep (kof s) ev).
Proof.
  intros H Hno. destruct ev; cbn [fq_step kstep fst snd] in *.
  - (* QSub *)
    destruct (ls_subscribe c (fed_full_topic share filter) (a_index s) (a_topics s)) as [[ix tp] fresh].
    destruct fresh; [|now split].
    split; [apply INV_emit1; exact H|exact (kof_aframe _ _ (proj1 (emit1_frame _ (set_local ix tp s))))].
  - (* QUnsub *)
    destruct (ls_unsubscribe c topic (a_index s) (a_topics s)) as [[ix tp] gone].
    destruct gone; [|now split].
    split; [apply INV_emit1; exact H|exact (kof_aframe _ _ (proj1 (emit1_frame _ (set_local ix tp s))))].
  - (* QTerm *)
    destruct (ls_unsubscribe_all c (a_index s) (a_topics s)) as [[ix tp] rm].
    split; [apply INV_emit_list; exact H|exact (kof_aframe _ _ (proj1 (emit_list_frame _ (set_local ix tp s))))].
  - (* QMsg *)
    split; [now apply INV_emit1|apply kof_aframe, emit1_frame].
  - split; [now apply INV_send|apply kof_aside, send_frame].
  - split; [now apply INV_deliver|apply kof_aside, deliver_aside].
  - split; [now apply INV_ack_deliver|apply kof_aside, ack_deliver_frame].
  - split; [now apply INV_cut|apply kof_aside, cut_frame].
  - (* QReconnect *)
    apply INV_reconnect; [exact H|]. intros ->. now apply kstep_lost_resp.
  - (* QDrain *)
    split; [now apply INV_drain|apply kof_aside, drain_aside].
  - (* QPeerLost *)
    cbn [kof k_bpeer]. destruct (fb_peer s) eqn:Hb; cbn [fst]; [|split; [exact H|unfold kof; now rewrite Hb]].
    split; [exact (INV_peer_lost s H)|]. rewrite (kof_aside _ _ (proj1 (cut_frame _))).
    unfold kof, matched, fed_op. sfields. now destruct (a_peer s).
  - (* QPeerJoin *)
    split; [now apply INV_peer_join|]. unfold kof, matched. sfields. reflexivity.
  - (* QDropPeer *)
    destruct (a_peer s) as [p|] eqn:Hp.
    + split; [exact (INV_drop_peer s H)|]. unfold kof, matched. sfields. cbn [is_some].
      destruct (cut_frame s) as ((Ha & _) & _). unfold aframe in Ha. now injection Ha as _ _ _ _ _ _ -> _.
    + split; [exact H|]. unfold kof, matched. rewrite Hp. reflexivity.
  - (* QJoinPeer *)
    destruct (a_peer s) as [p|] eqn:Hp.
    + split; [exact H|]. unfold kof. rewrite Hp. reflexivity.
    + split; [now apply INV_join_peer|]. unfold kof, matched. sfields. rewrite Hp. cbn [is_some].
      destruct (fb_sess s) as [se|] eqn:Hse; [|reflexivity].
      destruct H as (_ & _ & _ & _ & _ & Hsess & _). destruct (Hsess se Hse) as [Hlt _].
      destruct (N.eqb_spec (fs_id se) (a_sidctr s)); [lia|reflexivity].
Qed.

Lemma run_inv evs : forall s orders, INV s -> kscan (kof s) evs = false -> INV (fq_run s evs orders).
Proof.
  induction evs as [|ev r IH]; intros s orders H Hk; cbn [fq_run]; [exact H|].
  cbn [kscan] in Hk. destruct (kstep (kof s) ev) as [k' hit] eqn:Hst. apply orb_false_iff in Hk as [Hhit Hk].
  destruct (step_inv s ev (hd [] orders) H) as [HI HK]; [rewrite Hst; exact Hhit|].
  apply IH; [exact HI|]. rewrite HK, Hst. exact Hk.
Qed.

(* what B applied is, epoch by epoch, a prefix of what A emitted: in emission order,
   without gaps and without duplicates *)
Definition prefix_ok (s : fstate) : Prop :=
  forall ep, exists rest, proj ep (emitted s) = proj ep (applied s) ++ rest.

Definition no_dangling (s : fstate) : Prop :=
  match a_peer s with Some p => evq_bad (p_q p) = false | None => True end.

Lemma INV_prefix_ok s : INV s -> prefix_ok s /\ no_dangling s.
Proof.
  intros (Hpre & _ & _ & _ & _ & _ & Hq). split; [exact Hpre|].
  unfold no_dangling. destruct (a_peer s) as [p|]; [|exact I].
  destruct Hq as [_ (pre & _ & _ & _ & Hbad & _)]. exact Hbad.
Qed.

Lemma fq_prefix_partial ret evs orders :
  kf_hello_reply_lost evs = false ->
  prefix_ok (fq_run (fq_init ret) evs orders) /\ no_dangling (fq_run (fq_init ret) evs orders).
Proof. intros Hk. apply INV_prefix_ok, run_inv; [apply INV_init|exact Hk]. Qed.

(* the full statement is false of the code: a Hello reply lost while B starts a fresh
   session makes A resume with its old queue - event 0 is applied twice *)
Definition ex_msg : msg :=
  {| m_dup := false; m_qos := 1; m_retained := false; m_topic := [97]; m_payload := [49]; m_pid := 0;
     m_ctype := []; m_corr := []; m_expiry := 0; m_pfmt := 0; m_resp := []; m_subids := []; m_uprops := [] |}.

Definition ex_lost_hello : list fqev :=
  [QPeerJoin; QJoinPeer; QReconnect HsOk; QMsg ex_msg; QSend; QDeliver true; QCut;
   QPeerLost; QPeerJoin; QReconnect HsLostResp; QReconnect HsOk; QSend; QDeliver true].

Lemma fq_prefix_refuted : exists ret evs orders, ~ prefix_ok (fq_run (fq_init ret) evs orders).
Proof.
  exists [], ex_lost_hello, []. intros H. destruct (H 2) as [rest Hr]. vm_compute in Hr. discriminate.
Qed.

Lemma ex_lost_hello_kf : kf_hello_reply_lost ex_lost_hello = true.
Proof. vm_compute. reflexivity. Qed.

(* the stream while the loops run without a fault *)
Lemma deliver_all_shape : forall cs s se,
  st_up s = true -> c2s s = cs -> fb_sess s = Some se ->
  let s' := fq_deliver_all (length cs) s in st_up s' = true /\ c2s s' = [] /\ a_peer s' = a_peer s.
Proof.
  induction cs as [|[[ep id] e] rest IH]; intros s se Hup Hc Hse; cbv zeta; cbn [length fq_deliver_all]; [auto|].
  rewrite Hup, Hc. cbn [is_nil negb andb].
  pose proof (fq_deliver_eq true s ep id e rest se Hup Hc Hse) as E. cbv zeta in E.
  edestruct (IH (fq_deliver true s)) as (G1 & G2 & G3); [now rewrite E..|].
  split; [exact G1|]. split; [exact G2|]. rewrite G3, E. cbn [a_peer]. now destruct (a_peer s).
Qed.

Lemma ack_all_shape : forall sc s p,
  st_up s = true -> s2c s = sc -> a_peer s = Some p ->
  let s' := fq_ack_all (length sc) s in
  st_up s' = true /\ c2s s' = c2s s /\ s2c s' = [] /\
  exists p', a_peer s' = Some p' /\ evq_read (p_q p') = evq_read (p_q p) /\ evq_closed (p_q p') = evq_closed (p_q p).
Proof.
  induction sc as [|id rest IH]; intros s p Hup Hs Hp; cbv zeta; cbn [length fq_ack_all].
  - repeat split; try assumption. now exists p.
  - rewrite Hup, Hs. cbn [is_nil negb andb].
    assert (E : fq_ack_deliver s = set_peer (Some {| p_sid := p_sid p; p_q := eq_ack id (p_q p) |}) (a_sidctr s) (a_epoch s) (emitted s)
                                            (set_stream true (c2s s) rest s)).
    { unfold fq_ack_deliver. rewrite Hup, Hs, Hp. now rewrite (set_queue_some _ _ p) by exact Hp. }
    destruct (IH (fq_ack_deliver s) {| p_sid := p_sid p; p_q := eq_ack id (p_q p) |}) as (G1 & G2 & G3 & G4); [now rewrite E..|].
    split; [exact G1|]. split; [now rewrite G2, E|]. split; [exact G3|exact G4].
Qed.

(* a round that starts with nothing in flight and a batch that can be marshalled ends with
   nothing in flight; the queue is where the fetch left it *)
Lemma drain_round_shape s p se batch q' :
  st_up s = true -> c2s s = [] -> s2c s = [] -> a_peer s = Some p -> fb_sess s = Some se ->
  eq_fetch (p_q p) = (FEvents batch, q') -> forallb (fun ie : ievent => marshal_ok (snd ie)) batch = true ->
  let s' := fq_drain_round s in
  st_up s' = true /\ c2s s' = [] /\ s2c s' = [] /\
  exists p', a_peer s' = Some p' /\ evq_read (p_q p') = evq_read q' /\ evq_closed (p_q p') = evq_closed q'.
Proof.
  intros Hup Hc Hs Hp Hse Hf Hbm. cbv zeta. unfold fq_drain_round.
  assert (Hs1 : fq_send s = set_stream true (map (fun ie : ievent => (a_epoch s, fst ie, snd ie)) batch) []
                              (set_peer (Some {| p_sid := p_sid p; p_q := q' |}) (a_sidctr s) (a_epoch s) (emitted s) s)).
  { unfold fq_send. rewrite Hup, Hp, Hf, Hbm, (set_queue_some _ _ p Hp). sfields. now rewrite Hc, Hs. }
  set (s1 := fq_send s) in *.
  destruct (deliver_all_shape (c2s s1) s1 se) as (G1 & G2 & G4); [now rewrite Hs1..|].
  set (s2 := fq_deliver_all (length (c2s s1)) s1) in *.
  destruct (ack_all_shape (s2c s2) s2 {| p_sid := p_sid p; p_q := q' |} G1 eq_refl) as (K1 & K2 & K3 & K4); [now rewrite G4, Hs1|].
  rewrite K2. auto.
Qed.

(* position of the next event to read *)
Definition rpos (s : fstate) : N :=
  match a_peer s with
  | Some p => match evq_read (p_q p) with Some r => r | None => nlen (Eof s) end
  | None => 0
  end.
Definition unread (s : fstate) : N := nlen (Eof s) - rpos s.

(* the stream is up, nothing is in flight, the queue is open, every emitted event can be marshalled *)
Definition DS (s : fstate) : Prop :=
  INV s /\ st_up s = true /\ c2s s = [] /\ s2c s = [] /\
  (exists p, a_peer s = Some p /\ evq_closed (p_q p) = false) /\
  (forall t, In t (emitted s) -> marshal_ok (snd t) = true).

Lemma DS_round s : DS s -> fq_idle s = false ->
  DS (fq_drain_round s) /\ unread (fq_drain_round s) < unread s.
Proof.
  intros (HI & Hup & Hc & Hs & (p & Hp & Hopen) & Hmok) Hidle.
  pose proof HI as (_ & _ & _ & _ & _ & _ & Hq). rewrite Hp in Hq. destruct Hq as [_ (pre & HEq & Hcons & _ & _ & _ & Hm)].
  destruct (fb_sess s) as [se|] eqn:Hse; [|congruence]. destruct (fs_id se =? p_sid p); [|congruence].
  rewrite Hup, Hc in Hm. destruct Hm as (D & C & U & HD & _ & Hpd & Hc2 & HupU & _).
  destruct C; [|discriminate]. cbn [app] in HD.
  (* not idle: there is something to read *)
  unfold fq_idle in Hidle. rewrite Hup, Hc, Hs, Hp in Hidle. cbn [is_nil andb] in Hidle.
  destruct (evq_read (p_q p)) as [r|] eqn:Hr; [|discriminate].
  pose proof (HupU eq_refl) as HrU. destruct U as [|[r' e0] U1]; [discriminate|]. injection HrU as <-.
  (* the send step fetches the unsent part, all of which can be marshalled *)
  assert (Hdrop : drop_until r (evq_l (p_q p)) = (r, e0) :: U1).
  { apply (drop_until_read pre _ D); [rewrite <- HEq; exact Hcons|rewrite <- HEq; exact HD|exact Hpd]. }
  assert (Hfetch := eq_fetch_open (p_q p) r Hopen Hr). rewrite Hdrop in Hfetch.
  destruct (drain_round_shape s p se _ _ Hup Hc Hs Hp Hse (Hfetch ltac:(intros E; now rewrite E in Hdrop)))
    as (K1 & K2 & K3 & p3 & Hp3 & Hr3 & Hc3).
  { apply forallb_forall. intros x Hx. apply In_firstn in Hx.
    assert (HxE : In x (Eof s)) by (rewrite HD; apply in_or_app; now right).
    apply In_proj in HxE as (t & Ht & <-). now apply Hmok. }
  destruct (drain_round_aside s) as [Ha K6]. assert (K5 : a_epoch (fq_drain_round s) = a_epoch s) by (unfold aframe in Ha; congruence).
  cbv zeta in *. cbn [evq_read evq_closed] in Hr3, Hc3. split.
  - split; [now apply drain_round_ind; [exact INV_send|exact (INV_deliver true)|exact INV_ack_deliver|]|]. split; [exact K1|]. split; [exact K2|]. split; [exact K3|].
    split; [exists p3; split; [exact Hp3|congruence]|]. now rewrite K6.
  - unfold unread, rpos, Eof. rewrite K5, K6, Hp3, Hr3, Hp, Hr. fold (Eof s).
    rewrite HD in Hcons. pose proof (consec_head _ _ _ _ _ Hcons) as HrD. apply consec_app in Hcons as [_ HcU].
    rewrite HD, nlen_app, nlen_cons.
    assert (Hk : 0 < N.of_nat FETCH_MAX) by reflexivity. revert Hk. generalize FETCH_MAX. intros k Hk.
    destruct (head_id (skipn k ((r, e0) :: U1))) as [r2|] eqn:Hh; [|clear - HrD; lia].
    apply (consec_skipn_head _ _ _ _ HcU) in Hh. clear - HrD Hh Hk. lia.
Qed.

Lemma DS_loop : forall n s, DS s -> unread s < N.of_nat n ->
  DS (fq_drain_loop n s) /\ fq_idle (fq_drain_loop n s) = true.
Proof.
  induction n as [|n IH]; intros s Hds Hlt; [lia|]. cbn [fq_drain_loop].
  pose proof Hds as (_ & Hup & _). rewrite Hup. cbn [negb orb].
  destruct (fq_idle s) eqn:Hidle; [now split|].
  destruct (DS_round s Hds Hidle) as [Hds' Hlt']. apply IH; [exact Hds'|lia].
Qed.

Lemma DS_unread_bound s p : DS s -> a_peer s = Some p -> unread s <= nlen (evq_l (p_q p)).
Proof.
  intros (HI & _) Hp. destruct HI as (_ & _ & _ & _ & _ & _ & Hq). rewrite Hp in Hq.
  destruct Hq as [_ (pre & HEq & _ & _ & _ & Hread & _)].
  unfold unread, rpos. rewrite Hp. assert (nlen (Eof s) = nlen pre + nlen (evq_l (p_q p))) by (rewrite HEq at 1; apply nlen_app).
  destruct Hread as [->|(r & -> & H1 & H2)]; lia.
Qed.

Lemma DS_drain s : DS s -> DS (fq_drain s) /\ fq_idle (fq_drain s) = true.
Proof.
  intros Hds. pose proof Hds as (_ & _ & _ & _ & (p & Hp & _) & _). unfold fq_drain. rewrite Hp.
  apply DS_loop; [exact Hds|]. pose proof (DS_unread_bound s p Hds Hp). unfold nlen in *. lia.
Qed.

(* idle: everything emitted in the current epoch has been applied *)
Lemma DS_idle_complete s : DS s -> fq_idle s = true -> Aof s = Eof s.
Proof.
  intros (HI & Hup & Hc & Hs & (p & Hp & _) & _) Hidle.
  destruct HI as (_ & _ & _ & _ & _ & _ & Hq). rewrite Hp in Hq. destruct Hq as [_ (pre & _ & _ & _ & _ & _ & Hm)].
  destruct (fb_sess s) as [se|]; [|congruence]. destruct (fs_id se =? p_sid p); [|congruence].
  rewrite Hup, Hc in Hm. destruct Hm as (D & C & U & HD & _ & _ & Hc2 & HupU & _ & HA & _).
  destruct C; [|discriminate]. unfold fq_idle in Hidle. rewrite Hup, Hc, Hs, Hp in Hidle. cbn [is_nil andb] in Hidle.
  destruct (evq_read (p_q p)) eqn:Hr; [discriminate|]. pose proof (HupU eq_refl) as HU.
  destruct U as [|[? ?] ?]; [|discriminate]. cbn [app] in HD, HA. rewrite app_nil_r in HD.
  destruct HA as [HA|(x & e & rest & Habs & _)]; [congruence|discriminate].
Qed.

(* the local reference-counted store: what holds of every entry keeps holding under subscribe / unsubscribe *)

Definition index_all (P : str -> Prop) (ix : lindex) : Prop :=
  forall c ks, In (c, ks) ix -> forall t, In t ks -> P t.

Lemma keys_of_client_all P c ix : index_all P ix -> forall t, In t (keys_of_client c ix) -> P t.
Proof.
  intros H t Ht. unfold keys_of_client in Ht. destruct (aget c ix) as [k|] eqn:Hg; [|destruct Ht].
  apply aget_In in Hg. now apply (H c k).
Qed.

Lemma index_all_subscribe P c t ix : index_all P ix -> P t -> index_all P (aset c (keys_of_client c ix ++ [t]) ix).
Proof.
  intros H Ht c' ks Hin t' Ht'. apply in_aset in Hin as [E|Hin]; [|now apply (H c' ks)].
  injection E as _ ->. apply in_app_or in Ht' as [Ht'|[<-|[]]]; [now apply (keys_of_client_all P c ix)|exact Ht].
Qed.

Lemma index_all_adel P c ix : index_all P ix -> index_all P (adel c ix).
Proof. intros H c' ks Hin. apply in_adel in Hin. now apply (H c' ks). Qed.

Lemma index_all_unsubscribe P c t keys ix : index_all P ix -> aget c ix = Some keys ->
  index_all P (match del_str t keys with [] => adel c ix | _ => aset c (del_str t keys) ix end).
Proof.
  intros H Hk. destruct (del_str t keys) as [|x r] eqn:Hd; [now apply index_all_adel|].
  intros c' ks Hin t' Ht'. apply in_aset in Hin as [E|Hin]; [|now apply (H c' ks)].
  injection E as _ ->. rewrite <- Hd in Ht'. apply in_del_str in Ht'. apply aget_In in Hk. now apply (H c keys).
Qed.

(* a counter that is decremented was above 1 *)
Lemma ls_dec_keeps (P : str -> N -> Prop) t tp : (forall c, 1 < c -> P t c -> P t (c - 1)) ->
  (forall k n, In (k, n) tp -> P k n) -> forall k n, In (k, n) (ls_dec t tp) -> P k n.
Proof.
  intros Hdec H k n Hin. unfold ls_dec in Hin. destruct (aget t tp) as [c|] eqn:Hg; [|now apply H].
  destruct (N.leb_spec c 1).
  - apply in_adel in Hin. now apply H.
  - apply in_aset in Hin as [E|Hin]; [|now apply H]. injection E as -> ->. apply aget_In in Hg. now apply Hdec, H.
Qed.

Lemma ls_dec_all_keeps (P : str -> N -> Prop) : (forall t c, 1 < c -> P t c -> P t (c - 1)) ->
  forall ks tp, (forall k n, In (k, n) tp -> P k n) -> forall k n, In (k, n) (fst (ls_dec_all ks tp)) -> P k n.
Proof.
  intros Hdec. induction ks as [|t r IH]; intros tp H k n Hin; cbn [ls_dec_all] in Hin; [now apply H|].
  destruct (ls_dec_all r (ls_dec t tp)) as [tp'' rm] eqn:Hd. cbn [fst] in Hin.
  apply (IH (ls_dec t tp) (ls_dec_keeps P t tp (Hdec t) H) k n). now rewrite Hd.
Qed.

Lemma ls_dec_all_rm keys : forall tp x, In x (snd (ls_dec_all keys tp)) -> In x keys.
Proof.
  induction keys as [|t r IH]; intros tp x Hin; cbn [ls_dec_all] in Hin; [destruct Hin|].
  destruct (ls_dec_all r (ls_dec t tp)) as [tp'' rm] eqn:Hd. cbn [snd] in Hin.
  destruct (ahas t (ls_dec t tp)).
  - right. apply (IH (ls_dec t tp)). now rewrite Hd.
  - destruct Hin as [<-|Hin]; [now left|right]. apply (IH (ls_dec t tp)). now rewrite Hd.
Qed.

(* every emitted event can be marshalled (when the schedule carries no string that is not UTF-8) *)

Definition goodt (t : str) : Prop :=
  utf8_valid t = true /\ marshal_ok (ESub (fst (split_topic t)) (snd (split_topic t))) = true.

Definition LT (s : fstate) : Prop :=
  (forall c keys, In (c, keys) (a_index s) -> forall t, In t keys -> goodt t) /\
  (forall t n, In (t, n) (a_topics s) -> goodt t) /\
  (forall m, In m (a_ret s) -> marshal_ok (EMsg m) = true) /\
  (forall t, In t (emitted s) -> marshal_ok (snd t) = true).

Lemma LT_aside s s' : aside s s' -> LT s -> LT s'.
Proof. unfold aside, aframe, LT. intros [H H4]. injection H as H1 H2 H3 _ _ _ _ _. now rewrite H1, H2, H3, H4. Qed.

Lemma LT_emit1 e s : LT s -> marshal_ok e = true -> LT (emit1 e s).
Proof.
  intros (H1 & H2 & H3 & H4) He. unfold emit1. destruct (a_peer s) as [p|]; [|exact (conj H1 (conj H2 (conj H3 H4)))].
  unfold LT. sfields. conjs; trivial.
  intros t Ht. apply in_app_or in Ht as [Ht|[<-|[]]]; [now apply H4|exact He].
Qed.

Lemma LT_emit_list es s : LT s -> (forall e, In e es -> marshal_ok e = true) -> LT (emit_list es s).
Proof.
  unfold emit_list. revert s. induction es as [|e r IH]; intros s H He; cbn [fold_left]; [exact H|].
  apply IH; [apply LT_emit1; [exact H|apply He; now left]|intros e' He'; apply He; now right].
Qed.

(* boolean equality of events is equality as far as marshalling goes *)
Lemma fevent_eqb_marshal a b : fevent_eqb a b = true -> marshal_ok b = marshal_ok a.
Proof.
  destruct a as [g f|t|m], b as [g' f'|t'|m']; cbn [fevent_eqb]; try discriminate.
  - intros H. apply andb_true_iff in H as [H1 H2].
    destruct (str_eqb_spec g g'), (str_eqb_spec f f'); try discriminate. now subst.
  - intros H. destruct (str_eqb_spec t t'); [now subst|discriminate].
  - unfold msg_eqb. intros H. repeat (apply andb_true_iff in H as [H ?]).
    cbn [marshal_ok].
    repeat match goal with Hx : str_eqb ?a ?b = true |- _ => destruct (str_eqb_spec a b); [|discriminate]; clear Hx end.
    congruence.
Qed.

Lemma ev_remove1_split x l l' : ev_remove1 x l = Some l' ->
  exists y l1 l2, l = l1 ++ y :: l2 /\ l' = l1 ++ l2 /\ fevent_eqb x y = true.
Proof.
  revert l'. induction l as [|y r IH]; intros l' H; cbn [ev_remove1] in H; [discriminate|].
  destruct (fevent_eqb x y) eqn:E; [injection H as <-; now exists y, [], r|].
  destruct (ev_remove1 x r) as [r'|]; [|discriminate]. injection H as <-.
  destruct (IH r' eq_refl) as (y0 & l1 & l2 & -> & -> & Hy0). now exists y0, (y :: l1), l2.
Qed.

(* ev_perm a b: b is a permutation of a up to fevent_eqb *)
Lemma ev_perm_spec a : forall b, ev_perm a b = true ->
  exists b', Permutation b b' /\ Forall2 (fun x y => fevent_eqb x y = true) a b'.
Proof.
  induction a as [|x a' IH]; intros b H; cbn [ev_perm] in H.
  - destruct b; [now exists []|discriminate].
  - destruct (ev_remove1 x b) as [b0|] eqn:Hr; [|discriminate].
    destruct (ev_remove1_split _ _ _ Hr) as (y & l1 & l2 & -> & -> & Hy). destruct (IH _ H) as (b' & Hp & Hf).
    exists (y :: b'). split; [rewrite <- Hp; symmetry; apply Permutation_middle|now constructor].
Qed.

Lemma ev_perm_in a : forall b, ev_perm a b = true -> forall z, In z b -> exists y, In y a /\ fevent_eqb y z = true.
Proof.
  intros b H z Hz. destruct (ev_perm_spec a b H) as (b' & Hp & Hf). apply (Permutation_in _ Hp) in Hz. revert z Hz.
  apply Forall_forall, (Forall2_right _ _ _ _ Hf). intros x y Hx E. now exists x.
Qed.

Lemma ev_perm_in_rev a : forall b, ev_perm a b = true -> forall y, In y a -> exists z, In z b /\ fevent_eqb y z = true.
Proof.
  intros b H y Hy. destruct (ev_perm_spec a b H) as (b' & Hp & Hf).
  destruct (Forall2_in_split _ _ _ _ Hf Hy) as (m1 & z & m2 & _ & -> & E & _).
  exists z. split; [apply (Permutation_in _ (Permutation_sym Hp)), in_elt|exact E].
Qed.

(* the oracle-resolved order introduces no event of another kind *)
Lemma resolve_kind expected given (P : fevent -> Prop) :
  (forall a b, fevent_eqb a b = true -> P a -> P b) ->
  (forall e, In e expected -> P e) -> forall e, In e (fq_resolve expected given) -> P e.
Proof.
  intros Hresp H e He. unfold fq_resolve in He. destruct (ev_perm expected given) eqn:Hp; [|now apply H].
  destruct (ev_perm_in _ _ Hp e He) as (y & Hy & E). exact (Hresp y e E (H y Hy)).
Qed.

Lemma resolve_marshal expected given :
  (forall e, In e expected -> marshal_ok e = true) -> forall e, In e (fq_resolve expected given) -> marshal_ok e = true.
Proof. apply resolve_kind. intros a b E Ha. now rewrite (fevent_eqb_marshal a b E). Qed.

Lemma goodt_unsub t : goodt t -> marshal_ok (EUnsub t) = true.
Proof. now intros [H _]. Qed.

(* what holds of the expected events of a resynchronisation holds of the resolved ones *)
Lemma resync_events_kind (P : fevent -> Prop) s order :
  (forall a b, fevent_eqb a b = true -> P a -> P b) ->
  (forall t n, In (t, n) (a_topics s) -> P (let '(g, f) := split_topic t in ESub g f)) ->
  (forall m, In m (a_ret s) -> P (EMsg (msg_event_form m))) ->
  forall e, In e (resync_events s order) -> P e.
Proof.
  intros Hresp Hs Hm e He. unfold resync_events in He.
  apply in_app_or in He as [He|He]; revert e He; apply (resolve_kind _ _ P Hresp); intros e He; apply in_map_iff in He.
  - destruct He as ([t n] & <- & Hin). exact (Hs t n Hin).
  - destruct He as (m & <- & Hin). exact (Hm m Hin).
Qed.

Lemma LT_resync p order s : LT s -> LT (resync p order s).
Proof.
  intros H. apply LT_emit_list; [exact H|]. destruct H as (_ & G2 & G3 & _).
  apply (resync_events_kind (fun e => marshal_ok e = true)).
  - intros a b E Ha. now rewrite (fevent_eqb_marshal a b E).
  - intros t n Hin. destruct (G2 t n Hin) as [_ Hg]. now destruct (split_topic t).
  - exact G3.
Qed.

Lemma LT_reconnect mode order s : LT s -> LT (fq_reconnect mode order s).
Proof.
  intros H. apply (LT_aside _ _ (proj1 (cut_frame s))) in H.
  destruct (fq_reconnect_cases mode order s) as [[-> _]|(p & _ & _ & _ & [(se & _ & _ & ->)|(_ & ->)])]; [exact H|..].
  - destruct mode; try exact H; now apply (LT_aside _ _ (proj1 (hello_tail_frame _ _ _))).
  - destruct mode; try exact H; apply (LT_aside _ _ (proj1 (hello_tail_frame _ _ _))); now apply LT_resync.
Qed.

Lemma LT_step s ev order : LT s -> fqev_unmarshallable ev = false -> LT (fq_step s ev order).
Proof.
  intros H Hok. destruct ev; cbn [fq_step fqev_unmarshallable] in *.
  - (* QSub *)
    apply orb_false_iff in Hok as [Hok Hok3]. apply orb_false_iff in Hok as [Hok1 Hok2].
    apply negb_false_iff in Hok1, Hok2, Hok3.
    assert (Hgood : goodt (fed_full_topic share filter)) by (split; assumption).
    unfold ls_subscribe. destruct (mem_str (fed_full_topic share filter) (keys_of_client c (a_index s))); [exact H|].
    match goal with |- LT (if _ then emit1 _ ?X else _) => assert (HL : LT X) end.
    { destruct H as (H1 & H2 & H3 & H4). unfold LT. sfields. conjs; trivial; [now apply index_all_subscribe|].
      intros t n Hin. apply in_aset in Hin as [E|Hin]; [injection E as -> _; exact Hgood|now apply (H2 t n)]. }
    destruct (_ =? 1); [now apply LT_emit1|exact HL].
  - (* QUnsub *)
    apply negb_false_iff in Hok. unfold ls_unsubscribe.
    destruct (aget c (a_index s)) as [keys|] eqn:Hk; [|exact H]. destruct (mem_str topic keys); [|exact H].
    match goal with |- LT (if _ then emit1 _ ?X else _) => assert (HL : LT X) end.
    { destruct H as (H1 & H2 & H3 & H4). unfold LT. sfields. conjs; trivial; [now apply index_all_unsubscribe|].
      now apply (ls_dec_keeps (fun t _ => goodt t)). }
    destruct (negb _); [now apply LT_emit1|exact HL].
  - (* QTerm *)
    destruct H as (H1 & H2 & H3 & H4). unfold ls_unsubscribe_all.
    destruct (ls_dec_all (keys_of_client c (a_index s)) (a_topics s)) as [tp' rm] eqn:Hd.
    apply LT_emit_list.
    + unfold LT. sfields. conjs; trivial; [now apply index_all_adel|].
      intros t n Hin. refine (ls_dec_all_keeps (fun t _ => goodt t) _ (keys_of_client c (a_index s)) _ H2 t n _); [trivial|now rewrite Hd].
    + apply resolve_marshal. intros e He. apply in_map_iff in He as (t & <- & Ht). apply goodt_unsub.
      apply (keys_of_client_all goodt c (a_index s) H1). apply (ls_dec_all_rm _ (a_topics s)). now rewrite Hd.
  - (* QMsg *)
    apply LT_emit1; [exact H|]. apply negb_false_iff in Hok. exact Hok.
  - now apply (LT_aside _ _ (proj1 (send_frame s))).
  - now apply (LT_aside _ _ (deliver_aside _ s)).
  - now apply (LT_aside _ _ (proj1 (ack_deliver_frame s))).
  - now apply (LT_aside _ _ (proj1 (cut_frame s))).
  - now apply LT_reconnect.
  - now apply (LT_aside _ _ (drain_aside s)).
  - destruct (fb_peer s); [|exact H]. refine (LT_aside _ _ (proj1 (cut_frame _)) _). exact H.
  - exact H.
  - destruct (a_peer s); [|exact H]. exact (LT_aside _ _ (proj1 (cut_frame s)) H).
  - destruct (a_peer s); exact H.
Qed.

Lemma LT_init ret : (forall m, In m ret -> marshal_ok (EMsg m) = true) -> LT (fq_init ret).
Proof. intros H. unfold LT, fq_init. sfields. conjs; trivial; [intros c k []|intros t n []|intros t []]. Qed.

Lemma LT_run evs : forall s orders, LT s -> existsb fqev_unmarshallable evs = false -> LT (fq_run s evs orders).
Proof.
  induction evs as [|ev r IH]; intros s orders H Hk; cbn [fq_run]; [exact H|].
  cbn [existsb] in Hk. apply orb_false_iff in Hk as [Hk1 Hk2]. apply IH; [now apply LT_step|exact Hk2].
Qed.

Lemma hello_tail_shape next s p :
  a_peer s = Some p ->
  let s' := hello_tail false next s in
  st_up s' = true /\ c2s s' = [] /\ s2c s' = [] /\ exists p', a_peer s' = Some p' /\ evq_closed (p_q p') = false.
Proof.
  intros Hp. cbv zeta. unfold hello_tail. rewrite Hp, (set_queue_some _ _ p Hp). sfields. unfold set_queue. sfields.
  repeat split. eexists. split; reflexivity.
Qed.

Lemma reconnect_ok_shape order s p :
  a_peer s = Some p -> fb_peer s = true ->
  let s' := fq_reconnect HsOk order s in
  st_up s' = true /\ c2s s' = [] /\ s2c s' = [] /\ exists p', a_peer s' = Some p' /\ evq_closed (p_q p') = false.
Proof.
  intros Hp Hbp. cbv zeta. destruct (cut_frame s) as ((Ha & _) & _).
  destruct (aframe_peer _ _ p Ha Hp) as (p0 & Hp0 & _). unfold aframe in Ha. injection Ha as _ _ _ _ _ _ Hb _.
  destruct (fq_reconnect_cases HsOk order s) as [[_ Hc]|(p1 & _ & Hp1 & Hb1 & [(se & _ & _ & ->)|(_ & ->)])].
  - rewrite Hp0, Hb, Hbp in Hc. discriminate.
  - now apply (hello_tail_shape _ _ p1).
  - destruct (emit_list_frame (resync_events (fresh_session (p_sid p1) (fq_cut s)) order)
                (set_peer (Some {| p_sid := p_sid p1; p_q := eq_clear (p_q p1) |}) (a_sidctr (fq_cut s)) (a_epoch (fq_cut s) + 1)
                          (emitted (fq_cut s)) (fresh_session (p_sid p1) (fq_cut s)))) as (Ha2 & _).
    destruct (aframe_peer _ _ _ Ha2 eq_refl) as (p2 & Hp2 & _). now apply (hello_tail_shape _ _ p2).
Qed.

Lemma fq_run_app a : forall s b orders,
  fq_run s (a ++ b) orders = fq_run (fq_run s a orders) b (skipn (length a) orders).
Proof.
  induction a as [|ev r IH]; intros s b orders; cbn [app fq_run length skipn]; [reflexivity|].
  rewrite IH. destruct orders; cbn [tl hd skipn]; [|reflexivity]. now destruct (length r).
Qed.

(* the fault-free suffix, from any state in which the invariant holds and every emitted
   event can be marshalled *)
Lemma epilogue_complete s0 os : INV s0 -> LT s0 ->
  let s := fq_run s0 EPILOGUE os in fq_idle s = true /\ proj (a_epoch s) (applied s) = proj (a_epoch s) (emitted s).
Proof.
  intros HI0 HL0. unfold EPILOGUE. cbn [fq_run].
  (* QPeerJoin *)
  set (s1 := fq_step s0 QPeerJoin (hd [] os)).
  assert (HI1 : INV s1) by (apply INV_peer_join; exact HI0).
  assert (HL1 : LT s1) by (apply LT_step; [exact HL0|reflexivity]).
  assert (Hb1 : fb_peer s1 = true) by reflexivity.
  (* QJoinPeer *)
  set (s2 := fq_step s1 QJoinPeer (hd [] (tl os))).
  assert (HL2 : LT s2) by (apply LT_step; [exact HL1|reflexivity]).
  assert (H2 : INV s2 /\ fb_peer s2 = true /\ exists p, a_peer s2 = Some p).
  { subst s2. cbn [fq_step]. destruct (a_peer s1) as [p|] eqn:Hp.
    - split; [exact HI1|]. split; [exact Hb1|]. now exists p.
    - split; [now apply INV_join_peer|]. split; [exact Hb1|]. eexists. reflexivity. }
  destruct H2 as (HI2 & Hb2 & p2 & Hp2).
  (* QReconnect HsOk *)
  set (s3 := fq_step s2 (QReconnect HsOk) (hd [] (tl (tl os)))).
  assert (HL3 : LT s3) by (apply LT_step; [exact HL2|reflexivity]).
  assert (HI3 : INV s3) by (subst s3; cbn [fq_step]; apply INV_reconnect; [exact HI2|discriminate]).
  destruct (reconnect_ok_shape (hd [] (tl (tl os))) s2 p2 Hp2 Hb2) as (Hu3 & Hc3 & Hs3 & p3 & Hp3 & Ho3).
  assert (HD3 : DS s3).
  { split; [exact HI3|]. split; [exact Hu3|]. split; [exact Hc3|]. split; [exact Hs3|].
    split; [now exists p3|]. now destruct HL3 as (_ & _ & _ & H4). }
  (* QDrain *)
  cbn [fq_step]. destruct (DS_drain s3 HD3) as [HD4 Hidle]. fold s3.
  split; [exact Hidle|]. apply (DS_idle_complete _ HD4 Hidle).
Qed.

Lemma LT_reachable ret evs orders : kf_event_not_utf8 ret evs = false -> LT (fq_run (fq_init ret) evs orders).
Proof.
  intros Hk. unfold kf_event_not_utf8 in Hk. apply orb_false_iff in Hk as [Hr He]. apply LT_run; [|exact He].
  apply LT_init. intros m Hm. destruct (marshal_ok (EMsg m)) eqn:E; [reflexivity|].
  rewrite <- Hr. apply existsb_exists. exists m. split; [exact Hm|now rewrite E].
Qed.

(* after ANY schedule (without the two known findings), once both nodes know each other,
   the handshake succeeds and both loops run until idle: the stream is idle and everything
   A emitted in the current epoch has been applied by B *)
Lemma fq_stable_complete ret evs orders :
  kf_hello_reply_lost evs = false -> kf_event_not_utf8 ret evs = false ->
  let s := fq_run (fq_init ret) (evs ++ EPILOGUE) orders in
  fq_idle s = true /\ proj (a_epoch s) (applied s) = proj (a_epoch s) (emitted s).
Proof.
  intros Hk1 Hk2. cbv zeta. rewrite fq_run_app.
  apply epilogue_complete; [apply run_inv; [apply INV_init|exact Hk1]|now apply LT_reachable].
Qed.

(* the two side conditions of the completeness statement are needed *)
Definition ex_bad_corr : msg :=
  {| m_dup := false; m_qos := 1; m_retained := false; m_topic := [97]; m_payload := [49]; m_pid := 0;
     m_ctype := []; m_corr := [255]; m_expiry := 0; m_pfmt := 0; m_resp := []; m_subids := []; m_uprops := [] |}.

Lemma fq_stable_complete_refuted :
  (exists ret evs orders,
     let s := fq_run (fq_init ret) (evs ++ EPILOGUE) orders in
     fq_idle s = true /\ view_of (fb_fed s) = Some [] /\ local_of s <> []) /\
  (exists ret evs orders, fq_idle (fq_run (fq_init ret) (evs ++ EPILOGUE) orders) = false).
Proof.
  split.
  - exists [], [QSub [99] [] [97]; QPeerJoin; QJoinPeer; QReconnect HsLostResp], []. vm_compute.
    split; [reflexivity|]. split; [reflexivity|discriminate].
  - exists [], [QPeerJoin; QJoinPeer; QReconnect HsOk; QMsg ex_bad_corr], []. vm_compute. reflexivity.
Qed.
