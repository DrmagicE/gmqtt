(* CONNECT: what Connect.Unpack establishes, and Pack / ReadPacket round trip. *)
From Coq Require Import List NArith ZArith Bool Lia ZifyN ZifyNat ZifyBool Sorted.
Import ListNotations.
From GM Require Import Base.Topic Base.Msg Model.CodecBase Model.CodecProps Model.CodecPackets
  Proofs.TopicP Proofs.CodecBaseP Proofs.CodecStrP Proofs.CodecTotalP Proofs.CodecPropsP Proofs.CodecPropsInvP
  Proofs.CodecWillP Proofs.CodecRoundP Proofs.CodecReencP Proofs.CodecRound2P.
Open Scope N_scope.

Definition connect_inv (c : connect) : Prop :=
  c_version c = c_level c /\ (c_level c = 3 \/ c_level c = 4 \/ c_level c = 5)
  /\ proto_name (c_level c) = Some (c_pname c)
  /\ c_wqos c <= 2
  /\ (c_wflag c = false -> c_wqos c = 0 /\ c_wretain c = false /\ c_wtopic c = [] /\ c_wmsg c = [])
  /\ c_keepalive c < 65536 /\ istr_ok (c_cid c) = true
  /\ (is_v3x (c_level c) = true -> c_cid c = [] -> c_clean c = true)
  /\ (if c_level c =? 5
      then (exists p, c_props c = Some p /\ props_inv CONNECT p)
           /\ (exists wp, c_wprops c = Some wp /\ will_inv wp /\ (c_wflag c = false -> wp = props_empty))
      else c_props c = None /\ c_wprops c = None)
  /\ (c_wflag c = true -> istr_ok (c_wtopic c) = true /\ len (c_wmsg c) <= 65535)
  /\ (if c_uflag c then istr_ok (c_user c) = true else c_user c = [])
  /\ (if c_pflag c then len (c_pass c) <= 65535 else c_pass c = [])
  /\ (is_v3x (c_level c) && c_pflag c && negb (c_uflag c)) = false.

Lemma istr_ok_len : forall s, istr_ok s = true -> len s <= 65535.
Proof. intros s H. unfold istr_ok in H. lia. Qed.

Lemma opt_string_dec : forall (flag : bool) b,
  reads (if flag then read_utf8_string true b else Ok ([], b)) b (fun s => if flag then istr_ok s = true else s = []).
Proof. intros [|] b s b' H Hb; [exact (read_str_inv b s b' H Hb)|]. injection H as <- <-. auto. Qed.

Lemma opt_binary_dec : forall (flag : bool) b,
  reads (if flag then read_utf8_string false b else Ok ([], b)) b (fun s => if flag then len s <= 65535 else s = []).
Proof.
  intros [|] b s b' H Hb; [|injection H as <- <-; auto].
  destruct (read_utf8_string_inv false b s b' H Hb) as [[Hl _] Hb']. auto.
Qed.

(* the CONNECT properties; with them an empty will Properties is allocated *)
Lemma connect_props_dec : forall level b,
  reads (if level =? 5 then do '(p, b') <- props_unpack CONNECT b; Ok (Some p, Some props_empty, b') else Ok (None, None, b)) b
        (fun x => if level =? 5 then (exists p, fst x = Some p /\ props_inv CONNECT p) /\ snd x = Some props_empty
                  else x = (None, None)).
Proof.
  intros level b x b' H Hb. destruct (level =? 5).
  - apply (bind_reads (props_unpack_inv CONNECT b)) in H as (p & r & Hp & Hr & H); [|assumption].
    injection H as <- <-. cbn [fst snd]. eauto.
  - injection H as <- <-. auto.
Qed.

(* the will block: will properties (v5), topic, message *)
Lemma will_block_dec : forall level (wflag : bool) (wpr0 : option props) b,
  reads (if wflag then
           do '(wpr', b1) <- (if level =? 5 then do '(p, b') <- will_props_unpack b; Ok (Some p, b') else Ok (wpr0, b));
           do '(wt, b2) <- read_utf8_string true b1;
           do '(wm, b3) <- read_utf8_string false b2;
           Ok (wpr', wt, wm, b3)
         else Ok (wpr0, [], [], b)) b
        (fun x => if wflag then istr_ok (snd (fst x)) = true /\ len (snd x) <= 65535
                                /\ if level =? 5 then exists wp, fst (fst x) = Some wp /\ will_inv wp else fst (fst x) = wpr0
                  else x = (wpr0, [], [])).
Proof.
  intros level wflag wpr0 b x b' H Hb. destruct wflag; [|injection H as <- <-; auto].
  assert (Hw : reads (if level =? 5 then do '(p, b') <- will_props_unpack b; Ok (Some p, b') else Ok (wpr0, b)) b
                 (fun w => if level =? 5 then exists wp, w = Some wp /\ will_inv wp else w = wpr0)).
  { intros w r E _. destruct (level =? 5); [|injection E as <- <-; auto].
    apply (bind_reads (will_props_unpack_inv b)) in E as (p & r' & Hp & Hr & E); [|assumption].
    injection E as <- <-. eauto. }
  apply (bind_reads Hw) in H as (wpr & b1 & Hwpr & Hb1 & H); [|assumption].
  apply (bind_reads (read_str_inv b1)) in H as (wt & b2 & Hwt & Hb2 & H); [|assumption].
  apply (bind_reads (read_utf8_string_inv false b2)) in H as (wm & b3 & [Hwm _] & Hb3 & H); [|assumption].
  injection H as <- <-. cbn [fst snd]. auto.
Qed.

Lemma parse_connect_inv : forall b body,
  parse_connect b = Ok body -> bytes_ok b -> exists c, body = BConnect c /\ connect_inv c.
Proof.
  intros b body H Hb. unfold parse_connect in H.
  apply (bind_reads (read_utf8_string_inv false b)) in H as (pname & b1 & _ & Hb1 & H); [|assumption].
  apply (bind_reads (reads_remap (read_byte_inv b1))) in H as (level & b2 & _ & Hb2 & H); [|assumption].
  destruct (proto_name level) as [name|] eqn:Epn; [|discriminate].
  destruct (str_eqb pname name) eqn:Ename; cbn [negb] in H; [|discriminate].
  apply str_eqb_eq in Ename. subst name.
  apply (bind_reads (reads_remap (read_byte_inv b2))) in H as (flags & b3 & _ & Hb3 & H); [|assumption].
  destruct (negb (N.land 1 flags =? 0)); [discriminate|].
  destruct (negb (bit flags 2) && negb (N.land 3 (N.shiftr flags 3) =? 0)) eqn:C1; [discriminate|].
  destruct (2 <? N.land 3 (N.shiftr flags 3)) eqn:C0; [discriminate|].
  destruct (negb (bit flags 2) && bit flags 5) eqn:C2; [discriminate|].
  destruct (is_v3x level && bit flags 6 && negb (bit flags 7)) eqn:Cpw; [discriminate|].
  apply (bind_reads (reads_remap (read_uint16_inv b3))) in H as (ka & b4 & Hka & Hb4 & H); [|assumption].
  apply (bind_reads (connect_props_dec level b4)) in H as ([pr wpr0] & b5 & Hprops & Hb5 & H); [|assumption].
  apply (bind_reads (read_str_inv b5)) in H as (cid & b6 & Hcid & Hb6 & H); [|assumption].
  destruct (is_v3x level && (len cid =? 0) && negb (bit flags 1)) eqn:C3; [discriminate|].
  apply (bind_reads (will_block_dec level (bit flags 2) wpr0 b6)) in H as ([[wpr wt] wm] & b7 & Hwill & Hb7 & H); [|assumption].
  apply (bind_reads (opt_string_dec (bit flags 7) b7)) in H as (user & b8 & Huser & Hb8 & H); [|assumption].
  apply (bind_reads (opt_binary_dec (bit flags 6) b8)) in H as (pass & b9 & Hpass & Hb9 & H); [|assumption].
  destruct (negb (is_empty b9)); [discriminate|].
  apply ok_inj in H. subst body. eexists. split; [reflexivity|]. cbn [fst snd] in Hprops, Hwill.
  unfold connect_inv. cbn [c_version c_level c_uflag c_pname c_pflag c_wretain c_wqos c_wflag c_wtopic c_wmsg c_clean
                          c_keepalive c_cid c_user c_pass c_props c_wprops].
  split; [reflexivity|].
  split. { unfold proto_name in Epn. destruct (N.eqb_spec level 3); [auto|]. destruct (N.eqb_spec level 4); [auto|].
           destruct (N.eqb_spec level 5); [auto|]. discriminate. }
  split; [assumption|]. split; [clear - C0; lia|].
  split. { intros Hwf. rewrite Hwf in *. cbn [negb andb] in C1, C2. injection Hwill as _ -> ->.
           repeat split; try assumption; clear - C1 C2; lia. }
  split; [assumption|]. split; [assumption|].
  split. { intros Hv3 ->. rewrite Hv3 in C3. cbn in C3. destruct (bit flags 1); [reflexivity|discriminate]. }
  split.
  { destruct (level =? 5), (bit flags 2).
    - destruct Hprops as [Hp ->]. destruct Hwill as (_ & _ & wp & -> & Hwp). split; [assumption|].
      exists wp. split; [reflexivity|]. split; [assumption|discriminate].
    - destruct Hprops as [Hp ->]. injection Hwill as ->. split; [assumption|]. eauto using will_inv_empty.
    - injection Hprops as -> ->. split; [reflexivity|apply Hwill].
    - injection Hprops as -> ->. injection Hwill as ->. auto. }
  split. { intros Hwf. rewrite Hwf in Hwill. tauto. }
  split; [assumption|]. split; [assumption|exact Cpw].
Qed.

Definition conn_flags (u p wr : bool) (wq : N) (wf cl : bool) : N :=
  (N.lor (b2n u 128) (N.lor (b2n p 64) (N.lor (b2n wr 32) (N.lor (b2n wf 4)
     (N.lor (if wq =? 1 then 8 else if wq =? 2 then 16 else 0) (N.lor (b2n cl 2) 0)))))) mod 256.

Lemma conn_flags_rt : forall u p wr wq wf cl, wq <= 2 ->
  let f := conn_flags u p wr wq wf cl in
  N.land 1 f = 0 /\ bit f 1 = cl /\ bit f 2 = wf /\ N.land 3 (N.shiftr f 3) = wq /\ bit f 5 = wr /\ bit f 6 = p /\ bit f 7 = u.
Proof.
  intros u p wr wq wf cl Hq. assert (Hq' : wq = 0 \/ wq = 1 \/ wq = 2) by lia.
  destruct Hq' as [ -> | [ -> | -> ] ]; destruct u, p, wr, wf, cl; vm_compute; repeat split.
Qed.

(* a field present exactly when its flag is set, as Pack writes and Unpack reads it: user name ... *)
Lemma opt_string_rt : forall (flag : bool) s rest,
  (if flag then istr_ok s = true else s = []) ->
  (if flag then encode_utf8_string s else Ok []) = Ok (if flag then put_bin s else [])
  /\ (if flag then read_utf8_string true ((if flag then put_bin s else []) ++ rest)
      else Ok ([], (if flag then put_bin s else []) ++ rest)) = Ok (s, rest).
Proof.
  intros [|] s rest H; [|subst; auto].
  split; [apply encode_utf8_string_ok, istr_ok_len, H|now apply istr_ok_rt].
Qed.
(* ... and password *)
Lemma opt_binary_rt : forall (flag : bool) s rest,
  (if flag then len s <= 65535 else s = []) ->
  (if flag then encode_utf8_string s else Ok []) = Ok (if flag then put_bin s else [])
  /\ (if flag then read_utf8_string false ((if flag then put_bin s else []) ++ rest)
      else Ok ([], (if flag then put_bin s else []) ++ rest)) = Ok (s, rest).
Proof.
  intros [|] s rest H; [|subst; auto].
  split; [apply encode_utf8_string_ok, H|apply read_utf8_string_put_bin; [assumption|discriminate]].
Qed.

Lemma connect_props_rt : forall level pr rest,
  oprops_inv level CONNECT pr -> len ((if level =? 5 then props_pack pr else []) ++ rest) < BIG ->
  (if level =? 5 then do '(p, b') <- props_unpack CONNECT ((if level =? 5 then props_pack pr else []) ++ rest);
                      Ok (Some p, Some props_empty, b')
   else Ok (None, None, (if level =? 5 then props_pack pr else []) ++ rest))
  = Ok (pr, (if level =? 5 then Some props_empty else None), rest).
Proof.
  intros level pr rest Hpr Hlen. unfold oprops_inv in Hpr. destruct (level =? 5).
  - destruct Hpr as [p [-> Hinv]]. rewrite props_rt by eauto using len_lt_app_l. reflexivity.
  - subst pr. reflexivity.
Qed.

(* the will block: will properties (wpb, v5 only), topic, message *)
Lemma will_block_enc : forall (wflag : bool) wpb wtopic wmsg,
  (if wflag then istr_ok wtopic = true /\ len wmsg <= 65535 else wtopic = [] /\ wmsg = []) ->
  (if wflag then do wt <- encode_utf8_string wtopic; do wm <- encode_utf8_string wmsg; Ok (wpb ++ wt ++ wm) else Ok [])
  = Ok (if wflag then wpb ++ put_bin wtopic ++ put_bin wmsg else []).
Proof.
  intros [|] wpb wtopic wmsg Hw; [|reflexivity]. destruct Hw as [Hwt Hwm].
  rewrite (encode_utf8_string_ok wtopic), (encode_utf8_string_ok wmsg) by auto using istr_ok_len. reflexivity.
Qed.

Lemma will_block_rt : forall level (wflag : bool) wprops wtopic wmsg rest,
  (if wflag then istr_ok wtopic = true /\ len wmsg <= 65535 else wtopic = [] /\ wmsg = []) ->
  (if level =? 5 then exists wp, wprops = Some wp /\ will_inv wp /\ (wflag = false -> wp = props_empty) else wprops = None) ->
  let block := if wflag then (if level =? 5 then will_props_pack wprops else []) ++ put_bin wtopic ++ put_bin wmsg else [] in
  len (block ++ rest) < BIG ->
  (if wflag then
     do '(wpr', b1) <- (if level =? 5 then do '(p, b') <- will_props_unpack (block ++ rest); Ok (Some p, b')
                        else Ok ((if level =? 5 then Some props_empty else None), block ++ rest));
     do '(wt, b2) <- read_utf8_string true b1;
     do '(wm, b3) <- read_utf8_string false b2;
     Ok (wpr', wt, wm, b3)
   else Ok ((if level =? 5 then Some props_empty else None), [], [], block ++ rest))
  = Ok (wprops, wtopic, wmsg, rest).
Proof.
  intros level wflag wprops wtopic wmsg rest Hw Hwp block Hlen. subst block. destruct wflag.
  - destruct Hw as [Hwt Hwm]. rewrite <- !app_assoc in *.
    assert (Htail : forall b1, b1 = put_bin wtopic ++ put_bin wmsg ++ rest ->
              (do '(wt, b2) <- read_utf8_string true b1; do '(wm, b3) <- read_utf8_string false b2; Ok (wprops, wt, wm, b3))
              = Ok (wprops, wtopic, wmsg, rest)).
    { intros b1 ->. rewrite istr_ok_rt by assumption. cbn [bind].
      rewrite read_utf8_string_put_bin by (try assumption; discriminate). reflexivity. }
    destruct (level =? 5).
    + destruct Hwp as [wp [-> [Hwinv _]]].
      rewrite will_props_unpack_pack; [cbn [bind]; now apply Htail|assumption|].
      unfold BIG in Hlen. rewrite len_app in Hlen. unfold will_props_pack in Hlen. rewrite len_app in Hlen. lia.
    + subst wprops. cbn [app bind]. now apply Htail.
  - destruct Hw as [-> ->]. cbn [app].
    destruct (level =? 5); [|subst; reflexivity].
    destruct Hwp as [wp [-> [_ ->]]]; reflexivity.
Qed.

Lemma rt_connect : forall c ty fl bytes,
  connect_inv c ->
  pack_body (BConnect c) = Ok (ty, fl, bytes) -> len bytes < BIG ->
  ty = CONNECT /\ fl = 0 /\ parse_connect bytes = Ok (BConnect c).
Proof.
  intros c ty fl bytes (Hver & Hlev & Hpn & Hwq & Hnowill & Hka & Hcid & Hv3 & Hprops & Hwill & Huser & Hpass & Hpw)
         Hpack Hlen.
  destruct c as [version level uflag pname pflag wretain wqos wflag wtopic wmsg clean keepalive cid user pass props wprops].
  cbn [c_version c_level c_uflag c_pname c_pflag c_wretain c_wqos c_wflag c_wtopic c_wmsg c_clean
       c_keepalive c_cid c_user c_pass c_props c_wprops] in *.
  subst version.
  assert (Hnamelen : len pname <= 65535).
  { unfold proto_name in Hpn. destruct Hlev as [ -> | [ -> | -> ] ]; cbn in Hpn; injection Hpn as <-; clear; cbn; lia. }
  assert (Hw : if wflag then istr_ok wtopic = true /\ len wmsg <= 65535 else wtopic = [] /\ wmsg = []).
  { destruct wflag; [auto|]. destruct (Hnowill eq_refl) as (_ & _ & -> & ->). auto. }
  assert (Hp5 : oprops_inv level CONNECT props /\
                if level =? 5 then exists wp, wprops = Some wp /\ will_inv wp /\ (wflag = false -> wp = props_empty)
                else wprops = None).
  { unfold oprops_inv. destruct (level =? 5); tauto. }
  destruct Hp5 as [Hp5 Hwp].
  (* Pack *)
  unfold pack_body in Hpack. cbn [c_version c_level c_uflag c_pname c_pflag c_wretain c_wqos c_wflag c_wtopic c_wmsg
       c_clean c_keepalive c_cid c_user c_pass c_props c_wprops] in Hpack.
  fold (conn_flags uflag pflag wretain wqos wflag clean) in Hpack.
  rewrite (encode_utf8_string_ok cid) in Hpack by (apply istr_ok_len; assumption). cbn [bind] in Hpack.
  destruct (opt_binary_rt pflag pass [] Hpass) as [Ep Rp]. rewrite app_nil_r in Rp.
  destruct (opt_string_rt uflag user (if pflag then put_bin pass else []) Huser) as [Eu Ru].
  rewrite (will_block_enc wflag _ wtopic wmsg Hw), Eu, Ep in Hpack. cbn [bind] in Hpack.
  apply ok3_inj in Hpack. destruct Hpack as (<- & <- & <-). rewrite <- !app_assoc in *.
  pose proof (will_block_rt level wflag wprops wtopic wmsg
                ((if uflag then put_bin user else []) ++ (if pflag then put_bin pass else [])) Hw Hwp) as Rw.
  cbv zeta in Rw.
  split; [reflexivity|]. split; [reflexivity|].
  (* Unpack *)
  destruct (conn_flags_rt uflag pflag wretain wqos wflag clean Hwq) as (F0 & F1 & F2 & F3 & F5 & F6 & F7).
  unfold parse_connect.
  rewrite read_utf8_string_put_bin by (try assumption; discriminate). cbn [bind app read_byte remap].
  rewrite Hpn. rewrite str_eqb_refl. cbn [negb].
  rewrite F0, F1, F2, F3, F5, F6, F7. cbn [N.eqb negb].
  replace (negb wflag && negb (wqos =? 0)) with false
    by (destruct wflag; [reflexivity|]; destruct (Hnowill eq_refl) as (-> & _); reflexivity).
  replace (negb wflag && wretain) with false
    by (destruct wflag; [reflexivity|]; destruct (Hnowill eq_refl) as (_ & -> & _); reflexivity).
  replace (2 <? wqos) with false by (clear - Hwq; lia). rewrite Hpw.
  rewrite read_uint16_put16 by assumption. cbn [remap bind].
  rewrite connect_props_rt by eauto using len_lt_app_r. cbn [bind].
  rewrite istr_ok_rt by assumption. cbn [bind].
  replace (is_v3x level && (len cid =? 0) && negb clean) with false.
  2:{ destruct (is_v3x level) eqn:E3; [|reflexivity]. destruct cid; [|reflexivity]. rewrite (Hv3 eq_refl eq_refl). reflexivity. }
  rewrite Rw by eauto 8 using len_lt_app_r. cbn [bind]. rewrite Ru. cbn [bind]. rewrite Rp. reflexivity.
Qed.
