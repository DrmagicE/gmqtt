(* Proofs for property C20 (statistics): conservation laws of the model of server/stats.go (Model/Stats.v, the repaired
   code of /repo af01428) for ALL event lists, and the agreement of the model - driven by the broker's reporting
   discipline C20O.c20_calls - with the ground truth C20O.c20_truth for ALL logs. *)
From Coq Require Import List NArith ZArith Bool Lia.
Import ListNotations.
From GM Require Import Proofs.AssocP Model.Stats Oracle.C20O.
Open Scope N_scope.

Lemma sts_M64_pos : 0 < sts_M64. Proof. reflexivity. Qed.
Lemma sts_M64_nz : sts_M64 <> 0. Proof. discriminate. Qed.

Lemma sts_sum_upd : forall c g l k, sts_sum (sts_upd c g l) k + sts_val c l k = sts_sum l k + g (sts_val c l) k.
Proof.
  intros c g l k. unfold sts_val. induction l as [|[x v] r IH]; simpl.
  - change (sts_zero k) with 0. lia.
  - destruct (c =? x); simpl; [lia|]. destruct (sts_get c r); lia.
Qed.

Lemma sts_sum_del : forall c l k, sts_sum (sts_del c l) k + sts_val c l k = sts_sum l k.
Proof.
  intros c l k. unfold sts_val. induction l as [|[c' v] r IH]; simpl.
  - reflexivity.
  - destruct (c =? c'); simpl; [lia|]. rewrite <- IH. destruct (sts_get c r); lia.
Qed.

(* sts_get and sts_del are, by conversion, gget and gdel of Proofs/AssocP.v at N.eqb, and sts_upd writes like gset *)
Lemma sts_upd_gset : forall c g l, sts_upd c g l = gset N.eqb c (g (sts_val c l)) l.
Proof.
  intros c g l. unfold sts_val. induction l as [|[x v] r IH]; simpl; [reflexivity|].
  destruct (N.eqb_spec c x) as [->|_]; [reflexivity|now rewrite IH].
Qed.

Lemma sts_val_upd : forall c c' g l k,
  sts_val c' (sts_upd c g l) k = if c =? c' then g (sts_val c l) k else sts_val c' l k.
Proof.
  intros c c' g l k. rewrite sts_upd_gset. unfold sts_val at 1.
  change (sts_get c') with (@gget N sts_vec N.eqb c'). rewrite gget_gset, N.eqb_sym by exact N.eqb_spec.
  destruct (c =? c'); reflexivity.
Qed.

Definition sts_nodup (l : sts_tab) : Prop := NoDup (map fst l).

Lemma sts_nodup_upd : forall c g l, sts_nodup l -> sts_nodup (sts_upd c g l).
Proof. intros c g l. rewrite sts_upd_gset. exact (NoDup_gset N.eqb N.eqb_spec c _ l). Qed.
Lemma sts_nodup_del : forall c l, sts_nodup l -> sts_nodup (sts_del c l).
Proof. exact (NoDup_gdel N.eqb). Qed.
Lemma sts_val_del : forall c c' l k, sts_nodup l ->
  sts_val c' (sts_del c l) k = if c =? c' then 0 else sts_val c' l k.
Proof.
  intros c c' l k Hnd. unfold sts_val at 1.
  change (sts_get c' (sts_del c l)) with (@gget N sts_vec N.eqb c' (gdel N.eqb c l)). rewrite gget_gdel, N.eqb_sym by auto using N.eqb_spec.
  destruct (c =? c'); reflexivity.
Qed.

Lemma sts_upd_upd : forall c g1 g2 l, sts_upd c g2 (sts_upd c g1 l) = sts_upd c (fun v => g2 (g1 v)) l.
Proof.
  intros c g1 g2 l. induction l as [|[x v] r IH]; simpl.
  - rewrite N.eqb_refl. reflexivity.
  - destruct (c =? x) eqn:E; simpl; rewrite E; [reflexivity | rewrite IH; reflexivity].
Qed.
Lemma sts_both_both : forall s c f1 g1 f2 g2,
  sts_both (sts_both s c f1 g1) c f2 g2 = sts_both s c (fun v => f2 (f1 v)) (fun v => g2 (g1 v)).
Proof. intros. unfold sts_both; simpl. rewrite sts_upd_upd. reflexivity. Qed.

Lemma sts_neg_cancel : forall v, (v + sts_neg v) mod sts_M64 = 0.
Proof.
  intros v. unfold sts_neg. pose proof sts_M64_nz as Hnz. pose proof (N.mod_upper_bound v sts_M64 Hnz) as Hb.
  rewrite N.add_mod_idemp_r, <- N.add_mod_idemp_l by assumption.
  replace (v mod sts_M64 + (sts_M64 - v mod sts_M64)) with sts_M64 by lia. apply N.mod_same, Hnz.
Qed.
Lemma sts_mod_sub : forall a v, v <= a -> (a mod sts_M64 + sts_neg v) mod sts_M64 = (a - v) mod sts_M64.
Proof.
  intros a v H. pose proof sts_M64_nz as Hnz. rewrite N.add_mod_idemp_l by assumption.
  replace (a + sts_neg v) with ((a - v) + (v + sts_neg v)) by lia.
  rewrite N.add_mod by assumption. rewrite sts_neg_cancel, N.add_0_r. apply N.mod_mod; assumption.
Qed.
Lemma sts_wsub_exact : forall v d, d <= v -> v < sts_M64 -> (v + sts_neg d) mod sts_M64 = v - d.
Proof.
  intros v d H1 H2. rewrite <- (N.mod_small v sts_M64) at 1 by assumption.
  rewrite sts_mod_sub by assumption. apply N.mod_small. lia.
Qed.

Lemma sts_run_from_ind : forall (P : sts_state -> Prop),
  (forall s e, P s -> P (sts_step s e)) -> forall evs s, P s -> P (sts_run_from s evs).
Proof. intros P Hs. induction evs as [|e r IH]; intros s H; simpl; [exact H|]. apply IH, Hs, H. Qed.
Lemma sts_run_from_app : forall l1 l2 s, sts_run_from s (l1 ++ l2) = sts_run_from (sts_run_from s l1) l2.
Proof. intros. unfold sts_run_from. apply fold_left_app. Qed.

Definition sts_total (s : sts_state) (k : sts_ctr) : N := sts_sum (sts_clients s) k + sts_gone s k.

Definition sts_is_gauge (k : sts_ctr) : bool := match k with StsInflight | StsQueued => true | _ => false end.
Definition sts_exact (k : sts_ctr) : bool := negb (sts_is_gauge k).
Lemma sts_gauge_keys : forall k, sts_is_gauge k = true <-> k = StsQueued \/ k = StsInflight.
Proof. intros k; split; [destruct k; try discriminate; auto | intros [-> | ->]; reflexivity]. Qed.
Lemma sts_key_apart : forall k gk, sts_exact k = true -> sts_is_gauge gk = true -> k <> gk.
Proof. intros k gk Hk Hg ->. unfold sts_exact in Hk. rewrite Hg in Hk. discriminate. Qed.

Lemma sts_add_at : forall v k d k', sts_add v k d k' = v k' + (if sts_ctr_eq_dec k k' then d else 0).
Proof. intros. unfold sts_add. destruct (sts_ctr_eq_dec k k'); lia. Qed.
Lemma sts_wadd_other : forall v k d k', k <> k' -> sts_wadd v k d k' = v k'.
Proof. intros. unfold sts_wadd. destruct (sts_ctr_eq_dec k k'); congruence. Qed.
Lemma sts_wadd_same : forall v k d, sts_wadd v k d k = (v k + d) mod sts_M64.
Proof. intros. unfold sts_wadd. destruct (sts_ctr_eq_dec k k); congruence. Qed.

Definition sts_pdelta (d : sts_dir) (t : sts_ptype) (sz : N) (k : sts_ctr) : N :=
  (if sts_ctr_eq_dec (StsBytes d t) k then sz else 0) + (if sts_ctr_eq_dec (StsCount d t) k then 1 else 0) +
  (if sts_ctr_eq_dec (StsBytesTotal d) k then sz else 0) + (if sts_ctr_eq_dec (StsCountTotal d) k then 1 else 0).
Lemma sts_packet_add_at : forall v d t sz k, sts_packet_add v d t sz k = v k + sts_pdelta d t sz k.
Proof. intros. unfold sts_packet_add, sts_pdelta. rewrite !sts_add_at. lia. Qed.

(* the global block after sessionTerminated *)
Definition sts_term_glob (s : sts_state) (c : N) : sts_vec :=
  match sts_get c (sts_clients s) with
  | Some v => sts_wsub (sts_wsub (sts_glob s) StsQueued (v StsQueued)) StsInflight (v StsInflight)
  | None => sts_glob s
  end.
Lemma sts_term_glob_counter : forall s c k, sts_exact k = true -> sts_term_glob s c k = sts_glob s k.
Proof.
  intros s c k Hk. unfold sts_term_glob.
  destruct (sts_get c (sts_clients s)); [|reflexivity].
  unfold sts_wsub. rewrite !sts_wadd_other by (apply not_eq_sym, sts_key_apart; auto). reflexivity.
Qed.
Lemma sts_term_glob_gauge : forall s c k, sts_is_gauge k = true ->
  sts_glob s k < sts_M64 -> sts_term_glob s c k = (sts_glob s k + sts_neg (sts_val c (sts_clients s) k)) mod sts_M64.
Proof.
  intros s c k Hk Hlt. unfold sts_term_glob, sts_val. destruct (sts_get c (sts_clients s)) as [v|].
  - unfold sts_wsub. destruct k; try discriminate.
    + rewrite sts_wadd_same. rewrite sts_wadd_other by discriminate. reflexivity.
    + rewrite sts_wadd_other by discriminate. rewrite sts_wadd_same. reflexivity.
  - unfold sts_zero. change (sts_neg 0) with 0. rewrite N.add_0_r. symmetry. apply N.mod_small. assumption.
Qed.

(* every global counter = sum over the live entries + the deleted ones *)
Lemma sts_both_exact : forall s c f g k dlt,
  (forall v, f v k = v k + dlt) -> (forall v, g v k = v k + dlt) ->
  sts_glob s k = sts_total s k -> sts_glob (sts_both s c f g) k = sts_total (sts_both s c f g) k.
Proof.
  intros s c f g k dlt Hf Hg H. unfold sts_total in *; simpl.
  pose proof (sts_sum_upd c g (sts_clients s) k) as U. rewrite Hf, Hg in *. lia.
Qed.

Theorem sts_global_is_sum_step : forall s e k, sts_exact k = true ->
  sts_glob s k = sts_total s k -> sts_glob (sts_step s e) k = sts_total (sts_step s e) k.
Proof.
  intros s e k Hk H.
  assert (Hw : forall v gk d, sts_is_gauge gk = true -> sts_wadd v gk d k = v k + 0).
  { intros. rewrite sts_wadd_other, N.add_0_r by (apply not_eq_sym, sts_key_apart; auto). reflexivity. }
  (* a call that goes through sts_both adds the same amount at k on both sides: a packet's deltas, one message, or,
     for the gauges' calls, nothing *)
  destruct e; cbn [sts_step]; try destruct (_ =? 0); try exact H;
    try (eapply sts_both_exact; [| |exact H]; intros; unfold sts_dropped_add, sts_wsub;
         first [apply sts_packet_add_at | apply sts_add_at | apply Hw; reflexivity | symmetry; apply N.add_0_r]).
  (* terminated *)
  change (sts_term_glob s c k = sts_sum (sts_del c (sts_clients s)) k + (sts_gone s k + sts_val c (sts_clients s) k)).
  rewrite sts_term_glob_counter by assumption. unfold sts_total in H. rewrite H.
  pose proof (sts_sum_del c (sts_clients s) k). lia.
Qed.

Theorem sts_global_is_sum : forall evs k, sts_exact k = true -> sts_glob (sts_run evs) k = sts_total (sts_run evs) k.
Proof.
  intros evs k Hk. unfold sts_run.
  apply (sts_run_from_ind (fun s => sts_glob s k = sts_total s k)); [|reflexivity].
  intros; apply sts_global_is_sum_step; assumption.
Qed.

(* the global gauges = sum over the LIVE entries, as uint64 *)
Lemma sts_both_mod : forall s c f g k dlt,
  (forall v, f v k = (v k + dlt) mod sts_M64) -> (forall v, g v k = (v k + dlt) mod sts_M64) ->
  sts_glob s k = sts_sum (sts_clients s) k mod sts_M64 ->
  sts_glob (sts_both s c f g) k = sts_sum (sts_clients (sts_both s c f g)) k mod sts_M64.
Proof.
  intros s c f g k dlt Hf Hg H. unfold sts_both; simpl.
  pose proof (sts_sum_upd c g (sts_clients s) k) as U. pose proof (sts_sum_del c (sts_clients s) k) as D. rewrite Hg in U.
  (* the entry's old value leaves the sum, its new value (reduced) enters *)
  replace (sts_sum (sts_upd c g (sts_clients s)) k)
    with (sts_sum (sts_del c (sts_clients s)) k + (sts_val c (sts_clients s) k + dlt) mod sts_M64) by lia.
  rewrite Hf, H, N.add_mod_idemp_l, N.add_mod_idemp_r by apply sts_M64_nz. f_equal. lia.
Qed.

(* field k is left alone, in the global block and in every entry *)
Definition sts_same_at (k : sts_ctr) (s s' : sts_state) : Prop :=
  sts_glob s' k = sts_glob s k /\ (forall c, sts_val c (sts_clients s') k = sts_val c (sts_clients s) k) /\
  sts_sum (sts_clients s') k = sts_sum (sts_clients s) k.
Lemma sts_both_same_at : forall k s c f g,
  (forall v, f v k = v k) -> (forall v, g v k = v k) -> sts_same_at k s (sts_both s c f g).
Proof.
  intros k s c f g Hf Hg. repeat split; simpl.
  - apply Hf.
  - intros c'. rewrite sts_val_upd. destruct (N.eqb_spec c c') as [->|_]; [apply Hg | reflexivity].
  - pose proof (sts_sum_upd c g (sts_clients s) k) as U. rewrite Hg in U. lia.
Qed.
Lemma sts_conn_same_at : forall k s cv, sts_same_at k s (sts_set_conn s cv).
Proof. repeat split. Qed.

(* per-client gauges: the ideal (unbounded, signed) reading of the calls *)
Definition sts_gauge_delta (gk : sts_ctr) (e : sts_event) : option (N * Z) :=
  match e, gk with
  | StsAddQueueLen c d, StsQueued => Some (c, Z.of_N d)
  | StsDecQueueLen c d, StsQueued => Some (c, (- Z.of_N d)%Z)
  | StsAddInflight c d, StsInflight => Some (c, Z.of_N d)
  | StsDecInflight c d, StsInflight => Some (c, (- Z.of_N d)%Z)
  | _, _ => None
  end.
(* adds minus decs since the client's entry was (re)created *)
Definition sts_ideal_step (gk : sts_ctr) (id : N -> Z) (e : sts_event) : N -> Z :=
  match e with
  | StsSessionTerminated c _ => fun c' => if c =? c' then 0%Z else id c'
  | _ => match sts_gauge_delta gk e with
         | Some (c, d) => fun c' => if c =? c' then (id c' + d)%Z else id c'
         | None => id
         end
  end.
Definition sts_ideal_run (gk : sts_ctr) (id : N -> Z) (evs : list sts_event) : N -> Z := fold_left (sts_ideal_step gk) evs id.
(* well-formed: no decrement below zero (each dec is preceded by its add), no overflow *)
Fixpoint sts_ideal_wf (gk : sts_ctr) (id : N -> Z) (evs : list sts_event) : Prop :=
  match evs with
  | [] => True
  | e :: r => let id' := sts_ideal_step gk id e in
              (forall c, (0 <= id' c < Z.of_N sts_M64)%Z) /\ sts_ideal_wf gk id' r
  end.

(* the global gauge on well-formed histories: the ideal total *)
Definition sts_H63 : Z := 9223372036854775808%Z.
(* the ideal total: every add / dec of a client moves it; a terminated client takes its balance with it *)
Definition sts_total_step (gk : sts_ctr) (id : N -> Z) (tot : Z) (e : sts_event) : Z :=
  match e with
  | StsSessionTerminated c _ => (tot - id c)%Z
  | _ => match sts_gauge_delta gk e with Some (_, d) => (tot + d)%Z | None => tot end
  end.
(* well-formed: no client balance below zero (each dec preceded by its add) and the total below 2^63 at every prefix *)
Fixpoint sts_gauge_wf (gk : sts_ctr) (id : N -> Z) (tot : Z) (evs : list sts_event) : Prop :=
  match evs with
  | [] => True
  | e :: r => let id' := sts_ideal_step gk id e in let tot' := sts_total_step gk id tot e in
              (forall c, (0 <= id' c < Z.of_N sts_M64)%Z) /\ (0 <= tot' < sts_H63)%Z /\ sts_gauge_wf gk id' tot' r
  end.
Fixpoint sts_total_run (gk : sts_ctr) (id : N -> Z) (tot : Z) (evs : list sts_event) : Z :=
  match evs with [] => tot | e :: r => sts_total_run gk (sts_ideal_step gk id e) (sts_total_step gk id tot e) r end.

(* how the ideal balances and the ideal total read call e: client c moves by z, or nothing moves *)
Definition sts_gauge_moves (gk : sts_ctr) (e : sts_event) (m : option (N * Z)) : Prop :=
  (forall id, sts_ideal_step gk id e =
              match m with Some (c, z) => fun c' => if c =? c' then (id c' + z)%Z else id c' | None => id end) /\
  (forall id tot, sts_total_step gk id tot e = match m with Some (_, z) => (tot + z)%Z | None => tot end).

(* For the gauge gk a call is one of four things: it leaves the field alone (the counters' calls, the other gauge's,
   the connection block's); it adds to gk; it subtracts from gk unless the entry reads 0; it ends the session. *)
Inductive sts_gauge_call (gk : sts_ctr) (s : sts_state) (e : sts_event) : Prop :=
  | GcOther : sts_same_at gk s (sts_step s e) -> sts_gauge_moves gk e None -> sts_gauge_call gk s e
  | GcAdd c d :
      sts_step s e = sts_both s c (fun v => sts_wadd v gk d) (fun v => sts_wadd v gk d) ->
      sts_gauge_moves gk e (Some (c, Z.of_N d)) -> sts_gauge_call gk s e
  | GcDec c d :
      sts_step s e = (if sts_val c (sts_clients s) gk =? 0 then sts_both s c (fun v => v) (fun v => v)
                      else sts_both s c (fun v => sts_wsub v gk d) (fun v => sts_wsub v gk d)) ->
      sts_gauge_moves gk e (Some (c, (- Z.of_N d)%Z)) -> sts_gauge_call gk s e
  | GcEnd c r : e = StsSessionTerminated c r -> sts_gauge_call gk s e.

Lemma sts_gauge_call_of : forall gk s e, (gk = StsQueued \/ gk = StsInflight) -> sts_gauge_call gk s e.
Proof.
  intros gk s e [-> | ->]; destruct e;
    try (apply GcOther; [apply sts_conn_same_at | split; reflexivity]);
    try (apply GcOther; [cbn [sts_step]; try destruct (_ =? 0); apply sts_both_same_at; reflexivity | split; reflexivity]).
  (* left, for either gauge: its add, its dec, sessionTerminated *)
  1,4: eapply GcAdd; [reflexivity | split; reflexivity].
  1,3: eapply GcDec; [reflexivity | split; reflexivity].
  all: eapply GcEnd; reflexivity.
Qed.

Lemma sts_gauge_sum_step : forall s e k, sts_is_gauge k = true ->
  sts_glob s k = sts_sum (sts_clients s) k mod sts_M64 ->
  sts_glob (sts_step s e) k = sts_sum (sts_clients (sts_step s e)) k mod sts_M64.
Proof.
  intros s e k Hk H.
  assert (Hsame : forall s', sts_same_at k s s' -> sts_glob s' k = sts_sum (sts_clients s') k mod sts_M64).
  { intros s' (Hg & _ & Hs). rewrite Hg, Hs. exact H. }
  destruct (sts_gauge_call_of k s e (proj1 (sts_gauge_keys k) Hk)) as [Hs _ | c d -> _ | c d -> _ | c r ->].
  - apply Hsame, Hs.
  - apply (sts_both_mod _ _ _ _ _ d); try exact H; intros; apply sts_wadd_same.
  - destruct (_ =? 0).
    + apply Hsame, sts_both_same_at; reflexivity.
    + apply (sts_both_mod _ _ _ _ _ (sts_neg d)); try exact H; intros; apply sts_wadd_same.
  - (* terminated: the entry's share leaves the global gauge *)
    change (sts_term_glob s c k = sts_sum (sts_del c (sts_clients s)) k mod sts_M64).
    rewrite sts_term_glob_gauge; [|assumption|rewrite H; apply N.mod_upper_bound, sts_M64_nz].
    rewrite H. pose proof (sts_sum_del c (sts_clients s) k) as Hd.
    rewrite sts_mod_sub by lia. f_equal. lia.
Qed.

(* QueuedCurrent / InflightCurrent: global = sum over the live sessions' entries (uint64 arithmetic), for ALL histories *)
Theorem sts_gauge_live_sum : forall evs k, sts_is_gauge k = true ->
  sts_glob (sts_run evs) k = sts_sum (sts_clients (sts_run evs)) k mod sts_M64.
Proof.
  intros evs k Hk. unfold sts_run.
  apply (sts_run_from_ind (fun s => sts_glob s k = sts_sum (sts_clients s) k mod sts_M64)); [|reflexivity].
  intros; apply sts_gauge_sum_step; assumption.
Qed.

(* the view: copy() hands out every field *)
Theorem sts_view_exact : forall evs k, stv_glob (sts_view_of (sts_run evs)) k = sts_glob (sts_run evs) k.
Proof. reflexivity. Qed.
Lemma sts_val_copy : forall c l k,
  sts_val c (map (fun e => (fst e, sts_copy (snd e))) l) k = sts_val c l k.
Proof.
  intros c l k. unfold sts_val. induction l as [|[x v] r IH]; simpl; [reflexivity|].
  destruct (c =? x); [reflexivity | exact IH].
Qed.
Theorem sts_view_client_exact : forall evs c k,
  sts_val c (stv_clients (sts_view_of (sts_run evs))) k = sts_val c (sts_clients (sts_run evs)) k.
Proof. intros. simpl. apply sts_val_copy. Qed.

Lemma sts_nodup_step : forall s e, sts_nodup (sts_clients s) -> sts_nodup (sts_clients (sts_step s e)).
Proof.
  intros s e H. destruct e; cbn [sts_step]; try exact H;
    try (destruct (_ =? 0)); simpl; try apply sts_nodup_upd; try apply sts_nodup_del; exact H.
Qed.

(* a per-client gauge is its ideal balance *)
Lemma sts_client_gauge_step : forall gk, (gk = StsQueued \/ gk = StsInflight) -> forall s id e,
  sts_nodup (sts_clients s) ->
  (forall c, Z.of_N (sts_val c (sts_clients s) gk) = id c) ->
  (forall c, (0 <= id c < Z.of_N sts_M64)%Z) ->
  (forall c, (0 <= sts_ideal_step gk id e c < Z.of_N sts_M64)%Z) ->
  forall c, Z.of_N (sts_val c (sts_clients (sts_step s e)) gk) = sts_ideal_step gk id e c.
Proof.
  intros gk Hgk s id e Hnd Hv Hb Hb' c0.
  destruct (sts_gauge_call_of gk s e Hgk) as [(_ & Hs & _) [Hi _] | c d Hs [Hi _] | c d Hs [Hi _] | c r ->].
  - rewrite Hi, Hs. apply Hv.
  - (* add: the new balance is below 2^64, so the entry has not wrapped *)
    specialize (Hb' c0). rewrite Hi in *. rewrite Hs. cbn [sts_both sts_clients]. rewrite sts_val_upd.
    destruct (N.eqb_spec c c0) as [->|_]; [|apply Hv].
    rewrite <- Hv in *. rewrite sts_wadd_same, N.mod_small; lia.
  - (* dec: the new balance is not negative, so the entry held at least d; the guard fires only for d = 0 *)
    specialize (Hb' c0). specialize (Hb c0). rewrite Hi in *. rewrite Hs.
    destruct (N.eqb_spec (sts_val c (sts_clients s) gk) 0) as [E|E]; cbn [sts_both sts_clients]; rewrite sts_val_upd;
      (destruct (N.eqb_spec c c0) as [->|_]; [|apply Hv]); rewrite <- Hv in *.
    + lia.
    + unfold sts_wsub. rewrite sts_wadd_same, sts_wsub_exact; lia.
  - (* terminated *)
    unfold sts_ideal_step. simpl. rewrite sts_val_del by assumption.
    destruct (c =? c0); [reflexivity | apply Hv].
Qed.

Theorem sts_client_gauge_exact_from : forall gk, (gk = StsQueued \/ gk = StsInflight) -> forall evs s id,
  sts_nodup (sts_clients s) ->
  (forall c, Z.of_N (sts_val c (sts_clients s) gk) = id c) ->
  (forall c, (0 <= id c < Z.of_N sts_M64)%Z) ->
  sts_ideal_wf gk id evs ->
  forall c, Z.of_N (sts_val c (sts_clients (sts_run_from s evs)) gk) = sts_ideal_run gk id evs c.
Proof.
  intros gk Hgk. induction evs as [|e r IH]; intros s id Hnd Hv Hb Hwf c; simpl.
  - apply Hv.
  - destruct Hwf as [Hb' Hwf]. apply IH; auto.
    + apply sts_nodup_step; assumption.
    + intros. apply sts_client_gauge_step; auto.
Qed.

(* a per-client gauge is exactly adds - decs, hence never wraps, whenever no call decrements below zero *)
Theorem sts_client_gauge_exact : forall gk evs, (gk = StsQueued \/ gk = StsInflight) ->
  sts_ideal_wf gk (fun _ => 0%Z) evs ->
  forall c, Z.of_N (sts_val c (sts_clients (sts_run evs)) gk) = sts_ideal_run gk (fun _ => 0%Z) evs c /\
            (0 <= sts_ideal_run gk (fun _ => 0%Z) evs c)%Z.
Proof.
  intros gk evs Hgk Hwf c.
  assert (E : Z.of_N (sts_val c (sts_clients (sts_run evs)) gk) = sts_ideal_run gk (fun _ => 0%Z) evs c).
  { unfold sts_run. apply sts_client_gauge_exact_from; auto.
    - constructor.
    - intros; unfold sts_M64; lia. }
  split; [exact E | rewrite <- E; lia].
Qed.

(* the global gauge on well-formed histories is the ideal total, hence never wrapped *)
Lemma sts_glob_gauge_step : forall gk, (gk = StsQueued \/ gk = StsInflight) -> forall s id tot e,
  (forall c, Z.of_N (sts_val c (sts_clients s) gk) = id c) ->
  (forall c, (0 <= id c < Z.of_N sts_M64)%Z) ->
  Z.of_N (sts_glob s gk) = tot -> (0 <= tot < sts_H63)%Z ->
  (forall c, (0 <= sts_ideal_step gk id e c < Z.of_N sts_M64)%Z) ->
  (0 <= sts_total_step gk id tot e < sts_H63)%Z ->
  Z.of_N (sts_glob (sts_step s e) gk) = sts_total_step gk id tot e.
Proof.
  intros gk Hgk s id tot e Hv Hb Hg Ht Hb' Ht'.
  assert (HM : (2 * sts_H63 = Z.of_N sts_M64)%Z) by reflexivity.
  destruct (sts_gauge_call_of gk s e Hgk) as [(Hs & _) [_ Hi] | c d Hs [_ Hi] | c d Hs [Hi' Hi] | c r ->].
  - rewrite Hi, Hs. exact Hg.
  - rewrite Hi in *. rewrite Hs. cbn [sts_both sts_glob]. rewrite sts_wadd_same, N.mod_small; lia.
  - specialize (Hb' c). rewrite Hi' in Hb'. rewrite N.eqb_refl, <- Hv in Hb'. rewrite Hi in *. rewrite Hs.
    destruct (N.eqb_spec (sts_val c (sts_clients s) gk) 0) as [E|E]; cbn [sts_both sts_glob].
    + lia.
    + unfold sts_wsub. rewrite sts_wadd_same, sts_wsub_exact; lia.
  - (* terminated *)
    change (Z.of_N (sts_term_glob s c gk) = sts_total_step gk id tot (StsSessionTerminated c r)).
    unfold sts_total_step in *. rewrite <- Hv in *.
    rewrite sts_term_glob_gauge by (apply sts_gauge_keys, Hgk || lia).
    rewrite sts_wsub_exact; lia.
Qed.

Theorem sts_global_gauge_exact_from : forall gk, (gk = StsQueued \/ gk = StsInflight) -> forall evs s id tot,
  sts_nodup (sts_clients s) ->
  (forall c, Z.of_N (sts_val c (sts_clients s) gk) = id c) ->
  (forall c, (0 <= id c < Z.of_N sts_M64)%Z) ->
  Z.of_N (sts_glob s gk) = tot -> (0 <= tot < sts_H63)%Z ->
  sts_gauge_wf gk id tot evs ->
  Z.of_N (sts_glob (sts_run_from s evs) gk) = sts_total_run gk id tot evs /\ (0 <= sts_total_run gk id tot evs < sts_H63)%Z.
Proof.
  intros gk Hgk. induction evs as [|e r IH]; intros s id tot Hnd Hv Hb Hg Ht Hwf; simpl.
  - split; assumption.
  - destruct Hwf as [Hb' [Ht' Hwf]]. apply IH; auto.
    + apply sts_nodup_step; assumption.
    + intros. apply sts_client_gauge_step; auto.
    + apply sts_glob_gauge_step; auto.
Qed.

(* for well-formed histories the global gauge IS the ideal total, a number below 2^63: it never wraps *)
Theorem sts_global_gauge_no_wrap : forall gk evs, (gk = StsQueued \/ gk = StsInflight) ->
  sts_gauge_wf gk (fun _ => 0%Z) 0%Z evs ->
  Z.of_N (sts_glob (sts_run evs) gk) = sts_total_run gk (fun _ => 0%Z) 0%Z evs /\
  (Z.of_N (sts_glob (sts_run evs) gk) < sts_H63)%Z.
Proof.
  intros gk evs Hgk Hwf.
  assert (H1 : forall c : N, Z.of_N (sts_val c (sts_clients sts_init) gk) = (fun _ : N => 0%Z) c) by reflexivity.
  assert (H2 : forall c : N, (0 <= (fun _ : N => 0%Z) c < Z.of_N sts_M64)%Z) by (intros; unfold sts_M64; lia).
  assert (H3 : (0 <= 0 < sts_H63)%Z) by (unfold sts_H63; lia).
  destruct (sts_global_gauge_exact_from gk Hgk evs sts_init (fun _ => 0%Z) 0%Z (NoDup_nil _) H1 H2 eq_refl H3 Hwf) as [A B].
  unfold sts_run. split; [exact A | rewrite A; apply B].
Qed.

Definition c20_msg_key (d : sts_dir) (q : sts_qos) : sts_ctr := match d with StsRx => StsMsgRecv q | StsTx => StsMsgSent q end.
Definition c20_pkt_delta (d : sts_dir) (t : sts_ptype) (q : sts_qos) (sz : N) (k : sts_ctr) : N :=
  sts_pdelta d t sz k + match t with StsPublish => if sts_ctr_eq_dec (c20_msg_key d q) k then 1 else 0 | _ => 0 end.
Lemma c20_pkt_at : forall v d t q sz k, c20_pkt v d t q sz k = v k + c20_pkt_delta d t q sz k.
Proof.
  intros. unfold c20_pkt, c20_pkt_delta, c20_msg_key.
  destruct t; rewrite ?sts_add_at, sts_packet_add_at; destruct d; lia.
Qed.
Lemma c20_pkt_delta_gauge : forall d t q sz k, sts_is_gauge k = true -> c20_pkt_delta d t q sz k = 0.
Proof. intros d t q sz k Hk. destruct k; try discriminate; destruct t, d; reflexivity. Qed.

Lemma c20_gauge_add_same : forall v k d, c20_gauge_add v k d k = Z.to_N (Z.of_N (v k) + d).
Proof. intros. unfold c20_gauge_add. destruct (sts_ctr_eq_dec k k); congruence. Qed.
Lemma c20_gauge_add_other : forall v k d k', k <> k' -> c20_gauge_add v k d k' = v k'.
Proof. intros. unfold c20_gauge_add. destruct (sts_ctr_eq_dec k k'); congruence. Qed.

(* On the fields P the model's table is the truth's: entry by entry, in the sum over the live entries and in the sum of
   the deleted ones; the gauges among them have not wrapped.  P is "the counters" or "this gauge". *)
Record c20_rel (P : sts_ctr -> Prop) (ms : sts_state) (ts : c20_state) : Prop := {
  rel_nd_m : sts_nodup (sts_clients ms);
  rel_nd_t : sts_nodup (c20_live ts);
  rel_val : forall c k, P k -> sts_val c (sts_clients ms) k = sts_val c (c20_live ts) k;
  rel_lt : forall c k, P k -> sts_is_gauge k = true -> sts_val c (c20_live ts) k < sts_M64;
  rel_sum : forall k, P k -> sts_sum (sts_clients ms) k = sts_sum (c20_live ts) k;
  rel_gone : forall k, P k -> sts_gone ms k = c20_ended ts k
}.

Lemma c20_rel_init : forall P, c20_rel P sts_init c20_init.
Proof. intros. constructor; simpl; try (intros; reflexivity); constructor. Qed.

(* only the two tables and the two sums of deleted entries matter *)
Lemma c20_rel_frame : forall P ms ts ms' ts', c20_rel P ms ts ->
  sts_clients ms' = sts_clients ms -> sts_gone ms' = sts_gone ms ->
  c20_live ts' = c20_live ts -> c20_ended ts' = c20_ended ts -> c20_rel P ms' ts'.
Proof. intros P ms ts ms' ts' [A B C D E F] H1 H2 H3 H4. constructor; rewrite ?H1, ?H2, ?H3, ?H4; assumption. Qed.

(* one statsManager call rewrites client c's entry by g, the truth rewrites its entry by h, to the same values *)
Lemma c20_rel_upd : forall P ms ts c f g h, c20_rel P ms ts ->
  (forall k, P k -> g (sts_val c (sts_clients ms)) k = h (sts_val c (c20_live ts)) k) ->
  (forall k, P k -> sts_is_gauge k = true -> h (sts_val c (c20_live ts)) k < sts_M64) ->
  c20_rel P (sts_both ms c f g) (c20_on_client ts c h).
Proof.
  intros P ms ts c f g h [A B C D E F] Hgh Hlt. constructor; simpl.
  - apply sts_nodup_upd; assumption.
  - apply sts_nodup_upd; assumption.
  - intros c' k Hk. rewrite !sts_val_upd. destruct (c =? c'); auto.
  - intros c' k Hk Hg. rewrite sts_val_upd. destruct (c =? c'); auto.
  - intros k Hk. pose proof (sts_sum_upd c g (sts_clients ms) k). pose proof (sts_sum_upd c h (c20_live ts) k).
    specialize (Hgh k Hk). specialize (C c k Hk). specialize (E k Hk). lia.
  - exact F.
Qed.
(* the truth rewrites its entry to the values it had (a queue that did not move): the model is not called *)
Lemma c20_rel_truth_only : forall P ms ts c h, c20_rel P ms ts ->
  (forall k, P k -> h (sts_val c (c20_live ts)) k = sts_val c (c20_live ts) k) -> c20_rel P ms (c20_on_client ts c h).
Proof.
  intros P ms ts c h [A B C D E F] Hh. constructor; simpl; auto.
  - apply sts_nodup_upd; assumption.
  - intros c' k Hk. rewrite sts_val_upd. destruct (N.eqb_spec c c') as [->|_]; [rewrite Hh by assumption|]; auto.
  - intros c' k Hk Hg. rewrite sts_val_upd. destruct (N.eqb_spec c c') as [->|_]; [rewrite Hh by assumption|]; auto.
  - intros k Hk. pose proof (sts_sum_upd c h (c20_live ts) k). specialize (Hh k Hk). specialize (E k Hk). lia.
Qed.
Lemma c20_rel_end : forall P ms ts c r cnt on off,
  c20_rel P ms ts -> c20_rel P (sts_step ms (StsSessionTerminated c r)) (c20_end_session ts c cnt on off).
Proof.
  intros P ms ts c r cnt on off [A B C D E F].
  constructor; cbn [sts_step sts_clients sts_gone c20_end_session c20_live c20_ended].
  - apply sts_nodup_del; assumption.
  - apply sts_nodup_del; assumption.
  - intros c' k Hk. rewrite !sts_val_del by assumption. destruct (c =? c'); auto.
  - intros c' k Hk Hg. rewrite sts_val_del by assumption. destruct (c =? c'); [reflexivity | auto].
  - intros k Hk. pose proof (sts_sum_del c (sts_clients ms) k). pose proof (sts_sum_del c (c20_live ts) k).
    specialize (C c k Hk). specialize (E k Hk). lia.
  - intros k Hk. rewrite F, C by assumption. reflexivity.
Qed.

(* a call that adds dg to the entry, field by field, on both sides; nothing on a gauge *)
Lemma c20_rel_add : forall P ms ts c f g h (dg : sts_ctr -> N), c20_rel P ms ts ->
  (forall v k, g v k = v k + dg k) -> (forall v k, h v k = v k + dg k) ->
  (forall k, sts_is_gauge k = true -> dg k = 0) ->
  c20_rel P (sts_both ms c f g) (c20_on_client ts c h).
Proof.
  intros P ms ts c f g h dg H Hg Hh H0. apply c20_rel_upd; [exact H | |].
  - intros k Hk. rewrite Hg, Hh, (rel_val _ _ _ H) by assumption. reflexivity.
  - intros k Hk Hgk. rewrite Hh, H0, N.add_0_r by assumption. apply (rel_lt _ _ _ H); assumption.
Qed.

(* a packet: for a PUBLISH messageReceived / messageSent first, then packetReceived / packetSent *)
Lemma c20_rel_pkt : forall P ms ts c d t q sz, c20_rel P ms ts ->
  c20_rel P (sts_both (match t with
                       | StsPublish => sts_both ms c (fun v => sts_add v (c20_msg_key d q) 1) (fun v => sts_add v (c20_msg_key d q) 1)
                       | _ => ms
                       end) c (fun v => sts_packet_add v d t sz) (fun v => sts_packet_add v d t sz))
            (c20_on_client ts c (fun v => c20_pkt v d t q sz)).
Proof.
  intros P ms ts c d t q sz H.
  destruct t; rewrite ?sts_both_both;
    (eapply c20_rel_add; [exact H | | intros; apply c20_pkt_at | apply c20_pkt_delta_gauge]);
    intros v k; rewrite ?sts_packet_add_at, ?sts_add_at; unfold c20_pkt_delta; lia.
Qed.

(* what the queue notifier's call does, for either gauge *)
Lemma sts_notify_run : forall gk ms c d, (gk = StsQueued \/ gk = StsInflight) ->
  sts_run_from ms (match gk with StsQueued => sts_notify_queue c d | _ => sts_notify_inflight c d end) =
  if (0 <? d)%Z then sts_both ms c (fun v => sts_wadd v gk (Z.to_N d)) (fun v => sts_wadd v gk (Z.to_N d))
  else if (d <? 0)%Z then
    if sts_val c (sts_clients ms) gk =? 0 then sts_both ms c (fun v => v) (fun v => v)
    else sts_both ms c (fun v => sts_wsub v gk (Z.to_N (- d))) (fun v => sts_wsub v gk (Z.to_N (- d)))
  else ms.
Proof.
  intros gk ms c d [-> | ->]; [unfold sts_notify_queue | unfold sts_notify_inflight];
    destruct (0 <? d)%Z; [reflexivity| |reflexivity|]; destruct (d <? 0)%Z; reflexivity.
Qed.

(* a queue grows or shrinks by d and reports it: where the relation covers the gauge, the queue must hold what is taken *)
Lemma c20_rel_gauge : forall P gk ms ts c (d : Z), (gk = StsQueued \/ gk = StsInflight) -> c20_rel P ms ts ->
  (P gk -> (0 <= Z.of_N (sts_val c (c20_live ts) gk) + d < Z.of_N sts_M64)%Z) ->
  c20_rel P (sts_run_from ms (match gk with StsQueued => sts_notify_queue c d | _ => sts_notify_inflight c d end))
            (c20_on_client ts c (fun v => c20_gauge_add v gk d)).
Proof.
  intros P gk ms ts c d Hgk H Hd. rewrite sts_notify_run by assumption.
  (* the model entry is rewritten by g at gk only; there it gets the truth's new value *)
  assert (U : forall f g, (forall v k, gk <> k -> g v k = v k) ->
            (P gk -> g (sts_val c (sts_clients ms)) gk = Z.to_N (Z.of_N (sts_val c (c20_live ts) gk) + d)) ->
            c20_rel P (sts_both ms c f g) (c20_on_client ts c (fun v => c20_gauge_add v gk d))).
  { intros f g Ho Hs. apply c20_rel_upd; [exact H | |]; intros k Hk;
      (destruct (sts_ctr_eq_dec gk k) as [<-|Hne];
       [rewrite c20_gauge_add_same | rewrite c20_gauge_add_other by assumption]).
    - auto.
    - rewrite Ho by assumption. apply (rel_val _ _ _ H); assumption.
    - intros _. specialize (Hd Hk). lia.
    - apply (rel_lt _ _ _ H); assumption. }
  assert (Hc : P gk -> sts_val c (sts_clients ms) gk = sts_val c (c20_live ts) gk /\ sts_val c (c20_live ts) gk < sts_M64)
    by (split; [apply (rel_val _ _ _ H) | apply (rel_lt _ _ _ H); try apply sts_gauge_keys]; assumption).
  destruct (Z.ltb_spec 0 d); [|destruct (Z.ltb_spec d 0)].
  - apply U; [intros; apply sts_wadd_other; assumption|].
    intros Hp. destruct (Hc Hp) as [E ?]. specialize (Hd Hp). rewrite sts_wadd_same, E, N.mod_small; lia.
  - assert (Hs : P gk -> sts_wsub (sts_val c (sts_clients ms)) gk (Z.to_N (- d)) gk = Z.to_N (Z.of_N (sts_val c (c20_live ts) gk) + d)).
    { intros Hp. destruct (Hc Hp) as [E ?]. specialize (Hd Hp). unfold sts_wsub. rewrite sts_wadd_same, E, sts_wsub_exact; lia. }
    destruct (N.eqb_spec (sts_val c (sts_clients ms) gk) 0) as [E|_]; apply U; auto.
    + (* the guard cannot fire where the relation covers gk: the queue held what was taken *)
      intros Hp. destruct (Hc Hp) as [E' _]. specialize (Hd Hp). rewrite E' in *. lia.
    + intros; unfold sts_wsub; apply sts_wadd_other; assumption.
  - apply c20_rel_truth_only; [exact H|]. intros k Hk. replace d with 0%Z by lia.
    destruct (sts_ctr_eq_dec gk k) as [<-|Hne]; [rewrite c20_gauge_add_same; lia | apply c20_gauge_add_other; assumption].
Qed.

Definition c20_gauge_ok_step (gk : sts_ctr) (ts : c20_state) (e : c20_gevent) : Prop :=
  match e, gk with
  | C20Queue c d, StsQueued | C20Inflight c d, StsInflight =>
      (0 <= Z.of_N (sts_val c (c20_live ts) gk) + d < Z.of_N sts_M64)%Z
  | _, _ => True
  end.
Fixpoint c20_gauge_ok_from (gk : sts_ctr) (ts : c20_state) (log : list c20_gevent) : Prop :=
  match log with [] => True | e :: r => c20_gauge_ok_step gk ts e /\ c20_gauge_ok_from gk (c20_step ts e) r end.
(* the log never takes more out of a queue than it holds *)
Definition c20_gauge_ok (gk : sts_ctr) (log : list c20_gevent) : Prop := c20_gauge_ok_from gk c20_init log.

Lemma c20_rel_step : forall P ms ts e, c20_rel P ms ts ->
  (forall gk, P gk -> sts_is_gauge gk = true -> c20_gauge_ok_step gk ts e) ->
  c20_rel P (sts_run_from ms (c20_calls e)) (c20_step ts e).
Proof.
  intros P ms ts e H Hok. destruct e; cbn [c20_calls c20_step].
  - destruct t; exact (c20_rel_pkt P ms ts c StsRx _ q sz H).
  - destruct t; exact (c20_rel_pkt P ms ts c StsTx _ q sz H).
  - (* a PUBLISH over the receive quota is reported like any other *)
    exact (c20_rel_pkt P ms ts c StsRx StsPublish q sz H).
  - apply (c20_rel_add _ _ _ _ _ _ _ (fun k' => if sts_ctr_eq_dec (StsDropped q k) k' then 1 else 0)); [exact H | | |].
    + intros; apply sts_add_at.
    + intros; apply sts_add_at.
    + intros k' Hk. destruct k'; try discriminate; reflexivity.
  - apply (c20_rel_gauge P StsQueued); auto. intros Hp. exact (Hok _ Hp eq_refl).
  - apply (c20_rel_gauge P StsInflight); auto. intros Hp. exact (Hok _ Hp eq_refl).
  - apply (c20_rel_frame P ms ts); [exact H | reflexivity ..].
  - destruct kept.
    + apply (c20_rel_frame P ms ts); [exact H | reflexivity ..].
    + eapply c20_rel_frame; [apply (c20_rel_end P ms ts c StsRNormal), H | reflexivity ..].
  - apply c20_rel_end, H.
Qed.

Lemma c20_rel_run : forall P log ms ts, c20_rel P ms ts ->
  (forall gk, P gk -> sts_is_gauge gk = true -> c20_gauge_ok_from gk ts log) ->
  c20_rel P (sts_run_from ms (flat_map c20_calls log)) (fold_left c20_step log ts).
Proof.
  intros P. induction log as [|e r IH]; intros ms ts H Hok; simpl; [exact H|].
  rewrite sts_run_from_app. apply IH; [apply c20_rel_step; [exact H|] |]; intros gk Hp Hg; apply (Hok gk Hp Hg).
Qed.

(* the counters agree for EVERY log *)
Lemma c20_rel_counters : forall log, c20_rel (fun k => sts_exact k = true) (sts_run (flat_map c20_calls log)) (c20_run log).
Proof.
  intros log. apply c20_rel_run; [apply c20_rel_init|].
  intros gk Hk Hg. destruct (sts_key_apart _ _ Hk Hg eq_refl).
Qed.

(* for EVERY log, what GetGlobalStats / GetClientStats hand out equals the truth on every counter: packets and
   bytes per type and direction (Auth included), totals, messages received / sent per QoS, dropped per QoS and reason *)
Theorem c20_counters_global : forall log k, sts_exact k = true ->
  stv_glob (c20_model log) k = stv_glob (c20_truth log) k.
Proof.
  intros log k Hk. pose proof (c20_rel_counters log) as R.
  unfold c20_model, c20_truth, sts_view_of, c20_view; cbn [stv_glob]. unfold sts_copy.
  rewrite sts_global_is_sum by assumption. unfold sts_total.
  rewrite (rel_sum _ _ _ R), (rel_gone _ _ _ R) by assumption.
  destruct k; try reflexivity; discriminate.
Qed.
Theorem c20_counters_client : forall log c k, sts_exact k = true ->
  sts_val c (stv_clients (c20_model log)) k = sts_val c (stv_clients (c20_truth log)) k.
Proof.
  intros log c k Hk. unfold c20_model, c20_truth, sts_view_of, c20_view; cbn [stv_clients].
  rewrite sts_val_copy. apply (rel_val _ _ _ (c20_rel_counters log)), Hk.
Qed.

Lemma c20_rel_gauges : forall gk log, (gk = StsQueued \/ gk = StsInflight) -> c20_gauge_ok gk log ->
  c20_rel (eq gk) (sts_run (flat_map c20_calls log)) (c20_run log).
Proof. intros gk log Hgk Hok. apply c20_rel_run; [apply c20_rel_init|]. intros ? <- _. exact Hok. Qed.

(* per client, QueuedCurrent / InflightCurrent equal the contents of the session's queue *)
Theorem c20_client_gauges : forall gk log c, (gk = StsQueued \/ gk = StsInflight) -> c20_gauge_ok gk log ->
  sts_val c (stv_clients (c20_model log)) gk = sts_val c (stv_clients (c20_truth log)) gk.
Proof.
  intros gk log c Hgk Hok. unfold c20_model, c20_truth, sts_view_of, c20_view; cbn [stv_clients].
  rewrite sts_val_copy. apply (rel_val _ _ _ (c20_rel_gauges gk log Hgk Hok)). reflexivity.
Qed.
(* globally they equal the contents of all live sessions' queues (as uint64) *)
Theorem c20_global_gauges : forall gk log, (gk = StsQueued \/ gk = StsInflight) -> c20_gauge_ok gk log ->
  stv_glob (c20_model log) gk = stv_glob (c20_truth log) gk mod sts_M64.
Proof.
  intros gk log Hgk Hok.
  unfold c20_model, c20_truth, sts_view_of, c20_view; cbn [stv_glob]. unfold sts_copy.
  rewrite sts_gauge_live_sum by (apply sts_gauge_keys, Hgk).
  rewrite (rel_sum _ _ _ (c20_rel_gauges gk log Hgk Hok) gk eq_refl).
  destruct Hgk as [-> | ->]; reflexivity.
Qed.

Lemma c20_in_remove : forall x c l, In x (c20_remove c l) <-> In x l /\ x <> c.
Proof.
  intros x c l. induction l as [|y r IH]; simpl; [tauto|].
  destruct (N.eqb_spec c y); subst; simpl; rewrite IH; intuition congruence.
Qed.
Lemma c20_remove_notin : forall c l, ~ In c l -> c20_remove c l = l.
Proof.
  intros c l. induction l as [|y r IH]; simpl; intros H; [reflexivity|].
  destruct (N.eqb_spec c y); subst; [tauto|]. rewrite IH; tauto.
Qed.
Lemma c20_nodup_remove : forall c l, NoDup l -> NoDup (c20_remove c l).
Proof.
  intros c l H. induction H as [|y r Hy Hr IH]; simpl; [constructor|].
  destruct (c =? y); [assumption|]. constructor; [rewrite c20_in_remove; tauto | assumption].
Qed.
Lemma c20_remove_len : forall c l, NoDup l -> In c l -> S (length (c20_remove c l)) = length l.
Proof.
  intros c l H. induction H as [|y r Hy Hr IH]; simpl; intros Hin; [tauto|].
  destruct (N.eqb_spec c y); subst.
  - rewrite c20_remove_notin by assumption. reflexivity.
  - simpl. rewrite IH; [reflexivity|]. destruct Hin; congruence.
Qed.

(* a session enters / leaves a list whose length a uint64 gauge x tracks *)
Lemma c20_len_enter : forall c l x, ~ In c l -> x = N.of_nat (length l) mod sts_M64 ->
  (x + 1) mod sts_M64 = N.of_nat (length (c :: c20_remove c l)) mod sts_M64.
Proof.
  intros c l x Hn ->. rewrite c20_remove_notin by assumption. cbn [length].
  rewrite Nat2N.inj_succ, <- N.add_1_r. apply N.add_mod_idemp_l, sts_M64_nz.
Qed.
Lemma c20_len_leave : forall c l x, NoDup l -> In c l -> x = N.of_nat (length l) mod sts_M64 ->
  (x + sts_neg 1) mod sts_M64 = N.of_nat (length (c20_remove c l)) mod sts_M64.
Proof.
  intros c l x Hnd Hin ->. rewrite <- (c20_remove_len c l Hnd Hin), Nat2N.inj_succ, <- N.add_1_r.
  rewrite N.add_mod_idemp_l by apply sts_M64_nz. change (sts_neg 1) with (sts_M64 - 1).
  replace (N.of_nat (length (c20_remove c l)) + 1 + (sts_M64 - 1))
    with (N.of_nat (length (c20_remove c l)) + 1 * sts_M64) by (unfold sts_M64; lia).
  apply N.mod_add, sts_M64_nz.
Qed.
Lemma sts_mod_dec_inc : forall x, ((x + sts_neg 1) mod sts_M64 + 1) mod sts_M64 = x mod sts_M64.
Proof.
  intros x. rewrite N.add_mod_idemp_l, <- N.add_assoc by apply sts_M64_nz.
  change (sts_neg 1 + 1) with (1 * sts_M64). apply N.mod_add, sts_M64_nz.
Qed.

Lemma sts_cadd_at : forall v k d k', sts_cadd v k d k' = v k' + (if sts_cctr_eq_dec k k' then d else 0).
Proof. intros. unfold sts_cadd. destruct (sts_cctr_eq_dec k k'); lia. Qed.
Lemma sts_cadd_other : forall v k d k', k <> k' -> sts_cadd v k d k' = v k'.
Proof. intros. unfold sts_cadd. destruct (sts_cctr_eq_dec k k'); congruence. Qed.
Lemma sts_cwadd_other : forall v k d k', k <> k' -> sts_cwadd v k d k' = v k'.
Proof. intros. unfold sts_cwadd. destruct (sts_cctr_eq_dec k k'); congruence. Qed.
Lemma sts_cwadd_same : forall v k d, sts_cwadd v k d k = (v k + d) mod sts_M64.
Proof. intros. unfold sts_cwadd. destruct (sts_cctr_eq_dec k k); congruence. Qed.

Definition c20_conn_gauge (k : sts_cctr) : bool := match k with StsActive | StsInactive => true | _ => false end.

Definition c20_life_ok_step (ts : c20_state) (e : c20_gevent) : Prop :=
  match e with
  | C20Connected c true => ~ In c (c20_online ts) /\ ~ In c (c20_offline ts)
  | C20Connected c false => ~ In c (c20_online ts) /\ In c (c20_offline ts)
  | C20Disconnected c _ => In c (c20_online ts)
  | C20Ended c _ => In c (c20_offline ts)
  | _ => True
  end.
Fixpoint c20_life_ok_from (ts : c20_state) (log : list c20_gevent) : Prop :=
  match log with [] => True | e :: r => c20_life_ok_step ts e /\ c20_life_ok_from (c20_step ts e) r end.
(* sessions are created when absent, resumed when offline, disconnected when online, ended when offline *)
Definition c20_life_ok (log : list c20_gevent) : Prop := c20_life_ok_from c20_init log.

(* the online and the offline sessions: no session is listed twice *)
Definition c20_apart (on off : list N) : Prop :=
  NoDup on /\ NoDup off /\ forall c, In c on -> ~ In c off.

Lemma c20_apart_remove : forall c on off, c20_apart on off -> c20_apart (c20_remove c on) (c20_remove c off).
Proof.
  intros c on off (Hon & Hoff & Hd). split; [|split]; try now apply c20_nodup_remove.
  intros x Hx Hy. rewrite c20_in_remove in *. apply (Hd x); tauto.
Qed.

(* a session is moved to the front of one of the lists *)
Lemma c20_apart_online : forall c on off, c20_apart on off -> c20_apart (c :: c20_remove c on) (c20_remove c off).
Proof.
  intros c on off H. destruct (c20_apart_remove c _ _ H) as (Hon & Hoff & Hd). split; [|split; [exact Hoff|]].
  - constructor; [rewrite c20_in_remove; tauto|exact Hon].
  - intros x [<-|Hx]; [rewrite c20_in_remove; tauto|now apply Hd].
Qed.

Lemma c20_apart_offline : forall c on off, c20_apart on off -> c20_apart (c20_remove c on) (c :: c20_remove c off).
Proof.
  intros c on off H. destruct (c20_apart_remove c _ _ H) as (Hon & Hoff & Hd). split; [exact Hon|split].
  - constructor; [rewrite c20_in_remove; tauto|exact Hoff].
  - intros x Hx [<-|Hy]; [rewrite c20_in_remove in Hx; tauto|now apply (Hd x)].
Qed.

Record c20_rel2 (ms : sts_state) (ts : c20_state) : Prop := {
  r2_cnt : forall k, c20_conn_gauge k = false -> sts_conn ms k = c20_cnt ts k;
  r2_act : sts_conn ms StsActive = N.of_nat (length (c20_online ts)) mod sts_M64;
  r2_ina : sts_conn ms StsInactive = N.of_nat (length (c20_offline ts)) mod sts_M64;
  r2_apart : c20_apart (c20_online ts) (c20_offline ts)
}.

Lemma c20_conn_keep : forall ms e,
  match e with C20Connected _ _ | C20Disconnected _ _ | C20Ended _ _ => False | _ => True end ->
  sts_conn (sts_run_from ms (c20_calls e)) = sts_conn ms.
Proof.
  intros ms e He. destruct e; try destruct He; cbn [c20_calls]; try (destruct t; reflexivity); try reflexivity;
    unfold sts_notify_queue, sts_notify_inflight; destruct (0 <? _)%Z; [reflexivity| |reflexivity|];
    (destruct (_ <? 0)%Z; [|reflexivity]); simpl; destruct (_ =? 0); reflexivity.
Qed.

Lemma sts_term_ctr_counter : forall r k, c20_conn_gauge k = true -> sts_term_ctr r <> k.
Proof. intros r k Hk <-. destruct r; discriminate. Qed.

Lemma c20_rel2_step : forall ms ts e, c20_life_ok_step ts e -> c20_rel2 ms ts ->
  c20_rel2 (sts_run_from ms (c20_calls e)) (c20_step ts e).
Proof.
  intros ms ts e Hok [A B C D]. pose proof D as (Hon & Hoff & Hd).
  destruct e; try solve [constructor; rewrite ?c20_conn_keep by exact I; simpl; auto]; simpl in Hok.
  - (* connected *)
    assert (Hnon : ~ In c (c20_online ts)) by (destruct created; tauto).
    constructor; cbn [c20_calls c20_step sts_run_from fold_left sts_step sts_set_conn sts_conn c20_cnt c20_online c20_offline].
    + intros k Hk. destruct created; rewrite !sts_cwadd_other by (intro; subst; discriminate);
        rewrite !sts_cadd_at, A by assumption; reflexivity.
    + rewrite sts_cwadd_same. apply c20_len_enter; [assumption|].
      destruct created; rewrite ?sts_cwadd_other, !sts_cadd_other by discriminate; exact B.
    + rewrite sts_cwadd_other by discriminate. destruct created.
      * rewrite !sts_cadd_other, c20_remove_notin by (discriminate || tauto). exact C.
      * rewrite sts_cwadd_same. apply c20_len_leave; [assumption | tauto |]. rewrite sts_cadd_other by discriminate. exact C.
    + now apply c20_apart_online.
  - (* disconnected: sessionTerminated first when the session goes with the connection *)
    pose proof (Hd c Hok) as Hnoff.
    destruct kept; constructor;
      cbn [c20_calls c20_step app sts_run_from fold_left sts_step sts_set_conn sts_conn c20_cnt c20_online c20_offline c20_end_session sts_term_ctr];
      unfold sts_inactive.
    + intros k Hk. rewrite !sts_cwadd_other by (intro; subst; discriminate). rewrite !sts_cadd_at, A by assumption. reflexivity.
    + rewrite sts_cwadd_other, sts_cwadd_same by discriminate. apply c20_len_leave; [assumption..|].
      rewrite sts_cadd_other by discriminate. exact B.
    + rewrite sts_cwadd_same. apply c20_len_enter; [assumption|]. rewrite sts_cwadd_other, sts_cadd_other by discriminate. exact C.
    + now apply c20_apart_offline.
    + intros k Hk. rewrite !sts_cwadd_other by (intro; subst; discriminate). rewrite !sts_cadd_at.
      rewrite sts_cwadd_other by (intro; subst; discriminate). rewrite !sts_cadd_at, A by assumption. lia.
    + rewrite sts_cwadd_other, sts_cwadd_same by discriminate. apply c20_len_leave; [assumption..|].
      rewrite sts_cadd_other, sts_cwadd_other, sts_cadd_other by discriminate. exact B.
    + (* InactiveCurrent goes down with the session and up again with the connection *)
      rewrite sts_cwadd_same, sts_cwadd_other, sts_cadd_other, sts_cwadd_same, sts_cadd_other by discriminate.
      rewrite sts_mod_dec_inc, c20_remove_notin, C by assumption. apply N.mod_mod, sts_M64_nz.
    + now apply c20_apart_remove.
  - (* ended *)
    constructor; cbn [c20_calls c20_step sts_run_from fold_left sts_step sts_conn c20_cnt c20_online c20_offline c20_end_session].
    + intros k Hk. rewrite sts_cwadd_other by (intro; subst; discriminate). rewrite !sts_cadd_at, A by assumption. reflexivity.
    + rewrite sts_cwadd_other, sts_cadd_other, c20_remove_notin by (discriminate || (apply sts_term_ctr_counter; reflexivity) || intro Hin; exact (Hd c Hin Hok)).
      exact B.
    + rewrite sts_cwadd_same. apply c20_len_leave; [assumption..|]. rewrite sts_cadd_other by (apply sts_term_ctr_counter; reflexivity). exact C.
    + now apply c20_apart_remove.
Qed.

Lemma c20_rel2_run : forall log ms ts, c20_life_ok_from ts log -> c20_rel2 ms ts ->
  c20_rel2 (sts_run_from ms (flat_map c20_calls log)) (fold_left c20_step log ts).
Proof.
  induction log as [|e r IH]; intros ms ts Hok H; simpl; [exact H|].
  destruct Hok as [H1 H2]. rewrite sts_run_from_app. apply IH; [assumption|]. apply c20_rel2_step; assumption.
Qed.
Lemma c20_rel2_init : c20_rel2 sts_init c20_init.
Proof. constructor; simpl; auto. repeat split; [constructor..|intros c []]. Qed.

(* connection counters equal the truth; ActiveCurrent / InactiveCurrent equal the number of online / offline sessions
   (as a uint64) *)
Theorem c20_connection_stats : forall log k, c20_life_ok log ->
  stv_conn (c20_model log) k = if c20_conn_gauge k then stv_conn (c20_truth log) k mod sts_M64 else stv_conn (c20_truth log) k.
Proof.
  intros log k Hok. pose proof (c20_rel2_run log _ _ Hok c20_rel2_init) as [A B C _].
  unfold c20_model, c20_truth, c20_run, sts_run, sts_view_of, c20_view; simpl.
  destruct k; simpl; try (apply A; reflexivity); assumption.
Qed.
