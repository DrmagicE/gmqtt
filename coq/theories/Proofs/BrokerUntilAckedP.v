(* C03, the at-least-once clause over whole steps and runs of the broker model (Model/Broker.v):
   an in-flight entry of a session queue leaves the in-flight part only by (a) the client's final
   acknowledgement, (b) the in-flight expiry applied by a full-queue Add (reported as
   ODropped .. DExpiredInflight; silently for a PUBREL entry), (c) the end of the session; otherwise it is
   still in flight after the step (a PUBREC turns a PUBLISH entry into a PUBREL entry with the same id).
   Combined with the replay theorem of Proofs/BrokerPollP.v: it is retransmitted after every resuming
   CONNECT, before any first transmission.
   The per-operation facts are in Proofs/BrokerPollP.v (the C03_until_acked lemmas), the invariant over runs in
   Proofs/BrokerPollGlobalP.v (GInv, run_wb).  The event part of a step is a composition of the edits of
   Proofs/BrokerEditsP.v; acknowledgements and a new queue aside, they keep the in-flight part of a queue, or
   report the drop. *)
From Coq Require Import List NArith ZArith Bool Arith Lia ZifyN ZifyNat ZifyBool.
Import ListNotations.
From GM Require Import Base.Topic Base.Msg Model.SubTrie Model.RetTrie Model.Queue Model.Limiter
                       Model.TopicMatch Model.Broker Proofs.TopicP Proofs.SubTrieP Proofs.LimiterP Proofs.QueueP
                       Proofs.BrokerBasicP Proofs.BrokerInvP Proofs.BrokerPollP Proofs.BrokerPollGlobalP.
From GM Require Proofs.BrokerQos2P Proofs.BrokerExpiryP Proofs.BrokerEditsP Proofs.BrokerOrderP.
Open Scope N_scope.

Lemma q_inf_of_nz l d : In d (q_inf_of l) -> e_id d <> 0.
Proof.
  induction l as [|x r IH]; cbn [q_inf_of]; [intros []|].
  destruct (e_id x =? 0) eqn:E; [intros []|]. apply N.eqb_neq in E.
  intros [<-|H]; [exact E|now apply IH].
Qed.

Lemma q_inf_of_app_in a b d : In d (q_inf_of a) -> In d (q_inf_of (a ++ b)).
Proof.
  induction a as [|x r IH]; cbn [q_inf_of app]; [intros []|].
  destruct (e_id x =? 0); [intros []|]. intros [<-|H]; [now left|right; now apply IH].
Qed.

Lemma q_inf_of_remove_nth l : forall i d,
  In d (q_inf_of l) -> In d (q_inf_of (remove_nth i l)) \/ nth_error l i = Some d.
Proof.
  induction l as [|x r IH]; intros i d; cbn [q_inf_of]; [intros []|].
  destruct (e_id x =? 0) eqn:E; [intros []|].
  destruct i as [|i]; cbn [remove_nth nth_error].
  - intros [<-|H]; [now right|now left].
  - cbn [q_inf_of]. rewrite E. intros [<-|H]; [left; now left|].
    destruct (IH i d H) as [H1|H1]; [left; now right|now right].
Qed.

(* an entry is replaced by one with the same packet id *)
Lemma q_inf_of_replace_nth e l : forall i d0 d,
  nth_error l i = Some d0 -> e_id e = e_id d0 -> In d (q_inf_of l) ->
  In d (q_inf_of (replace_nth i e l)) \/ (d = d0 /\ In e (q_inf_of (replace_nth i e l))).
Proof.
  induction l as [|x r IH]; intros i d0 d; cbn [q_inf_of]; [intros _ _ []|].
  destruct (e_id x =? 0) eqn:E; [intros _ _ []|].
  destruct i as [|i]; cbn [replace_nth nth_error q_inf_of].
  - intros Hn He. inversion Hn; subst d0. rewrite He, E.
    intros [<-|H]; [right; split; [reflexivity|now left]|left; now right].
  - rewrite E. intros Hn He [<-|H]; [left; now left|].
    destruct (IH i d0 d Hn He H) as [H1|[H1 H2]]; [left; now right|right; split; [exact H1|now right]].
Qed.

Lemma q_inf_init_clean v5 lim q : q_inf (q_init true v5 lim q) = []. Proof. reflexivity. Qed.

Lemma q_inf_nz q d : In d (q_inf q) -> e_id d <> 0.
Proof. apply q_inf_of_nz. Qed.

(* Add: an in-flight entry stays, or it is the expired entry the full queue sacrifices *)
Lemma q_add_keeps now e q q' evs d :
  q_add now e q = QOk (q', evs) -> In d (q_inf q) ->
  In d (q_inf q') \/ (expired now d = true /\ In (EvDropped d DExpiredInflight) evs).
Proof.
  intros Hadd Hd. pose proof Hadd as Hadd0. unfold q_add in Hadd. unfold q_inf in *.
  destruct (q_max q <=? length (q_l q))%nat.
  - destruct (add_victim now e q) as [|r|i r] eqn:Ev; [discriminate| |].
    + inversion Hadd; subst q' evs. now left.
    + destruct (nth_error (q_l q) i) as [d0|] eqn:En; [|discriminate].
      inversion Hadd; subst q' evs. clear Hadd. cbn [q_l q_set].
      destruct (q_inf_of_remove_nth (q_l q) i d Hd) as [H|H]; [left; now apply q_inf_of_app_in|].
      rewrite En in H. inversion H; subst d0. clear H.
      destruct (add_victim_spec _ _ _ _ _ Ev) as [[-> _]|(_ & _ & H0)].
      * right. split; [|apply in_or_app; right; now left].
        apply (q_add_inflight_drop_expired now e q _ d [EvInflight (-1)] [] Hadd0).
      * exfalso. apply (q_inf_of_nz _ _ Hd). now apply H0.
  - inversion Hadd; subst q' evs. left. cbn [q_l q_set]. now apply q_inf_of_app_in.
Qed.

(* Remove(pid) *)
Lemma q_remove_keeps pid q d : In d (q_inf q) -> In d (q_inf (fst (q_remove pid q))) \/ e_id d = pid.
Proof.
  intros Hd. unfold q_remove. destruct (find_id pid (q_l q) (q_cur q) 0) as [i|] eqn:Ef; cbn [fst]; [|now left].
  destruct (find_id_some _ _ _ _ _ Ef) as (k & d0 & -> & _ & Hn & Hid). cbn [Nat.add].
  unfold q_inf in *. cbn [q_l q_set].
  destruct (q_inf_of_remove_nth (q_l q) k d Hd) as [H|H]; [now left|].
  right. congruence.
Qed.

(* Replace(e): the entry with the id of e becomes e *)
Lemma q_replace_keeps e q d :
  In d (q_inf q) ->
  In d (q_inf (fst (q_replace e q))) \/ (e_id d = e_id e /\ In e (q_inf (fst (q_replace e q)))).
Proof.
  intros Hd. unfold q_replace. destruct (find_id (e_id e) (q_l q) (q_cur q) 0) as [i|] eqn:Ef; cbn [fst]; [|now left].
  destruct (find_id_some _ _ _ _ _ Ef) as (k & d0 & -> & _ & Hn & Hid). cbn [Nat.add].
  unfold q_inf in *. cbn [q_l q_set].
  destruct (q_inf_of_replace_nth e (q_l q) k d0 d Hn (eq_sym Hid) Hd) as [H|[-> H]]; [now left|right; auto].
Qed.

(* (b): the entry was dropped because it had expired in flight; the drop of a PUBLISH entry is reported,
   the drop of a PUBREL entry is silent (drops_of has no output for it) *)
Definition xdrop (cid : str) (now : N) (o : list out) (d : elem) : Prop :=
  expired now d = true /\
  match e_body d with QPub m => In (ODropped cid m DExpiredInflight) o | QRel _ => True end.

Definition dsub (cid : str) (o o' : list out) : Prop :=
  forall m, In (ODropped cid m DExpiredInflight) o -> In (ODropped cid m DExpiredInflight) o'.

Lemma dsub_refl cid o : dsub cid o o. Proof. intros m H. exact H. Qed.
Lemma dsub_app_l cid o o' : dsub cid o (o ++ o'). Proof. intros m H. apply in_or_app. now left. Qed.
Lemma dsub_app_r cid o o' : dsub cid o' (o ++ o'). Proof. intros m H. apply in_or_app. now right. Qed.

Lemma xdrop_mono cid now o o' d : dsub cid o o' -> xdrop cid now o d -> xdrop cid now o' d.
Proof. intros Hs [H1 H2]. split; [exact H1|]. destruct (e_body d); [now apply Hs|exact I]. Qed.

(* the queue table Q' descends from Q as far as client id cid is concerned: no queue appears for cid, and the
   in-flight entries of its queue stay (the same elements) unless dropped as expired *)
Definition qkeep (cid : str) (now : N) (o : list out) (Q Q' : list (str * queue)) : Prop :=
  (NoDup (keys Q) -> NoDup (keys Q')) /\
  (aget cid Q = None -> aget cid Q' = None) /\
  (NoDup (keys Q) -> forall q q' d, aget cid Q = Some q -> aget cid Q' = Some q' -> In d (q_inf q) ->
     In d (q_inf q') \/ xdrop cid now o d).

Lemma qkeep_refl cid now o Q : qkeep cid now o Q Q.
Proof.
  split; [auto|]. split; [auto|]. intros _ q q' d Hq Hq' Hd. rewrite Hq in Hq'. inversion Hq'; subst. now left.
Qed.

Lemma qkeep_trans cid now o1 o2 Q Q1 Q2 :
  qkeep cid now o1 Q Q1 -> qkeep cid now o2 Q1 Q2 -> qkeep cid now (o1 ++ o2) Q Q2.
Proof.
  intros (A1 & A2 & A3) (B1 & B2 & B3). split; [auto|]. split; [auto|].
  intros Hnd q q2 d Hq Hq2 Hd. destruct (aget cid Q1) as [q1|] eqn:Hq1.
  - destruct (A3 Hnd q q1 d Hq eq_refl Hd) as [H|H]; [|right; eapply xdrop_mono; [apply dsub_app_l|exact H]].
    destruct (B3 (A1 Hnd) q1 q2 d eq_refl Hq2 H) as [H'|H']; [now left|right; eapply xdrop_mono; [apply dsub_app_r|exact H']].
  - rewrite (B2 eq_refl) in Hq2. discriminate.
Qed.

Lemma qkeep_aset cid now o cid' q0 q1 Q :
  aget cid' Q = Some q0 ->
  (cid' = cid -> forall d, In d (q_inf q0) -> In d (q_inf q1) \/ xdrop cid now o d) ->
  qkeep cid now o Q (aset cid' q1 Q).
Proof.
  intros Hq0 Hk. split; [apply NoDup_aset|]. split.
  - intros Hn. destruct (str_eqb_spec cid cid') as [->|Hne]; [congruence|]. now rewrite aget_aset_other.
  - intros _ q q' d Hq Hq' Hd. destruct (str_eqb_spec cid cid') as [->|Hne].
    + rewrite aget_aset_same in Hq'. inversion Hq'; subst q'. rewrite Hq0 in Hq. inversion Hq; subst q0. now apply Hk.
    + rewrite aget_aset_other in Hq' by exact Hne. rewrite Hq in Hq'. inversion Hq'; subst. now left.
Qed.

(* a queue installed for another client id (CONNECT of another client) *)
Lemma qkeep_aset_other cid now o cid' q1 Q : cid' <> cid -> qkeep cid now o Q (aset cid' q1 Q).
Proof.
  intros Hne. assert (Hne' : cid <> cid') by (intros E; apply Hne; now symmetry).
  split; [apply NoDup_aset|]. split.
  - intros Hn. now rewrite aget_aset_other.
  - intros _ q q' d Hq Hq' Hd. rewrite aget_aset_other in Hq' by exact Hne'. rewrite Hq in Hq'. inversion Hq'; subst. now left.
Qed.

Lemma qkeep_adel cid now o cid' Q : qkeep cid now o Q (adel cid' Q).
Proof.
  split; [apply NoDup_adel|]. split.
  - intros Hn. destruct (str_eqb_spec cid cid') as [->|Hne]; [now rewrite adel_absent|].
    now rewrite aget_adel_other.
  - intros Hnd q q' d Hq Hq' Hd. destruct (str_eqb_spec cid cid') as [->|Hne].
    + rewrite (aget_adel _ _ _ Hnd), str_eqb_refl in Hq'. discriminate.
    + rewrite aget_adel_other in Hq' by exact Hne. rewrite Hq in Hq'. inversion Hq'; subst. now left.
Qed.

(* the same on states: the clock does not move, the queue table descends *)
Record keeps (cid : str) (s s' : st) (o : list out) : Prop := {
  kp_now : b_now s' = b_now s;
  kp_q : qkeep cid (b_now s) o (b_queues s) (b_queues s') }.

Lemma keeps_trans cid s s1 s2 o1 o2 : keeps cid s s1 o1 -> keeps cid s1 s2 o2 -> keeps cid s s2 (o1 ++ o2).
Proof.
  intros [A1 A2] [B1 B2]. split; [congruence|]. rewrite A1 in B2. eapply qkeep_trans; eauto.
Qed.

(* stage, then a stage whose outputs are appended: the shape `let '(s', o') := f s0 in (s', o0 ++ o')` *)
Lemma keeps_step cid s s0 o0 (r : st * list out) :
  keeps cid s s0 o0 -> keeps cid s0 (fst r) (snd r) -> keeps cid s (fst r) (o0 ++ snd r).
Proof. apply keeps_trans. Qed.

(* the edits of BrokerEditsP keep the in-flight entries of cid, unless cid may get a new queue *)
Lemma edits_keeps cid P fresh s o s' : BrokerEditsP.edits P fresh false s o s' -> ~ fresh cid -> keeps cid s s' o.
Proof.
  intros H Hf.
  induction H as [s o s' E _|s s1 s2 o1 o2 _ K1 _ K2|s c q q' Hq Hl|s c q e m q' evs Hq Hqa _ _ _
                 |? ? ? ? A|? ? ? ? ? A|s c q' u Hc _|s c|s m _|s c se on off _|s c w _|s c];
    try discriminate; try (split; [reflexivity|apply qkeep_refl]).
  - destruct (BrokerEditsP.tracked_inv _ _ E) as (_ & _ & En & _ & _ & _ & Eq & _).
    split; [exact En|]. rewrite Eq. apply qkeep_refl.
  - eapply keeps_trans; eauto.
  - split; [reflexivity|]. apply (qkeep_aset cid _ _ c q q' _ Hq). intros _ d Hd. left. unfold q_inf. now rewrite Hl.
  - split; [reflexivity|]. apply (qkeep_aset cid _ _ c q q' _ Hq). intros -> d Hd.
    destruct (q_add_keeps _ _ _ _ _ d Hqa Hd) as [H|[H1 H2]]; [now left|right].
    split; [exact H1|]. destruct (e_body d) as [m0|p] eqn:Eb; [|exact I]. apply BrokerExpiryP.in_drops_of. eauto 6.
  - split; [reflexivity|]. apply qkeep_aset_other. intros ->. now apply Hf.
  - split; [reflexivity|apply qkeep_adel].
Qed.

(* (a) the acknowledgement that completes the exchange: PUBACK, PUBCOMP, (v5) PUBREC with a code >= 128 *)
Definition final_ack (v : N) (p : pkt) : option N :=
  match p with
  | KPuback pid _ _ | KPubcomp pid _ _ => Some pid
  | KPubrec pid code _ => if (v =? 5) && (128 <=? code) then Some pid else None
  | _ => None
  end.

(* a PUBREC that continues the exchange: the PUBLISH entry becomes a PUBREL entry *)
Definition pubrec_ok (v : N) (p : pkt) : option N :=
  match p with
  | KPubrec pid code _ => if (v =? 5) && (128 <=? code) then None else Some pid
  | _ => None
  end.

Lemma is_ack_split v p pid : is_ack p = Some pid -> final_ack v p = Some pid \/ pubrec_ok v p = Some pid.
Proof.
  destruct p; cbn [is_ack final_ack pubrec_ok]; try discriminate; intros H; auto.
  destruct ((v =? 5) && (128 <=? code)); auto.
Qed.

Lemma queue_op_queue cid cid' f s q :
  aget cid (b_queues s) = Some q ->
  aget cid (b_queues (queue_op cid' f s)) = Some (if str_eqb cid cid' then f q else q).
Proof.
  intros Hq. unfold queue_op. destruct (str_eqb_spec cid cid') as [<-|Hne].
  - rewrite Hq. cbn [set_queues b_queues]. apply aget_aset_same.
  - destruct (aget cid' (b_queues s)); [|exact Hq]. cbn [set_queues b_queues]. now rewrite aget_aset_other.
Qed.

Lemma release_id_queues c pid s : b_queues (release_id c pid s) = b_queues s.
Proof. unfold release_id. destruct (nget c (b_conns s)); reflexivity. Qed.
Lemma release_id_now c pid s : b_now (release_id c pid s) = b_now s.
Proof. unfold release_id. destruct (nget c (b_conns s)); reflexivity. Qed.
Lemma queue_op_now cid f s : b_now (queue_op cid f s) = b_now s.
Proof. unfold queue_op. destruct (aget cid (b_queues s)); reflexivity. Qed.

(* an acknowledgement is handled without error, without a drop, and the entry it names is the only one to go *)
Lemma ack_track cid c k p pid s q d :
  is_ack p = Some pid -> aget cid (b_queues s) = Some q -> In d (q_inf q) ->
  exists s1 o1 q1, handle_packet c k p s = HOk s1 o1 /\ b_now s1 = b_now s /\ b_online s1 = b_online s /\
    aget cid (b_queues s1) = Some q1 /\
    (In d (q_inf q1) \/
     (cid = k_cid k /\ e_id d = pid /\
      (final_ack (k_v k) p = Some pid \/
       (pubrec_ok (k_v k) p = Some pid /\ exists d1, In d1 (q_inf q1) /\ rkey d1 = inr pid)))).
Proof.
  intros Hack Hq Hd.
  (* PUBACK, PUBCOMP, PUBREC >= 128: Remove(pid) and the id goes back to the limiter *)
  assert (Hrem : final_ack (k_v k) p = Some pid ->
            exists s1 o1 q1, HOk (release_id c pid (queue_op (k_cid k) (fun q => fst (q_remove pid q)) s)) [] = HOk s1 o1 /\
              b_now s1 = b_now s /\ b_online s1 = b_online s /\ aget cid (b_queues s1) = Some q1 /\
              (In d (q_inf q1) \/ (cid = k_cid k /\ e_id d = pid /\ (final_ack (k_v k) p = Some pid \/
                 (pubrec_ok (k_v k) p = Some pid /\ exists d1, In d1 (q_inf q1) /\ rkey d1 = inr pid))))).
  { intros Hf. do 3 eexists. split; [reflexivity|]. rewrite release_id_now, queue_op_now. split; [reflexivity|]. split.
    { rewrite (fr_on _ _ (release_id_frame c pid _)). apply (fr_on _ _ (queue_op_frame _ _ s)). }
    rewrite release_id_queues, (queue_op_queue cid (k_cid k) _ s q Hq). split; [reflexivity|].
    destruct (str_eqb_spec cid (k_cid k)) as [E|E]; [|now left].
    destruct (q_remove_keeps pid q d Hd) as [H|H]; [now left|right; auto]. }
  destruct p; cbn [is_ack] in Hack; try discriminate; inversion Hack; subst pid0; cbn [handle_packet final_ack pubrec_ok] in *;
    [now apply Hrem| |now apply Hrem].
  destruct ((k_v k =? 5) && (128 <=? code)); [now apply Hrem|]. clear Hrem.
  (* PUBREC: Replace by the PUBREL entry *)
  set (e := {| e_tag := 0; e_at := b_now s; e_expiry := None; e_body := QRel pid |}).
  do 3 eexists. split; [reflexivity|]. rewrite queue_op_now. split; [reflexivity|].
  split; [apply (fr_on _ _ (queue_op_frame _ _ s))|].
  rewrite (queue_op_queue cid (k_cid k) _ s q Hq). split; [reflexivity|].
  destruct (str_eqb_spec cid (k_cid k)) as [E|E]; [|now left].
  destruct (q_replace_keeps e q d Hd) as [H|[H1 H2]]; [now left|right].
  split; [exact E|]. split; [exact H1|]. right. split; [reflexivity|]. exists e. split; [exact H2|reflexivity].
Qed.

Lemma hc_accept_out c cn s :
  In (OSend c (KConnack (BrokerEditsP.hc_resumed cn s) 0 (hc_props (hc_cid cn s) cn (b_cfg s)))) (snd (hc_accept c cn s)) /\
  aget (hc_cid cn s) (b_online (fst (hc_accept c cn s))) = Some c.
Proof.
  unfold hc_accept, BrokerEditsP.hc_resumed. cbv zeta. set (cid := hc_cid cn s).
  destruct (hc_takeover cid (hc_auto cn s)) as [s1 o_dup]. cbn [fst].
  destruct (hc_old cid (cn_ver cn =? 5) (hc_cmax cn) (hc_resume0 cid cn s1) s1) as [[s2 o_will] resume]. cbn [snd].
  destruct (hc_wd_exp cn (b_cfg s)) as [wd ex].
  match goal with |- context [hc_wills o_will ?S] =>
    pose proof (hc_wills_quiet o_will S) as [F5 _]; set (s4 := S) in *; destruct (hc_wills o_will s4) as [s5 o_w] end.
  cbn [fst snd] in *. split.
  - apply in_or_app. right. now left.
  - rewrite (fr_on _ _ F5). unfold s4, hc_register. cbn [set_tables b_online]. apply aget_aset_same.
Qed.

Definition ev_packet (e : event) : option (N * pkt) :=
  match e with ESend c p | ESendSz c p _ => Some (c, p) | _ => None end.

(* the packet p arrives on the socket c that the session of cid is attached to *)
Definition on_socket_of (s : st) (cid : str) (c : N) (k : conn) : Prop :=
  nget c (b_conns s) = Some k /\ k_phase k = PhConnected /\ k_cid k = cid /\ aget cid (b_online s) = Some c.

(* (a) *)
Definition acked_by (s : st) (e : event) (cid : str) (pid : N) : Prop :=
  exists c p k, ev_packet e = Some (c, p) /\ on_socket_of s cid c k /\ final_ack (k_v k) p = Some pid.

Definition pubrec_by (s : st) (e : event) (cid : str) (pid : N) : Prop :=
  exists c p k, ev_packet e = Some (c, p) /\ on_socket_of s cid c k /\ pubrec_ok (k_v k) p = Some pid.

(* (c), when the queue is there again after the step: a CONNECT of cid answered with Session Present = 0 *)
Definition sess_restart (cid : str) (e : event) (s' : st) (o : list out) : Prop :=
  exists c cn props, e = EConnect c cn /\ aget cid (b_online s') = Some c /\ In (OSend c (KConnack false 0 props)) o.

(* the entry d is still in flight as d' *)
Definition still_inflight (s : st) (e : event) (cid : str) (d d' : elem) : Prop :=
  rkey d' = rkey d \/ (rkey d' = inr (e_id d) /\ pubrec_by s e cid (e_id d)).

Definition track_res (s : st) (e : event) (cid : str) (d : elem) (s1 : st) (o1 : list out) : Prop :=
  (exists q1 d1, aget cid (b_queues s1) = Some q1 /\ In d1 (q_inf q1) /\ still_inflight s e cid d d1) \/
  acked_by s e cid (e_id d) \/
  xdrop cid (b_now s1) o1 d \/
  aget cid (b_queues s1) = None \/
  sess_restart cid e s1 o1.

Lemma keeps_conclude cid s0 s1 o1 s e q d :
  keeps cid s0 s1 o1 -> b_queues s0 = b_queues s -> NoDup (keys (b_queues s)) ->
  aget cid (b_queues s) = Some q -> In d (q_inf q) -> track_res s e cid d s1 o1.
Proof.
  intros [Hnow (_ & _ & H3)] Hqs Hnd Hq Hd. rewrite Hqs in H3. unfold track_res.
  destruct (aget cid (b_queues s1)) as [q1|] eqn:Hq1; [|right; right; right; now left].
  destruct (H3 Hnd q q1 d Hq eq_refl Hd) as [H|H].
  - left. exists q1, d. split; [reflexivity|]. split; [exact H|now left].
  - right. right. left. now rewrite Hnow.
Qed.

Lemma step_send_track s c p cid q d e :
  J false s -> aget cid (b_queues s) = Some q -> In d (q_inf q) -> ev_packet e = Some (c, p) ->
  (BrokerEditsP.ack_free false s c p -> track_res s e cid d (fst (step_event s (ESend c p))) (snd (step_event s (ESend c p)))) ->
  track_res s e cid d (fst (step_event s (ESend c p))) (snd (step_event s (ESend c p))).
Proof.
  intros HJ Hq Hd He Hfree.
  destruct (nget c (b_conns s)) as [k|] eqn:Hk; [|apply Hfree; right; congruence].
  destruct (is_ack p) as [pid|] eqn:Hack; [|apply Hfree; now right].
  destruct (k_phase k) eqn:Ep; try (apply Hfree; right; congruence).
  cbn [step_event]. rewrite Hk, Ep.
  destruct (ack_track cid c k p pid s q d Hack Hq Hd) as (s1 & o1 & q1 & -> & Hnow & Hon & Hq1 & H).
  cbn [fst snd]. destruct H as [H|(Ecid & Eid & H)].
  - left. exists q1, d. split; [exact Hq1|]. split; [exact H|now left].
  - assert (Hsock : on_socket_of s cid c k).
    { split; [exact Hk|]. split; [exact Ep|]. split; [now symmetry|].
      destruct (j_poll _ _ HJ c k Hk (or_introl Ep)) as (k0 & _ & _ & _ & Hk0 & _ & Hon0 & _).
      rewrite Hk in Hk0. inversion Hk0; subst k0. now rewrite Ecid. }
    destruct H as [H|[H (d1 & Hd1 & Hr)]].
    + right. left. exists c, p, k. rewrite Eid. auto.
    + left. exists q1, d1. split; [exact Hq1|]. split; [exact Hd1|]. right. rewrite Eid. split; [exact Hr|].
      exists c, p, k. auto.
Qed.

Lemma step_event_track s e cid q d :
  BInv s -> J false s -> aget cid (b_queues s) = Some q -> In d (q_inf q) ->
  track_res s e cid d (fst (step_event s e)) (snd (step_event s e)).
Proof.
  intros HI HJ Hq Hd. pose proof (bi_nd_q _ _ HI) as Hnd.
  set (ED := BrokerEditsP.edits (fun _ => True) (fun x => x <> cid) false).
  assert (HK : forall s1 o1, ED (BrokerEditsP.clocked s e) o1 s1 -> track_res s e cid d s1 o1).
  { intros s1 o1 K. apply (keeps_conclude cid (BrokerEditsP.clocked s e) s1 o1 s e q d); auto; [|now destruct e].
    apply (edits_keeps cid _ _ _ _ _ K). intros H. now apply H. }
  pose proof (fun H => HK _ _ (BrokerEditsP.step_event_ed _ (fun x => x <> cid) false (fun _ => I) s e H)) as HE.
  destruct e as [c cn|c|c p|c p n|c|m|cid'|ms| |ms|]; cbn [BrokerEditsP.clocked] in *; try (apply HE; exact I).
  - (* EConnect: the session of cid is resumed, or the CONNACK says Session Present = 0 *)
    destruct (str_eqb_spec (hc_cid cn (fst (conn_gone c s))) cid) as [Ec|Ec]; [|apply HE; intros _ _; exact Ec].
    destruct (hc_rejected cn (fst (conn_gone c s))) eqn:Er; [apply HE; discriminate|].
    destruct (BrokerEditsP.hc_resumed cn (fst (conn_gone c s))) eqn:Es; [apply HE; discriminate|]. clear HE HK.
    right. right. right. right. cbn [step_event]. destruct (conn_gone c s) as [s0 o0]. cbn [fst] in *.
    rewrite (handle_connect_accepted c cn s0 Er). destruct (hc_accept_out c cn s0) as [H1 H2]. rewrite Es, Ec in *.
    destruct (hc_accept c cn s0) as [s1 o1]. cbn [fst snd] in *.
    exists c, cn, (hc_props cid cn (b_cfg s0)). split; [reflexivity|]. split; [exact H2|]. apply in_or_app. now right.
  - (* ESend *)
    now apply (step_send_track s c p cid q d).
  - (* ESendSz *)
    destruct (step_event_sz s c p n) as [E|(k & Hk & Hp & _ & [[code E]|[E|[q0 E]]])]; rewrite E in *.
    + now apply (step_send_track s c p cid q d).
    + apply HK, BrokerEditsP.fail_conn_ed, (fun _ => I).
    + apply HK, BrokerEditsP.fail_conn_ed, (fun _ => I).
    + apply HK. eapply BrokerEditsP.edits_first; [|apply BrokerEditsP.fail_conn_ed, (fun _ => I)]. reflexivity.
Qed.

Lemma poll_once_none w c s s' o cid :
  AllPoll w s -> poll_once c s = Some (s', o) -> aget cid (b_queues s) = None -> aget cid (b_queues s') = None.
Proof.
  intros HA Hp Hn.
  destruct (poll_once_turn c s s' o Hp) as (k & _ & Hk & Hat & _).
  pose proof (HA c k Hk Hat) as (k0 & q & inf & que & Hk0 & Hq & _ & _ & _ & HCQ).
  rewrite Hk in Hk0. inversion Hk0; subst k0. clear Hk0.
  destruct (poll_once_cases w c s s' o k q inf que Hk Hq HCQ Hp) as (_ & _ & _ & _ & Hqueues & _).
  rewrite Hqueues; [exact Hn|]. intros ->. congruence.
Qed.

Lemma poll_all_none w s cid : AllPoll w s -> aget cid (b_queues s) = None -> aget cid (b_queues (fst (poll_all s))) = None.
Proof.
  intros HA Hn. apply (poll_all_inv (fun s0 => AllPoll w s0 /\ aget cid (b_queues s0) = None)); [|auto].
  intros c s0 s' o [H0 N0] Hp. split; [eapply poll_once_AllPoll; eauto|eapply poll_once_none; eauto].
Qed.

Lemma inflight_ext_in s s' cid q d :
  inflight_ext s s' -> aget cid (b_queues s) = Some q -> In d (q_inf q) ->
  exists q' d', aget cid (b_queues s') = Some q' /\ In d' (q_inf q') /\ rkey d' = rkey d /\
                (length (q_inf q) <= length (q_inf q'))%nat.
Proof.
  intros HE Hq Hd. destruct (HE cid q Hq) as (q' & l & Hq' & E).
  assert (Hin : In (rkey d) (map rkey (q_inf q'))) by (rewrite E; apply in_or_app; left; now apply in_map).
  apply in_map_iff in Hin. destruct Hin as (d' & Hr & Hd'). exists q', d'. repeat split; auto.
  apply (f_equal (@length _)) in E. rewrite app_length, !map_length in E. lia.
Qed.

(* the alternatives (a), (b), (c) are stable under the poll phase *)
Definition track_bad (s : st) (e : event) (cid : str) (d : elem) (s1 : st) (o1 : list out) : Prop :=
  acked_by s e cid (e_id d) \/ xdrop cid (b_now s1) o1 d \/ aget cid (b_queues s1) = None \/ sess_restart cid e s1 o1.

Lemma track_bad_poll s e cid d s1 o1 :
  AllPoll false s1 -> track_bad s e cid d s1 o1 ->
  track_bad s e cid d (fst (poll_all s1)) (o1 ++ snd (poll_all s1)).
Proof.
  intros HA. pose proof (BrokerQos2P.poll_all_frame s1) as [F _]. unfold track_bad.
  intros [H|[H|[H|(c & cn & props & H1 & H2 & H3)]]].
  - now left.
  - right. left. rewrite (BrokerQos2P.df_now _ _ F). eapply xdrop_mono; [apply dsub_app_l|exact H].
  - right. right. left. now apply (poll_all_none false).
  - right. right. right. exists c, cn, props. split; [exact H1|]. rewrite (BrokerQos2P.df_online _ _ F).
    split; [exact H2|]. apply in_or_app. now left.
Qed.

(* a whole step: the entry is in flight when the event part is over and, as the same retransmission, when the poll
   loops are done; or one of (a), (b), (c) has happened *)
Lemma step_track s e cid q d :
  GInv false s -> wb false s e = true -> aget cid (b_queues s) = Some q -> In d (q_inf q) ->
  (exists q1 d1 q2 d2,
     aget cid (b_queues (fst (step_event s e))) = Some q1 /\ In d1 (q_inf q1) /\ still_inflight s e cid d d1 /\
     aget cid (b_queues (fst (step s e))) = Some q2 /\ In d2 (q_inf q2) /\ rkey d2 = rkey d1) \/
  track_bad s e cid d (fst (step s e)) (snd (step s e)).
Proof.
  intros [HI HJ] Hwb Hq Hd. pose proof (j_poll _ _ (step_event_J false s e HI HJ Hwb)) as HA.
  rewrite BrokerOrderP.step_fst, step_outputs.
  destruct (step_event_track s e cid q d HI HJ Hq Hd) as [(q1 & d1 & Hq1 & Hd1 & Hs)|HT]; [left|right; now apply track_bad_poll].
  destruct (inflight_ext_in _ _ cid q1 d1 (poll_all_inflight_ext false _ HA) Hq1 Hd1) as (q2 & d2 & Hq2 & Hd2 & Hr & _).
  exists q1, d1, q2, d2. auto 6.
Qed.

Theorem inflight_leaves_only_by s e s' o cid q d :
  GInv false s -> wb false s e = true -> step s e = (s', o) ->
  aget cid (b_queues s) = Some q -> In d (q_inf q) ->
  (exists q' d', aget cid (b_queues s') = Some q' /\ In d' (q_inf q') /\ still_inflight s e cid d d') \/
  acked_by s e cid (e_id d) \/
  xdrop cid (b_now s') o d \/
  aget cid (b_queues s') = None \/
  sess_restart cid e s' o.
Proof.
  intros HG Hwb Hstep Hq Hd.
  destruct (step_track s e cid q d HG Hwb Hq Hd) as [(q1 & d1 & q2 & d2 & _ & _ & Hs & Hq2 & Hd2 & Hr)|HB];
    rewrite Hstep in *; cbn [fst snd] in *; [left|right; exact HB].
  exists q2, d2. split; [exact Hq2|]. split; [exact Hd2|]. unfold still_inflight in *. now rewrite Hr.
Qed.

(* as the property states it: the queue of cid exists before and after the step *)
Corollary inflight_leaves_only_by_both s e s' o cid q q' d :
  GInv false s -> wb false s e = true -> step s e = (s', o) ->
  aget cid (b_queues s) = Some q -> aget cid (b_queues s') = Some q' -> In d (q_inf q) ->
  (exists d', In d' (q_inf q') /\ still_inflight s e cid d d') \/
  acked_by s e cid (e_id d) \/ xdrop cid (b_now s') o d \/ sess_restart cid e s' o.
Proof.
  intros HG Hwb Hs Hq Hq' Hd.
  destruct (inflight_leaves_only_by s e s' o cid q d HG Hwb Hs Hq Hd) as [(q2 & d2 & H1 & H2 & H3)|[H|[H|[H|H]]]]; auto.
  - left. rewrite Hq' in H1. inversion H1; subst q2. eauto.
  - congruence.
Qed.

(* one of (a), (b), (c) happens to the in-flight entry with packet id pid of cid's queue in the step of e *)
Definition disturbed (cid : str) (pid : N) (s : st) (e : event) : Prop :=
  acked_by s e cid pid \/
  (exists q d, aget cid (b_queues s) = Some q /\ In d (q_inf q) /\ e_id d = pid /\
               xdrop cid (b_now (fst (step s e))) (snd (step s e)) d) \/
  aget cid (b_queues (fst (step s e))) = None \/
  sess_restart cid e (fst (step s e)) (snd (step s e)).

Fixpoint undisturbed (cid : str) (pid : N) (s : st) (es : list event) : Prop :=
  match es with
  | [] => True
  | e :: r => ~ disturbed cid pid s e /\ undisturbed cid pid (fst (step s e)) r
  end.

Lemma undisturbed_app cid pid : forall a s b,
  undisturbed cid pid s (a ++ b) <-> undisturbed cid pid s a /\ undisturbed cid pid (fst (run s a)) b.
Proof.
  induction a as [|e r IH]; intros s b; cbn [app undisturbed run fst]; [tauto|].
  rewrite IH. destruct (step s e) as [s1 o1]. cbn [fst]. destruct (run s1 r) as [s2 os]. cbn [fst]. tauto.
Qed.

Lemma still_inflight_id s e cid d d' : still_inflight s e cid d d' -> e_id d' = e_id d.
Proof.
  intros [H|[H _]]; [now apply rkey_id|]. unfold rkey, e_id in *. destruct (e_body d'); inversion H. reflexivity.
Qed.

Theorem undisturbed_stays_inflight cid : forall es s q d,
  GInv false s -> run_wb false s es = true -> aget cid (b_queues s) = Some q -> In d (q_inf q) ->
  undisturbed cid (e_id d) s es ->
  exists q' d', aget cid (b_queues (fst (run s es))) = Some q' /\ In d' (q_inf q') /\
                (rkey d' = rkey d \/ rkey d' = inr (e_id d)).
Proof.
  induction es as [|e r IH]; intros s q d HG Hwb Hq Hd Hu; cbn [run fst].
  - exists q, d. auto.
  - cbn [run_wb] in Hwb. apply andb_true_iff in Hwb. destruct Hwb as [Hwb1 Hwb2].
    cbn [undisturbed] in Hu. destruct Hu as [Hnd Hu].
    pose proof (step_GInv false s e HG Hwb1) as HG1.
    destruct (step s e) as [s1 o1] eqn:Hstep. cbn [fst snd] in *.
    destruct (inflight_leaves_only_by s e s1 o1 cid q d HG Hwb1 Hstep Hq Hd) as [(q1 & d1 & Hq1 & Hd1 & Hs)|Hbad].
    + pose proof (still_inflight_id _ _ _ _ _ Hs) as Eid. rewrite <- Eid in Hu.
      destruct (IH s1 q1 d1 HG1 Hwb2 Hq1 Hd1 Hu) as (q' & d' & Hq' & Hd' & Hk).
      destruct (run s1 r) as [s2 os]. cbn [fst] in *. exists q', d'. split; [exact Hq'|]. split; [exact Hd'|].
      rewrite Eid in Hk. destruct Hs as [Hs|[Hs _]]; destruct Hk as [Hk|Hk]; rewrite ?Hs in Hk; auto.
    + exfalso. apply Hnd. unfold disturbed. rewrite Hstep. cbn [fst snd].
      destruct Hbad as [H|[H|[H|H]]]; auto. right. left. exists q, d. auto.
Qed.

(* no first transmission (DUP = 0 PUBLISH) to socket c *)
Definition all_dup1_to (c : N) (o : list out) : Prop :=
  forall dup qos ret t pl pid ps, In (OSend c (KPublish dup qos ret t pl pid ps)) o -> dup = true.

Definition notto (c : N) (x : out) : Prop := match x with OSend c' _ => c' <> c | _ => True end.

Lemma okout_notto c c2 o : c2 <> c -> Forall (okout c2) o -> Forall (notto c) o.
Proof. intros Hne. apply Forall_impl. intros [c' p|c'|cid m r]; cbn; auto. now intros ->. Qed.

Lemma notto_dup1 c o : Forall (notto c) o -> all_dup1_to c o.
Proof. intros H dup qos ret t pl pid ps Hin. rewrite Forall_forall in H. apply H in Hin. cbn in Hin. congruence. Qed.

Lemma all_dup1_app c a b : all_dup1_to c a -> all_dup1_to c b -> all_dup1_to c (a ++ b).
Proof. intros Ha Hb dup qos ret t pl pid ps Hin. apply in_app_or in Hin. destruct Hin; eauto. Qed.

Lemma retrans_dup1 c l o : Forall2 (is_retrans c) l o -> all_dup1_to c o.
Proof.
  intros H. induction H as [|e x l o Hx H IH]; [intros ? ? ? ? ? ? ? []|].
  intros dup qos ret t pl pid ps [Hin|Hin]; [|eapply IH; eauto]. subst x. unfold is_retrans in Hx.
  destruct (e_body e) as [m|p]; [|discriminate]. destruct Hx as (topic & props & Hx & _). now inversion Hx.
Qed.

(* the event part of a CONNECT writes one CONNACK and nothing else *)
Lemma handle_connect_one_connack c cn s :
  exists sp code props, forall x, In x (snd (handle_connect c cn s)) -> nosend x \/ x = OSend c (KConnack sp code props).
Proof.
  rewrite handle_connect_eq.
  destruct (negb (c_allow_zero_len (b_cfg s)) && is_empty (cn_cid cn)); [do 3 eexists; intros x [<-|[]]; right; reflexivity|].
  destruct (negb (hc_code cn s =? 0)); [do 3 eexists; intros x [<-|[]]; right; reflexivity|].
  unfold hc_accept. cbv zeta.
  pose proof (hc_takeover_nosend (hc_cid cn s) (hc_auto cn s)) as H1.
  destruct (hc_takeover (hc_cid cn s) (hc_auto cn s)) as [s1 o_dup].
  destruct (hc_old _ _ _ _ s1) as [[s2 o_will] resume]. destruct (hc_wd_exp cn (b_cfg s)) as [wd ex].
  match goal with |- context [hc_wills o_will ?S] =>
    pose proof (hc_wills_quiet o_will S) as [_ H5]; destruct (hc_wills o_will S) as [s5 o_w] end.
  cbn [snd] in *. do 3 eexists. intros x Hin. apply in_app_or in Hin. destruct Hin as [Hin|[<-|Hin]].
  - left. rewrite Forall_forall in H1. now apply H1.
  - right. reflexivity.
  - left. apply isdrop_nosend in H5. rewrite Forall_forall in H5. now apply H5.
Qed.

(* ... and the poll loops write no CONNACK: the Session Present flag of the step is well defined *)
Lemma step_connect_connack_unique s c cn c1 sp1 code1 props1 c2 sp2 code2 props2 :
  In (OSend c1 (KConnack sp1 code1 props1)) (snd (step s (EConnect c cn))) ->
  In (OSend c2 (KConnack sp2 code2 props2)) (snd (step s (EConnect c cn))) -> sp1 = sp2.
Proof.
  unfold step. cbn [step_event]. pose proof (conn_gone_nosend c s) as H0. destruct (conn_gone c s) as [s0 o0].
  destruct (handle_connect_one_connack c cn s0) as (sp & code & props & H1). destruct (handle_connect c cn s0) as [s1 o1].
  pose proof (BrokerQos2P.poll_all_frame s1) as [_ H2]. destruct (poll_all s1) as [s2 o2]. cbn [snd] in *.
  assert (G : forall c' sp' code' props', In (OSend c' (KConnack sp' code' props'))
                ((filter (fun x => match x with OClose c'0 => negb (c'0 =? c) | _ => true end) o0 ++ o1) ++ o2) -> sp' = sp).
  { intros c' sp' code' props' Hin. apply in_app_or in Hin. destruct Hin as [Hin|Hin].
    - apply in_app_or in Hin. destruct Hin as [Hin|Hin].
      + apply filter_In in Hin. destruct Hin as [Hin _]. rewrite Forall_forall in H0. destruct (H0 _ Hin).
      + destruct (H1 _ Hin) as [H|H]; [destruct H|]. now inversion H.
    - rewrite Forall_forall in H2. destruct (H2 _ Hin). }
  intros Ha Hb. rewrite (G _ _ _ _ Ha), (G _ _ _ _ Hb). reflexivity.
Qed.

Lemma nopub_dup1 c o : Forall BrokerOrderP.nopub o -> all_dup1_to c o.
Proof. intros H dup qos ret t pl pid ps Hin. rewrite Forall_forall in H. destruct (H _ Hin). Qed.

(* what the poll loops of the other sockets leave alone: the connection on socket c and the queue of its client *)
Definition untouched (c : N) (k : conn) (cid : str) (q : queue) (s : st) : Prop :=
  AllPoll false s /\ nget c (b_conns s) = Some k /\ aget cid (b_queues s) = Some q /\ aget cid (b_online s) = Some c.

(* ... and they write to their own sockets only *)
Lemma poll_once_untouched c k cid q c2 s s' o :
  c2 <> c -> untouched c k cid q s -> poll_once c2 s = Some (s', o) -> untouched c k cid q s' /\ Forall (notto c) o.
Proof.
  intros Hne (HA & Hk & Hq & Hon) Hp.
  split; [|apply (okout_notto c c2 o Hne), (BrokerInvP.poll_once_frame c2 s s' o Hp)].
  destruct (poll_once_turn c2 s s' o Hp) as (k2 & _ & Hk2 & Hat & _).
  pose proof (HA c2 k2 Hk2 Hat) as (k0 & q2 & inf & que & Hk0 & Hq2 & Hon2 & _ & _ & HCQ).
  rewrite Hk2 in Hk0. inversion Hk0; subst k0. clear Hk0.
  destruct (poll_once_cases false c2 s s' o k2 q2 inf que Hk2 Hq2 HCQ Hp) as (Ho & _ & _ & Hconns & Hqueues & _).
  split; [eapply poll_once_AllPoll; eauto|]. split; [rewrite Hconns; [exact Hk|now apply not_eq_sym]|].
  split; [|now rewrite Ho]. rewrite Hqueues; [exact Hq|]. intros ->. rewrite Hon in Hon2. inversion Hon2. now apply Hne.
Qed.

Notation poll_body fuel := (fun (acc : st * list out) (ck : N * conn) =>
                              let '(s0, o0) := acc in let '(s', o') := poll_conn fuel (fst ck) s0 in (s', o0 ++ o')).

Lemma poll_fold_acc fuel : forall (L : list (N * conn)) s0 o0,
  fold_left (poll_body fuel) L (s0, o0) =
  (fst (fold_left (poll_body fuel) L (s0, [])), o0 ++ snd (fold_left (poll_body fuel) L (s0, []))).
Proof.
  induction L as [|ck L IH]; intros s0 o0; cbn [fold_left]; [cbn [fst snd]; now rewrite app_nil_r|].
  destruct (poll_conn fuel (fst ck) s0) as [s1 o1]. rewrite (IH s1 (o0 ++ o1)), (IH s1 ([] ++ o1)). cbn [fst snd app].
  now rewrite app_assoc.
Qed.

Lemma nget_split {V} c (k : V) : forall l, nget c l = Some k ->
  exists l1 l2, l = l1 ++ (c, k) :: l2 /\ forall x, In x l1 -> fst x <> c.
Proof.
  induction l as [|[c0 k0] r IH]; cbn [nget]; [discriminate|].
  destruct (N.eqb_spec c c0) as [->|Hne].
  - intros [= ->]. exists [], r. split; [reflexivity|intros x []].
  - intros H. destruct (IH H) as (l1 & l2 & -> & Hl). exists ((c0, k0) :: l1), l2. split; [reflexivity|].
    intros x [<-|Hx]; [cbn; now apply not_eq_sym|now apply Hl].
Qed.

(* a fresh connection has replayed nothing yet: every in-flight entry is still to be replayed *)
Lemma fresh_nothing_replayed w k q b inf que :
  CQ w k q b inf que -> l_locked (k_lim k) = [] -> skipn (q_cur q) inf = inf.
Proof.
  intros HCQ Hl. pose proof (cq_locked _ _ _ _ _ _ HCQ) as Hlk. rewrite Hl in Hlk.
  destruct (firstn (q_cur q) inf) as [|x r] eqn:E.
  - rewrite <- (firstn_skipn (q_cur q) inf) at 2. now rewrite E.
  - exfalso. apply (proj2 (Hlk (e_id x))). cbn [map app]. now left.
Qed.

(* The poll loops of the sockets of L1 (c is not among them), then the loop of socket c, whose connection k is
   freshly attached (nothing replayed, no id locked): it first retransmits the in-flight part of its queue, in
   queue order, provided its fuel reaches that far; nothing is written to socket c before. *)
Lemma poll_list_replay fuel c k q L1 L2 s :
  untouched c k (k_cid k) q s -> (forall x, In x L1 -> fst x <> c) ->
  k_phase k = PhConnected -> k_drained k = false -> l_locked (k_lim k) = [] -> 1 <= k_max_inflight k ->
  (length (q_inf q) < fuel)%nat ->
  exists oa rs rest,
    snd (fold_left (poll_body fuel) (L1 ++ (c, k) :: L2) (s, [])) = oa ++ rs ++ rest /\
    Forall (notto c) oa /\ Forall2 (is_retrans c) (q_inf q) rs.
Proof.
  intros HU HL Hph Hdr Hlim Hwin Hfuel.
  destruct (poll_list_walk (fun c2 => c2 <> c) (untouched c k (k_cid k) q) (fun _ _ => True) (fun _ => notto c)
              (fun _ => I) (fun _ _ _ _ _ => I) (fun _ _ _ _ H => H)) with (fuel := fuel) (l := L1) (s := s) (s0 := s) (o0 := @nil out)
    as ((HA & Hk & Hq & _) & _ & Hoa); [|exact HL|exact HU|exact I|constructor|].
  { intros c2 s0 s' o Hne H0 Hp. destruct (poll_once_untouched c k (k_cid k) q c2 s0 s' o Hne H0 Hp). auto. }
  rewrite fold_left_app. cbn [fold_left]. destruct (fold_left (poll_body fuel) L1 (s, [])) as [sa oa]. cbn [fst snd] in *.
  pose proof (HA c k Hk (or_introl Hph)) as HP. destruct (PollInv_CQ false sa c k q HP Hk Hq) as (inf & que & HCQ).
  destruct (C03_replay_first false sa c k q fuel HP Hk Hq Hph Hdr Hwin ltac:(lia)) as (rs & o2 & Hob & Hret & _).
  rewrite (q_inf_eq _ _ _ _ (cq_q _ _ _ _ _ _ HCQ)), (fresh_nothing_replayed _ _ _ _ _ _ HCQ Hlim) in Hret.
  rewrite <- (q_inf_eq _ _ _ _ (cq_q _ _ _ _ _ _ HCQ)) in Hret.
  destruct (poll_conn fuel c sa) as [sb ob]. cbn [snd] in Hob. subst ob. rewrite poll_fold_acc. cbn [snd].
  exists oa, rs, (o2 ++ snd (fold_left (poll_body fuel) L2 (sb, []))). split; [now rewrite <- !app_assoc|]. now split.
Qed.

(* the connection a successful CONNECT has installed on its socket when the event part is over *)
Lemma connect_event_part s c cn k :
  nget c (b_conns (fst (step_event s (EConnect c cn)))) = Some k -> k_phase k = PhConnected ->
  l_locked (k_lim k) = [] /\ k_drained k = false.
Proof.
  cbn [step_event]. destruct (conn_gone c s) as [s0 o0]. destruct (handle_connect c cn s0) as [s1 o1] eqn:E. cbn [fst].
  intros Hk Hph. destruct (handle_connect_conn c cn s0 s1 o1 k E Hk Hph) as (_ & _ & _ & Hlim & _ & Hdr & _).
  now rewrite Hlim.
Qed.

(* the step of a successful CONNECT: the poll loop of the new connection first retransmits, in queue order, everything
   that is in flight in the session queue once the event part is over (q1); nothing written to the new socket before
   is a first transmission; the in-flight part of the queue after the step (q') starts with those entries *)
Lemma resume_step_replay s c cn s' o k' :
  GInv false s -> wb false s (EConnect c cn) = true -> step s (EConnect c cn) = (s', o) ->
  nget c (b_conns s') = Some k' -> k_phase k' = PhConnected -> 1 <= k_max_inflight k' ->
  (forall q', aget (k_cid k') (b_queues s') = Some q' -> (length (q_inf q') < 400)%nat) ->
  exists q1 q' pre rs post,
    aget (k_cid k') (b_queues (fst (step_event s (EConnect c cn)))) = Some q1 /\
    aget (k_cid k') (b_queues s') = Some q' /\
    (exists l, map rkey (q_inf q') = map rkey (q_inf q1) ++ l) /\
    o = pre ++ rs ++ post /\ Forall2 (is_retrans c) (q_inf q1) rs /\ all_dup1_to c pre.
Proof.
  intros [HI HJ] Hwb Hstep Hk' Hph' Hwin' Hlen.
  pose proof (step_event_J false s _ HI HJ Hwb) as HJ1.
  pose proof (nopub_dup1 c _ (BrokerOrderP.step_event_nopub s (EConnect c cn))) as Hdup1.
  pose proof (connect_event_part s c cn) as Hfresh.
  unfold step in Hstep. destruct (step_event s (EConnect c cn)) as [s1 o1]. cbn [fst snd] in *.
  pose proof (poll_all_inflight_ext false s1 (j_poll _ _ HJ1)) as HE.
  pose proof (BrokerQos2P.poll_all_frame s1) as [F _].
  destruct (poll_all s1) as [s2 o2] eqn:Hpa. cbn [fst snd] in *. inversion Hstep; subst s' o. clear Hstep.
  (* the poll loops leave the static part of the new connection alone *)
  pose proof (BrokerQos2P.df_cstat _ _ F c) as Ecs. unfold BrokerQos2P.cstat in Ecs. rewrite Hk' in Ecs.
  destruct (nget c (b_conns s1)) as [k1|] eqn:Hk1; cbn [option_map] in Ecs; [|discriminate].
  assert (Eks : BrokerQos2P.kstat k' = BrokerQos2P.kstat k1) by congruence. unfold BrokerQos2P.kstat in Eks.
  assert (Hph1 : k_phase k1 = PhConnected) by congruence.
  replace (k_cid k') with (k_cid k1) in * by congruence.
  replace (k_max_inflight k') with (k_max_inflight k1) in Hwin' by congruence.
  destruct (Hfresh k1 eq_refl Hph1) as [Hlim1 Hdr1].
  destruct (PollInv_at false s1 c k1 (j_poll _ _ HJ1 c k1 Hk1 (or_introl Hph1)) Hk1) as (q1 & _ & _ & Hq1 & Hon1 & _).
  destruct (HE (k_cid k1) q1 Hq1) as (q2 & l & Hq2 & El).
  assert (Hfuel : (length (q_inf q1) < 400)%nat).
  { specialize (Hlen q2 Hq2). apply (f_equal (@length _)) in El. rewrite app_length, !map_length in El. lia. }
  destruct (nget_split c k1 _ Hk1) as (L1 & L2 & EL & HL).
  destruct (poll_list_replay 400 c k1 q1 L1 L2 s1) as (oa & rs & rest & Ho2 & Hoa & Hret); auto.
  { split; [apply (j_poll _ _ HJ1)|auto]. }
  unfold poll_all in Hpa. rewrite EL in Hpa. rewrite Hpa in Ho2. cbn [snd] in Ho2. subst o2.
  exists q1, q2, (o1 ++ oa), rs, rest. split; [exact Hq1|]. split; [exact Hq2|]. split; [eauto|].
  split; [now rewrite <- !app_assoc|]. split; [exact Hret|]. apply all_dup1_app; [exact Hdup1|now apply notto_dup1].
Qed.

(* an entry that none of (a), (b), (c) hits in a step is in flight already when the event part is over *)
Lemma undisturbed_event_part s e cid q d :
  GInv false s -> wb false s e = true -> aget cid (b_queues s) = Some q -> In d (q_inf q) ->
  ~ disturbed cid (e_id d) s e ->
  exists q1 d1, aget cid (b_queues (fst (step_event s e))) = Some q1 /\ In d1 (q_inf q1) /\ still_inflight s e cid d d1.
Proof.
  intros HG Hwb Hq Hd Hnd.
  destruct (step_track s e cid q d HG Hwb Hq Hd) as [(q1 & d1 & _ & _ & Hq1 & Hd1 & Hs & _)|HB]; [eauto|].
  exfalso. apply Hnd. destruct HB as [H|[H|[H|H]]]; unfold disturbed; auto. right. left. exists q, d. auto.
Qed.

(* the step of a CONNECT that resumes the session of cid (the entry d survives the step: not (a), (b), (c)):
   the outputs contain the retransmission of d, and nothing written to the new socket before it is a first
   transmission *)
Lemma resume_step_retransmits s c cn cid q d s' o k' :
  GInv false s -> wb false s (EConnect c cn) = true -> step s (EConnect c cn) = (s', o) ->
  aget cid (b_queues s) = Some q -> In d (q_inf q) -> ~ disturbed cid (e_id d) s (EConnect c cn) ->
  nget c (b_conns s') = Some k' -> k_phase k' = PhConnected -> k_cid k' = cid -> 1 <= k_max_inflight k' ->
  (forall q', aget cid (b_queues s') = Some q' -> (length (q_inf q') < 400)%nat) ->
  exists pre x post, o = pre ++ x :: post /\ retrans_of_key c (rkey d) x /\ all_dup1_to c pre.
Proof.
  intros HG Hwb Hstep Hq Hd Hnd Hk' Hph' Hcid' Hwin' Hlen. rewrite <- Hcid' in Hlen.
  destruct (resume_step_replay s c cn s' o k' HG Hwb Hstep Hk' Hph' Hwin' Hlen)
    as (q1 & q' & pre & rs & post & Hq1 & _ & _ & Ho & Hret & Hpre).
  destruct (undisturbed_event_part s (EConnect c cn) cid q d HG Hwb Hq Hd Hnd) as (q1' & d1 & Hq1' & Hd1 & Hs).
  assert (Hr1 : rkey d1 = rkey d).
  { destruct Hs as [Hs|[_ (c0 & p0 & k0 & He & _)]]; [exact Hs|discriminate]. }
  rewrite Hcid', Hq1' in Hq1. inversion Hq1; subst q1'.
  destruct (Forall2_in_split _ _ _ d1 Hret Hd1) as (ra & x & rb & l1 & -> & Hx & Hra).
  exists (pre ++ ra), x, (rb ++ post). split; [|split].
  - rewrite Ho. now rewrite <- !app_assoc.
  - apply is_retrans_key in Hx. now rewrite Hr1 in Hx.
  - apply all_dup1_app; [exact Hpre|eapply retrans_dup1; eauto].
Qed.

Theorem retransmitted_until_acked s es c cn cid q d s' o k' :
  GInv false s -> run_wb false s (es ++ [EConnect c cn]) = true ->
  aget cid (b_queues s) = Some q -> In d (q_inf q) ->
  undisturbed cid (e_id d) s (es ++ [EConnect c cn]) ->
  step (fst (run s es)) (EConnect c cn) = (s', o) ->
  nget c (b_conns s') = Some k' -> k_phase k' = PhConnected -> k_cid k' = cid -> 1 <= k_max_inflight k' ->
  (forall q', aget cid (b_queues s') = Some q' -> (length (q_inf q') < 400)%nat) ->
  exists key pre x post,
    (key = rkey d \/ key = inr (e_id d)) /\
    o = pre ++ x :: post /\ retrans_of_key c key x /\ all_dup1_to c pre.
Proof.
  intros HG Hwb Hq Hd Hu Hstep Hk' Hph' Hcid' Hwin' Hlen.
  rewrite run_wb_app in Hwb. apply andb_true_iff in Hwb. destruct Hwb as [Hwb1 Hwb2].
  cbn [run_wb] in Hwb2. rewrite andb_true_r in Hwb2.
  apply undisturbed_app in Hu. destruct Hu as [Hu1 Hu2]. cbn [undisturbed] in Hu2. destruct Hu2 as [Hu2 _].
  destruct (undisturbed_stays_inflight cid es s q d HG Hwb1 Hq Hd Hu1) as (qN & dN & HqN & HdN & Hkey).
  pose proof (run_GInv false es s HG Hwb1) as HGN.
  assert (Eid : e_id dN = e_id d).
  { destruct Hkey as [H|H]; [now apply rkey_id|]. unfold rkey, e_id in *. destruct (e_body dN); inversion H. reflexivity. }
  rewrite <- Eid in Hu2.
  destruct (resume_step_retransmits _ c cn cid qN dN s' o k' HGN Hwb2 Hstep HqN HdN Hu2 Hk' Hph' Hcid' Hwin' Hlen)
    as (pre & x & post & Ho & Hx & Hpre).
  exists (rkey dN), pre, x, post. auto.
Qed.

(* the same with the Session Present flag spelled out: for the CONNECT step itself, (a) cannot apply, (c) is
   "Session Present = 0" or "no queue", and what is left of (b) is asked for *)
Corollary retransmitted_at_session_present s es c cn cid q d s' o k' props :
  GInv false s -> run_wb false s (es ++ [EConnect c cn]) = true ->
  aget cid (b_queues s) = Some q -> In d (q_inf q) ->
  undisturbed cid (e_id d) s es ->
  step (fst (run s es)) (EConnect c cn) = (s', o) ->
  In (OSend c (KConnack true 0 props)) o ->
  (forall q0 d0, aget cid (b_queues (fst (run s es))) = Some q0 -> In d0 (q_inf q0) -> e_id d0 = e_id d ->
                 ~ xdrop cid (b_now s') o d0) ->
  nget c (b_conns s') = Some k' -> k_phase k' = PhConnected -> k_cid k' = cid -> 1 <= k_max_inflight k' ->
  (forall q', aget cid (b_queues s') = Some q' -> (length (q_inf q') < 400)%nat) ->
  exists key pre x post,
    (key = rkey d \/ key = inr (e_id d)) /\
    o = pre ++ x :: post /\ retrans_of_key c key x /\ all_dup1_to c pre.
Proof.
  intros HG Hwb Hq Hd Hu Hstep Hsp Hnx Hk' Hph' Hcid' Hwin' Hlen.
  apply (retransmitted_until_acked s es c cn cid q d s' o k'); auto.
  apply undisturbed_app. split; [exact Hu|]. cbn [undisturbed]. split; [|exact I].
  pose proof Hwb as Hwb0. rewrite run_wb_app in Hwb0. apply andb_true_iff in Hwb0. destruct Hwb0 as [Hwb1 Hwb2].
  cbn [run_wb] in Hwb2. rewrite andb_true_r in Hwb2.
  pose proof (run_GInv false es s HG Hwb1) as HGN. pose proof (step_GInv false _ _ HGN Hwb2) as HG'.
  unfold disturbed. rewrite Hstep in *. cbn [fst snd] in *.
  intros [H|[H|[H|H]]].
  - destruct H as (c0 & p0 & k0 & He & _). discriminate.
  - destruct H as (q0 & d0 & Hq0 & Hd0 & Hid & Hx). now apply (Hnx q0 d0).
  - destruct HG' as [_ HJ']. destruct (j_poll _ _ HJ' c k' Hk' (or_introl Hph')) as (k0 & q0 & _ & _ & Hk0 & Hq0 & _).
    rewrite Hk' in Hk0. inversion Hk0; subst k0. rewrite Hcid' in Hq0. congruence.
  - destruct H as (c0 & cn0 & props0 & He & _ & Hin). inversion He; subst c0 cn0.
    assert (Eo : o = snd (step (fst (run s es)) (EConnect c cn))) by now rewrite Hstep.
    rewrite Eo in Hsp, Hin. pose proof (step_connect_connack_unique _ _ _ _ _ _ _ _ _ _ _ Hsp Hin). discriminate.
Qed.

(* "in original order": the retransmissions of the step of a successful CONNECT are those of a prefix of the
   in-flight part of the session queue as it is after the step, in queue order *)
Theorem resume_replays_in_order s c cn s' o k' q' :
  GInv false s -> wb false s (EConnect c cn) = true -> step s (EConnect c cn) = (s', o) ->
  nget c (b_conns s') = Some k' -> k_phase k' = PhConnected -> 1 <= k_max_inflight k' ->
  aget (k_cid k') (b_queues s') = Some q' -> (length (q_inf q') < 400)%nat ->
  exists n pre rs post,
    o = pre ++ rs ++ post /\ Forall2 (retrans_of_key c) (firstn n (map rkey (q_inf q'))) rs /\ all_dup1_to c pre /\
    exists q1, aget (k_cid k') (b_queues (fst (step_event s (EConnect c cn)))) = Some q1 /\ n = length (q_inf q1).
Proof.
  intros HG Hwb Hstep Hk' Hph' Hwin' Hq' Hlen.
  assert (Hlen' : forall q0, aget (k_cid k') (b_queues s') = Some q0 -> (length (q_inf q0) < 400)%nat)
    by (intros q0 H0; rewrite Hq' in H0; inversion H0; subst; exact Hlen).
  destruct (resume_step_replay s c cn s' o k' HG Hwb Hstep Hk' Hph' Hwin' Hlen')
    as (q1 & q2 & pre & rs & post & Hq1 & Hq2 & (l & El) & Ho & Hret & Hpre).
  rewrite Hq' in Hq2. inversion Hq2; subst q2.
  exists (length (q_inf q1)), pre, rs, post. split; [exact Ho|]. split; [|split; [exact Hpre|eauto]].
  rewrite El, <- (map_length rkey (q_inf q1)), firstn_app_len. now apply Forall2_retrans_keys.
Qed.

(* the definitions, spelled out (for Props/C03u.v) *)
Lemma xdrop_unfold cid now o d :
  xdrop cid now o d <->
  expired now d = true /\ match e_body d with QPub m => In (ODropped cid m DExpiredInflight) o | QRel _ => True end.
Proof. reflexivity. Qed.

Lemma ev_packet_iff e c p : ev_packet e = Some (c, p) <-> e = ESend c p \/ exists n, e = ESendSz c p n.
Proof.
  split.
  - destruct e; cbn [ev_packet]; try discriminate; intros [= -> ->]; [now left|right; eauto].
  - intros [->|[n ->]]; reflexivity.
Qed.

Lemma acked_by_unfold s e cid pid :
  acked_by s e cid pid <->
  exists c p k, (e = ESend c p \/ exists n, e = ESendSz c p n) /\
    nget c (b_conns s) = Some k /\ k_phase k = PhConnected /\ k_cid k = cid /\ aget cid (b_online s) = Some c /\
    match p with
    | KPuback pid' _ _ | KPubcomp pid' _ _ => pid' = pid
    | KPubrec pid' code _ => pid' = pid /\ k_v k = 5 /\ 128 <= code
    | _ => False
    end.
Proof.
  unfold acked_by, on_socket_of. split.
  - intros (c & p & k & He & (H1 & H2 & H3 & H4) & Hf). exists c, p, k. apply ev_packet_iff in He.
    repeat split; auto. destruct p; cbn [final_ack] in Hf; try discriminate; try (now inversion Hf).
    destruct ((k_v k =? 5) && (128 <=? code)) eqn:E; [|discriminate]. apply andb_true_iff in E. destruct E as [E1 E2].
    inversion Hf. split; [reflexivity|]. split; [now apply N.eqb_eq|now apply N.leb_le].
  - intros (c & p & k & He & H1 & H2 & H3 & H4 & Hf). exists c, p, k. apply ev_packet_iff in He.
    repeat split; auto. destruct p; try (now destruct Hf); cbn [final_ack]; try (now subst).
    destruct Hf as (Hp & H5 & H6). subst pid0. apply N.eqb_eq in H5. apply N.leb_le in H6. now rewrite H5, H6.
Qed.

Lemma pubrec_by_unfold s e cid pid :
  pubrec_by s e cid pid <->
  exists c code props k, (e = ESend c (KPubrec pid code props) \/ exists n, e = ESendSz c (KPubrec pid code props) n) /\
    nget c (b_conns s) = Some k /\ k_phase k = PhConnected /\ k_cid k = cid /\ aget cid (b_online s) = Some c /\
    (k_v k =? 5) && (128 <=? code) = false.
Proof.
  unfold pubrec_by, on_socket_of. split.
  - intros (c & p & k & He & (H1 & H2 & H3 & H4) & Hf). apply ev_packet_iff in He.
    destruct p; cbn [pubrec_ok] in Hf; try discriminate.
    destruct ((k_v k =? 5) && (128 <=? code)) eqn:E; [discriminate|]. inversion Hf; subst pid0.
    exists c, code, props, k. repeat split; auto.
  - intros (c & code & props & k & He & H1 & H2 & H3 & H4 & Hf). exists c, (KPubrec pid code props), k.
    apply ev_packet_iff in He. repeat split; auto. cbn [pubrec_ok]. now rewrite Hf.
Qed.

Lemma sess_restart_unfold cid e s' o :
  sess_restart cid e s' o <->
  exists c cn props, e = EConnect c cn /\ aget cid (b_online s') = Some c /\ In (OSend c (KConnack false 0 props)) o.
Proof. reflexivity. Qed.

Lemma still_inflight_unfold s e cid d d' :
  still_inflight s e cid d d' <-> rkey d' = rkey d \/ (rkey d' = inr (e_id d) /\ pubrec_by s e cid (e_id d)).
Proof. reflexivity. Qed.

Lemma disturbed_unfold cid pid s e :
  disturbed cid pid s e <->
  acked_by s e cid pid \/
  (exists q d, aget cid (b_queues s) = Some q /\ In d (q_inf q) /\ e_id d = pid /\
               xdrop cid (b_now (fst (step s e))) (snd (step s e)) d) \/
  aget cid (b_queues (fst (step s e))) = None \/
  sess_restart cid e (fst (step s e)) (snd (step s e)).
Proof. reflexivity. Qed.

Lemma undisturbed_unfold cid pid s es :
  undisturbed cid pid s es <->
  match es with [] => True | e :: r => ~ disturbed cid pid s e /\ undisturbed cid pid (fst (step s e)) r end.
Proof. destruct es; reflexivity. Qed.

Lemma all_dup1_to_unfold c o :
  all_dup1_to c o <-> forall dup qos ret t pl pid ps, In (OSend c (KPublish dup qos ret t pl pid ps)) o -> dup = true.
Proof. reflexivity. Qed.

(* necessary conditions of the four alternatives, computable *)
Definition acked_by_b (s : st) (e : event) (cid : str) (pid : N) : bool :=
  match ev_packet e with
  | Some (c, p) =>
      match nget c (b_conns s) with
      | Some k => match k_phase k with
                  | PhConnected => str_eqb (k_cid k) cid &&
                                   match final_ack (k_v k) p with Some x => x =? pid | None => false end
                  | _ => false
                  end
      | None => false
      end
  | None => false
  end.

Definition expired_b (cid : str) (pid : N) (s : st) (now : N) : bool :=
  match aget cid (b_queues s) with
  | Some q => existsb (fun d => (e_id d =? pid) && expired now d) (q_inf q)
  | None => false
  end.

Definition restart_b (e : event) (o : list out) : bool :=
  match e with
  | EConnect c _ => existsb (fun x => match x with OSend c' (KConnack false 0 _) => c' =? c | _ => false end) o
  | _ => false
  end.

Definition disturbed_b (cid : str) (pid : N) (s : st) (e : event) : bool :=
  let s' := fst (step s e) in
  acked_by_b s e cid pid || expired_b cid pid s (b_now s') ||
  match aget cid (b_queues s') with None => true | Some _ => false end ||
  restart_b e (snd (step s e)).

Fixpoint undisturbed_b (cid : str) (pid : N) (s : st) (es : list event) : bool :=
  match es with
  | [] => true
  | e :: r => negb (disturbed_b cid pid s e) && undisturbed_b cid pid (fst (step s e)) r
  end.

Lemma disturbed_b_complete cid pid s e : disturbed cid pid s e -> disturbed_b cid pid s e = true.
Proof.
  unfold disturbed, disturbed_b. cbv zeta. intros [H|[H|[H|H]]].
  - destruct H as (c & p & k & He & (Hk & Hph & Hcid & _) & Hf). unfold acked_by_b. rewrite He, Hk, Hph, Hcid, Hf.
    now rewrite str_eqb_refl, N.eqb_refl.
  - destruct H as (q & d & Hq & Hd & Hid & Hx & _). unfold expired_b. rewrite Hq.
    assert (E : existsb (fun d0 => (e_id d0 =? pid) && expired (b_now (fst (step s e))) d0) (q_inf q) = true).
    { apply existsb_exists. exists d. split; [exact Hd|]. rewrite Hx. now rewrite (proj2 (N.eqb_eq _ _) Hid). }
    rewrite E. now rewrite orb_true_r.
  - rewrite H. now rewrite orb_true_r.
  - destruct H as (c & cn & props & -> & _ & Hin). unfold restart_b.
    assert (E : existsb (fun x => match x with OSend c' (KConnack false 0 _) => c' =? c | _ => false end)
                        (snd (step s (EConnect c cn))) = true).
    { apply existsb_exists. exists (OSend c (KConnack false 0 props)). split; [exact Hin|apply N.eqb_refl]. }
    rewrite E. now rewrite orb_true_r.
Qed.

Lemma undisturbed_b_sound cid pid : forall es s, undisturbed_b cid pid s es = true -> undisturbed cid pid s es.
Proof.
  induction es as [|e r IH]; intros s H; cbn [undisturbed_b undisturbed] in *; [exact I|].
  apply andb_true_iff in H. destruct H as [H1 H2]. split; [|now apply IH].
  intros Hd. apply disturbed_b_complete in Hd. rewrite Hd in H1. discriminate.
Qed.

Definition ux_cn : connect := wx_connect 5 wx_S false [PSei 100; PRecvMax 2].

(* "s" (persistent session, window 2) has one QoS 1 message in flight, packet id 1 *)
Definition ux_s : st := fst (run wx_init (wx_pre ++ [wx_pub 1 11 [1]])).
Definition ux_d : elem :=
  {| e_tag := 1; e_at := 1000000000000; e_expiry := None;
     e_body := QPub {| m_dup := false; m_qos := 1; m_retained := false; m_topic := wx_T; m_payload := [1]; m_pid := 1;
                       m_ctype := []; m_corr := []; m_expiry := 0; m_pfmt := 0; m_resp := []; m_subids := [];
                       m_uprops := [] |} |}.

Lemma ux_GInv es : run_wb false wx_init es = true -> GInv false (fst (run wx_init es)).
Proof. intros H. apply reachable_GInv; [vm_compute; discriminate|exact H]. Qed.

Example ux_state :
  GInv false ux_s /\ option_map q_inf (aget wx_S (b_queues ux_s)) = Some [ux_d] /\ e_id ux_d = 1 /\
  rkey ux_d = inl (1, false, wx_T, [1], 1).
Proof. split; [apply ux_GInv; vm_compute; reflexivity|vm_compute; auto]. Qed.

(* inflight_leaves_only_by, first alternative: another message is delivered, the entry stays *)
Example ux_step_kept :
  wb false ux_s (wx_pub 1 12 [2]) = true /\ disturbed_b wx_S 1 ux_s (wx_pub 1 12 [2]) = false /\
  option_map (fun q => map rkey (q_inf q)) (aget wx_S (b_queues (fst (step ux_s (wx_pub 1 12 [2]))))) =
    Some [inl (1, false, wx_T, [1], 1); inl (1, false, wx_T, [2], 3)].
Proof. vm_compute. auto. Qed.

(* (a): the PUBACK removes it *)
Example ux_step_acked :
  wb false ux_s (ESend 1 (KPuback 1 0 [])) = true /\ acked_by_b ux_s (ESend 1 (KPuback 1 0 [])) wx_S 1 = true /\
  option_map q_inf (aget wx_S (b_queues (fst (step ux_s (ESend 1 (KPuback 1 0 [])))))) = Some [].
Proof. vm_compute. auto. Qed.

(* a PUBREC turns a QoS 2 entry into a PUBREL entry with the same id: still in flight *)
Example ux_step_pubrec :
  let s := fst (run wx_init (wx_pre ++ [wx_pub 2 11 [1]])) in
  let e := ESend 1 (KPubrec 1 0 []) in
  wb false s e = true /\ disturbed_b wx_S 1 s e = false /\
  option_map (fun q => map rkey (q_inf q)) (aget wx_S (b_queues s)) = Some [inl (2, false, wx_T, [1], 1)] /\
  option_map (fun q => map rkey (q_inf q)) (aget wx_S (b_queues (fst (step s e)))) = Some [inr 1].
Proof. vm_compute. auto. Qed.

(* (b), reported: inflight_expiry 1 s, a queue of 2; after 5 s a third message evicts the expired entry with id 1 *)
Example ux_step_expired_reported :
  let e := wx_pub 1 13 [3] in
  run_wb false (st_init (wx_cfg 1 2) no_hooks []) (wx_pre ++ [wx_pub 1 11 [1]; wx_pub 1 12 [2]; EAdvance 5000; e]) = true /\
  expired_b wx_S 1 wx_e0 (b_now (fst (step wx_e0 e))) = true /\
  map (fun x => match x with ODropped cid m r => Some (cid, m_pid m, r) | _ => None end) (snd (step wx_e0 e)) =
    [Some (wx_S, 1, DExpiredInflight); None; None] /\
  option_map (fun q => map e_id (q_inf q)) (aget wx_S (b_queues wx_e0)) = Some [1; 3] /\
  option_map (fun q => map e_id (q_inf q)) (aget wx_S (b_queues (fst (step wx_e0 e)))) = Some [3; 4].
Proof. vm_compute. auto 10. Qed.

(* (b), silent: the entry is a PUBREL entry (PUBREC received), re-armed by the replay after a reconnect; once it
   has expired, a delivery into the full queue drops it and nothing is reported *)
Definition ux_silent_run : list event :=
  wx_pre ++ [wx_pub 2 11 [1]; ESend 1 (KPubrec 1 0 []); EClose 1; EConnect 1 ux_cn; EAdvance 5000; wx_pub 1 12 [2]].
Definition ux_silent : st := fst (run (st_init (wx_cfg 1 2) no_hooks []) ux_silent_run).

Example ux_step_expired_silent :
  let e := wx_pub 1 13 [3] in
  run_wb false (st_init (wx_cfg 1 2) no_hooks []) (ux_silent_run ++ [e]) = true /\
  option_map (fun q => map rkey (q_inf q)) (aget wx_S (b_queues ux_silent)) = Some [inr 1; inl (1, false, wx_T, [2], 2)] /\
  expired_b wx_S 1 ux_silent (b_now (fst (step ux_silent e))) = true /\
  snd (step ux_silent e) = [OSend 2 (KPuback 13 0 []); OSend 1 (KPublish false 1 false wx_T [3] 3 [])] /\
  option_map (fun q => map rkey (q_inf q)) (aget wx_S (b_queues (fst (step ux_silent e)))) =
    Some [inl (1, false, wx_T, [2], 2); inl (1, false, wx_T, [3], 3)].
Proof. vm_compute. auto 10. Qed.

(* (c): the client comes back with Clean Start: CONNACK with Session Present = 0, the queue is new *)
Example ux_step_clean_start :
  let e := EConnect 1 (wx_connect 5 wx_S true [PSei 100; PRecvMax 2]) in
  wb false ux_s e = true /\ restart_b e (snd (step ux_s e)) = true /\
  option_map q_inf (aget wx_S (b_queues (fst (step ux_s e)))) = Some [].
Proof. vm_compute. auto. Qed.

(* (c): the connection closes with Session Expiry 0 (a v3 clean session): the queue is gone *)
Example ux_step_session_gone :
  let s := fst (run wx_init [EConnect 1 (wx_connect 4 wx_S true []); wx_sub 1; EConnect 2 (wx_connect 4 wx_P true []);
                             wx_pub 1 11 [1]]) in
  wb false s (EClose 1) = true /\ option_map (fun q => map e_id (q_inf q)) (aget wx_S (b_queues s)) = Some [1] /\
  aget wx_S (b_queues (fst (step s (EClose 1)))) = None.
Proof. vm_compute. auto. Qed.

(* retransmitted_until_acked: two reconnects, then the PUBACK.  The connection closes, the session is resumed (the message is sent
   again, DUP = 1, id 1), the connection closes again, the session is resumed again (sent again); the PUBACK
   arrives; a third reconnect retransmits nothing *)
Definition ux_round : list event := [EClose 1; EConnect 1 ux_cn].
Definition ux_retrans : out := OSend 1 (KPublish true 1 false wx_T [1] 1 []).

Example ux_two_reconnects :
  run_wb false ux_s (ux_round ++ ux_round ++ [ESend 1 (KPuback 1 0 [])] ++ ux_round) = true /\
  undisturbed_b wx_S 1 ux_s (ux_round ++ ux_round) = true /\
  disturbed_b wx_S 1 (fst (run ux_s (ux_round ++ ux_round))) (ESend 1 (KPuback 1 0 [])) = true /\
  map (filter (fun x => match x with OSend 1 (KConnack _ _ _) => false | _ => true end))
      (snd (run ux_s (ux_round ++ ux_round ++ [ESend 1 (KPuback 1 0 [])] ++ ux_round))) =
    [[]; [ux_retrans]; []; [ux_retrans]; []; []; []].
Proof. vm_compute. auto. Qed.

(* the hypotheses of retransmitted_until_acked hold at the first and at the second reconnect: the theorem applies *)
Example ux_theorem2_applies (es : list event) :
  es = [EClose 1] \/ es = ux_round ++ [EClose 1] ->
  exists key pre x post,
    (key = rkey ux_d \/ key = inr (e_id ux_d)) /\
    snd (step (fst (run ux_s es)) (EConnect 1 ux_cn)) = pre ++ x :: post /\
    retrans_of_key 1 key x /\ all_dup1_to 1 pre.
Proof.
  intros Hes.
  assert (H : run_wb false ux_s (es ++ [EConnect 1 ux_cn]) = true /\
              undisturbed_b wx_S (e_id ux_d) ux_s (es ++ [EConnect 1 ux_cn]) = true /\
              (exists k', nget 1 (b_conns (fst (step (fst (run ux_s es)) (EConnect 1 ux_cn)))) = Some k' /\
                          k_phase k' = PhConnected /\ k_cid k' = wx_S /\ 1 <= k_max_inflight k') /\
              (forall q', aget wx_S (b_queues (fst (step (fst (run ux_s es)) (EConnect 1 ux_cn)))) = Some q' ->
                          (length (q_inf q') < 400)%nat)).
  { destruct Hes as [->| ->]; (split; [vm_compute; reflexivity|]); (split; [vm_compute; reflexivity|]);
      (split; [eexists; vm_compute; repeat split; discriminate|]);
      intros q' Hq'; vm_compute in Hq'; inversion Hq'; subst q'; vm_compute; repeat constructor. }
  destruct H as (Hwb & Hu & (k' & Hk' & Hph & Hcid & Hwin) & Hlen).
  destruct ux_state as (HG & Hq & _).
  destruct (aget wx_S (b_queues ux_s)) as [q|] eqn:Eq; [|discriminate]. cbn [option_map] in Hq. inversion Hq as [Hq0].
  eapply (retransmitted_until_acked ux_s es 1 ux_cn wx_S q ux_d); eauto.
  - rewrite Hq0. now left.
  - now apply undisturbed_b_sound.
  - apply surjective_pairing.
Qed.

(* the window hypothesis of retransmitted_until_acked cannot be dropped in the model: a client that announces Receive Maximum 0
   (the decoder of the broker refuses that value; the model's CONNECT does not look) is sent nothing again *)
Example ux_window_zero_no_replay :
  let cn0 := wx_connect 5 wx_S false [PSei 100; PRecvMax 0] in
  run_wb false ux_s [EClose 1; EConnect 1 cn0] = true /\ undisturbed_b wx_S 1 ux_s [EClose 1; EConnect 1 cn0] = true /\
  filter (fun x => match x with OSend 1 (KConnack _ _ _) => false | _ => true end)
         (snd (step (fst (run ux_s [EClose 1])) (EConnect 1 cn0))) = [] /\
  option_map k_max_inflight (nget 1 (b_conns (fst (run ux_s [EClose 1; EConnect 1 cn0])))) = Some 0.
Proof. vm_compute. auto. Qed.
