(* C04 (wire half): inbound QoS 2 is exactly-once, every QoS>0 packet gets its matching ack -
   proved of the broker model Model/Broker.v for all states / event lists.
   The file opens with what Proofs/BrokerWillP.v and the later broker proofs share: projection lemmas of the
   record setters, the frame of `deliver` / `poll_all`. *)
From Coq Require Import List NArith ZArith Bool Arith Lia ZifyN ZifyNat ZifyBool.
Import ListNotations.
From GM Require Import Base.Topic Base.Msg Model.SubTrie Model.RetTrie Model.Queue Model.Limiter Model.TopicMatch
  Model.Broker Proofs.TopicP Proofs.SubTrieP Proofs.LimiterP Proofs.BrokerBasicP.
From GM Require Proofs.DeliverP Proofs.BrokerPollP Proofs.BrokerInvP.
Open Scope N_scope.

(* projections of the record setters (generated) *)
Lemma b_cfg_upd_conn c k s : b_cfg (upd_conn c k s) = b_cfg s. Proof. reflexivity. Qed.
Lemma b_hooks_upd_conn c k s : b_hooks (upd_conn c k s) = b_hooks s. Proof. reflexivity. Qed.
Lemma b_now_upd_conn c k s : b_now (upd_conn c k s) = b_now s. Proof. reflexivity. Qed.
Lemma b_rt_upd_conn c k s : b_rt (upd_conn c k s) = b_rt s. Proof. reflexivity. Qed.
Lemma b_sessions_upd_conn c k s : b_sessions (upd_conn c k s) = b_sessions s. Proof. reflexivity. Qed.
Lemma b_online_upd_conn c k s : b_online (upd_conn c k s) = b_online s. Proof. reflexivity. Qed.
Lemma b_offline_upd_conn c k s : b_offline (upd_conn c k s) = b_offline s. Proof. reflexivity. Qed.
Lemma b_wills_upd_conn c k s : b_wills (upd_conn c k s) = b_wills s. Proof. reflexivity. Qed.
Lemma b_subs_upd_conn c k s : b_subs (upd_conn c k s) = b_subs s. Proof. reflexivity. Qed.
Lemma b_ret_upd_conn c k s : b_ret (upd_conn c k s) = b_ret s. Proof. reflexivity. Qed.
Lemma b_queues_upd_conn c k s : b_queues (upd_conn c k s) = b_queues s. Proof. reflexivity. Qed.
Lemma b_unacks_upd_conn c k s : b_unacks (upd_conn c k s) = b_unacks s. Proof. reflexivity. Qed.
Lemma b_conns_upd_conn c k s : b_conns (upd_conn c k s) = nset c k (b_conns s). Proof. reflexivity. Qed.
Lemma b_picks_upd_conn c k s : b_picks (upd_conn c k s) = b_picks s. Proof. reflexivity. Qed.
Lemma b_tag_upd_conn c k s : b_tag (upd_conn c k s) = b_tag s. Proof. reflexivity. Qed.
Lemma b_auto_upd_conn c k s : b_auto (upd_conn c k s) = b_auto s. Proof. reflexivity. Qed.
Lemma b_npick_upd_conn c k s : b_npick (upd_conn c k s) = b_npick s. Proof. reflexivity. Qed.
Lemma b_cfg_set_queues q s : b_cfg (set_queues q s) = b_cfg s. Proof. reflexivity. Qed.
Lemma b_hooks_set_queues q s : b_hooks (set_queues q s) = b_hooks s. Proof. reflexivity. Qed.
Lemma b_now_set_queues q s : b_now (set_queues q s) = b_now s. Proof. reflexivity. Qed.
Lemma b_rt_set_queues q s : b_rt (set_queues q s) = b_rt s. Proof. reflexivity. Qed.
Lemma b_sessions_set_queues q s : b_sessions (set_queues q s) = b_sessions s. Proof. reflexivity. Qed.
Lemma b_online_set_queues q s : b_online (set_queues q s) = b_online s. Proof. reflexivity. Qed.
Lemma b_offline_set_queues q s : b_offline (set_queues q s) = b_offline s. Proof. reflexivity. Qed.
Lemma b_wills_set_queues q s : b_wills (set_queues q s) = b_wills s. Proof. reflexivity. Qed.
Lemma b_subs_set_queues q s : b_subs (set_queues q s) = b_subs s. Proof. reflexivity. Qed.
Lemma b_ret_set_queues q s : b_ret (set_queues q s) = b_ret s. Proof. reflexivity. Qed.
Lemma b_queues_set_queues q s : b_queues (set_queues q s) = q. Proof. reflexivity. Qed.
Lemma b_unacks_set_queues q s : b_unacks (set_queues q s) = b_unacks s. Proof. reflexivity. Qed.
Lemma b_conns_set_queues q s : b_conns (set_queues q s) = b_conns s. Proof. reflexivity. Qed.
Lemma b_picks_set_queues q s : b_picks (set_queues q s) = b_picks s. Proof. reflexivity. Qed.
Lemma b_tag_set_queues q s : b_tag (set_queues q s) = b_tag s. Proof. reflexivity. Qed.
Lemma b_auto_set_queues q s : b_auto (set_queues q s) = b_auto s. Proof. reflexivity. Qed.
Lemma b_npick_set_queues q s : b_npick (set_queues q s) = b_npick s. Proof. reflexivity. Qed.
Lemma b_cfg_set_tables se on off w q u s : b_cfg (set_tables se on off w q u s) = b_cfg s. Proof. reflexivity. Qed.
Lemma b_hooks_set_tables se on off w q u s : b_hooks (set_tables se on off w q u s) = b_hooks s. Proof. reflexivity. Qed.
Lemma b_now_set_tables se on off w q u s : b_now (set_tables se on off w q u s) = b_now s. Proof. reflexivity. Qed.
Lemma b_rt_set_tables se on off w q u s : b_rt (set_tables se on off w q u s) = b_rt s. Proof. reflexivity. Qed.
Lemma b_sessions_set_tables se on off w q u s : b_sessions (set_tables se on off w q u s) = se. Proof. reflexivity. Qed.
Lemma b_online_set_tables se on off w q u s : b_online (set_tables se on off w q u s) = on. Proof. reflexivity. Qed.
Lemma b_offline_set_tables se on off w q u s : b_offline (set_tables se on off w q u s) = off. Proof. reflexivity. Qed.
Lemma b_wills_set_tables se on off w q u s : b_wills (set_tables se on off w q u s) = w. Proof. reflexivity. Qed.
Lemma b_subs_set_tables se on off w q u s : b_subs (set_tables se on off w q u s) = b_subs s. Proof. reflexivity. Qed.
Lemma b_ret_set_tables se on off w q u s : b_ret (set_tables se on off w q u s) = b_ret s. Proof. reflexivity. Qed.
Lemma b_queues_set_tables se on off w q u s : b_queues (set_tables se on off w q u s) = q. Proof. reflexivity. Qed.
Lemma b_unacks_set_tables se on off w q u s : b_unacks (set_tables se on off w q u s) = u. Proof. reflexivity. Qed.
Lemma b_conns_set_tables se on off w q u s : b_conns (set_tables se on off w q u s) = b_conns s. Proof. reflexivity. Qed.
Lemma b_picks_set_tables se on off w q u s : b_picks (set_tables se on off w q u s) = b_picks s. Proof. reflexivity. Qed.
Lemma b_tag_set_tables se on off w q u s : b_tag (set_tables se on off w q u s) = b_tag s. Proof. reflexivity. Qed.
Lemma b_auto_set_tables se on off w q u s : b_auto (set_tables se on off w q u s) = b_auto s. Proof. reflexivity. Qed.
Lemma b_npick_set_tables se on off w q u s : b_npick (set_tables se on off w q u s) = b_npick s. Proof. reflexivity. Qed.
Lemma b_cfg_set_subs d s : b_cfg (set_subs d s) = b_cfg s. Proof. reflexivity. Qed.
Lemma b_hooks_set_subs d s : b_hooks (set_subs d s) = b_hooks s. Proof. reflexivity. Qed.
Lemma b_now_set_subs d s : b_now (set_subs d s) = b_now s. Proof. reflexivity. Qed.
Lemma b_rt_set_subs d s : b_rt (set_subs d s) = b_rt s. Proof. reflexivity. Qed.
Lemma b_sessions_set_subs d s : b_sessions (set_subs d s) = b_sessions s. Proof. reflexivity. Qed.
Lemma b_online_set_subs d s : b_online (set_subs d s) = b_online s. Proof. reflexivity. Qed.
Lemma b_offline_set_subs d s : b_offline (set_subs d s) = b_offline s. Proof. reflexivity. Qed.
Lemma b_wills_set_subs d s : b_wills (set_subs d s) = b_wills s. Proof. reflexivity. Qed.
Lemma b_subs_set_subs d s : b_subs (set_subs d s) = d. Proof. reflexivity. Qed.
Lemma b_ret_set_subs d s : b_ret (set_subs d s) = b_ret s. Proof. reflexivity. Qed.
Lemma b_queues_set_subs d s : b_queues (set_subs d s) = b_queues s. Proof. reflexivity. Qed.
Lemma b_unacks_set_subs d s : b_unacks (set_subs d s) = b_unacks s. Proof. reflexivity. Qed.
Lemma b_conns_set_subs d s : b_conns (set_subs d s) = b_conns s. Proof. reflexivity. Qed.
Lemma b_picks_set_subs d s : b_picks (set_subs d s) = b_picks s. Proof. reflexivity. Qed.
Lemma b_tag_set_subs d s : b_tag (set_subs d s) = b_tag s. Proof. reflexivity. Qed.
Lemma b_auto_set_subs d s : b_auto (set_subs d s) = b_auto s. Proof. reflexivity. Qed.
Lemma b_npick_set_subs d s : b_npick (set_subs d s) = b_npick s. Proof. reflexivity. Qed.
Lemma b_cfg_set_ret r s : b_cfg (set_ret r s) = b_cfg s. Proof. reflexivity. Qed.
Lemma b_hooks_set_ret r s : b_hooks (set_ret r s) = b_hooks s. Proof. reflexivity. Qed.
Lemma b_now_set_ret r s : b_now (set_ret r s) = b_now s. Proof. reflexivity. Qed.
Lemma b_rt_set_ret r s : b_rt (set_ret r s) = b_rt s. Proof. reflexivity. Qed.
Lemma b_sessions_set_ret r s : b_sessions (set_ret r s) = b_sessions s. Proof. reflexivity. Qed.
Lemma b_online_set_ret r s : b_online (set_ret r s) = b_online s. Proof. reflexivity. Qed.
Lemma b_offline_set_ret r s : b_offline (set_ret r s) = b_offline s. Proof. reflexivity. Qed.
Lemma b_wills_set_ret r s : b_wills (set_ret r s) = b_wills s. Proof. reflexivity. Qed.
Lemma b_subs_set_ret r s : b_subs (set_ret r s) = b_subs s. Proof. reflexivity. Qed.
Lemma b_ret_set_ret r s : b_ret (set_ret r s) = r. Proof. reflexivity. Qed.
Lemma b_queues_set_ret r s : b_queues (set_ret r s) = b_queues s. Proof. reflexivity. Qed.
Lemma b_unacks_set_ret r s : b_unacks (set_ret r s) = b_unacks s. Proof. reflexivity. Qed.
Lemma b_conns_set_ret r s : b_conns (set_ret r s) = b_conns s. Proof. reflexivity. Qed.
Lemma b_picks_set_ret r s : b_picks (set_ret r s) = b_picks s. Proof. reflexivity. Qed.
Lemma b_tag_set_ret r s : b_tag (set_ret r s) = b_tag s. Proof. reflexivity. Qed.
Lemma b_auto_set_ret r s : b_auto (set_ret r s) = b_auto s. Proof. reflexivity. Qed.
Lemma b_npick_set_ret r s : b_npick (set_ret r s) = b_npick s. Proof. reflexivity. Qed.
Lemma b_cfg_set_time now rt s : b_cfg (set_time now rt s) = b_cfg s. Proof. reflexivity. Qed.
Lemma b_hooks_set_time now rt s : b_hooks (set_time now rt s) = b_hooks s. Proof. reflexivity. Qed.
Lemma b_now_set_time now rt s : b_now (set_time now rt s) = now. Proof. reflexivity. Qed.
Lemma b_rt_set_time now rt s : b_rt (set_time now rt s) = rt. Proof. reflexivity. Qed.
Lemma b_sessions_set_time now rt s : b_sessions (set_time now rt s) = b_sessions s. Proof. reflexivity. Qed.
Lemma b_online_set_time now rt s : b_online (set_time now rt s) = b_online s. Proof. reflexivity. Qed.
Lemma b_offline_set_time now rt s : b_offline (set_time now rt s) = b_offline s. Proof. reflexivity. Qed.
Lemma b_wills_set_time now rt s : b_wills (set_time now rt s) = b_wills s. Proof. reflexivity. Qed.
Lemma b_subs_set_time now rt s : b_subs (set_time now rt s) = b_subs s. Proof. reflexivity. Qed.
Lemma b_ret_set_time now rt s : b_ret (set_time now rt s) = b_ret s. Proof. reflexivity. Qed.
Lemma b_queues_set_time now rt s : b_queues (set_time now rt s) = b_queues s. Proof. reflexivity. Qed.
Lemma b_unacks_set_time now rt s : b_unacks (set_time now rt s) = b_unacks s. Proof. reflexivity. Qed.
Lemma b_conns_set_time now rt s : b_conns (set_time now rt s) = b_conns s. Proof. reflexivity. Qed.
Lemma b_picks_set_time now rt s : b_picks (set_time now rt s) = b_picks s. Proof. reflexivity. Qed.
Lemma b_tag_set_time now rt s : b_tag (set_time now rt s) = b_tag s. Proof. reflexivity. Qed.
Lemma b_auto_set_time now rt s : b_auto (set_time now rt s) = b_auto s. Proof. reflexivity. Qed.
Lemma b_npick_set_time now rt s : b_npick (set_time now rt s) = b_npick s. Proof. reflexivity. Qed.
Lemma b_cfg_set_picks_tag p t s : b_cfg (set_picks_tag p t s) = b_cfg s. Proof. reflexivity. Qed.
Lemma b_hooks_set_picks_tag p t s : b_hooks (set_picks_tag p t s) = b_hooks s. Proof. reflexivity. Qed.
Lemma b_now_set_picks_tag p t s : b_now (set_picks_tag p t s) = b_now s. Proof. reflexivity. Qed.
Lemma b_rt_set_picks_tag p t s : b_rt (set_picks_tag p t s) = b_rt s. Proof. reflexivity. Qed.
Lemma b_sessions_set_picks_tag p t s : b_sessions (set_picks_tag p t s) = b_sessions s. Proof. reflexivity. Qed.
Lemma b_online_set_picks_tag p t s : b_online (set_picks_tag p t s) = b_online s. Proof. reflexivity. Qed.
Lemma b_offline_set_picks_tag p t s : b_offline (set_picks_tag p t s) = b_offline s. Proof. reflexivity. Qed.
Lemma b_wills_set_picks_tag p t s : b_wills (set_picks_tag p t s) = b_wills s. Proof. reflexivity. Qed.
Lemma b_subs_set_picks_tag p t s : b_subs (set_picks_tag p t s) = b_subs s. Proof. reflexivity. Qed.
Lemma b_ret_set_picks_tag p t s : b_ret (set_picks_tag p t s) = b_ret s. Proof. reflexivity. Qed.
Lemma b_queues_set_picks_tag p t s : b_queues (set_picks_tag p t s) = b_queues s. Proof. reflexivity. Qed.
Lemma b_unacks_set_picks_tag p t s : b_unacks (set_picks_tag p t s) = b_unacks s. Proof. reflexivity. Qed.
Lemma b_conns_set_picks_tag p t s : b_conns (set_picks_tag p t s) = b_conns s. Proof. reflexivity. Qed.
Lemma b_picks_set_picks_tag p t s : b_picks (set_picks_tag p t s) = p. Proof. reflexivity. Qed.
Lemma b_tag_set_picks_tag p t s : b_tag (set_picks_tag p t s) = t. Proof. reflexivity. Qed.
Lemma b_auto_set_picks_tag p t s : b_auto (set_picks_tag p t s) = b_auto s. Proof. reflexivity. Qed.
Lemma b_npick_set_picks_tag p t s : b_npick (set_picks_tag p t s) = b_npick s. Proof. reflexivity. Qed.
Lemma b_cfg_set_unacks u s : b_cfg (set_unacks u s) = b_cfg s. Proof. reflexivity. Qed.
Lemma b_hooks_set_unacks u s : b_hooks (set_unacks u s) = b_hooks s. Proof. reflexivity. Qed.
Lemma b_now_set_unacks u s : b_now (set_unacks u s) = b_now s. Proof. reflexivity. Qed.
Lemma b_rt_set_unacks u s : b_rt (set_unacks u s) = b_rt s. Proof. reflexivity. Qed.
Lemma b_sessions_set_unacks u s : b_sessions (set_unacks u s) = b_sessions s. Proof. reflexivity. Qed.
Lemma b_online_set_unacks u s : b_online (set_unacks u s) = b_online s. Proof. reflexivity. Qed.
Lemma b_offline_set_unacks u s : b_offline (set_unacks u s) = b_offline s. Proof. reflexivity. Qed.
Lemma b_wills_set_unacks u s : b_wills (set_unacks u s) = b_wills s. Proof. reflexivity. Qed.
Lemma b_subs_set_unacks u s : b_subs (set_unacks u s) = b_subs s. Proof. reflexivity. Qed.
Lemma b_ret_set_unacks u s : b_ret (set_unacks u s) = b_ret s. Proof. reflexivity. Qed.
Lemma b_queues_set_unacks u s : b_queues (set_unacks u s) = b_queues s. Proof. reflexivity. Qed.
Lemma b_unacks_set_unacks u s : b_unacks (set_unacks u s) = u. Proof. reflexivity. Qed.
Lemma b_conns_set_unacks u s : b_conns (set_unacks u s) = b_conns s. Proof. reflexivity. Qed.
Lemma b_picks_set_unacks u s : b_picks (set_unacks u s) = b_picks s. Proof. reflexivity. Qed.
Lemma b_tag_set_unacks u s : b_tag (set_unacks u s) = b_tag s. Proof. reflexivity. Qed.
Lemma b_auto_set_unacks u s : b_auto (set_unacks u s) = b_auto s. Proof. reflexivity. Qed.
Lemma b_npick_set_unacks u s : b_npick (set_unacks u s) = b_npick s. Proof. reflexivity. Qed.
Lemma b_cfg_count_pick  s : b_cfg (count_pick  s) = b_cfg s. Proof. reflexivity. Qed.
Lemma b_hooks_count_pick  s : b_hooks (count_pick  s) = b_hooks s. Proof. reflexivity. Qed.
Lemma b_now_count_pick  s : b_now (count_pick  s) = b_now s. Proof. reflexivity. Qed.
Lemma b_rt_count_pick  s : b_rt (count_pick  s) = b_rt s. Proof. reflexivity. Qed.
Lemma b_sessions_count_pick  s : b_sessions (count_pick  s) = b_sessions s. Proof. reflexivity. Qed.
Lemma b_online_count_pick  s : b_online (count_pick  s) = b_online s. Proof. reflexivity. Qed.
Lemma b_offline_count_pick  s : b_offline (count_pick  s) = b_offline s. Proof. reflexivity. Qed.
Lemma b_wills_count_pick  s : b_wills (count_pick  s) = b_wills s. Proof. reflexivity. Qed.
Lemma b_subs_count_pick  s : b_subs (count_pick  s) = b_subs s. Proof. reflexivity. Qed.
Lemma b_ret_count_pick  s : b_ret (count_pick  s) = b_ret s. Proof. reflexivity. Qed.
Lemma b_queues_count_pick  s : b_queues (count_pick  s) = b_queues s. Proof. reflexivity. Qed.
Lemma b_unacks_count_pick  s : b_unacks (count_pick  s) = b_unacks s. Proof. reflexivity. Qed.
Lemma b_conns_count_pick  s : b_conns (count_pick  s) = b_conns s. Proof. reflexivity. Qed.
Lemma b_picks_count_pick  s : b_picks (count_pick  s) = b_picks s. Proof. reflexivity. Qed.
Lemma b_tag_count_pick  s : b_tag (count_pick  s) = b_tag s. Proof. reflexivity. Qed.
Lemma b_auto_count_pick  s : b_auto (count_pick  s) = b_auto s. Proof. reflexivity. Qed.
Lemma b_npick_count_pick  s : b_npick (count_pick  s) = b_npick s + 1. Proof. reflexivity. Qed.
Lemma b_cfg_set_auto a s : b_cfg (set_auto a s) = b_cfg s. Proof. reflexivity. Qed.
Lemma b_hooks_set_auto a s : b_hooks (set_auto a s) = b_hooks s. Proof. reflexivity. Qed.
Lemma b_now_set_auto a s : b_now (set_auto a s) = b_now s. Proof. reflexivity. Qed.
Lemma b_rt_set_auto a s : b_rt (set_auto a s) = b_rt s. Proof. reflexivity. Qed.
Lemma b_sessions_set_auto a s : b_sessions (set_auto a s) = b_sessions s. Proof. reflexivity. Qed.
Lemma b_online_set_auto a s : b_online (set_auto a s) = b_online s. Proof. reflexivity. Qed.
Lemma b_offline_set_auto a s : b_offline (set_auto a s) = b_offline s. Proof. reflexivity. Qed.
Lemma b_wills_set_auto a s : b_wills (set_auto a s) = b_wills s. Proof. reflexivity. Qed.
Lemma b_subs_set_auto a s : b_subs (set_auto a s) = b_subs s. Proof. reflexivity. Qed.
Lemma b_ret_set_auto a s : b_ret (set_auto a s) = b_ret s. Proof. reflexivity. Qed.
Lemma b_queues_set_auto a s : b_queues (set_auto a s) = b_queues s. Proof. reflexivity. Qed.
Lemma b_unacks_set_auto a s : b_unacks (set_auto a s) = b_unacks s. Proof. reflexivity. Qed.
Lemma b_conns_set_auto a s : b_conns (set_auto a s) = b_conns s. Proof. reflexivity. Qed.
Lemma b_picks_set_auto a s : b_picks (set_auto a s) = b_picks s. Proof. reflexivity. Qed.
Lemma b_tag_set_auto a s : b_tag (set_auto a s) = b_tag s. Proof. reflexivity. Qed.
Lemma b_auto_set_auto a s : b_auto (set_auto a s) = a. Proof. reflexivity. Qed.
Lemma b_npick_set_auto a s : b_npick (set_auto a s) = b_npick s. Proof. reflexivity. Qed.
Lemma k_cid_set_phase ph k : k_cid (set_phase ph k) = k_cid k. Proof. reflexivity. Qed.
Lemma k_v_set_phase ph k : k_v (set_phase ph k) = k_v k. Proof. reflexivity. Qed.
Lemma k_phase_set_phase ph k : k_phase (set_phase ph k) = ph. Proof. reflexivity. Qed.
Lemma k_max_inflight_set_phase ph k : k_max_inflight (set_phase ph k) = k_max_inflight k. Proof. reflexivity. Qed.
Lemma k_client_max_packet_set_phase ph k : k_client_max_packet (set_phase ph k) = k_client_max_packet k. Proof. reflexivity. Qed.
Lemma k_client_alias_max_set_phase ph k : k_client_alias_max (set_phase ph k) = k_client_alias_max k. Proof. reflexivity. Qed.
Lemma k_server_alias_max_set_phase ph k : k_server_alias_max (set_phase ph k) = k_server_alias_max k. Proof. reflexivity. Qed.
Lemma k_recv_max_set_phase ph k : k_recv_max (set_phase ph k) = k_recv_max k. Proof. reflexivity. Qed.
Lemma k_keepalive_set_phase ph k : k_keepalive (set_phase ph k) = k_keepalive k. Proof. reflexivity. Qed.
Lemma k_session_expiry_set_phase ph k : k_session_expiry (set_phase ph k) = k_session_expiry k. Proof. reflexivity. Qed.
Lemma k_retain_avail_set_phase ph k : k_retain_avail (set_phase ph k) = k_retain_avail k. Proof. reflexivity. Qed.
Lemma k_wildcard_set_phase ph k : k_wildcard (set_phase ph k) = k_wildcard k. Proof. reflexivity. Qed.
Lemma k_subid_set_phase ph k : k_subid (set_phase ph k) = k_subid k. Proof. reflexivity. Qed.
Lemma k_shared_set_phase ph k : k_shared (set_phase ph k) = k_shared k. Proof. reflexivity. Qed.
Lemma k_lim_set_phase ph k : k_lim (set_phase ph k) = k_lim k. Proof. reflexivity. Qed.
Lemma k_held_set_phase ph k : k_held (set_phase ph k) = match ph with PhClosed => None | _ => k_held k end. Proof. reflexivity. Qed.
Lemma k_alias_out_set_phase ph k : k_alias_out (set_phase ph k) = k_alias_out k. Proof. reflexivity. Qed.
Lemma k_alias_in_set_phase ph k : k_alias_in (set_phase ph k) = k_alias_in k. Proof. reflexivity. Qed.
Lemma k_alias_in_size_set_phase ph k : k_alias_in_size (set_phase ph k) = k_alias_in_size k. Proof. reflexivity. Qed.
Lemma k_quota_set_phase ph k : k_quota (set_phase ph k) = k_quota k. Proof. reflexivity. Qed.
Lemma k_clean_will_set_phase ph k : k_clean_will (set_phase ph k) = k_clean_will k. Proof. reflexivity. Qed.
Lemma k_disc_sei_set_phase ph k : k_disc_sei (set_phase ph k) = k_disc_sei k. Proof. reflexivity. Qed.
Lemma k_got_disconnect_set_phase ph k : k_got_disconnect (set_phase ph k) = k_got_disconnect k. Proof. reflexivity. Qed.
Lemma k_force_remove_set_phase ph k : k_force_remove (set_phase ph k) = k_force_remove k. Proof. reflexivity. Qed.
Lemma k_drained_set_phase ph k : k_drained (set_phase ph k) = k_drained k. Proof. reflexivity. Qed.
Lemma k_cid_set_lim_held l h dr k : k_cid (set_lim_held l h dr k) = k_cid k. Proof. reflexivity. Qed.
Lemma k_v_set_lim_held l h dr k : k_v (set_lim_held l h dr k) = k_v k. Proof. reflexivity. Qed.
Lemma k_phase_set_lim_held l h dr k : k_phase (set_lim_held l h dr k) = k_phase k. Proof. reflexivity. Qed.
Lemma k_max_inflight_set_lim_held l h dr k : k_max_inflight (set_lim_held l h dr k) = k_max_inflight k. Proof. reflexivity. Qed.
Lemma k_client_max_packet_set_lim_held l h dr k : k_client_max_packet (set_lim_held l h dr k) = k_client_max_packet k. Proof. reflexivity. Qed.
Lemma k_client_alias_max_set_lim_held l h dr k : k_client_alias_max (set_lim_held l h dr k) = k_client_alias_max k. Proof. reflexivity. Qed.
Lemma k_server_alias_max_set_lim_held l h dr k : k_server_alias_max (set_lim_held l h dr k) = k_server_alias_max k. Proof. reflexivity. Qed.
Lemma k_recv_max_set_lim_held l h dr k : k_recv_max (set_lim_held l h dr k) = k_recv_max k. Proof. reflexivity. Qed.
Lemma k_keepalive_set_lim_held l h dr k : k_keepalive (set_lim_held l h dr k) = k_keepalive k. Proof. reflexivity. Qed.
Lemma k_session_expiry_set_lim_held l h dr k : k_session_expiry (set_lim_held l h dr k) = k_session_expiry k. Proof. reflexivity. Qed.
Lemma k_retain_avail_set_lim_held l h dr k : k_retain_avail (set_lim_held l h dr k) = k_retain_avail k. Proof. reflexivity. Qed.
Lemma k_wildcard_set_lim_held l h dr k : k_wildcard (set_lim_held l h dr k) = k_wildcard k. Proof. reflexivity. Qed.
Lemma k_subid_set_lim_held l h dr k : k_subid (set_lim_held l h dr k) = k_subid k. Proof. reflexivity. Qed.
Lemma k_shared_set_lim_held l h dr k : k_shared (set_lim_held l h dr k) = k_shared k. Proof. reflexivity. Qed.
Lemma k_lim_set_lim_held l h dr k : k_lim (set_lim_held l h dr k) = l. Proof. reflexivity. Qed.
Lemma k_held_set_lim_held l h dr k : k_held (set_lim_held l h dr k) = h. Proof. reflexivity. Qed.
Lemma k_alias_out_set_lim_held l h dr k : k_alias_out (set_lim_held l h dr k) = k_alias_out k. Proof. reflexivity. Qed.
Lemma k_alias_in_set_lim_held l h dr k : k_alias_in (set_lim_held l h dr k) = k_alias_in k. Proof. reflexivity. Qed.
Lemma k_alias_in_size_set_lim_held l h dr k : k_alias_in_size (set_lim_held l h dr k) = k_alias_in_size k. Proof. reflexivity. Qed.
Lemma k_quota_set_lim_held l h dr k : k_quota (set_lim_held l h dr k) = k_quota k. Proof. reflexivity. Qed.
Lemma k_clean_will_set_lim_held l h dr k : k_clean_will (set_lim_held l h dr k) = k_clean_will k. Proof. reflexivity. Qed.
Lemma k_disc_sei_set_lim_held l h dr k : k_disc_sei (set_lim_held l h dr k) = k_disc_sei k. Proof. reflexivity. Qed.
Lemma k_got_disconnect_set_lim_held l h dr k : k_got_disconnect (set_lim_held l h dr k) = k_got_disconnect k. Proof. reflexivity. Qed.
Lemma k_force_remove_set_lim_held l h dr k : k_force_remove (set_lim_held l h dr k) = k_force_remove k. Proof. reflexivity. Qed.
Lemma k_drained_set_lim_held l h dr k : k_drained (set_lim_held l h dr k) = dr. Proof. reflexivity. Qed.
Lemma k_cid_set_quota q k : k_cid (set_quota q k) = k_cid k. Proof. reflexivity. Qed.
Lemma k_v_set_quota q k : k_v (set_quota q k) = k_v k. Proof. reflexivity. Qed.
Lemma k_phase_set_quota q k : k_phase (set_quota q k) = k_phase k. Proof. reflexivity. Qed.
Lemma k_max_inflight_set_quota q k : k_max_inflight (set_quota q k) = k_max_inflight k. Proof. reflexivity. Qed.
Lemma k_client_max_packet_set_quota q k : k_client_max_packet (set_quota q k) = k_client_max_packet k. Proof. reflexivity. Qed.
Lemma k_client_alias_max_set_quota q k : k_client_alias_max (set_quota q k) = k_client_alias_max k. Proof. reflexivity. Qed.
Lemma k_server_alias_max_set_quota q k : k_server_alias_max (set_quota q k) = k_server_alias_max k. Proof. reflexivity. Qed.
Lemma k_recv_max_set_quota q k : k_recv_max (set_quota q k) = k_recv_max k. Proof. reflexivity. Qed.
Lemma k_keepalive_set_quota q k : k_keepalive (set_quota q k) = k_keepalive k. Proof. reflexivity. Qed.
Lemma k_session_expiry_set_quota q k : k_session_expiry (set_quota q k) = k_session_expiry k. Proof. reflexivity. Qed.
Lemma k_retain_avail_set_quota q k : k_retain_avail (set_quota q k) = k_retain_avail k. Proof. reflexivity. Qed.
Lemma k_wildcard_set_quota q k : k_wildcard (set_quota q k) = k_wildcard k. Proof. reflexivity. Qed.
Lemma k_subid_set_quota q k : k_subid (set_quota q k) = k_subid k. Proof. reflexivity. Qed.
Lemma k_shared_set_quota q k : k_shared (set_quota q k) = k_shared k. Proof. reflexivity. Qed.
Lemma k_lim_set_quota q k : k_lim (set_quota q k) = k_lim k. Proof. reflexivity. Qed.
Lemma k_held_set_quota q k : k_held (set_quota q k) = k_held k. Proof. reflexivity. Qed.
Lemma k_alias_out_set_quota q k : k_alias_out (set_quota q k) = k_alias_out k. Proof. reflexivity. Qed.
Lemma k_alias_in_set_quota q k : k_alias_in (set_quota q k) = k_alias_in k. Proof. reflexivity. Qed.
Lemma k_alias_in_size_set_quota q k : k_alias_in_size (set_quota q k) = k_alias_in_size k. Proof. reflexivity. Qed.
Lemma k_quota_set_quota q k : k_quota (set_quota q k) = q. Proof. reflexivity. Qed.
Lemma k_clean_will_set_quota q k : k_clean_will (set_quota q k) = k_clean_will k. Proof. reflexivity. Qed.
Lemma k_disc_sei_set_quota q k : k_disc_sei (set_quota q k) = k_disc_sei k. Proof. reflexivity. Qed.
Lemma k_got_disconnect_set_quota q k : k_got_disconnect (set_quota q k) = k_got_disconnect k. Proof. reflexivity. Qed.
Lemma k_force_remove_set_quota q k : k_force_remove (set_quota q k) = k_force_remove k. Proof. reflexivity. Qed.
Lemma k_drained_set_quota q k : k_drained (set_quota q k) = k_drained k. Proof. reflexivity. Qed.
Lemma k_cid_set_alias_in a k : k_cid (set_alias_in a k) = k_cid k. Proof. reflexivity. Qed.
Lemma k_v_set_alias_in a k : k_v (set_alias_in a k) = k_v k. Proof. reflexivity. Qed.
Lemma k_phase_set_alias_in a k : k_phase (set_alias_in a k) = k_phase k. Proof. reflexivity. Qed.
Lemma k_max_inflight_set_alias_in a k : k_max_inflight (set_alias_in a k) = k_max_inflight k. Proof. reflexivity. Qed.
Lemma k_client_max_packet_set_alias_in a k : k_client_max_packet (set_alias_in a k) = k_client_max_packet k. Proof. reflexivity. Qed.
Lemma k_client_alias_max_set_alias_in a k : k_client_alias_max (set_alias_in a k) = k_client_alias_max k. Proof. reflexivity. Qed.
Lemma k_server_alias_max_set_alias_in a k : k_server_alias_max (set_alias_in a k) = k_server_alias_max k. Proof. reflexivity. Qed.
Lemma k_recv_max_set_alias_in a k : k_recv_max (set_alias_in a k) = k_recv_max k. Proof. reflexivity. Qed.
Lemma k_keepalive_set_alias_in a k : k_keepalive (set_alias_in a k) = k_keepalive k. Proof. reflexivity. Qed.
Lemma k_session_expiry_set_alias_in a k : k_session_expiry (set_alias_in a k) = k_session_expiry k. Proof. reflexivity. Qed.
Lemma k_retain_avail_set_alias_in a k : k_retain_avail (set_alias_in a k) = k_retain_avail k. Proof. reflexivity. Qed.
Lemma k_wildcard_set_alias_in a k : k_wildcard (set_alias_in a k) = k_wildcard k. Proof. reflexivity. Qed.
Lemma k_subid_set_alias_in a k : k_subid (set_alias_in a k) = k_subid k. Proof. reflexivity. Qed.
Lemma k_shared_set_alias_in a k : k_shared (set_alias_in a k) = k_shared k. Proof. reflexivity. Qed.
Lemma k_lim_set_alias_in a k : k_lim (set_alias_in a k) = k_lim k. Proof. reflexivity. Qed.
Lemma k_held_set_alias_in a k : k_held (set_alias_in a k) = k_held k. Proof. reflexivity. Qed.
Lemma k_alias_out_set_alias_in a k : k_alias_out (set_alias_in a k) = k_alias_out k. Proof. reflexivity. Qed.
Lemma k_alias_in_set_alias_in a k : k_alias_in (set_alias_in a k) = a. Proof. reflexivity. Qed.
Lemma k_alias_in_size_set_alias_in a k : k_alias_in_size (set_alias_in a k) = k_alias_in_size k. Proof. reflexivity. Qed.
Lemma k_quota_set_alias_in a k : k_quota (set_alias_in a k) = k_quota k. Proof. reflexivity. Qed.
Lemma k_clean_will_set_alias_in a k : k_clean_will (set_alias_in a k) = k_clean_will k. Proof. reflexivity. Qed.
Lemma k_disc_sei_set_alias_in a k : k_disc_sei (set_alias_in a k) = k_disc_sei k. Proof. reflexivity. Qed.
Lemma k_got_disconnect_set_alias_in a k : k_got_disconnect (set_alias_in a k) = k_got_disconnect k. Proof. reflexivity. Qed.
Lemma k_force_remove_set_alias_in a k : k_force_remove (set_alias_in a k) = k_force_remove k. Proof. reflexivity. Qed.
Lemma k_drained_set_alias_in a k : k_drained (set_alias_in a k) = k_drained k. Proof. reflexivity. Qed.
Lemma k_cid_set_disc cw sei k : k_cid (set_disc cw sei k) = k_cid k. Proof. reflexivity. Qed.
Lemma k_v_set_disc cw sei k : k_v (set_disc cw sei k) = k_v k. Proof. reflexivity. Qed.
Lemma k_phase_set_disc cw sei k : k_phase (set_disc cw sei k) = k_phase k. Proof. reflexivity. Qed.
Lemma k_max_inflight_set_disc cw sei k : k_max_inflight (set_disc cw sei k) = k_max_inflight k. Proof. reflexivity. Qed.
Lemma k_client_max_packet_set_disc cw sei k : k_client_max_packet (set_disc cw sei k) = k_client_max_packet k. Proof. reflexivity. Qed.
Lemma k_client_alias_max_set_disc cw sei k : k_client_alias_max (set_disc cw sei k) = k_client_alias_max k. Proof. reflexivity. Qed.
Lemma k_server_alias_max_set_disc cw sei k : k_server_alias_max (set_disc cw sei k) = k_server_alias_max k. Proof. reflexivity. Qed.
Lemma k_recv_max_set_disc cw sei k : k_recv_max (set_disc cw sei k) = k_recv_max k. Proof. reflexivity. Qed.
Lemma k_keepalive_set_disc cw sei k : k_keepalive (set_disc cw sei k) = k_keepalive k. Proof. reflexivity. Qed.
Lemma k_session_expiry_set_disc cw sei k : k_session_expiry (set_disc cw sei k) = k_session_expiry k. Proof. reflexivity. Qed.
Lemma k_retain_avail_set_disc cw sei k : k_retain_avail (set_disc cw sei k) = k_retain_avail k. Proof. reflexivity. Qed.
Lemma k_wildcard_set_disc cw sei k : k_wildcard (set_disc cw sei k) = k_wildcard k. Proof. reflexivity. Qed.
Lemma k_subid_set_disc cw sei k : k_subid (set_disc cw sei k) = k_subid k. Proof. reflexivity. Qed.
Lemma k_shared_set_disc cw sei k : k_shared (set_disc cw sei k) = k_shared k. Proof. reflexivity. Qed.
Lemma k_lim_set_disc cw sei k : k_lim (set_disc cw sei k) = k_lim k. Proof. reflexivity. Qed.
Lemma k_held_set_disc cw sei k : k_held (set_disc cw sei k) = k_held k. Proof. reflexivity. Qed.
Lemma k_alias_out_set_disc cw sei k : k_alias_out (set_disc cw sei k) = k_alias_out k. Proof. reflexivity. Qed.
Lemma k_alias_in_set_disc cw sei k : k_alias_in (set_disc cw sei k) = k_alias_in k. Proof. reflexivity. Qed.
Lemma k_alias_in_size_set_disc cw sei k : k_alias_in_size (set_disc cw sei k) = k_alias_in_size k. Proof. reflexivity. Qed.
Lemma k_quota_set_disc cw sei k : k_quota (set_disc cw sei k) = k_quota k. Proof. reflexivity. Qed.
Lemma k_clean_will_set_disc cw sei k : k_clean_will (set_disc cw sei k) = cw. Proof. reflexivity. Qed.
Lemma k_disc_sei_set_disc cw sei k : k_disc_sei (set_disc cw sei k) = sei. Proof. reflexivity. Qed.
Lemma k_got_disconnect_set_disc cw sei k : k_got_disconnect (set_disc cw sei k) = true. Proof. reflexivity. Qed.
Lemma k_force_remove_set_disc cw sei k : k_force_remove (set_disc cw sei k) = k_force_remove k. Proof. reflexivity. Qed.
Lemma k_drained_set_disc cw sei k : k_drained (set_disc cw sei k) = k_drained k. Proof. reflexivity. Qed.
Lemma k_cid_set_force  k : k_cid (set_force  k) = k_cid k. Proof. reflexivity. Qed.
Lemma k_v_set_force  k : k_v (set_force  k) = k_v k. Proof. reflexivity. Qed.
Lemma k_phase_set_force  k : k_phase (set_force  k) = k_phase k. Proof. reflexivity. Qed.
Lemma k_max_inflight_set_force  k : k_max_inflight (set_force  k) = k_max_inflight k. Proof. reflexivity. Qed.
Lemma k_client_max_packet_set_force  k : k_client_max_packet (set_force  k) = k_client_max_packet k. Proof. reflexivity. Qed.
Lemma k_client_alias_max_set_force  k : k_client_alias_max (set_force  k) = k_client_alias_max k. Proof. reflexivity. Qed.
Lemma k_server_alias_max_set_force  k : k_server_alias_max (set_force  k) = k_server_alias_max k. Proof. reflexivity. Qed.
Lemma k_recv_max_set_force  k : k_recv_max (set_force  k) = k_recv_max k. Proof. reflexivity. Qed.
Lemma k_keepalive_set_force  k : k_keepalive (set_force  k) = k_keepalive k. Proof. reflexivity. Qed.
Lemma k_session_expiry_set_force  k : k_session_expiry (set_force  k) = k_session_expiry k. Proof. reflexivity. Qed.
Lemma k_retain_avail_set_force  k : k_retain_avail (set_force  k) = k_retain_avail k. Proof. reflexivity. Qed.
Lemma k_wildcard_set_force  k : k_wildcard (set_force  k) = k_wildcard k. Proof. reflexivity. Qed.
Lemma k_subid_set_force  k : k_subid (set_force  k) = k_subid k. Proof. reflexivity. Qed.
Lemma k_shared_set_force  k : k_shared (set_force  k) = k_shared k. Proof. reflexivity. Qed.
Lemma k_lim_set_force  k : k_lim (set_force  k) = k_lim k. Proof. reflexivity. Qed.
Lemma k_held_set_force  k : k_held (set_force  k) = k_held k. Proof. reflexivity. Qed.
Lemma k_alias_out_set_force  k : k_alias_out (set_force  k) = k_alias_out k. Proof. reflexivity. Qed.
Lemma k_alias_in_set_force  k : k_alias_in (set_force  k) = k_alias_in k. Proof. reflexivity. Qed.
Lemma k_alias_in_size_set_force  k : k_alias_in_size (set_force  k) = k_alias_in_size k. Proof. reflexivity. Qed.
Lemma k_quota_set_force  k : k_quota (set_force  k) = k_quota k. Proof. reflexivity. Qed.
Lemma k_clean_will_set_force  k : k_clean_will (set_force  k) = k_clean_will k. Proof. reflexivity. Qed.
Lemma k_disc_sei_set_force  k : k_disc_sei (set_force  k) = k_disc_sei k. Proof. reflexivity. Qed.
Lemma k_got_disconnect_set_force  k : k_got_disconnect (set_force  k) = k_got_disconnect k. Proof. reflexivity. Qed.
Lemma k_force_remove_set_force  k : k_force_remove (set_force  k) = true. Proof. reflexivity. Qed.
Lemma k_drained_set_force  k : k_drained (set_force  k) = k_drained k. Proof. reflexivity. Qed.

Lemma nget_nset_other {V} (c' c : N) (v : V) l : c' <> c -> nget c' (nset c v l) = nget c' l.
Proof. apply BrokerBasicP.nget_nset_other. Qed.

Lemma nget_In {V} (c : N) (v : V) l : nget c l = Some v -> In (c, v) l.
Proof. apply BrokerBasicP.nget_In. Qed.

Section AssocMore.
  Context {V : Type}.
  Implicit Types (l : list (str * V)) (k : str) (v : V).

  Lemma aset_aget_id k v l : aget k l = Some v -> aset k v l = l.
  Proof. apply AssocP.aset_aget_id. Qed.

  Lemma ahas_aget k l : ahas k l = match aget k l with Some _ => true | None => false end.
  Proof. reflexivity. Qed.
End AssocMore.

(* the fields of a connection record that only the packet handlers / CONNECT / close change
   (everything except the packet-id limiter, the held ids, the outbound alias table and the
   drained flag, which belong to the poll loop) *)
Definition kstat (k : conn) :=
  (k_cid k, k_v k, k_phase k, (k_max_inflight k, k_client_max_packet k, k_client_alias_max k, k_server_alias_max k),
   (k_recv_max k, k_keepalive k, k_session_expiry k), (k_retain_avail k, k_wildcard k, k_subid k, k_shared k),
   (k_alias_in k, k_alias_in_size k, k_quota k), (k_clean_will k, k_disc_sei k, k_got_disconnect k, k_force_remove k)).

Definition cstat (s : st) (c : N) := option_map kstat (nget c (b_conns s)).

(* the broker tables `deliver` and the poll loops never write *)
Definition dproj (s : st) :=
  (b_cfg s, b_hooks s, b_now s, b_rt s, (b_sessions s, b_online s, b_offline s, b_wills s), (b_subs s, b_ret s, b_unacks s, b_auto s)).

Definition dframe (s s' : st) : Prop := dproj s' = dproj s /\ forall c, cstat s' c = cstat s c.

Lemma dframe_refl s : dframe s s.
Proof. split; reflexivity. Qed.

Lemma dframe_trans s1 s2 s3 : dframe s1 s2 -> dframe s2 s3 -> dframe s1 s3.
Proof. intros [A1 B1] [A2 B2]. split; [congruence|]. intros c. now rewrite B2, B1. Qed.

Section DframeFields.
  Variables s s' : st.
  Hypothesis H : dframe s s'.
  Lemma df_cfg : b_cfg s' = b_cfg s. Proof. destruct H as [A _]. unfold dproj in A. congruence. Qed.
  Lemma df_hooks : b_hooks s' = b_hooks s. Proof. destruct H as [A _]. unfold dproj in A. congruence. Qed.
  Lemma df_now : b_now s' = b_now s. Proof. destruct H as [A _]. unfold dproj in A. congruence. Qed.
  Lemma df_rt : b_rt s' = b_rt s. Proof. destruct H as [A _]. unfold dproj in A. congruence. Qed.
  Lemma df_sessions : b_sessions s' = b_sessions s. Proof. destruct H as [A _]. unfold dproj in A. congruence. Qed.
  Lemma df_online : b_online s' = b_online s. Proof. destruct H as [A _]. unfold dproj in A. congruence. Qed.
  Lemma df_offline : b_offline s' = b_offline s. Proof. destruct H as [A _]. unfold dproj in A. congruence. Qed.
  Lemma df_wills : b_wills s' = b_wills s. Proof. destruct H as [A _]. unfold dproj in A. congruence. Qed.
  Lemma df_subs : b_subs s' = b_subs s. Proof. destruct H as [A _]. unfold dproj in A. congruence. Qed.
  Lemma df_ret : b_ret s' = b_ret s. Proof. destruct H as [A _]. unfold dproj in A. congruence. Qed.
  Lemma df_unacks : b_unacks s' = b_unacks s. Proof. destruct H as [A _]. unfold dproj in A. congruence. Qed.
  Lemma df_auto : b_auto s' = b_auto s. Proof. destruct H as [A _]. unfold dproj in A. congruence. Qed.
  Lemma df_cstat c : cstat s' c = cstat s c. Proof. destruct H as [_ B]. apply B. Qed.
  Lemma df_conn c k : nget c (b_conns s) = Some k -> exists k', nget c (b_conns s') = Some k' /\ kstat k' = kstat k.
  Proof.
    intros Hk. pose proof (df_cstat c) as E. unfold cstat in E. rewrite Hk in E. cbn [option_map] in E.
    destruct (nget c (b_conns s')) as [k'|]; cbn [option_map] in E; [|discriminate].
    exists k'. split; [reflexivity|congruence].
  Qed.
End DframeFields.

Section KstatFields.
  Variables k k' : conn.
  Hypothesis H : kstat k' = kstat k.
  Lemma ks_cid : k_cid k' = k_cid k. Proof. unfold kstat in H. congruence. Qed.
  Lemma ks_v : k_v k' = k_v k. Proof. unfold kstat in H. congruence. Qed.
  Lemma ks_phase : k_phase k' = k_phase k. Proof. unfold kstat in H. congruence. Qed.
  Lemma ks_quota : k_quota k' = k_quota k. Proof. unfold kstat in H. congruence. Qed.
  Lemma ks_recv_max : k_recv_max k' = k_recv_max k. Proof. unfold kstat in H. congruence. Qed.
  Lemma ks_retain_avail : k_retain_avail k' = k_retain_avail k. Proof. unfold kstat in H. congruence. Qed.
  Lemma ks_server_alias_max : k_server_alias_max k' = k_server_alias_max k. Proof. unfold kstat in H. congruence. Qed.
  Lemma ks_alias_in : k_alias_in k' = k_alias_in k. Proof. unfold kstat in H. congruence. Qed.
  Lemma ks_clean_will : k_clean_will k' = k_clean_will k. Proof. unfold kstat in H. congruence. Qed.
  Lemma ks_disc_sei : k_disc_sei k' = k_disc_sei k. Proof. unfold kstat in H. congruence. Qed.
  Lemma ks_got_disconnect : k_got_disconnect k' = k_got_disconnect k. Proof. unfold kstat in H. congruence. Qed.
  Lemma ks_force_remove : k_force_remove k' = k_force_remove k. Proof. unfold kstat in H. congruence. Qed.
  Lemma ks_keepalive : k_keepalive k' = k_keepalive k. Proof. unfold kstat in H. congruence. Qed.
End KstatFields.

(* setters that touch none of the tables of dproj and keep every connection's static part *)
Lemma dframe_set_queues q s : dframe s (set_queues q s).
Proof. split; reflexivity. Qed.
Lemma dframe_set_picks_tag p t s : dframe s (set_picks_tag p t s).
Proof. split; reflexivity. Qed.
Lemma dframe_count_pick s : dframe s (count_pick s).
Proof. split; reflexivity. Qed.

Lemma dframe_upd_conn c k k' s :
  nget c (b_conns s) = Some k -> kstat k' = kstat k -> dframe s (upd_conn c k' s).
Proof.
  intros Hk Hs. split; [reflexivity|]. intros c'. unfold cstat. rewrite b_conns_upd_conn, nget_nset.
  destruct (c' =? c) eqn:E; [|reflexivity]. apply N.eqb_eq in E. subst c'. rewrite Hk. cbn [option_map]. now rewrite Hs.
Qed.

(* outputs that are only drop notifications (no packet is written, no socket closed) *)
Definition is_drop (x : out) : Prop := match x with ODropped _ _ _ => True | _ => False end.
Definition only_drops (o : list out) : Prop := Forall is_drop o.

Lemma only_drops_nil : only_drops []. Proof. constructor. Qed.
Lemma only_drops_app a b : only_drops a -> only_drops b -> only_drops (a ++ b).
Proof. intros Ha Hb. apply Forall_app. now split. Qed.
Lemma only_drops_no_send o c p : only_drops o -> ~ In (OSend c p) o.
Proof. intros H Hin. unfold only_drops in H. rewrite Forall_forall in H. apply H in Hin. exact Hin. Qed.
Lemma only_drops_no_close o c : only_drops o -> ~ In (OClose c) o.
Proof. intros H Hin. unfold only_drops in H. rewrite Forall_forall in H. apply H in Hin. exact Hin. Qed.

Lemma drops_of_only cid evs : only_drops (drops_of cid evs).
Proof.
  unfold drops_of, only_drops. induction evs as [|e r IH]; cbn [flat_map]; [constructor|].
  apply Forall_app. split; [|exact IH].
  destruct e as [el rs| |]; try constructor.
  destruct (e_body el); constructor; [exact I|constructor].
Qed.

Lemma release_dropped_frame cid evs s : dframe s (release_dropped cid evs s).
Proof.
  unfold release_dropped.
  destruct (aget cid (b_online s)) as [c|]; [|apply dframe_refl].
  destruct (nget c (b_conns s)) as [k|] eqn:Hk; [|apply dframe_refl].
  eapply dframe_upd_conn; [exact Hk|reflexivity].
Qed.

Lemma add_to_queue_frame cid m sb ids s :
  dframe s (fst (add_to_queue cid m sb ids s)) /\ only_drops (snd (add_to_queue cid m sb ids s)).
Proof.
  destruct (DeliverP.add_to_queue_cases cid m sb ids s) as [->|(q & q' & evs & _ & _ & _ & ->)];
    [split; [apply dframe_refl|constructor]|].
  cbn [fst snd]. split; [|apply drops_of_only].
  eapply dframe_trans; [|apply release_dropped_frame].
  eapply dframe_trans; [apply dframe_set_queues|apply dframe_set_picks_tag].
Qed.

(* deliver is a sequence of add_to_queue calls with updates of the pick oracle in between *)
Theorem deliver_frame src m s :
  dframe s (fst (fst (deliver src m s))) /\ only_drops (snd (fst (deliver src m s))).
Proof.
  apply (BrokerPollP.deliver_acc_inv (fun r => dframe s (fst r) /\ only_drops (snd r))); cbn [fst snd].
  - intros cid sb ids a o [F D]. destruct (add_to_queue_frame cid m sb ids a) as [F' D'].
    split; [eapply dframe_trans; eassumption|now apply only_drops_app].
  - intros a o [F D]. split; [eapply dframe_trans; [exact F|apply dframe_count_pick]|exact D].
  - intros r a o [F D]. split; [eapply dframe_trans; [exact F|apply dframe_set_picks_tag]|exact D].
  - split; [apply dframe_refl|constructor].
Qed.

(* forwarding a message - a PUBLISH or a will - is: update the retained store, then deliver *)
Lemma forward_frame src m s :
  exists r, dframe (set_ret r s) (fst (fst (deliver src m (retain_update m s)))) /\
            only_drops (snd (fst (deliver src m (retain_update m s)))).
Proof.
  assert (E : exists r, retain_update m s = set_ret r s).
  { unfold retain_update. destruct (m_retained m); [eexists; reflexivity|]. exists (b_ret s). now destruct s. }
  destruct E as [r ->]. exists r. apply deliver_frame.
Qed.

(* the stages of handle_publish, cut out of its text; handle_publish_stages below shows that
   their composition IS handle_publish (by computation) *)
Definition pub_alias (v5 : bool) (k : conn) (topic : str) (props : list prop) (m0 : msg) : option (conn * msg) + N :=
  match (if v5 then p_alias props else None) with
  | None => inl (Some (k, m0))
  | Some a =>
      if (a =? 0) || (k_server_alias_max k <? a) then inr 148
      else
        match topic with
        | [] => match nget a (k_alias_in k) with
                | Some name => match name with [] => inr 148 | _ => inl (Some (k, with_topic name m0)) end
                | None => inr 148
                end
        | _ => inl (Some (set_alias_in (nset a topic (k_alias_in k)) k, m0))
        end
  end.

(* QoS 2 duplicate detection (on the state that already carries the connection record) *)
Definition pub_mark (c : N) (k : conn) (v5 : bool) (qos pid : N) (s : st) : st * bool :=
  if qos =? 2 then
    let u := opt_or (aget (k_cid k) (b_unacks s)) [] in
    let '(u', ex) := unack_set pid u in
    let s := set_unacks (aset (k_cid k) u' (b_unacks s)) s in
    let s := if ex && v5 then
               match nget c (b_conns s) with
               | Some k1 => if k_quota k1 <? k_recv_max k1 then upd_conn c (set_quota (k_quota k1 + 1) k1) s else s
               | None => s
               end
             else s in
    (s, ex)
  else (s, false).

Definition pub_action (m : msg) (s : st) : msg_action :=
  if h_msg_on (b_hooks s) then opt_or (aget (m_topic m) (h_msg (b_hooks s))) MAccept else MAccept.

(* the only place where the handler forwards: deliver is applied at most once, and never for a duplicate *)
Definition pub_fwd (k : conn) (m : msg) (isdup : bool) (s : st) : st * list out * bool * option N :=
  if isdup then (s, [], false, None)
  else
    match pub_action m s with
    | MReject code => (s, [], false, Some code)
    | MDrop => (s, [], false, None)
    | MAccept => let '(s', o, mt) := deliver (k_cid k) m (retain_update m s) in (s', o, mt, None)
    | MRewrite t p q => let m' := rewrite_msg t p q m in
                        let '(s', o, mt) := deliver (k_cid k) m' (retain_update m' s) in (s', o, mt, None)
    end.

Definition pub_code (v5 : bool) (matched : bool) (err : option N) : N :=
  if v5 then match err with Some cd => cd | None => if matched then 0 else 16 end else 0.

Definition pub_finish (c : N) (k : conn) (v5 : bool) (qos pid : N) (r : st * list out * bool * option N) : hres :=
  let '(s, o, matched, err) := r in
  let code := pub_code v5 matched err in
  let s := if (qos =? 2) && (128 <=? code)
           then set_unacks (aset (k_cid k) (unack_remove pid (opt_or (aget (k_cid k) (b_unacks s)) [])) (b_unacks s)) s
           else s in
  let ack := if qos =? 1 then [OSend c (KPuback pid code [])]
             else if qos =? 2 then [OSend c (KPubrec pid code [])] else [] in
  let s := match nget c (b_conns s) with
           | Some k1 =>
               if v5 && ((qos =? 1) || ((qos =? 2) && (128 <=? code))) && (k_quota k1 <? k_recv_max k1)
               then upd_conn c (set_quota (k_quota k1 + 1) k1) s else s
           | None => s
           end in
  HOk s (o ++ ack).

Lemma handle_publish_stages c k dup qos retain topic payload pid props s :
  handle_publish c k dup qos retain topic payload pid props s =
  let v5 := k_v k =? 5 in
  if negb (k_retain_avail k) && retain then HErr s [] (Some 154)
  else
    match pub_alias v5 k topic props (msg_of_publish v5 dup qos retain topic payload pid props) with
    | inr code => HErr s [] (Some code)
    | inl None => HErr s [] None
    | inl (Some (k', m)) =>
        let '(s1, isdup) := pub_mark c k' v5 qos pid (upd_conn c k' s) in
        pub_finish c k' v5 qos pid (pub_fwd k' m isdup s1)
    end.
Proof. reflexivity. Qed.

(* U: the packet ids of QoS 2 PUBLISH packets received from client [cid] and not yet released *)
Definition Uof (cid : str) (s : st) : list N := opt_or (aget cid (b_unacks s)) [].

(* everything but the unack table and the connection records *)
Definition qproj (s : st) :=
  (b_cfg s, b_hooks s, b_now s, b_rt s, (b_sessions s, b_online s, b_offline s, b_wills s),
   (b_subs s, b_ret s, b_queues s), (b_picks s, b_tag s, b_auto s, b_npick s)).

Section QprojFields.
  Variables s s' : st.
  Hypothesis H : qproj s' = qproj s.
  Lemma qp_queues : b_queues s' = b_queues s. Proof. unfold qproj in H. congruence. Qed.
  Lemma qp_subs : b_subs s' = b_subs s. Proof. unfold qproj in H. congruence. Qed.
  Lemma qp_ret : b_ret s' = b_ret s. Proof. unfold qproj in H. congruence. Qed.
  Lemma qp_hooks : b_hooks s' = b_hooks s. Proof. unfold qproj in H. congruence. Qed.
  Lemma qp_cfg : b_cfg s' = b_cfg s. Proof. unfold qproj in H. congruence. Qed.
  Lemma qp_sessions : b_sessions s' = b_sessions s. Proof. unfold qproj in H. congruence. Qed.
  Lemma qp_online : b_online s' = b_online s. Proof. unfold qproj in H. congruence. Qed.
  Lemma qp_wills : b_wills s' = b_wills s. Proof. unfold qproj in H. congruence. Qed.
End QprojFields.

Lemma Uof_dframe cid s s' : dframe s s' -> Uof cid s' = Uof cid s.
Proof. intros H. unfold Uof. now rewrite (df_unacks _ _ H). Qed.

(* s' has the unack sets of s, except that client cid's is u *)
Definition urec (cid : str) (u : list N) (s s' : st) : Prop :=
  forall cid', Uof cid' s' = if str_eqb cid' cid then u else Uof cid' s.

Lemma urec_refl cid s : urec cid (Uof cid s) s s.
Proof. intros cid'. destruct (str_eqb_spec cid' cid) as [->|_]; reflexivity. Qed.

Lemma urec_set cid u s s0 : urec cid u s (set_unacks (aset cid u (b_unacks s)) s0).
Proof. intros cid'. unfold Uof. rewrite b_unacks_set_unacks, aget_aset. destruct (str_eqb cid' cid); reflexivity. Qed.

Lemma urec_ext cid u s s1 s2 : (forall cid', Uof cid' s2 = Uof cid' s1) -> urec cid u s s1 -> urec cid u s s2.
Proof. intros E H cid'. now rewrite E. Qed.

Lemma urec_trans cid u u' s s1 s2 : urec cid u s s1 -> urec cid u' s1 s2 -> urec cid u' s s2.
Proof. intros H1 H2 cid'. rewrite H2, H1. destruct (str_eqb cid' cid); reflexivity. Qed.

Lemma urec_self cid u s s' : urec cid u s s' -> Uof cid s' = u.
Proof. intros H. now rewrite H, str_eqb_refl. Qed.

Lemma urec_other cid u s s' cid' : urec cid u s s' -> cid' <> cid -> Uof cid' s' = Uof cid' s.
Proof. intros H Hne. rewrite H. apply str_eqb_neq in Hne. now rewrite Hne. Qed.

Lemma urec_same cid s s' : urec cid (Uof cid s) s s' -> forall cid', Uof cid' s' = Uof cid' s.
Proof. intros H cid'. rewrite H. destruct (str_eqb_spec cid' cid) as [->|_]; reflexivity. Qed.

(* the read loop / write loop giving one unit of receive quota back *)
Definition quota_back (c : N) (s : st) : st :=
  match nget c (b_conns s) with
  | Some k1 => if k_quota k1 <? k_recv_max k1 then upd_conn c (set_quota (k_quota k1 + 1) k1) s else s
  | None => s
  end.

Lemma qproj_quota_back c s : qproj (quota_back c s) = qproj s.
Proof. unfold quota_back. destruct (nget c (b_conns s)) as [k1|]; [|reflexivity]. destruct (k_quota k1 <? k_recv_max k1); reflexivity. Qed.

Lemma Uof_quota_back cid c s : Uof cid (quota_back c s) = Uof cid s.
Proof. unfold quota_back. destruct (nget c (b_conns s)) as [k1|]; [|reflexivity]. destruct (k_quota k1 <? k_recv_max k1); reflexivity. Qed.

Lemma pub_mark_qos2 c k v5 pid s :
  pub_mark c k v5 2 pid s =
  let u := Uof (k_cid k) s in
  if memN pid u
  then ((if v5 then quota_back c (set_unacks (aset (k_cid k) u (b_unacks s)) s)
         else set_unacks (aset (k_cid k) u (b_unacks s)) s), true)
  else (set_unacks (aset (k_cid k) (pid :: u) (b_unacks s)) s, false).
Proof.
  unfold pub_mark, Uof, unack_set, quota_back. cbn [N.eqb Pos.eqb].
  destruct (memN pid (opt_or (aget (k_cid k) (b_unacks s)) [])); cbn [andb]; [|reflexivity].
  destruct v5; reflexivity.
Qed.

Lemma pub_mark_not2 c k v5 qos pid s : (qos =? 2) = false -> pub_mark c k v5 qos pid s = (s, false).
Proof. intros H. unfold pub_mark. now rewrite H. Qed.

(* the message the hook lets through *)
Definition fwd_msg (a : msg_action) (m : msg) : option msg :=
  match a with MAccept => Some m | MRewrite t p q => Some (rewrite_msg t p q m) | _ => None end.

Lemma pub_fwd_eq k m isdup s :
  pub_fwd k m isdup s =
  if isdup then (s, [], false, None)
  else match fwd_msg (pub_action m s) m with
       | Some m' => (deliver (k_cid k) m' (retain_update m' s), None)
       | None => (s, [], false, match pub_action m s with MReject code => Some code | _ => None end)
       end.
Proof.
  unfold pub_fwd, fwd_msg. destruct isdup; [reflexivity|].
  destruct (pub_action m s); try reflexivity; now destruct (deliver _ _ _) as [[? ?] ?].
Qed.

Definition pub_ack (c qos pid code : N) : list out :=
  if qos =? 1 then [OSend c (KPuback pid code [])]
  else if qos =? 2 then [OSend c (KPubrec pid code [])] else [].

(* pub_finish: an error code takes the identifier of a QoS 2 PUBLISH out of U again; the acknowledgement; the
   quota unit comes back with a PUBACK or a failing PUBREC *)
Lemma pub_finish_eq c k v5 qos pid s o mt err :
  pub_finish c k v5 qos pid (s, o, mt, err) =
  let code := pub_code v5 mt err in
  let bad := (qos =? 2) && (128 <=? code) in
  let s1 := if bad then set_unacks (aset (k_cid k) (unack_remove pid (Uof (k_cid k) s)) (b_unacks s)) s else s in
  HOk (if v5 && ((qos =? 1) || bad) then quota_back c s1 else s1) (o ++ pub_ack c qos pid code).
Proof.
  unfold pub_finish, quota_back, pub_ack, Uof. cbv zeta.
  match goal with |- context [nget c (b_conns ?X)] => destruct (nget c (b_conns X)) as [k1|] end;
    destruct (v5 && ((qos =? 1) || ((qos =? 2) && (128 <=? pub_code v5 mt err)))); reflexivity.
Qed.

Lemma pub_finish_qos2 c k v5 pid s o mt err :
  let code := pub_code v5 mt err in
  exists s', pub_finish c k v5 2 pid (s, o, mt, err) = HOk s' (o ++ [OSend c (KPubrec pid code [])]) /\
             qproj s' = qproj s /\
             urec (k_cid k) (if 128 <=? code then unack_remove pid (Uof (k_cid k) s) else Uof (k_cid k) s) s s'.
Proof.
  rewrite pub_finish_eq. cbv zeta. cbn [N.eqb Pos.eqb andb orb]. eexists. split; [reflexivity|].
  set (s1 := if 128 <=? _ then _ else s).
  assert (H1 : qproj s1 = qproj s /\
               urec (k_cid k) (if 128 <=? pub_code v5 mt err then unack_remove pid (Uof (k_cid k) s) else Uof (k_cid k) s) s s1).
  { unfold s1. destruct (128 <=? pub_code v5 mt err); split; try reflexivity; [apply urec_set|apply urec_refl]. }
  destruct H1 as [Q1 U1].
  match goal with |- context [if ?b then quota_back c s1 else s1] => destruct b end; [|now split].
  split; [now rewrite qproj_quota_back|]. eapply urec_ext; [intros cid'; apply Uof_quota_back|exact U1].
Qed.

(* PUBREL: the identifier leaves U, PUBCOMP, the quota unit comes back *)
Lemma pubrel_eq c k pid code props s :
  handle_packet c k (KPubrel pid code props) s =
  let s1 := set_unacks (aset (k_cid k) (unack_remove pid (Uof (k_cid k) s)) (b_unacks s)) s in
  HOk (if k_v k =? 5 then quota_back c s1 else s1) [OSend c (KPubcomp pid 0 [])].
Proof.
  cbn [handle_packet]. unfold quota_back, Uof. cbv zeta.
  match goal with |- context [nget c (b_conns ?X)] => destruct (nget c (b_conns X)) as [k1|] end;
    destruct (k_v k =? 5); reflexivity.
Qed.

Definition alias_ok (v5 : bool) (k : conn) (topic : str) (props : list prop) : bool :=
  match (if v5 then p_alias props else None) with
  | None => true
  | Some a =>
      if (a =? 0) || (k_server_alias_max k <? a) then false
      else match topic with
           | [] => match nget a (k_alias_in k) with Some (_ :: _) => true | _ => false end
           | _ => true
           end
  end.

Lemma pub_alias_ok v5 k topic props m0 :
  alias_ok v5 k topic props = true -> exists k' m, pub_alias v5 k topic props m0 = inl (Some (k', m)).
Proof.
  unfold alias_ok, pub_alias. intros H.
  destruct (if v5 then p_alias props else None) as [a|]; [|eauto].
  destruct ((a =? 0) || (k_server_alias_max k <? a)); [discriminate|].
  destruct topic as [|t0 tr]; [|eauto].
  destruct (nget a (k_alias_in k)) as [[|n0 nr]|]; try discriminate. eauto.
Qed.

Lemma pub_alias_bad v5 k topic props m0 :
  alias_ok v5 k topic props = false -> pub_alias v5 k topic props m0 = inr 148.
Proof.
  unfold alias_ok, pub_alias. intros H.
  destruct (if v5 then p_alias props else None) as [a|]; [|discriminate].
  destruct ((a =? 0) || (k_server_alias_max k <? a)); [reflexivity|].
  destruct topic as [|t0 tr]; [|discriminate].
  destruct (nget a (k_alias_in k)) as [[|n0 nr]|]; try discriminate; reflexivity.
Qed.

Lemma pub_alias_none (v5 : bool) k topic props m0 :
  (if v5 then p_alias props else None) = None -> pub_alias v5 k topic props m0 = inl (Some (k, m0)).
Proof. unfold pub_alias. intros ->. reflexivity. Qed.

Lemma pub_alias_cid v5 k topic props m0 k' m :
  pub_alias v5 k topic props m0 = inl (Some (k', m)) ->
  k_cid k' = k_cid k /\ k_v k' = k_v k /\ k_quota k' = k_quota k /\ k_recv_max k' = k_recv_max k /\
  k_phase k' = k_phase k /\ k_retain_avail k' = k_retain_avail k.
Proof.
  unfold pub_alias. intros H.
  destruct (if v5 then p_alias props else None) as [a|].
  - destruct ((a =? 0) || (k_server_alias_max k <? a)); [discriminate|].
    destruct topic as [|t0 tr].
    + destruct (nget a (k_alias_in k)) as [[|n0 nr]|]; try discriminate.
      injection H as <- _. repeat split.
    + injection H as <- _. repeat split.
  - injection H as <- _. repeat split.
Qed.

(* the connection record the read loop hands to the publish handler *)
Definition charge (k : conn) (qos : N) : conn :=
  if (k_v k =? 5) && (0 <? qos) then set_quota (k_quota k - 1) k else k.

(* the conditions under which readLoop + publishHandler do not end the connection *)
Definition pub_accepts (k : conn) (qos : N) (retain : bool) (topic : str) (props : list prop) : bool :=
  negb (has_wild topic) &&
  negb ((k_v k =? 5) && match p_alias props with Some a => a =? 0 | None => false end) &&
  negb (is_empty topic && negb ((k_v k =? 5) && match p_alias props with Some _ => true | None => false end)) &&
  negb ((k_v k =? 5) && (0 <? qos) && (k_quota k =? 0)) &&
  negb (negb (k_retain_avail k) && retain) && alias_ok (k_v k =? 5) k topic props.

Lemma charge_fields k qos :
  k_cid (charge k qos) = k_cid k /\ k_v (charge k qos) = k_v k /\ k_retain_avail (charge k qos) = k_retain_avail k /\
  k_server_alias_max (charge k qos) = k_server_alias_max k /\ k_alias_in (charge k qos) = k_alias_in k.
Proof. unfold charge. destruct ((k_v k =? 5) && (0 <? qos)); repeat split. Qed.

Lemma alias_ok_charge v5 k qos topic props : alias_ok v5 (charge k qos) topic props = alias_ok v5 k topic props.
Proof.
  unfold alias_ok. destruct (charge_fields k qos) as (_ & _ & _ & E1 & E2). now rewrite E1, E2.
Qed.

(* handle_packet on a PUBLISH that passes the checks = the three stages *)
Lemma handle_packet_publish c k dup qos retain topic payload pid props s :
  pub_accepts k qos retain topic props = true ->
  let v5 := k_v k =? 5 in
  exists k' m,
    pub_alias v5 (charge k qos) topic props (msg_of_publish v5 dup qos retain topic payload pid props) = inl (Some (k', m)) /\
    handle_packet c k (KPublish dup qos retain topic payload pid props) s =
    (let '(s1, isdup) := pub_mark c k' v5 qos pid (upd_conn c k' (upd_conn c (charge k qos) s)) in
     pub_finish c k' v5 qos pid (pub_fwd k' m isdup s1)).
Proof.
  intros H v5. unfold pub_accepts in H.
  apply andb_prop in H as [H Ha]. apply andb_prop in H as [H Hr]. apply andb_prop in H as [H Hq].
  apply andb_prop in H as [H He]. apply andb_prop in H as [Hw Hz].
  apply negb_true_iff in Hw, Hz, He, Hq, Hr.
  rewrite <- (alias_ok_charge _ _ qos) in Ha.
  destruct (pub_alias_ok v5 (charge k qos) topic props (msg_of_publish v5 dup qos retain topic payload pid props) Ha)
    as (k' & m & Hal).
  exists k', m. split; [exact Hal|].
  cbn [handle_packet]. rewrite Hw. fold v5 in Hz, He, Hq |- *. rewrite Hz, He, Hq.
  change (if v5 && (0 <? qos) then set_quota (k_quota k - 1) k else k) with (charge k qos).
  rewrite handle_publish_stages.
  destruct (charge_fields k qos) as (_ & Ev & Era & _ & _).
  cbv zeta. rewrite Ev, Era. fold v5. rewrite Hr, Hal. reflexivity.
Qed.

(* ... and one that does not pass them ends the connection without touching anything but the
   connection record *)
Lemma handle_packet_publish_rejected c k dup qos retain topic payload pid props s :
  pub_accepts k qos retain topic props = false ->
  (exists code, handle_packet c k (KPublish dup qos retain topic payload pid props) s = HErrRead s code) \/
  (exists code, handle_packet c k (KPublish dup qos retain topic payload pid props) s =
                HErr (upd_conn c (charge k qos) s) [] code).
Proof.
  unfold pub_accepts. intros H. cbn [handle_packet].
  destruct (has_wild topic); [left; eauto|].
  match goal with |- context [if ?b then HErrRead s (Some 148) else _] => destruct b end; [left; eauto|].
  match goal with |- context [if ?b then HErrRead s (Some 130) else _] => destruct b end; [left; eauto|].
  destruct ((k_v k =? 5) && (0 <? qos) && (k_quota k =? 0)) eqn:Hq; [left; eauto|]. right.
  change (if (k_v k =? 5) && (0 <? qos) then set_quota (k_quota k - 1) k else k) with (charge k qos).
  rewrite handle_publish_stages. cbv zeta.
  destruct (charge_fields k qos) as (_ & Ev & Era & _ & _). rewrite Ev, Era.
  cbn [negb andb] in H.
  destruct (negb (k_retain_avail k) && retain); [eauto|]. cbn [negb andb] in H.
  rewrite <- (alias_ok_charge _ _ qos) in H.
  rewrite (pub_alias_bad _ _ _ _ _ H). eauto.
Qed.

(* "Number of deliver invocations" is formalised by an INSTRUMENTED COPY of the handler.  The only place
   where the publish handler calls deliver is the stage pub_fwd (handle_publish_stages shows by computation
   that the stages compose to handle_publish).  pub_fwd_i is pub_fwd with a log: each branch lists exactly the
   messages on which that branch calls deliver.  handle_packet_i and, below, step_event_i / step_i / run_i thread
   the log, tagging an entry with the socket and the packet identifier of the PUBLISH being handled; run_i_erase shows
   that forgetting the log gives back Broker.run.  (A witness subscriber's queue would be a weaker observable: its
   growth also depends on queue limits, QoS 0 policy and on the poll loop draining it.) *)
Definition pub_fwd_i (k : conn) (m : msg) (isdup : bool) (s : st) : (st * list out * bool * option N) * list msg :=
  if isdup then ((s, [], false, None), [])
  else
    match pub_action m s with
    | MReject code => ((s, [], false, Some code), [])
    | MDrop => ((s, [], false, None), [])
    | MAccept => (let '(s', o, mt) := deliver (k_cid k) m (retain_update m s) in (s', o, mt, None), [m])
    | MRewrite t p q => let m' := rewrite_msg t p q m in
                        (let '(s', o, mt) := deliver (k_cid k) m' (retain_update m' s) in (s', o, mt, None), [m'])
    end.

Lemma pub_fwd_i_eq k m isdup s :
  pub_fwd_i k m isdup s =
  (pub_fwd k m isdup s, if isdup then [] else match fwd_msg (pub_action m s) m with Some m' => [m'] | None => [] end).
Proof. unfold pub_fwd_i, pub_fwd, fwd_msg. destruct isdup; [reflexivity|]. destruct (pub_action m s); reflexivity. Qed.

Definition handle_packet_i (c : N) (k : conn) (p : pkt) (s : st) : hres * list (N * msg) :=
  match p with
  | KPublish dup qos retain topic payload pid props =>
      if pub_accepts k qos retain topic props then
        let v5 := k_v k =? 5 in
        match pub_alias v5 (charge k qos) topic props (msg_of_publish v5 dup qos retain topic payload pid props) with
        | inl (Some (k', m)) =>
            let '(s1, isdup) := pub_mark c k' v5 qos pid (upd_conn c k' (upd_conn c (charge k qos) s)) in
            let '(r, log) := pub_fwd_i k' m isdup s1 in
            (pub_finish c k' v5 qos pid r, map (fun x => (pid, x)) log)
        | _ => (handle_packet c k p s, [])
        end
      else (handle_packet c k p s, [])
  | _ => (handle_packet c k p s, [])
  end.

Lemma handle_packet_i_fst c k p s : fst (handle_packet_i c k p s) = handle_packet c k p s.
Proof.
  destruct p; try reflexivity. unfold handle_packet_i.
  destruct (pub_accepts k qos retain topic props) eqn:Hacc; [|reflexivity].
  destruct (handle_packet_publish c k dup qos retain topic payload pid props s Hacc) as (k' & m & Hal & E).
  cbv zeta. rewrite Hal, E.
  destruct (pub_mark c k' (k_v k =? 5) qos pid (upd_conn c k' (upd_conn c (charge k qos) s))) as [s1 isdup].
  rewrite pub_fwd_i_eq. reflexivity.
Qed.

Lemma pub_finish_qos2_ok c k v5 pid s o mt err :
  pub_code v5 mt err < 128 ->
  pub_finish c k v5 2 pid (s, o, mt, err) = HOk s (o ++ [OSend c (KPubrec pid (pub_code v5 mt err) [])]).
Proof.
  intros H. apply N.leb_gt in H. rewrite pub_finish_eq. cbv zeta. rewrite H. cbn [N.eqb Pos.eqb andb orb].
  now rewrite andb_false_r.
Qed.

(* an accepted QoS 2 PUBLISH through the stages: a retransmission (its id is in U) is answered at once; a new
   id is recorded, then the message goes to the hook and, if let through, to deliver; pub_finish answers *)
Lemma qos2_publish_eq c k dup retain topic payload pid props s :
  pub_accepts k 2 retain topic props = true ->
  let v5 := k_v k =? 5 in
  let cid := k_cid k in
  exists k' m,
    pub_alias v5 (charge k 2) topic props (msg_of_publish v5 dup 2 retain topic payload pid props) = inl (Some (k', m)) /\
    k_cid k' = cid /\
    let rec_ u := set_unacks (aset cid u (b_unacks s)) (upd_conn c k' (upd_conn c (charge k 2) s)) in
    handle_packet_i c k (KPublish dup 2 retain topic payload pid props) s =
    if memN pid (Uof cid s)
    then (HOk (if v5 then quota_back c (rec_ (Uof cid s)) else rec_ (Uof cid s))
              [OSend c (KPubrec pid (if v5 then 16 else 0) [])], [])
    else (pub_finish c k' v5 2 pid (pub_fwd k' m false (rec_ (pid :: Uof cid s))),
          match fwd_msg (pub_action m s) m with Some m' => [(pid, m')] | None => [] end).
Proof.
  intros Hacc v5 cid.
  destruct (handle_packet_publish c k dup 2 retain topic payload pid props s Hacc) as (k' & m & Hal & _).
  fold v5 in Hal. exists k', m. split; [exact Hal|].
  pose proof (pub_alias_cid _ _ _ _ _ _ _ Hal) as (Ec & _).
  destruct (charge_fields k 2) as (Ec2 & _). rewrite Ec2 in Ec. fold cid in Ec. split; [exact Ec|].
  unfold handle_packet_i. rewrite Hacc. fold v5. rewrite Hal, pub_mark_qos2. cbv zeta. rewrite Ec.
  change (Uof cid (upd_conn c k' (upd_conn c (charge k 2) s))) with (Uof cid s).
  destruct (memN pid (Uof cid s)); rewrite pub_fwd_i_eq.
  - rewrite pub_fwd_eq, pub_finish_qos2_ok by (unfold pub_code; destruct v5; lia).
    unfold pub_code. destruct v5; reflexivity.
  - unfold fwd_msg, pub_action. cbn [b_hooks set_unacks upd_conn].
    destruct (if h_msg_on (b_hooks s) then _ else _); reflexivity.
Qed.

Lemma memN_false pid u : ~ In pid u -> memN pid u = false.
Proof. apply memN_notIn. Qed.

(* A retransmitted QoS 2 PUBLISH (its id is still in U) is answered by PUBREC and nothing else
   happens: no queue, no retained message, no subscription changes - deliver is not invoked. *)
Theorem qos2_duplicate_not_forwarded c k s dup retain topic payload pid props :
  pub_accepts k 2 retain topic props = true ->
  In pid (Uof (k_cid k) s) ->
  exists s',
    handle_packet c k (KPublish dup 2 retain topic payload pid props) s =
      HOk s' [OSend c (KPubrec pid (if k_v k =? 5 then 16 else 0) [])] /\
    qproj s' = qproj s /\ (forall cid', Uof cid' s' = Uof cid' s) /\ In pid (Uof (k_cid k) s').
Proof.
  intros Hacc Hin.
  destruct (qos2_publish_eq c k dup retain topic payload pid props s Hacc) as (k' & m & _ & _ & E).
  rewrite <- handle_packet_i_fst, E, (proj2 (memN_In _ _) Hin). cbn [fst]. eexists. split; [reflexivity|].
  set (s0 := set_unacks _ _).
  assert (HU : forall cid', Uof cid' (if k_v k =? 5 then quota_back c s0 else s0) = Uof cid' s).
  { intros cid'. destruct (k_v k =? 5); [rewrite Uof_quota_back|];
      apply (urec_same (k_cid k)), urec_set. }
  split; [destruct (k_v k =? 5); [rewrite qproj_quota_back|]; reflexivity|]. split; [exact HU|now rewrite HU].
Qed.

(* A QoS 2 PUBLISH whose id is not in U: the id is recorded, deliver is applied exactly once to the
   message (as resolved by the alias table / rewritten by the hook), one PUBREC goes back and the id stays in U. *)
Theorem qos2_new_is_forwarded_once c k s dup retain topic payload pid props k' m m' :
  let v5 := k_v k =? 5 in
  let cid := k_cid k in
  pub_accepts k 2 retain topic props = true ->
  ~ In pid (Uof cid s) ->
  pub_alias v5 (charge k 2) topic props (msg_of_publish v5 dup 2 retain topic payload pid props) = inl (Some (k', m)) ->
  fwd_msg (pub_action m s) m = Some m' ->
  let s0 := set_unacks (aset cid (pid :: Uof cid s) (b_unacks s)) (upd_conn c k' (upd_conn c (charge k 2) s)) in
  forall s1 o1 mt, deliver cid m' (retain_update m' s0) = (s1, o1, mt) ->
    handle_packet c k (KPublish dup 2 retain topic payload pid props) s =
      HOk s1 (o1 ++ [OSend c (KPubrec pid (if v5 then if mt then 0 else 16 else 0) [])]) /\
    only_drops o1 /\ In pid (Uof cid s1) /\ (forall cid', cid' <> cid -> Uof cid' s1 = Uof cid' s).
Proof.
  intros v5 cid Hacc Hnin Hal Hfwd s0 s1 o1 mt Hd. subst v5 cid s0.
  destruct (qos2_publish_eq c k dup retain topic payload pid props s Hacc) as (k'' & m'' & Hal' & Ec & E).
  rewrite Hal in Hal'. injection Hal' as <- <-. cbv beta zeta in E.
  rewrite <- handle_packet_i_fst, E, (memN_false _ _ Hnin). cbn [fst]. set (s0 := set_unacks _ _) in *.
  rewrite pub_fwd_eq. change (pub_action m s0) with (pub_action m s). rewrite Hfwd, Ec, Hd.
  destruct (forward_frame (k_cid k) m' s0) as (r & F & D). rewrite Hd in F, D. cbn [fst snd] in F, D.
  assert (U : urec (k_cid k) (pid :: Uof (k_cid k) s) s s1).
  { apply urec_ext with (s1 := s0); [intros cid'; apply (Uof_dframe cid' _ _ F)|apply urec_set]. }
  split; [|split; [exact D|split; [rewrite (urec_self _ _ _ _ U); now left|intros cid'; apply (urec_other _ _ _ _ _ U)]]].
  rewrite pub_finish_qos2_ok by (unfold pub_code; destruct (k_v k =? 5); [destruct mt|]; lia).
  unfold pub_code. reflexivity.
Qed.

Lemma fwd_msg_none m s : fwd_msg (pub_action m s) m = None -> h_msg_on (b_hooks s) = true.
Proof. unfold pub_action. destruct (h_msg_on (b_hooks s)); [reflexivity|discriminate]. Qed.

(* a new id refused by the hook: recorded, then taken out again when the PUBREC carries an error code *)
Lemma qos2_refused c k v5 pid cid s s0 err :
  k_cid k = cid -> qproj s0 = qproj s -> urec cid (pid :: Uof cid s) s s0 ->
  let code := pub_code v5 false err in
  exists s',
    pub_finish c k v5 2 pid (s0, [], false, err) = HOk s' [OSend c (KPubrec pid code [])] /\ qproj s' = qproj s /\
    urec cid (if 128 <=? code then unack_remove pid (pid :: Uof cid s) else pid :: Uof cid s) s s'.
Proof.
  intros Ec Q0 U0 code. destruct (pub_finish_qos2 c k v5 pid s0 [] false err) as (s' & E & Q & U).
  rewrite Ec, (urec_self _ _ _ _ U0) in U. exists s'. split; [exact E|]. split; [congruence|].
  eapply urec_trans; eassumption.
Qed.

(* ... and when the OnMsgArrived hook refuses it (reject / drop) nothing is forwarded; the id stays recorded
   unless the PUBREC carries an error code *)
Theorem qos2_new_refused_by_hook c k s dup retain topic payload pid props k' m :
  let v5 := k_v k =? 5 in
  let cid := k_cid k in
  pub_accepts k 2 retain topic props = true ->
  ~ In pid (Uof cid s) ->
  pub_alias v5 (charge k 2) topic props (msg_of_publish v5 dup 2 retain topic payload pid props) = inl (Some (k', m)) ->
  fwd_msg (pub_action m s) m = None ->
  exists s' code,
    handle_packet c k (KPublish dup 2 retain topic payload pid props) s = HOk s' [OSend c (KPubrec pid code [])] /\
    qproj s' = qproj s /\
    (code < 128 -> In pid (Uof cid s')) /\ (128 <= code -> ~ In pid (Uof cid s')) /\
    (forall cid', cid' <> cid -> Uof cid' s' = Uof cid' s).
Proof.
  intros v5 cid Hacc Hnin Hal Hfwd. subst v5 cid.
  destruct (qos2_publish_eq c k dup retain topic payload pid props s Hacc) as (k'' & m'' & Hal' & Ec & E).
  rewrite Hal in Hal'. injection Hal' as <- <-. cbv beta zeta in E.
  rewrite <- handle_packet_i_fst, E, (memN_false _ _ Hnin). cbn [fst].
  set (s0 := set_unacks _ _).
  rewrite pub_fwd_eq. change (pub_action m s0) with (pub_action m s). rewrite Hfwd.
  set (err := match pub_action m s with MReject code => Some code | _ => None end).
  destruct (qos2_refused c k' (k_v k =? 5) pid (k_cid k) s s0 err Ec) as (s' & Ef & Q & U); [reflexivity|apply urec_set|].
  exists s', (pub_code (k_v k =? 5) false err).
  split; [exact Ef|]. split; [exact Q|]. rewrite (urec_self _ _ _ _ U).
  split; [|split; [|intros cid'; apply (urec_other _ _ _ _ _ U)]].
  - intros Hc. apply N.leb_gt in Hc. rewrite Hc. now left.
  - intros Hc. apply N.leb_le in Hc. rewrite Hc, unack_remove_In. tauto.
Qed.

(* PUBREL: one PUBCOMP with the same id; the id leaves U, nothing else does *)
Theorem pubrel_frees_id c k s pid code props :
  exists s',
    handle_packet c k (KPubrel pid code props) s = HOk s' [OSend c (KPubcomp pid 0 [])] /\
    qproj s' = qproj s /\
    ~ In pid (Uof (k_cid k) s') /\
    (forall x, x <> pid -> (In x (Uof (k_cid k) s') <-> In x (Uof (k_cid k) s))) /\
    (forall cid', cid' <> k_cid k -> Uof cid' s' = Uof cid' s).
Proof.
  rewrite pubrel_eq. cbv zeta. set (s1 := set_unacks _ s). eexists. split; [reflexivity|].
  assert (U : urec (k_cid k) (unack_remove pid (Uof (k_cid k) s)) s (if k_v k =? 5 then quota_back c s1 else s1)).
  { apply urec_ext with (s1 := s1); [|apply urec_set].
    intros cid'. destruct (k_v k =? 5); [apply Uof_quota_back|reflexivity]. }
  split; [destruct (k_v k =? 5); [rewrite qproj_quota_back|]; reflexivity|].
  rewrite (urec_self _ _ _ _ U). split; [|split; [|intros cid'; apply (urec_other _ _ _ _ _ U)]].
  - rewrite unack_remove_In. tauto.
  - intros x Hx. rewrite unack_remove_In. tauto.
Qed.

Definition no_sends (o : list out) : Prop := forall c p, ~ In (OSend c p) o.

Lemma no_sends_nil : no_sends []. Proof. intros c p []. Qed.
Lemma only_drops_no_sends o : only_drops o -> no_sends o.
Proof. intros H c p. now apply only_drops_no_send. Qed.

Lemma unregister_unacks c k s : b_unacks (fst (unregister c k s)) = b_unacks s /\ only_drops (snd (unregister c k s)).
Proof.
  destruct (BrokerInvP.unregister_spec c k s) as (s1 & F & D & R). split; [|exact D].
  rewrite <- (BrokerInvP.fr_u _ _ F). destruct R as [_ ->|se _ _ _ ->]; reflexivity.
Qed.

(* closing a socket never touches any client's unack set (the set lives with the session store, and
   remove_session leaves it to the next CONNECT to reinitialise) *)
Lemma conn_gone_unacks c s :
  b_unacks (fst (conn_gone c s)) = b_unacks s /\ no_sends (snd (conn_gone c s)).
Proof.
  split; [|intros c' p; apply BrokerInvP.nosend_not_in, BrokerInvP.conn_gone_nosend].
  destruct (BrokerInvP.cv s c) as [[cid f]|] eqn:Ec.
  - apply BrokerInvP.cv_some in Ec as (k & Hk & _ & Ha & _).
    destruct (BrokerInvP.conn_gone_att_spec c k s Hk Ha) as (s1 & o' & _ & _ & F & R).
    transitivity (b_unacks s1); [destruct R as [_ ->|se _ _ _ ->]; reflexivity|exact (BrokerInvP.fr_u _ _ F)].
  - destruct (BrokerInvP.conn_gone_unatt c s Ec) as [->|(k & _ & ->)]; reflexivity.
Qed.

(* handle_connect: the checks, the client id, the old session (the stages after the checks are those of
   BrokerInvP.hc_accept) *)
Definition hc_code (cn : connect) (s : st) : N :=
  if ((cn_ver cn =? 5) && match p_authmethod (cn_props cn) with Some _ => true | None => false end)
  then 128 else auth_code cn s.

(* CONNECT passes the client-id and authentication checks *)
Definition connect_accepted (cn : connect) (s : st) : bool :=
  negb (negb (c_allow_zero_len (b_cfg s)) && is_empty (cn_cid cn)) && (hc_code cn s =? 0).

Definition hc_cid (cn : connect) (s : st) : str :=
  if is_empty (cn_cid cn) then AUTO_PREFIX ++ dec_str (b_auto s + 1) else cn_cid cn.

Definition hc_auto (cn : connect) (s : st) : st :=
  if is_empty (cn_cid cn) then set_auto (b_auto s + 1) s else s.

(* hc_auto only advances the counter of generated client ids *)
Lemma hc_auto_proj {X} (f : st -> X) cn s : (forall a s0, f (set_auto a s0) = f s0) -> f (hc_auto cn s) = f s.
Proof. intros Hf. unfold hc_auto. destruct (is_empty (cn_cid cn)); [apply Hf|reflexivity]. Qed.

Definition hc_resume0 (cid : str) (cn : connect) (s : st) : bool :=
  match aget cid (b_sessions s) with
  | Some se => negb (session_expired cid se s) && negb (cn_clean cn)
  | None => false
  end.

(* resume the stored session or terminate it; the pending will of a terminated session is handed on *)
Definition hc_old (cid : str) (cn : connect) (v5 : bool) (cmax : N) (s : st) : st * list (str * msg) * bool :=
  match aget cid (b_sessions s) with
  | Some se =>
      if hc_resume0 cid cn s then
        match aget cid (b_queues s), aget cid (b_unacks s) with
        | Some q, Some u =>
            (set_tables (b_sessions s) (b_online s) (b_offline s) (adel cid (b_wills s))
                        (aset cid (q_init false v5 cmax q) (b_queues s)) (b_unacks s) s, [], true)
        | _, _ => (s, [], false)
        end
      else
        let s1 := remove_session cid s in
        match aget cid (b_wills s1) with
        | Some (w, _) =>
            let s2 := set_tables (b_sessions s1) (b_online s1) (b_offline s1) (adel cid (b_wills s1)) (b_queues s1) (b_unacks s1) s1 in
            (s2, [(cid, w)], false)
        | None => (s1, [], false)
        end
  | None => (s, [], false)
  end.

Lemma hc_old_eq cid cn v5 cmax s :
  hc_old cid cn v5 cmax s = BrokerInvP.hc_old cid v5 cmax (hc_resume0 cid cn s) s.
Proof. reflexivity. Qed.

Lemma accepted_connect_eq c cn s :
  connect_accepted cn s = true -> handle_connect c cn s = BrokerInvP.hc_accept c cn s.
Proof.
  intros H. apply andb_prop in H as [H1 H2]. apply negb_true_iff in H1.
  apply BrokerInvP.handle_connect_accepted. unfold BrokerInvP.hc_rejected.
  change (BrokerInvP.hc_code cn s) with (hc_code cn s). now rewrite H1, H2.
Qed.

Lemma hc_old_unacks cid v5 cmax r0 s :
  b_unacks (fst (fst (BrokerInvP.hc_old cid v5 cmax r0 s))) = b_unacks s.
Proof.
  unfold BrokerInvP.hc_old. destruct (aget cid (b_sessions s)) as [se|]; [|reflexivity].
  destruct r0.
  - destruct (aget cid (b_queues s)); [|reflexivity]. destruct (aget cid (b_unacks s)); reflexivity.
  - destruct (aget cid (b_wills (remove_session cid s))) as [[w t]|]; reflexivity.
Qed.

(* CONNECT and the unack set: a resumed session (CONNACK Session Present = 1) keeps every unack set
   as it is; a new session starts with the empty set; nobody else's set is touched *)
Theorem unack_across_reconnect c cn s s' o :
  connect_accepted cn s = true ->
  handle_connect c cn s = (s', o) ->
  exists sp props o_dup o_w,
    o = o_dup ++ [OSend c (KConnack sp 0 props)] ++ o_w /\ no_sends o_dup /\ no_sends o_w /\
    (sp = true -> b_unacks s' = b_unacks s) /\
    (sp = false -> Uof (hc_cid cn s) s' = [] /\ forall cid', cid' <> hc_cid cn s -> Uof cid' s' = Uof cid' s).
Proof.
  intros Hacc Hc. rewrite (accepted_connect_eq c cn s Hacc), BrokerInvP.hc_accept_eq in Hc. injection Hc as <- <-.
  (* the take-over of an online duplicate closes a socket; the old session is resumed or discarded *)
  assert (E1 : b_unacks (fst (BrokerInvP.hc_dup cn s)) = b_unacks s /\ no_sends (snd (BrokerInvP.hc_dup cn s))).
  { unfold BrokerInvP.hc_dup, BrokerInvP.hc_takeover. change (BrokerInvP.hc_auto cn s) with (hc_auto cn s).
    destruct (aget _ _) as [oldc|]; [destruct (conn_gone_unacks oldc (hc_auto cn s)) as [-> N1]|];
      (split; [apply (hc_auto_proj b_unacks); reflexivity|]); [exact N1|apply no_sends_nil]. }
  destruct E1 as [E1 N1].
  assert (E2 : b_unacks (fst (fst (BrokerInvP.hc_prev cn s))) = b_unacks s)
    by (unfold BrokerInvP.hc_prev; now rewrite hc_old_unacks).
  (* the new session is registered, pending wills of a discarded session are sent *)
  destruct (BrokerInvP.hc_wills_quiet (snd (fst (BrokerInvP.hc_prev cn s))) (BrokerInvP.hc_reg c cn s)) as [F5 D5].
  eexists _, _, _, _. split; [reflexivity|]. split; [exact N1|]. split; [exact (only_drops_no_sends _ D5)|].
  unfold Uof at 1 2. rewrite (BrokerInvP.fr_u _ _ F5).
  change (b_unacks (BrokerInvP.hc_reg c cn s)) with (b_unacks (BrokerInvP.hc_new cn s)).
  unfold BrokerInvP.hc_new, BrokerInvP.hc_fresh. change (BrokerInvP.hc_cid cn s) with (hc_cid cn s).
  split; intros E; rewrite E; [exact E2|].
  rewrite b_unacks_set_tables, E2. split; [now rewrite aget_aset_same|].
  intros cid' Hne. now rewrite aget_aset_other.
Qed.

(* a refused CONNECT changes nothing but the connection record of its socket *)
Lemma connect_refused c cn s :
  connect_accepted cn s = false ->
  exists k code, handle_connect c cn s = (upd_conn c k s, [OSend c (KConnack false code [])]) /\ code <> 0 /\ k_phase k = PhDead.
Proof.
  unfold connect_accepted, hc_code. intros H. unfold handle_connect.
  destruct (negb (c_allow_zero_len (b_cfg s)) && is_empty (cn_cid cn)).
  - eexists _, 133. split; [reflexivity|]. split; [discriminate|reflexivity].
  - cbn [negb andb] in H. cbv zeta.
    set (code := if (cn_ver cn =? 5) && _ then 128 else auth_code cn s) in *.
    rewrite H. cbn [negb].
    eexists _, _. split; [reflexivity|]. split; [|reflexivity].
    apply N.eqb_neq in H.
    destruct (negb (cn_ver cn =? 5) && (5 <? code)); [discriminate|exact H].
Qed.

(* what a poll loop writes: forwarded PUBLISH packets, PUBREL retransmissions, drop notifications *)
Definition is_poll_out (x : out) : Prop :=
  match x with
  | ODropped _ _ _ => True
  | OSend _ (KPublish _ _ _ _ _ _ _) => True
  | OSend _ (KPubrel _ _ _) => True
  | _ => False
  end.

Lemma only_drops_poll_out o : only_drops o -> Forall is_poll_out o.
Proof. unfold only_drops. apply Forall_impl. intros [ | |]; cbn; tauto. Qed.

Lemma write_publish_spec c k m :
  kstat (fst (write_publish c k m)) = kstat k /\ Forall is_poll_out (snd (write_publish c k m)).
Proof.
  unfold write_publish.
  destruct ((k_v k =? 5) && (0 <? k_client_alias_max k) && (msg_total_bytes true m + 5 <=? k_client_max_packet k)).
  - destruct (am_check (m_topic m) (k_alias_out k)) as [am' [a ex|]]; cbn [fst snd].
    + split; [reflexivity|]. constructor; [exact I|constructor].
    + split; [reflexivity|constructor].
  - cbn [fst snd]. split; [reflexivity|]. constructor; [exact I|constructor].
Qed.

(* the accumulator of a poll loop's fold: the connection keeps its static part, the outputs are poll outputs *)
Definition poll_acc (k : conn) (acc : conn * list out) : Prop :=
  kstat (fst acc) = kstat k /\ Forall is_poll_out (snd acc).

Lemma poll_acc_write c k k1 o m :
  kstat k1 = kstat k -> Forall is_poll_out o -> poll_acc k (let '(k2, o2) := write_publish c k1 m in (k2, o ++ o2)).
Proof.
  intros Hs Ho. destruct (write_publish_spec c k1 m) as [W1 W2]. destruct (write_publish c k1 m) as [k2 o2].
  unfold poll_acc. cbn [fst snd] in *. split; [now rewrite W1|apply Forall_app; now split].
Qed.

Lemma replay_step_acc c now k acc e : poll_acc k acc -> poll_acc k (BrokerPollP.replay_step c now acc e).
Proof.
  destruct acc as [k0 o0]. intros [Hs Ho]. unfold BrokerPollP.replay_step. destruct (e_body e) as [m|p].
  - now apply poll_acc_write.
  - split; [exact Hs|]. apply Forall_app. split; [exact Ho|]. repeat constructor.
Qed.

Lemma send_step_acc c k acc e : poll_acc k acc -> poll_acc k (BrokerPollP.send_step c acc e).
Proof.
  destruct acc as [k0 o0]. intros [Hs Ho]. unfold BrokerPollP.send_step.
  destruct (e_body e) as [m|p]; [now apply poll_acc_write|now split].
Qed.

Lemma poll_once_frame c s s' o : poll_once c s = Some (s', o) -> dframe s s' /\ Forall is_poll_out o.
Proof.
  intros H. destruct (BrokerPollP.poll_once_turn c s s' o H) as (k & q & Hk & _ & _ & T).
  (* every turn writes the queue table and the record of c, whose static part stays *)
  assert (G : forall Q k' o', poll_acc k (k', o') -> dframe s (upd_conn c k' (set_queues Q s)) /\ Forall is_poll_out o').
  { intros Q k' o' [Hs Ho]. split; [|exact Ho].
    eapply dframe_trans; [apply dframe_set_queues|]. eapply dframe_upd_conn; [exact Hk|exact Hs]. }
  assert (H0 : poll_acc k (k, [])) by (split; [reflexivity|constructor]).
  destruct T as [q' _ _|q' rs k' o' _ _ _ Hf|l' ids _ _ _|ids q' rs evs k' o' _ _ _ Hf].
  - apply G. split; [reflexivity|constructor].
  - apply G. rewrite <- Hf. apply fold_left_inv; [intros; now apply replay_step_acc|exact H0].
  - split; [|constructor]. eapply dframe_upd_conn; [exact Hk|reflexivity].
  - destruct (G (aset (k_cid k) q' (b_queues s)) k' o') as [F P].
    { rewrite <- Hf. apply fold_left_inv; [intros; now apply send_step_acc|split; [reflexivity|constructor]]. }
    split; [exact F|]. apply Forall_app. split; [apply only_drops_poll_out, drops_of_only|exact P].
Qed.

Theorem poll_all_frame s : dframe s (fst (poll_all s)) /\ Forall is_poll_out (snd (poll_all s)).
Proof.
  refine (proj2 (BrokerPollP.poll_all_walk (fun _ => True) (fun _ => True) dframe (fun _ => is_poll_out)
                  dframe_refl dframe_trans _ _ s (fun _ _ => I) I)); [auto|].
  intros c s0 s' o _ _ H. split; [exact I|exact (poll_once_frame c s0 s' o H)].
Qed.

Lemma pub_fwd_drops k m isdup s : only_drops (snd (fst (fst (pub_fwd k m isdup s)))).
Proof.
  rewrite pub_fwd_eq. destruct isdup; [constructor|].
  destruct (fwd_msg (pub_action m s) m) as [m'|]; [|constructor].
  now destruct (forward_frame (k_cid k) m' s) as (r & _ & D).
Qed.

Lemma handle_packet_publish_ok c k dup qos retain topic payload pid props s :
  pub_accepts k qos retain topic props = true ->
  exists s' od code, handle_packet c k (KPublish dup qos retain topic payload pid props) s = HOk s' (od ++ pub_ack c qos pid code) /\
                     only_drops od.
Proof.
  intros Hacc. destruct (handle_packet_publish c k dup qos retain topic payload pid props s Hacc) as (k' & m & _ & ->).
  cbv zeta. destruct (pub_mark _ _ _ _ _ _) as [s1 isdup].
  pose proof (pub_fwd_drops k' m isdup s1) as D. destruct (pub_fwd k' m isdup s1) as [[[s2 o2] mt] err].
  rewrite pub_finish_eq. eauto.
Qed.

(* every PUBLISH that is handled is answered by exactly the matching acknowledgement: PUBACK for QoS 1,
   PUBREC for QoS 2, nothing for QoS 0, with the packet identifier of the PUBLISH; the handler writes no
   other packet (its only other outputs are drop notifications of full subscriber queues) *)
Theorem C04_acks_publish c k dup qos retain topic payload pid props s s' o :
  handle_packet c k (KPublish dup qos retain topic payload pid props) s = HOk s' o ->
  exists od code, o = od ++ pub_ack c qos pid code /\ only_drops od.
Proof.
  intros H.
  destruct (pub_accepts k qos retain topic props) eqn:Hacc.
  - destruct (handle_packet_publish_ok c k dup qos retain topic payload pid props s Hacc) as (s2 & od & code & E & D).
    rewrite E in H. injection H as _ <-. eauto.
  - apply (handle_packet_publish_rejected c k dup qos retain topic payload pid props s) in Hacc
      as [[code E]|[code E]]; rewrite E in H; discriminate.
Qed.

(* a handler that fails writes nothing (the DISCONNECT, if any, is written by fail_conn) *)
Lemma handle_subscribe_err c k pid props topics s s' o code :
  handle_subscribe c k pid props topics s = HErr s' o code -> o = [].
Proof.
  unfold handle_subscribe.
  match goal with |- context [if ?b then HErr s [] (Some 161) else _] => destruct b end; [congruence|].
  destruct (h_sub_all (b_hooks s)); [discriminate|].
  match goal with |- context [fold_left ?f ?l ?b] => destruct (fold_left f l b) as [[s1 o1] cs] end. discriminate.
Qed.

Theorem handler_error_writes_nothing c k p s s' o code :
  handle_packet c k p s = HErr s' o code -> o = [].
Proof.
  destruct p; try (cbn [handle_packet]; intros H; congruence).
  - intros H. destruct (pub_accepts k qos retain topic props) eqn:Hacc.
    + destruct (handle_packet_publish_ok c k dup qos retain topic payload pid props s Hacc) as (s2 & od & cd & E & _).
      rewrite E in H. discriminate.
    + apply (handle_packet_publish_rejected c k dup qos retain topic payload pid props s) in Hacc
        as [[cd E]|[cd E]]; rewrite E in H; congruence.
  - cbn [handle_packet]. match goal with |- (if ?b then _ else _) = _ -> _ => destruct b end; discriminate.
  - cbn [handle_packet].
    match goal with |- (if ?b then _ else _) = _ -> _ => destruct b end; [apply handle_subscribe_err|discriminate].
  - discriminate.
  - cbn [handle_packet]. destruct (k_v k =? 5); [|congruence].
    destruct (aget (k_cid k) (b_sessions s)) as [se|]; [|congruence].
    match goal with |- (if ?b then _ else _) = _ -> _ => destruct b end; congruence.
Qed.

(* the whole step for a PUBLISH / PUBREL on a connected socket: the acknowledgement, then whatever the
   poll loops forward (PUBLISH / PUBREL packets to subscribers) *)
Theorem C04_acks c k s p s' o :
  nget c (b_conns s) = Some k -> k_phase k = PhConnected ->
  handle_packet c k p s = HOk s' o ->
  match p with
  | KPublish _ qos _ _ _ pid _ =>
      exists od code op, snd (step s (ESend c p)) = (od ++ pub_ack c qos pid code) ++ op /\
                         only_drops od /\ Forall is_poll_out op
  | KPubrel pid _ _ =>
      exists op, snd (step s (ESend c p)) = [OSend c (KPubcomp pid 0 [])] ++ op /\ Forall is_poll_out op
  | _ => True
  end.
Proof.
  intros Hk Hph Hh.
  assert (Hs : step s (ESend c p) = (fst (poll_all s'), o ++ snd (poll_all s'))).
  { unfold step. cbn [step_event]. rewrite Hk, Hph, Hh. destruct (poll_all s'); reflexivity. }
  pose proof (poll_all_frame s') as [_ P].
  destruct p; try exact I.
  - apply C04_acks_publish in Hh as (od & code & -> & D).
    exists od, code, (snd (poll_all s')). rewrite Hs. cbn [snd]. split; [reflexivity|]. split; assumption.
  - destruct (pubrel_frees_id c k s pid code props) as (s'' & E & _). rewrite E in Hh. injection Hh as _ <-.
    exists (snd (poll_all s')). rewrite Hs. cbn [snd]. split; [reflexivity|exact P].
Qed.

(* socket, packet identifier of the PUBLISH, message handed to deliver *)
Definition flog := list (N * N * msg).

Definition step_event_i (s : st) (e : event) : (st * list out) * flog :=
  match e with
  | ESend c p =>
      match nget c (b_conns s) with
      | Some k =>
          match k_phase k with
          | PhConnected =>
              let '(r, log) := handle_packet_i c k p s in
              (match r with
               | HOk s' o => (s', o)
               | HErr s' o code => let '(s'', o') := fail_conn c code false s' in (s'', o ++ o')
               | HErrRead s' code => fail_conn c code true s'
               end, map (fun x => (c, fst x, snd x)) log)
          | _ => (step_event s e, [])
          end
      | None => (step_event s e, [])
      end
  | ESendSz c p n =>
      (* the same with the packet's wire size: a packet that is too big is not handled (no deliver) *)
      match nget c (b_conns s) with
      | Some k =>
          match k_phase k with
          | PhConnected =>
              let '(r, log) := if too_big k n s then (handle_packet_sz c k p n s, []) else handle_packet_i c k p s in
              (match r with
               | HOk s' o => (s', o)
               | HErr s' o code => let '(s'', o') := fail_conn c code false s' in (s'', o ++ o')
               | HErrRead s' code => fail_conn c code true s'
               end, map (fun x => (c, fst x, snd x)) log)
          | _ => (step_event s e, [])
          end
      | None => (step_event s e, [])
      end
  | _ => (step_event s e, [])
  end.

Definition step_i (s : st) (e : event) : (st * list out) * flog :=
  let '((s1, o1), log) := step_event_i s e in
  let '(s2, o2) := poll_all s1 in
  ((s2, o1 ++ o2), log).

Fixpoint run_i (s : st) (es : list event) : (st * list (list out)) * flog :=
  match es with
  | [] => ((s, []), [])
  | e :: r => let '((s', o), l1) := step_i s e in
              let '((s'', os), l2) := run_i s' r in ((s'', o :: os), l1 ++ l2)
  end.

Lemma step_event_i_erase s e : fst (step_event_i s e) = step_event s e.
Proof.
  destruct e; try reflexivity; cbn [step_event_i step_event].
  - destruct (nget c (b_conns s)) as [k|]; [|reflexivity].
    destruct (k_phase k); try reflexivity.
    rewrite <- (handle_packet_i_fst c k p s). destruct (handle_packet_i c k p s) as [r log]. reflexivity.
  - destruct (nget c (b_conns s)) as [k|]; [|reflexivity].
    destruct (k_phase k); try reflexivity.
    destruct (too_big k n s) eqn:Hb; [reflexivity|].
    rewrite (handle_packet_sz_small c k p n s Hb), <- (handle_packet_i_fst c k p s).
    destruct (handle_packet_i c k p s) as [r log]. reflexivity.
Qed.

Lemma step_i_erase s e : fst (step_i s e) = step s e.
Proof.
  unfold step_i, step. rewrite <- step_event_i_erase.
  destruct (step_event_i s e) as [[s1 o1] log]. cbn [fst]. destruct (poll_all s1). reflexivity.
Qed.

Theorem run_i_erase es : forall s, fst (run_i s es) = run s es.
Proof.
  induction es as [|e r IH]; intros s; cbn [run_i run]; [reflexivity|].
  rewrite <- step_i_erase. destruct (step_i s e) as [[s' o] l1]. cbn [fst].
  rewrite <- IH. destruct (run_i s' r) as [[s'' os] l2]. reflexivity.
Qed.

(* number of deliver invocations by the publish handler for PUBLISH packets of socket c with identifier pid *)
Definition nfwd (c pid : N) (l : flog) : nat :=
  length (filter (fun x => (fst (fst x) =? c) && (snd (fst x) =? pid)) l).

Lemma nfwd_app c pid a b : nfwd c pid (a ++ b) = (nfwd c pid a + nfwd c pid b)%nat.
Proof. unfold nfwd. now rewrite filter_app, app_length. Qed.

Definition is_pub (pid : N) (e : event) : bool :=
  match e with ESend _ (KPublish _ _ _ _ _ pid' _) => pid' =? pid | _ => false end.
Definition is_rel (pid : N) (e : event) : bool :=
  match e with ESend _ (KPubrel pid' _ _) => pid' =? pid | _ => false end.

(* the events of the history theorem: QoS 2 PUBLISH and PUBREL packets sent on socket c *)
Definition qos2_traffic (c : N) (e : event) : Prop :=
  match e with
  | ESend c' (KPublish _ qos _ _ _ _ _) => c' = c /\ qos = 2
  | ESend c' (KPubrel _ _ _) => c' = c
  | _ => False
  end.

(* no protocol error ends the connection during the run: every packet finds socket c attached to client cid and
   is handled to the end (run_ok_sufficient below gives syntactic conditions) *)
Fixpoint run_ok (c : N) (cid : str) (s : st) (es : list event) : Prop :=
  match es with
  | [] => True
  | e :: r =>
      (exists k p s' o, e = ESend c p /\ nget c (b_conns s) = Some k /\ k_phase k = PhConnected /\ k_cid k = cid /\
                        handle_packet c k p s = HOk s' o) /\
      run_ok c cid (fst (step s e)) r
  end.

Lemma run_ok_app c cid a : forall s b,
  run_ok c cid s (a ++ b) <-> run_ok c cid s a /\ run_ok c cid (fst (run s a)) b.
Proof.
  induction a as [|e r IH]; intros s b; cbn [app run_ok]; [cbn; tauto|]. rewrite IH, run_cons. tauto.
Qed.

Lemma run_i_log_cons s e r : snd (run_i s (e :: r)) = snd (step_i s e) ++ snd (run_i (fst (fst (step_i s e))) r).
Proof. cbn [run_i]. destruct (step_i s e) as [[s' o] l1]. cbn [fst snd]. now destruct (run_i s' r) as [[s'' os] l2]. Qed.

(* one QoS 2 PUBLISH through the instrumented handler: U(cid) becomes u', which differs from U(cid) at most in pid *)
Lemma handle_packet_i_qos2 c k s dup retain topic payload pid props :
  pub_accepts k 2 retain topic props = true ->
  let cid := k_cid k in
  exists s' o log u',
    handle_packet_i c k (KPublish dup 2 retain topic payload pid props) s = (HOk s' o, log) /\
    b_hooks s' = b_hooks s /\ urec cid u' s s' /\
    (forall x, x <> pid -> (In x u' <-> In x (Uof cid s))) /\
    (In pid (Uof cid s) -> log = [] /\ In pid u') /\
    (~ In pid (Uof cid s) ->
       (exists m', log = [(pid, m')] /\ In pid u') \/ (log = [] /\ h_msg_on (b_hooks s) = true)).
Proof.
  intros Hacc cid. subst cid.
  destruct (qos2_publish_eq c k dup retain topic payload pid props s Hacc) as (k' & m & _ & Ec & ->). cbv beta zeta.
  destruct (memN pid (Uof (k_cid k) s)) eqn:Hm.
  - (* retransmission *)
    apply memN_In in Hm. set (s0 := set_unacks _ _).
    eexists _, _, _, (Uof (k_cid k) s). split; [reflexivity|]. split; [|split; [|split; [tauto|split; [tauto|contradiction]]]].
    + destruct (k_v k =? 5); [rewrite (qp_hooks _ _ (qproj_quota_back c s0))|]; reflexivity.
    + apply urec_ext with (s1 := s0); [|apply urec_set].
      intros cid'. destruct (k_v k =? 5); [apply Uof_quota_back|reflexivity].
  - (* a new identifier *)
    apply memN_notIn in Hm. set (s0 := set_unacks _ _).
    assert (U0 : urec (k_cid k) (pid :: Uof (k_cid k) s) s s0) by apply urec_set.
    rewrite pub_fwd_eq. change (pub_action m s0) with (pub_action m s).
    destruct (fwd_msg (pub_action m s) m) as [m'|] eqn:Hf.
    + (* forwarded *)
      destruct (forward_frame (k_cid k') m' s0) as (r & F & _).
      destruct (deliver (k_cid k') m' (retain_update m' s0)) as [[s1 o1] mt]. cbn [fst] in F.
      rewrite pub_finish_qos2_ok by (unfold pub_code; destruct (k_v k =? 5); [destruct mt|]; lia).
      eexists _, _, _, (pid :: Uof (k_cid k) s). split; [reflexivity|]. split; [apply (df_hooks _ _ F)|].
      split; [apply urec_ext with (s1 := s0); [intros cid'; apply (Uof_dframe cid' _ _ F)|exact U0]|].
      split; [intros x Hx; cbn [In]; split; [intros [E|H]; [congruence|exact H]|now right]|].
      split; [contradiction|]. intros _. left. exists m'. split; [reflexivity|now left].
    + (* refused by the hook *)
      set (err := match pub_action m s with MReject code => Some code | _ => None end).
      destruct (qos2_refused c k' (k_v k =? 5) pid (k_cid k) s s0 err Ec) as (s' & -> & Q & U); [reflexivity|exact U0|].
      eexists _, _, _, _. split; [reflexivity|]. split; [apply (qp_hooks _ _ Q)|]. split; [exact U|].
      split; [|split; [contradiction|]].
      * intros x Hx. destruct (128 <=? pub_code (k_v k =? 5) false err); rewrite ?unack_remove_In; cbn [In];
          intuition congruence.
      * intros _. right. split; [reflexivity|exact (fwd_msg_none _ _ Hf)].
Qed.

(* one event of the QoS 2 traffic through the instrumented step: what it does to "pid is in U" and how many
   deliver invocations it logs for pid *)
Lemma step_i_qos2 c cid pid s e :
  qos2_traffic c e ->
  (exists k p s' o, e = ESend c p /\ nget c (b_conns s) = Some k /\ k_phase k = PhConnected /\ k_cid k = cid /\
                    handle_packet c k p s = HOk s' o) ->
  let s1 := fst (fst (step_i s e)) in
  let n := nfwd c pid (snd (step_i s e)) in
  b_hooks s1 = b_hooks s /\
  (is_rel pid e = true -> n = 0%nat /\ ~ In pid (Uof cid s1)) /\
  (is_rel pid e = false -> is_pub pid e = false -> n = 0%nat /\ (In pid (Uof cid s1) <-> In pid (Uof cid s))) /\
  (is_pub pid e = true -> In pid (Uof cid s) -> n = 0%nat /\ In pid (Uof cid s1)) /\
  (is_pub pid e = true -> ~ In pid (Uof cid s) ->
     (n = 1%nat /\ In pid (Uof cid s1)) \/ (n = 0%nat /\ h_msg_on (b_hooks s) = true)).
Proof.
  intros Htr (k & p & s' & o & -> & Hk & Hph & Hcid & Hh).
  unfold step_i. cbn [step_event_i]. rewrite Hk, Hph.
  (* the poll loops change neither U nor the hooks *)
  assert (Hpoll : forall sx, b_hooks (fst (poll_all sx)) = b_hooks sx /\ Uof cid (fst (poll_all sx)) = Uof cid sx).
  { intros sx. destruct (poll_all_frame sx) as [F _]. split; [apply (df_hooks _ _ F)|apply (Uof_dframe _ _ _ F)]. }
  destruct p; cbn [qos2_traffic] in Htr; try contradiction.
  - (* PUBLISH *)
    destruct Htr as [_ ->].
    destruct (pub_accepts k 2 retain topic props) eqn:Hacc.
    2:{ apply (handle_packet_publish_rejected c k dup 2 retain topic payload pid0 props s) in Hacc
          as [[code E]|[code E]]; rewrite E in Hh; discriminate. }
    destruct (handle_packet_i_qos2 c k s dup retain topic payload pid0 props Hacc)
      as (s2 & o2 & log & u' & -> & Hhk & U & Hx & Hdup & Hnew).
    rewrite Hcid in U, Hx, Hdup, Hnew.
    destruct (Hpoll s2) as [Hp1 Hp2]. destruct (poll_all s2) as [s3 o3]. cbn [fst snd] in *.
    rewrite Hp2, (urec_self _ _ _ _ U). split; [congruence|].
    cbn [is_rel is_pub]. split; [discriminate|].
    assert (Hn : nfwd c pid (map (fun x => (c, fst x, snd x)) log) =
                 if pid0 =? pid then length log else 0%nat).
    { destruct (in_dec N.eq_dec pid0 (Uof cid s)) as [Hin|Hnin].
      - destruct (Hdup Hin) as [-> _]. now destruct (pid0 =? pid).
      - destruct (Hnew Hnin) as [(m' & -> & _)|[-> _]]; [|now destruct (pid0 =? pid)].
        unfold nfwd. cbn [map filter fst snd]. rewrite N.eqb_refl. now destruct (pid0 =? pid). }
    rewrite Hn. destruct (N.eqb_spec pid0 pid) as [->|Epid].
    + split; [discriminate|]. split.
      * intros _ Hin. now destruct (Hdup Hin) as [-> Hin'].
      * intros _ Hnin. destruct (Hnew Hnin) as [(m' & -> & Hin')|[-> Hon]]; [left|right]; now split.
    + split; [|split; discriminate]. intros _ _. split; [reflexivity|]. apply Hx. congruence.
  - (* PUBREL *)
    clear Htr. cbn [handle_packet_i].
    destruct (pubrel_frees_id c k s pid0 code props) as (s2 & -> & Q & Hnot & Hx & _).
    rewrite Hcid in Hnot, Hx.
    destruct (Hpoll s2) as [Hp1 Hp2]. destruct (poll_all s2) as [s3 o3]. cbn [fst snd map] in *.
    rewrite Hp2. split; [rewrite Hp1; apply (qp_hooks _ _ Q)|].
    cbn [is_rel is_pub].
    split; [|split; [|split; discriminate]].
    + intros Epid. apply N.eqb_eq in Epid. subst pid0. now split.
    + intros Epid _. apply N.eqb_neq in Epid. split; [reflexivity|]. apply Hx. congruence.
Qed.

Lemma run_ok_hooks c cid : forall es s,
  Forall (qos2_traffic c) es -> run_ok c cid s es -> b_hooks (fst (run s es)) = b_hooks s.
Proof.
  induction es as [|e r IH]; intros s Htr Hok; [reflexivity|].
  inversion Htr as [|e0 r0 Hte Htr']; subst. destruct Hok as [Hhead Hok].
  destruct (step_i_qos2 c cid 0 s e Hte Hhead) as [Hh _]. rewrite step_i_erase in Hh.
  rewrite run_cons, (IH _ Htr' Hok). exact Hh.
Qed.

Lemma segment_count c cid pid : forall seg s,
  Forall (qos2_traffic c) seg -> run_ok c cid s seg -> existsb (is_rel pid) seg = false ->
  let n := nfwd c pid (snd (run_i s seg)) in
  (In pid (Uof cid s) -> n = 0%nat) /\
  (~ In pid (Uof cid s) ->
     (n <= 1)%nat /\ (h_msg_on (b_hooks s) = false -> n = if existsb (is_pub pid) seg then 1%nat else 0%nat)).
Proof.
  induction seg as [|e r IH]; intros s Htr Hok Hrel.
  - cbn. split; [reflexivity|]. intros _. split; [lia|reflexivity].
  - inversion Htr as [|e0 r0 Hte Htr']; subst. destruct Hok as [Hhead Hok].
    cbn [existsb] in Hrel |- *. apply orb_false_iff in Hrel as [Hrel_e Hrel_r].
    destruct (step_i_qos2 c cid pid s e Hte Hhead) as (Hh1 & _ & Hother & Hdup & Hnew).
    rewrite <- step_i_erase in Hok. cbv zeta. rewrite run_i_log_cons, nfwd_app.
    destruct (IH _ Htr' Hok Hrel_r) as (IHin & IHout). rewrite Hh1 in IHout.
    destruct (is_pub pid e) eqn:Epub.
    + split.
      * intros Hin. destruct (Hdup eq_refl Hin) as [-> Hin1]. now rewrite (IHin Hin1).
      * intros Hnin. destruct (Hnew eq_refl Hnin) as [[-> Hin1]|[-> Hon]].
        -- rewrite (IHin Hin1). split; [lia|reflexivity].
        -- split; [|congruence].
           destruct (in_dec N.eq_dec pid (Uof cid (fst (fst (step_i s e))))) as [Hin1|Hnin1];
             [rewrite (IHin Hin1); lia|now apply IHout].
    + destruct (Hother Hrel_e eq_refl) as [-> Hiff]. rewrite <- Hiff. exact (conj IHin IHout).
Qed.

(* On one connection, for arbitrary identifiers, duplication and interleaving of QoS 2 PUBLISH and
   PUBREL packets: in every stretch [seg] of the history that lies between two consecutive PUBREL packets of [pid]
   (or between the start, when pid is not pending, and the first such PUBREL) the publish handler invokes deliver
   for pid exactly once if the stretch contains a PUBLISH with that identifier, and never otherwise. *)
Theorem C04_exactly_once_on_connection c cid pid pre seg s :
  Forall (qos2_traffic c) (pre ++ seg) ->
  run_ok c cid s (pre ++ seg) ->
  h_msg_on (b_hooks s) = false ->
  ((pre = [] /\ ~ In pid (Uof cid s)) \/ exists pre' code props, pre = pre' ++ [ESend c (KPubrel pid code props)]) ->
  existsb (is_rel pid) seg = false ->
  nfwd c pid (snd (run_i (fst (fst (run_i s pre))) seg)) = if existsb (is_pub pid) seg then 1%nat else 0%nat.
Proof.
  intros Htr Hok Hoff Hpre Hrel.
  apply Forall_app in Htr as [Htr1 Htr2]. apply run_ok_app in Hok as [Hok1 Hok2].
  rewrite run_i_erase. set (s1 := fst (run s pre)) in *.
  assert (Hh1 : b_hooks s1 = b_hooks s) by now apply (run_ok_hooks c cid).
  assert (Hnin : ~ In pid (Uof cid s1)).
  { unfold s1. destruct Hpre as [[-> Hn]|(pre' & code & props & ->)]; [exact Hn|].
    apply Forall_app in Htr1 as [_ Htl]. apply run_ok_app in Hok1 as [_ [Hhead _]].
    inversion Htl as [|e0 r0 Hte _]; subst. rewrite run_app, run_cons. cbn [run fst].
    destruct (step_i_qos2 c cid pid _ _ Hte Hhead) as (_ & Hr & _). rewrite step_i_erase in Hr.
    cbn [is_rel] in Hr. rewrite N.eqb_refl in Hr. now destruct (Hr eq_refl). }
  destruct (segment_count c cid pid seg s1 Htr2 Hok2 Hrel) as (_ & Hout).
  destruct (Hout Hnin) as [_ Heq]. apply Heq. congruence.
Qed.

(* with an OnMsgArrived hook that may refuse messages: still never more than once *)
Theorem C04_at_most_once_with_hooks c cid pid seg s :
  Forall (qos2_traffic c) seg -> run_ok c cid s seg -> existsb (is_rel pid) seg = false ->
  (nfwd c pid (snd (run_i s seg)) <= 1)%nat.
Proof.
  intros Htr Hok Hrel. destruct (segment_count c cid pid seg s Htr Hok Hrel) as (Hin & Hout).
  destruct (in_dec N.eq_dec pid (Uof cid s)) as [H|H]; [rewrite (Hin H); lia|apply (Hout H)].
Qed.

(* a retransmission after the id was recorded is never forwarded, however long the history *)
Theorem C04_pending_id_never_forwarded c cid pid seg s :
  Forall (qos2_traffic c) seg -> run_ok c cid s seg -> existsb (is_rel pid) seg = false ->
  In pid (Uof cid s) -> nfwd c pid (snd (run_i s seg)) = 0%nat.
Proof. intros Htr Hok Hrel Hin. now apply (segment_count c cid pid seg s Htr Hok Hrel). Qed.

(* the part of a connection record that decides whether the next PUBLISH is accepted *)
Definition kstat0 (k : conn) := (k_cid k, k_v k, k_phase k, k_retain_avail k, k_recv_max k).

Lemma kstat_kstat0 k k' : kstat k' = kstat k -> kstat0 k' = kstat0 k /\ k_quota k' = k_quota k.
Proof. unfold kstat, kstat0. intros H. split; congruence. Qed.

(* socket c is attached like k0, with at least q units of receive quota *)
Definition conn_ge (c : N) (k0 : conn) (q : N) (s : st) : Prop :=
  exists k, nget c (b_conns s) = Some k /\ kstat0 k = kstat0 k0 /\ q <= k_quota k.

Lemma conn_ge_same_conns c k0 q s s' : b_conns s' = b_conns s -> conn_ge c k0 q s -> conn_ge c k0 q s'.
Proof. intros E (k & H1 & H2 & H3). exists k. rewrite E. auto. Qed.

Lemma conn_ge_dframe c k0 q s s' : dframe s s' -> conn_ge c k0 q s -> conn_ge c k0 q s'.
Proof.
  intros F (k & H1 & H2 & H3). destruct (df_conn _ _ F c k H1) as (k' & Hk' & Hs).
  apply kstat_kstat0 in Hs as [Hs Hq]. exists k'. split; [exact Hk'|]. split; [congruence|]. now rewrite Hq.
Qed.

Lemma conn_ge_upd c k0 q k s : kstat0 k = kstat0 k0 -> q <= k_quota k -> conn_ge c k0 q (upd_conn c k s).
Proof. intros H1 H2. exists k. rewrite b_conns_upd_conn, nget_nset_same. auto. Qed.

Lemma conn_ge_quota_back c k0 q s : conn_ge c k0 q s -> conn_ge c k0 q (quota_back c s).
Proof.
  intros (k & H1 & H2 & H3). unfold quota_back. rewrite H1.
  destruct (k_quota k <? k_recv_max k); [|exists k; auto].
  apply conn_ge_upd; [exact H2|]. rewrite k_quota_set_quota. lia.
Qed.

Lemma pub_fwd_conn c k0 q k m isdup s : conn_ge c k0 q s -> conn_ge c k0 q (fst (fst (fst (pub_fwd k m isdup s)))).
Proof.
  intros Hc. rewrite pub_fwd_eq. destruct isdup; [exact Hc|].
  destruct (fwd_msg (pub_action m s) m) as [m'|]; [|exact Hc].
  destruct (forward_frame (k_cid k) m' s) as (r & F & _). exact (conn_ge_dframe c k0 q (set_ret r s) _ F Hc).
Qed.

Lemma pub_finish_conn c k0 q k v5 qos pid s o mt err :
  conn_ge c k0 q s -> exists s' o', pub_finish c k v5 qos pid (s, o, mt, err) = HOk s' o' /\ conn_ge c k0 q s'.
Proof.
  intros Hc. rewrite pub_finish_eq. cbv zeta. eexists _, _. split; [reflexivity|].
  set (s1 := if (qos =? 2) && _ then _ else s).
  assert (H1 : conn_ge c k0 q s1).
  { unfold s1. destruct ((qos =? 2) && _); [|exact Hc]. now apply (conn_ge_same_conns c k0 q s). }
  destruct (v5 && _); [now apply conn_ge_quota_back|exact H1].
Qed.

Lemma kstat0_charge k qos : kstat0 (charge k qos) = kstat0 k /\ k_quota k - 1 <= k_quota (charge k qos).
Proof. unfold charge. destruct ((k_v k =? 5) && (0 <? qos)); split; try reflexivity; rewrite ?k_quota_set_quota; lia. Qed.

(* an accepted QoS 2 PUBLISH without topic alias is handled to the end and costs at most one unit of quota *)
Lemma handle_publish_qos2_ok c k0 q k s dup retain topic payload pid props :
  nget c (b_conns s) = Some k -> kstat0 k = kstat0 k0 -> q + 1 <= k_quota k ->
  pub_accepts k 2 retain topic props = true ->
  (if k_v k =? 5 then p_alias props else None) = None ->
  exists s' o, handle_packet c k (KPublish dup 2 retain topic payload pid props) s = HOk s' o /\ conn_ge c k0 q s'.
Proof.
  intros Hk Hs Hq Hacc Hal.
  destruct (qos2_publish_eq c k dup retain topic payload pid props s Hacc) as (k' & m & Hal' & _ & E).
  rewrite pub_alias_none in Hal' by exact Hal. injection Hal' as <- <-.
  rewrite <- handle_packet_i_fst, E. cbv beta zeta. clear E.
  assert (H0 : forall u, conn_ge c k0 q
                           (set_unacks (aset (k_cid k) u (b_unacks s)) (upd_conn c (charge k 2) (upd_conn c (charge k 2) s)))).
  { intros u. destruct (kstat0_charge k 2) as [Hs' Hq'].
    apply (conn_ge_same_conns c k0 _ (upd_conn c (charge k 2) (upd_conn c (charge k 2) s))); [reflexivity|].
    apply conn_ge_upd; [congruence|clear - Hq Hq'; lia]. }
  destruct (memN pid (Uof (k_cid k) s)); cbn [fst].
  - eexists _, _. split; [reflexivity|]. destruct (k_v k =? 5); [apply conn_ge_quota_back|]; apply H0.
  - match goal with |- context [pub_fwd ?k1 ?m0 false ?s0] =>
      pose proof (pub_fwd_conn c k0 _ k1 m0 false s0 (H0 _)) as Hf; destruct (pub_fwd k1 m0 false s0) as [[[s2 o2] mt] err] end.
    now apply pub_finish_conn.
Qed.

Lemma handle_pubrel_ok c k0 q k s pid code props :
  nget c (b_conns s) = Some k -> kstat0 k = kstat0 k0 -> q <= k_quota k ->
  exists s' o, handle_packet c k (KPubrel pid code props) s = HOk s' o /\ conn_ge c k0 q s'.
Proof.
  intros Hk Hs Hq. rewrite pubrel_eq. cbv zeta. eexists _, _. split; [reflexivity|].
  set (s1 := set_unacks _ s).
  assert (H1 : conn_ge c k0 q s1) by (exists k; auto).
  destruct (k_v k =? 5); [now apply conn_ge_quota_back|exact H1].
Qed.

Definition ev_wf (k0 : conn) (e : event) : Prop :=
  match e with
  | ESend _ (KPublish _ _ retain topic _ _ props) =>
      has_wild topic = false /\ is_empty topic = false /\ (k_retain_avail k0 = true \/ retain = false) /\
      (if k_v k0 =? 5 then p_alias props else None) = None
  | _ => True
  end.

(* run_ok holds whenever the socket is attached, the packets are well-formed and carry no topic alias, and the
   receive quota covers the length of the history *)
Theorem run_ok_sufficient c k0 : forall es s,
  Forall (qos2_traffic c) es -> Forall (ev_wf k0) es -> k_phase k0 = PhConnected ->
  conn_ge c k0 (N.of_nat (length es)) s ->
  run_ok c (k_cid k0) s es.
Proof.
  induction es as [|e r IH]; intros s Htr Hwf Hph Hc; [exact I|].
  inversion Htr as [|e0 r0 Hte Htr']; subst. inversion Hwf as [|e1 r1 Hwe Hwf']; subst.
  destruct Hc as (k & Hk & Hs & Hq).
  assert (Hq' : N.of_nat (length r) + 1 <= k_quota k) by (cbn [length] in Hq; lia).
  assert (Hf : k_cid k = k_cid k0 /\ k_v k = k_v k0 /\ k_phase k = k_phase k0 /\ k_retain_avail k = k_retain_avail k0)
    by (unfold kstat0 in Hs; repeat split; congruence).
  destruct Hf as (Hcid & Hv & Hp & Hra).
  assert (Hstep : exists p s' o, e = ESend c p /\ handle_packet c k p s = HOk s' o /\ conn_ge c k0 (N.of_nat (length r)) s').
  { destruct e as [| |c' p| | | | | | | |]; cbn [qos2_traffic] in Hte; try contradiction.
    destruct p; try contradiction.
    - destruct Hte as [-> ->]. cbn [ev_wf] in Hwe. destruct Hwe as (Hw & He & Hr & Ha).
      assert (Hacc : pub_accepts k 2 retain topic props = true).
      { unfold pub_accepts. rewrite Hw, He, Hra, Hv. cbn [negb andb].
        assert (Ez : (k_v k0 =? 5) && match p_alias props with Some a => a =? 0 | None => false end = false)
          by (destruct (k_v k0 =? 5); [rewrite Ha|]; reflexivity).
        rewrite Ez. cbn [negb andb].
        assert (Eq : (k_quota k =? 0) = false) by (apply N.eqb_neq; clear - Hq'; lia). rewrite Eq, andb_false_r. cbn [negb andb].
        assert (Er : negb (k_retain_avail k0) && retain = false) by (destruct Hr as [->| ->]; [reflexivity|apply andb_false_r]).
        rewrite Er. cbn [negb andb]. unfold alias_ok. now rewrite Ha. }
      rewrite <- Hv in Ha.
      destruct (handle_publish_qos2_ok c k0 _ k s dup retain topic payload pid props Hk Hs Hq' Hacc Ha) as (s' & o & E & Hc').
      now exists (KPublish dup 2 retain topic payload pid props), s', o.
    - subst c'. destruct (handle_pubrel_ok c k0 (N.of_nat (length r)) k s pid code props Hk Hs) as (s' & o & E & Hc');
        [clear - Hq'; lia|]. now exists (KPubrel pid code props), s', o. }
  destruct Hstep as (p & s' & o & -> & E & Hc').
  cbn [run_ok]. split.
  - exists k, p, s', o. repeat split; try assumption; congruence.
  - apply IH; try assumption.
    unfold step. cbn [step_event]. rewrite Hk, Hp, Hph, E.
    pose proof (poll_all_frame s') as [F _]. destruct (poll_all s') as [s2 o2]. cbn [fst] in *.
    eapply conn_ge_dframe; eassumption.
Qed.

Lemma step_close_unacks s c : b_unacks (fst (step s (EClose c))) = b_unacks s.
Proof.
  unfold step. cbn [step_event]. pose proof (conn_gone_unacks c s) as [E _].
  destruct (conn_gone c s) as [s1 o1]. cbn [fst] in E.
  pose proof (poll_all_frame s1) as [F _]. destruct (poll_all s1) as [s2 o2]. cbn [fst] in *.
  now rewrite (df_unacks _ _ F).
Qed.

Lemma step_connect_unacks s c cn s' o props :
  step s (EConnect c cn) = (s', o) -> In (OSend c (KConnack true 0 props)) o -> b_unacks s' = b_unacks s.
Proof.
  unfold step. cbn [step_event]. intros H Hin.
  pose proof (conn_gone_unacks c s) as [E0 N0]. destruct (conn_gone c s) as [s0 o0]. cbn [fst snd] in E0, N0.
  destruct (handle_connect c cn s0) as [s1 o1] eqn:Ec.
  pose proof (poll_all_frame s1) as [F P]. destruct (poll_all s1) as [s2 o2]. cbn [fst snd] in *.
  injection H as <- <-.
  rewrite (df_unacks _ _ F), <- E0.
  apply in_app_or in Hin as [Hin|Hin].
  - apply in_app_or in Hin as [Hin|Hin].
    + apply filter_In in Hin as [Hin _]. exfalso. eapply N0. exact Hin.
    + destruct (connect_accepted cn s0) eqn:Hacc.
      * destruct (unack_across_reconnect c cn s0 s1 o1 Hacc Ec) as (sp & props' & o_dup & o_w & -> & N1 & N2 & Ht & _).
        apply in_app_or in Hin as [Hin|Hin]; [exfalso; eapply N1; exact Hin|].
        cbn [app In] in Hin. destruct Hin as [Hin|Hin]; [|exfalso; eapply N2; exact Hin].
        injection Hin as -> _. now apply Ht.
      * destruct (connect_refused c cn s0 Hacc) as (k & code & E & _). rewrite E in Ec. injection Ec as _ <-.
        destruct Hin as [Hin|[]]. discriminate.
  - exfalso. rewrite Forall_forall in P. apply P in Hin. exact Hin.
Qed.

(* the connection is lost while pid is pending, the client resumes its session (CONNACK Session Present = 1) on
   socket c' and retransmits: the publish handler never invokes deliver for pid before the PUBREL *)
Theorem C04_no_forward_after_resume c c' cid pid cn s s1 o1 s2 o2 props seg :
  In pid (Uof cid s) ->
  step s (EClose c) = (s1, o1) ->
  step s1 (EConnect c' cn) = (s2, o2) -> In (OSend c' (KConnack true 0 props)) o2 ->
  Forall (qos2_traffic c') seg -> run_ok c' cid s2 seg -> existsb (is_rel pid) seg = false ->
  nfwd c' pid (snd (run_i s2 seg)) = 0%nat.
Proof.
  intros Hin H1 H2 Hsp Htr Hok Hrel.
  apply (C04_pending_id_never_forwarded c' cid pid seg s2 Htr Hok Hrel).
  unfold Uof. rewrite (step_connect_unacks _ _ _ _ _ _ H2 Hsp).
  pose proof (step_close_unacks s c) as E. rewrite H1 in E. cbn [fst] in E. now rewrite E.
Qed.

(* a boolean form of run_ok for computing *)
Fixpoint run_okb (c : N) (cid : str) (s : st) (es : list event) : bool :=
  match es with
  | [] => true
  | e :: r =>
      match e with
      | ESend c' p =>
          (c' =? c) &&
          match nget c (b_conns s) with
          | Some k => match k_phase k with
                      | PhConnected => str_eqb (k_cid k) cid &&
                                       match handle_packet c k p s with HOk _ _ => true | _ => false end
                      | _ => false
                      end
          | None => false
          end
      | _ => false
      end && run_okb c cid (fst (step s e)) r
  end.

Lemma run_okb_ok c cid : forall es s, run_okb c cid s es = true -> run_ok c cid s es.
Proof.
  induction es as [|e r IH]; intros s H; [exact I|].
  cbn [run_okb] in H. apply andb_prop in H as [H1 H2]. cbn [run_ok]. split; [|now apply IH].
  destruct e as [| |c' p| | | | | | | |]; try discriminate.
  apply andb_prop in H1 as [Hc H1]. apply N.eqb_eq in Hc. subst c'.
  destruct (nget c (b_conns s)) as [k|]; [|discriminate].
  destruct (k_phase k) eqn:Hp; try discriminate.
  apply andb_prop in H1 as [Hcid H1]. apply str_eqb_eq in Hcid.
  destruct (handle_packet c k p s) as [s' o| |] eqn:Hh; try discriminate.
  exists k, p, s', o. repeat split; assumption.
Qed.

Definition ex_cfg : cfg :=
  {| c_onlyonce := false; c_max_inflight := 100; c_max_queued := 1000; c_queue_qos0 := true;
     c_session_expiry := 3600; c_message_expiry := 0; c_recv_max := 100; c_alias_max := 10; c_max_packet := 0;
     c_max_qos := 2; c_retain_avail := true; c_wildcard := true; c_subid := true; c_shared := true;
     c_max_keepalive := 60; c_allow_zero_len := true; c_inflight_expiry := 0 |}.

Definition ex_connect (v : N) (cid : str) (clean : bool) (will : option willspec) (props : list prop) : connect :=
  {| cn_ver := v; cn_cid := cid; cn_clean := clean; cn_keepalive := 0; cn_user := None; cn_pass := None;
     cn_will := will; cn_props := props |}.

Definition ex_T : str := [116].      (* "t" *)
Definition ex_S : str := [115].      (* "s": the subscriber *)
Definition ex_P : str := [112].      (* "p": the publisher *)

(* subscriber "s" on socket 1 subscribed to "t" with QoS 2; publisher "p" (v5, session expiry 100) on socket 2 *)
Definition ex_state : st :=
  fst (run (st_init ex_cfg no_hooks [])
           [EConnect 1 (ex_connect 4 ex_S true None []);
            ESend 1 (KSubscribe 1 [] [{| tq_name := ex_T; tq_qos := 2; tq_nl := false; tq_rap := false; tq_rh := 0 |}]);
            EConnect 2 (ex_connect 5 ex_P false None [PSei 100])]).

Definition ex_pub (dup : bool) (pid : N) : event := ESend 2 (KPublish dup 2 false ex_T [1; 2; 3] pid []).
Definition ex_rel (pid : N) : event := ESend 2 (KPubrel pid 0 []).

Definition ex_pre : list event := [ex_pub false 7; ex_pub true 7; ex_rel 7].
Definition ex_seg : list event := [ex_pub false 7; ex_pub false 9; ex_pub true 7; ex_rel 9; ex_pub true 7].

(* the hypotheses of C04_exactly_once_on_connection hold of it ... *)
Example ex_history_hyps :
  Forall (qos2_traffic 2) (ex_pre ++ ex_seg) /\ run_ok 2 ex_P ex_state (ex_pre ++ ex_seg) /\
  h_msg_on (b_hooks ex_state) = false /\ existsb (is_rel 7) ex_seg = false /\ existsb (is_pub 7) ex_seg = true.
Proof.
  split; [repeat constructor|]. split; [apply run_okb_ok; vm_compute; reflexivity|]. vm_compute. repeat split.
Qed.

(* ... and so do those of run_ok_sufficient *)
Example ex_sufficient_hyps :
  exists k0, Forall (ev_wf k0) (ex_pre ++ ex_seg) /\ k_phase k0 = PhConnected /\ k_cid k0 = ex_P /\
             conn_ge 2 k0 (N.of_nat (length (ex_pre ++ ex_seg))) ex_state.
Proof.
  destruct (nget 2 (b_conns ex_state)) as [k0|] eqn:E; [|vm_compute in E; discriminate].
  exists k0. vm_compute in E. injection E as <-.
  split; [repeat constructor|]. split; [reflexivity|]. split; [reflexivity|].
  eexists. split; [vm_compute; reflexivity|]. split; [reflexivity|]. vm_compute. discriminate.
Qed.

(* the log of the instrumented run: one entry for id 7 before the PUBREL, one after, one for id 9 *)
Example ex_log :
  map (fun x => (fst (fst x), snd (fst x))) (snd (run_i ex_state (ex_pre ++ ex_seg))) = [(2, 7); (2, 7); (2, 9)].
Proof. vm_compute. reflexivity. Qed.

(* the same seen from the witness subscriber on socket 1: it is sent exactly three PUBLISH packets *)
Definition ex_to_sub (o : list (list out)) : nat :=
  length (filter (fun x => match x with OSend 1 (KPublish _ _ _ _ _ _ _) => true | _ => false end) (concat o)).
Example ex_witness : ex_to_sub (snd (run ex_state (ex_pre ++ ex_seg))) = 3%nat.
Proof. vm_compute. reflexivity. Qed.

(* the hypotheses of the theorems about one PUBLISH *)
Definition ex_after_first : st := fst (run ex_state [ex_pub false 7]).
Example ex_duplicate_hyps :
  exists k, nget 2 (b_conns ex_after_first) = Some k /\ k_phase k = PhConnected /\ k_cid k = ex_P /\
            pub_accepts k 2 false ex_T [] = true /\ In 7 (Uof ex_P ex_after_first).
Proof. eexists. split; [vm_compute; reflexivity|]. vm_compute. repeat split. now left. Qed.

Example ex_new_hyps :
  exists k, nget 2 (b_conns ex_state) = Some k /\ pub_accepts k 2 false ex_T [] = true /\ ~ In 7 (Uof ex_P ex_state).
Proof. eexists. split; [vm_compute; reflexivity|]. vm_compute. split; [reflexivity|]. intros []. Qed.

(* the resume theorem: close socket 2 while id 7 is pending, reconnect on socket 3 *)
Definition ex_reconnect : event := EConnect 3 (ex_connect 5 ex_P false None [PSei 100]).
Example ex_resume_hyps :
  In 7 (Uof ex_P ex_after_first) /\
  In (OSend 3 (KConnack true 0 [PSei 100; PRecvMax 100; PMaxQos 1; PRetainAvail 1; PAliasMax 10; PWildcard 1;
                                PSubIdAvail 1; PSharedAvail 1; PMaxPkt 0; PKeepAlive 0]))
     (snd (step (fst (step ex_after_first (EClose 2))) ex_reconnect)) /\
  run_ok 3 ex_P (fst (step (fst (step ex_after_first (EClose 2))) ex_reconnect))
         [ESend 3 (KPublish true 2 false ex_T [1; 2; 3] 7 [])].
Proof.
  split; [vm_compute; now left|]. split; [vm_compute; now left|]. apply run_okb_ok. vm_compute. reflexivity.
Qed.
