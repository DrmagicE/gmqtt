(* The retained-message trie (Model/RetTrie.v) refines a flat map topic -> message,
   for all operation histories. *)
From Coq Require Import List NArith Bool Arith Lia.
Import ListNotations.
From GM Require Import Base.Topic Base.Msg Model.SubTrie Model.RetTrie Model.TopicMatch Proofs.TopicP.
From GM Require Export Proofs.ListP Proofs.AssocP.

Lemma NoDup_map_inj_in {A B : Type} (f : A -> B) (l : list A) :
  NoDup l -> (forall x y, In x l -> In y l -> f x = f y -> x = y) -> NoDup (map f l).
Proof. intros Hnd Hinj. now apply NoDup_map_inj. Qed.

Section RnodeInd.
  Variable P : rnode -> Prop.
  Hypothesis Hnode : forall m ch, Forall (fun p => P (snd p)) ch -> P (RNode m ch).

  Fixpoint rnode_ind' (n : rnode) : P n :=
    match n with
    | RNode m ch =>
        Hnode m ch
          ((fix go (l : list (level * rnode)) : Forall (fun p => P (snd p)) l :=
              match l with
              | [] => Forall_nil _
              | (lv, c) :: r => Forall_cons (lv, c) (rnode_ind' c) (go r)
              end) ch)
    end.
End RnodeInd.

(* children keys are pairwise distinct, hereditarily *)
Inductive rwf : rnode -> Prop :=
| rwf_node m ch : NoDup (map fst ch) -> Forall (fun p => rwf (snd p)) ch -> rwf (RNode m ch).

Lemma rwf_inv n : rwf n -> NoDup (map fst (r_children n)) /\ Forall (fun p => rwf (snd p)) (r_children n).
Proof. intros H. inversion H; subst. cbn [r_children]. now split. Qed.

Lemma rwf_intro n :
  NoDup (map fst (r_children n)) -> Forall (fun p => rwf (snd p)) (r_children n) -> rwf n.
Proof. destruct n as [m ch]. cbn [r_children]. now constructor. Qed.

Lemma rwf_empty : rwf r_empty.
Proof. constructor; constructor. Qed.

Lemma rwf_child lv n c : rwf n -> r_child lv n = Some c -> rwf c.
Proof.
  intros H Hc. apply rwf_inv in H as [_ HF]. unfold r_child in Hc.
  rewrite Forall_forall in HF. exact (HF _ (aget_In _ _ _ Hc)).
Qed.

Definition msg_at (n : rnode) (p : list level) : option msg :=
  match r_get p n with Some x => r_msg x | None => None end.

Lemma msg_at_nil n : msg_at n [] = r_msg n.
Proof. reflexivity. Qed.

Lemma msg_at_cons n lv q :
  msg_at n (lv :: q) = match r_child lv n with Some c => msg_at c q | None => None end.
Proof. unfold msg_at. cbn [r_get]. destruct (r_child lv n); reflexivity. Qed.

Lemma msg_at_empty q : msg_at r_empty q = None.
Proof. destruct q; reflexivity. Qed.

Lemma msg_at_leaf n q : r_children n = [] -> q <> [] -> msg_at n q = None.
Proof.
  intros Hc Hq. destruct q as [|lv q]; [contradiction|].
  rewrite msg_at_cons. unfold r_child. rewrite Hc. reflexivity.
Qed.

Lemma r_find_msg_at t n : r_find t n = msg_at n (split t).
Proof. reflexivity. Qed.

Lemma rwf_add p m n : rwf n -> rwf (r_add p m n).
Proof.
  revert n. induction p as [|lv rest IH]; intros n Hn; cbn [r_add].
  - apply rwf_inv in Hn as [Hnd HF]. now constructor.
  - pose proof (rwf_inv n Hn) as [Hnd HF]. constructor.
    + now apply NoDup_aset.
    + apply Forall_aset; [exact HF|]. apply IH.
      destruct (r_child lv n) as [c|] eqn:Ec; [exact (rwf_child lv n c Hn Ec)|exact rwf_empty].
Qed.

Lemma msg_at_add_same p m n : msg_at (r_add p m n) p = Some m.
Proof.
  revert n. induction p as [|lv rest IH]; intros n; cbn [r_add]; [reflexivity|].
  rewrite msg_at_cons. unfold r_child at 1. cbn [r_children].
  rewrite aget_aset, str_eqb_refl. apply IH.
Qed.

Lemma msg_at_add_other p m n q : q <> p -> msg_at (r_add p m n) q = msg_at n q.
Proof.
  revert n q. induction p as [|lv rest IH]; intros n q Hq; cbn [r_add].
  - destruct q as [|lv' q']; [contradiction|]. rewrite !msg_at_cons. reflexivity.
  - destruct q as [|lv' q']; [destruct n; reflexivity|].
    rewrite !msg_at_cons. unfold r_child at 1. cbn [r_children].
    rewrite aget_aset. destruct (str_eqb lv' lv) eqn:E.
    + apply str_eqb_eq in E. subst lv'.
      assert (Hq' : q' <> rest) by congruence.
      rewrite (IH _ _ Hq'). destruct (r_child lv n); [reflexivity|apply msg_at_empty].
    + reflexivity.
Qed.

Lemma rwf_remove p n : rwf n -> rwf (r_remove p n).
Proof.
  revert n. induction p as [|lv rest IH]; intros n Hn; cbn [r_remove]; [exact Hn|].
  destruct (r_child lv n) as [c|] eqn:Ec; [|exact Hn].
  pose proof (rwf_inv n Hn) as [Hnd HF].
  pose proof (rwf_child lv n c Hn Ec) as Hc.
  destruct rest as [|lv2 rest'].
  - destruct (r_children c) as [|x xs] eqn:Ecc.
    + constructor; [now apply NoDup_adel|now apply Forall_adel].
    + constructor; [now apply NoDup_aset|].
      apply Forall_aset; [exact HF|].
      apply rwf_inv in Hc as [Hnd' HF']. rewrite Ecc in *. now constructor.
  - constructor; [now apply NoDup_aset|].
    apply Forall_aset; [exact HF|]. now apply IH.
Qed.

Lemma msg_at_remove_same p n : rwf n -> p <> [] -> msg_at (r_remove p n) p = None.
Proof.
  revert n. induction p as [|lv rest IH]; intros n Hn Hp; [contradiction|]. cbn [r_remove].
  destruct (r_child lv n) as [c|] eqn:Ec; [|now rewrite msg_at_cons, Ec].
  pose proof (rwf_inv n Hn) as [Hnd HF].
  destruct rest as [|lv2 rest'].
  - destruct (r_children c) as [|x xs] eqn:Ecc; rewrite msg_at_cons; unfold r_child; cbn [r_children].
    + rewrite (aget_adel lv lv _ Hnd), str_eqb_refl. reflexivity.
    + rewrite aget_aset, str_eqb_refl. reflexivity.
  - rewrite msg_at_cons. unfold r_child at 1. cbn [r_children].
    rewrite aget_aset, str_eqb_refl. apply IH; [exact (rwf_child lv n c Hn Ec)|discriminate].
Qed.

Lemma msg_at_remove_other p n q : rwf n -> q <> p -> msg_at (r_remove p n) q = msg_at n q.
Proof.
  revert n q. induction p as [|lv rest IH]; intros n q Hn Hq; cbn [r_remove]; [reflexivity|].
  destruct (r_child lv n) as [c|] eqn:Ec; [|reflexivity].
  pose proof (rwf_inv n Hn) as [Hnd HF].
  destruct q as [|lv' q'].
  { destruct rest as [|lv2 rest']; [destruct (r_children c)|]; destruct n; reflexivity. }
  destruct rest as [|lv2 rest'].
  - destruct (r_children c) as [|x xs] eqn:Ecc; rewrite !msg_at_cons; unfold r_child at 1; cbn [r_children].
    + rewrite (aget_adel lv' lv _ Hnd). destruct (str_eqb lv' lv) eqn:E; [|reflexivity].
      apply str_eqb_eq in E. subst lv'. rewrite Ec. symmetry. apply msg_at_leaf; [exact Ecc|congruence].
    + rewrite aget_aset. destruct (str_eqb lv' lv) eqn:E; [|reflexivity].
      apply str_eqb_eq in E. subst lv'. rewrite Ec.
      destruct q' as [|lv3 q'']; [congruence|].
      rewrite !msg_at_cons. unfold r_child. cbn [r_children]. rewrite Ecc. reflexivity.
  - rewrite !msg_at_cons. unfold r_child at 1. cbn [r_children].
    rewrite aget_aset. destruct (str_eqb lv' lv) eqn:E; [|reflexivity].
    apply str_eqb_eq in E. subst lv'. rewrite Ec.
    apply IH; [exact (rwf_child lv n c Hn Ec)|congruence].
Qed.

Lemma msg_at_child_in n lv c q :
  rwf n -> In (lv, c) (r_children n) -> msg_at n (lv :: q) = msg_at c q.
Proof.
  intros Hn Hin. rewrite msg_at_cons. unfold r_child.
  apply rwf_inv in Hn as [Hnd _]. now rewrite (In_aget lv c _ Hnd Hin).
Qed.

Lemma rwf_child_in n lv c : rwf n -> In (lv, c) (r_children n) -> rwf c.
Proof.
  intros Hn Hin. apply rwf_inv in Hn as [_ HF]. rewrite Forall_forall in HF. exact (HF _ Hin).
Qed.

Lemma in_opt_list {A : Type} (o : option A) (x : A) : In x (opt_list o) <-> o = Some x.
Proof.
  destruct o as [y|]; cbn [opt_list In]; split; intros H.
  - destruct H as [H|[]]. now subst.
  - left. congruence.
  - destruct H.
  - discriminate.
Qed.

Lemma in_traverse n : rwf n -> forall m, In m (r_traverse n) <-> exists p, msg_at n p = Some m.
Proof.
  induction n as [m0 ch IH] using rnode_ind'. intros Hn m.
  cbn [r_traverse]. change (match m0 with Some x => [x] | None => [] end) with (opt_list m0).
  rewrite in_app_iff, in_flat_map, in_opt_list.
  rewrite Forall_forall in IH.
  split.
  - intros [H|([lv c] & Hin & Hm)].
    + exists []. exact H.
    + specialize (IH _ Hin (rwf_child_in _ lv c Hn Hin)). cbn [snd] in IH.
      apply IH in Hm as (p & Hp). exists (lv :: p).
      rewrite (msg_at_child_in (RNode m0 ch) lv c p Hn Hin). exact Hp.
  - intros ([|lv p] & Hp).
    + left. exact Hp.
    + right. rewrite msg_at_cons in Hp.
      destruct (r_child lv (RNode m0 ch)) as [c|] eqn:Ec; [|discriminate].
      unfold r_child in Ec. cbn [r_children] in Ec. apply aget_In in Ec.
      exists (lv, c). split; [exact Ec|].
      specialize (IH _ Ec (rwf_child_in _ lv c Hn Ec)). cbn [snd] in IH.
      apply IH. now exists p.
Qed.

(* [k] reads the path back off a stored message *)
Definition keyed (k : msg -> list level) (n : rnode) : Prop :=
  forall p m, msg_at n p = Some m -> k m = p.

Lemma keyed_child k n lv c :
  rwf n -> keyed k n -> In (lv, c) (r_children n) -> keyed (fun m => tl (k m)) c.
Proof.
  intros Hn Hk Hin p m Hp. rewrite <- (msg_at_child_in n lv c p Hn Hin) in Hp.
  apply Hk in Hp. now rewrite Hp.
Qed.

Lemma nodup_children (g : rnode -> list msg) n k :
  rwf n -> keyed k n ->
  (forall lv c m, In (lv, c) (r_children n) -> In m (g c) -> exists p, msg_at c p = Some m) ->
  (forall lv c, In (lv, c) (r_children n) -> NoDup (map (fun m => tl (k m)) (g c))) ->
  NoDup (map k (flat_map (fun x : level * rnode => let '(_, c) := x in g c) (r_children n))).
Proof.
  intros Hn Hk Hsub Hpiece. rewrite map_flat_map.
  pose proof (rwf_inv n Hn) as [Hnd _].
  apply NoDup_flat_map.
  - exact (NoDup_map_inv fst _ Hnd).
  - intros [lv c] Hin. specialize (Hpiece lv c Hin).
    rewrite <- (map_map k (@tl level)) in Hpiece. exact (NoDup_map_inv _ _ Hpiece).
  - intros [lv c] [lv' c'] b Hin Hin' Hb Hb'.
    apply in_map_iff in Hb as (m & Em & Hm). apply in_map_iff in Hb' as (m' & Em' & Hm').
    apply (Hsub lv c m Hin) in Hm as (p & Hp). apply (Hsub lv' c' m' Hin') in Hm' as (p' & Hp').
    rewrite <- (msg_at_child_in n lv c p Hn Hin) in Hp. apply Hk in Hp.
    rewrite <- (msg_at_child_in n lv' c' p' Hn Hin') in Hp'. apply Hk in Hp'.
    assert (lv = lv') by congruence. subst lv'.
    apply (In_aget lv c _ Hnd) in Hin. apply (In_aget lv c' _ Hnd) in Hin'. congruence.
Qed.

Lemma nodup_traverse n : rwf n -> forall k, keyed k n -> NoDup (map k (r_traverse n)).
Proof.
  induction n as [m0 ch IH] using rnode_ind'. intros Hn k Hk.
  cbn [r_traverse]. change (match m0 with Some x => [x] | None => [] end) with (opt_list m0).
  rewrite map_app. rewrite Forall_forall in IH.
  apply NoDup_app_disjoint.
  - destruct m0; cbn [opt_list map]; [constructor; [intros []|constructor]|constructor].
  - apply (nodup_children r_traverse (RNode m0 ch) k Hn Hk).
    + intros lv c m Hin Hm. apply (in_traverse c (rwf_child_in _ lv c Hn Hin)). exact Hm.
    + intros lv c Hin. apply (IH _ Hin (rwf_child_in _ lv c Hn Hin)).
      exact (keyed_child k _ lv c Hn Hk Hin).
  - intros b Hb Hb'.
    apply in_map_iff in Hb as (m & Em & Hm). apply in_opt_list in Hm.
    assert (E1 : k m = []) by (apply Hk; exact Hm).
    apply in_map_iff in Hb' as (m' & Em' & Hm').
    apply in_flat_map in Hm' as ([lv c] & Hin & Hm').
    apply (in_traverse c (rwf_child_in _ lv c Hn Hin)) in Hm' as (p & Hp).
    rewrite <- (msg_at_child_in (RNode m0 ch) lv c p Hn Hin) in Hp. apply Hk in Hp. congruence.
Qed.

(* the recursive function that r_match really computes below the first level *)
Definition r_match' (fs : list level) (n : rnode) : list msg :=
  match fs with [] => opt_list (r_msg n) | _ => r_match fs n end.

Lemma r_match'_cons f rest n :
  r_match' (f :: rest) n =
  if is_hash f then r_traverse n
  else if is_plus f then
    flat_map (fun x : level * rnode => let '(_, v) := x in r_match' rest v) (r_children n)
  else match r_child f n with None => [] | Some v => r_match' rest v end.
Proof. reflexivity. Qed.

(* '#' occurs only as the last level of the filter path *)
Fixpoint hash_last (fs : list level) : bool :=
  match fs with
  | [] => true
  | f :: rest => (negb (is_hash f) || match rest with [] => true | _ => false end) && hash_last rest
  end.

Lemma in_match' fs : forall n, rwf n -> hash_last fs = true ->
  forall m, In m (r_match' fs n) <-> exists p, msg_at n p = Some m /\ lm p fs = true.
Proof.
  induction fs as [|f rest IH]; intros n Hn Hh m.
  - cbn [r_match']. rewrite in_opt_list. split.
    + intros H. exists []. now split.
    + intros (p & Hp & Hl). destruct p; [exact Hp|discriminate].
  - rewrite r_match'_cons. cbn [hash_last] in Hh. apply andb_true_iff in Hh as [Hh1 Hh2].
    destruct (is_hash f) eqn:Eh.
    + cbn [negb orb] in Hh1. destruct rest as [|f2 rest']; [|discriminate].
      apply is_hash_eq in Eh. subst f. rewrite (in_traverse n Hn). split.
      * intros (p & Hp). exists p. split; [exact Hp|apply lm_hash].
      * intros (p & Hp & _). now exists p.
    + destruct (is_plus f) eqn:Ep.
      * rewrite in_flat_map. split.
        -- intros ([lv c] & Hin & Hm).
           apply (IH c (rwf_child_in n lv c Hn Hin) Hh2) in Hm as (p & Hp & Hl).
           exists (lv :: p). split; [now rewrite (msg_at_child_in n lv c p Hn Hin)|].
           rewrite (lm_cons_nohash _ _ _ _ Eh), Ep, Hl. reflexivity.
        -- intros (p & Hp & Hl). destruct p as [|tl p'].
           { cbn [lm] in Hl. rewrite Eh in Hl. discriminate. }
           rewrite (lm_cons_nohash _ _ _ _ Eh) in Hl. apply andb_true_iff in Hl as [_ Hl].
           rewrite msg_at_cons in Hp. destruct (r_child tl n) as [c|] eqn:Ec; [|discriminate].
           exists (tl, c). split; [apply aget_In; exact Ec|].
           apply (IH c (rwf_child tl n c Hn Ec) Hh2). exists p'. now split.
      * split.
        -- intros Hm. destruct (r_child f n) as [c|] eqn:Ec; [|destruct Hm].
           apply (IH c (rwf_child f n c Hn Ec) Hh2) in Hm as (p & Hp & Hl).
           exists (f :: p). rewrite msg_at_cons, Ec. split; [exact Hp|].
           rewrite (lm_cons_nohash _ _ _ _ Eh), str_eqb_refl, orb_true_r, Hl. reflexivity.
        -- intros (p & Hp & Hl). destruct p as [|tl p'].
           { cbn [lm] in Hl. rewrite Eh in Hl. discriminate. }
           rewrite (lm_cons_nohash _ _ _ _ Eh), Ep in Hl. cbn [orb] in Hl.
           apply andb_true_iff in Hl as [He Hl]. apply str_eqb_eq in He. subst tl.
           rewrite msg_at_cons in Hp. destruct (r_child f n) as [c|] eqn:Ec; [|discriminate].
           apply (IH c (rwf_child f n c Hn Ec) Hh2). exists p'. now split.
Qed.

Lemma nodup_match' fs : forall n, rwf n -> hash_last fs = true ->
  forall k, keyed k n -> NoDup (map k (r_match' fs n)).
Proof.
  induction fs as [|f rest IH]; intros n Hn Hh k Hk.
  - cbn [r_match']. destruct (r_msg n); cbn [opt_list map]; [constructor; [intros []|constructor]|constructor].
  - rewrite r_match'_cons. pose proof Hh as Hh0. cbn [hash_last] in Hh. apply andb_true_iff in Hh as [Hh1 Hh2].
    destruct (is_hash f) eqn:Eh; [now apply nodup_traverse|].
    destruct (is_plus f) eqn:Ep.
    + apply (nodup_children (r_match' rest) n k Hn Hk).
      * intros lv c m Hin Hm.
        apply (in_match' rest c (rwf_child_in n lv c Hn Hin) Hh2) in Hm as (p & Hp & _). now exists p.
      * intros lv c Hin. apply (IH c (rwf_child_in n lv c Hn Hin) Hh2).
        exact (keyed_child k n lv c Hn Hk Hin).
    + destruct (r_child f n) as [c|] eqn:Ec; [|constructor].
      assert (Hin : In (f, c) (r_children n)) by (apply aget_In; exact Ec).
      pose proof (IH c (rwf_child f n c Hn Ec) Hh2 _ (keyed_child k n f c Hn Hk Hin)) as Hnd.
      rewrite <- (map_map k (@tl level)) in Hnd. exact (NoDup_map_inv _ _ Hnd).
Qed.

Lemma r_match_match' fs n : fs <> [] -> r_match fs n = r_match' fs n.
Proof. destruct fs; [contradiction|reflexivity]. Qed.

Lemma has_wild_hash : has_wild [HASH] = true.
Proof. reflexivity. Qed.

Lemma valid_filter_hash_last fs : valid_filter_levels fs = true -> hash_last fs = true.
Proof.
  induction fs as [|f rest IH]; intros H; [reflexivity|].
  destruct rest as [|f2 rest'].
  - cbn [hash_last]. now rewrite orb_true_r.
  - change (valid_filter_levels (f :: f2 :: rest'))
      with ((is_plus f || negb (has_wild f)) && valid_filter_levels (f2 :: rest')) in H.
    apply andb_true_iff in H as [H1 H2].
    change (hash_last (f :: f2 :: rest'))
      with ((negb (is_hash f) || false) && hash_last (f2 :: rest')).
    rewrite (IH H2), andb_true_r, orb_false_r.
    destruct (is_hash f) eqn:Eh; [|reflexivity].
    apply is_hash_eq in Eh. subst f. discriminate.
Qed.

Definition trie_of (d : rdb) (b : bool) : rnode := if b then r_sys d else r_user d.

Lemma rdb_trie_of name d : rdb_trie name d = trie_of d (starts_dollar name).
Proof. reflexivity. Qed.

Lemma trie_of_set name T d b :
  trie_of (rdb_set name T d) b = if Bool.eqb b (starts_dollar name) then T else trie_of d b.
Proof. unfold rdb_set, trie_of. destruct (starts_dollar name), b; reflexivity. Qed.

(* every message sits at the path of its own topic, in the trie chosen by its first byte *)
Definition tinv (b : bool) (T : rnode) : Prop :=
  rwf T /\
  forall p m, msg_at T p = Some m -> split (m_topic m) = p /\ starts_dollar (m_topic m) = b.

Definition R (d : rdb) (sp : rspec) : Prop :=
  (forall b, tinv b (trie_of d b)) /\
  NoDup (map fst sp) /\
  (forall t, msg_at (rdb_trie t d) (split t) = aget t sp).

Lemma R_init : R rdb_init [].
Proof.
  split; [|split].
  - intros b. split.
    + destruct b; exact rwf_empty.
    + intros p m H. destruct b; cbn [trie_of rdb_init r_user r_sys] in H;
        rewrite msg_at_empty in H; discriminate.
  - constructor.
  - intros t. rewrite rdb_trie_of. destruct (starts_dollar t);
      cbn [trie_of rdb_init r_user r_sys]; apply msg_at_empty.
Qed.

(* replacing the trie of topic t0 by one that differs only at the path of t0, where it now
   holds v *)
Lemma R_upd d sp t0 T' sp' (v : option msg) :
  R d sp -> rwf T' ->
  msg_at T' (split t0) = v ->
  (forall q, q <> split t0 -> msg_at T' q = msg_at (rdb_trie t0 d) q) ->
  (forall m, v = Some m -> m_topic m = t0) ->
  NoDup (map fst sp') ->
  (forall t, aget t sp' = if str_eqb t t0 then v else aget t sp) ->
  R (rdb_set t0 T' d) sp'.
Proof.
  intros (Hinv & _ & Hget) Hwf Hsame Hoth Hv Hnd' Hsp. rewrite rdb_trie_of in Hoth.
  split; [|split; [exact Hnd'|]].
  - intros b. rewrite trie_of_set. destruct (Bool.eqb b (starts_dollar t0)) eqn:Eb; [|apply Hinv].
    apply eqb_prop in Eb. subst b. destruct (Hinv (starts_dollar t0)) as [_ Hp].
    split; [exact Hwf|].
    intros p m H. destruct (path_eq_dec p (split t0)) as [->|Hne].
    + rewrite Hsame in H. apply Hv in H. now subst t0.
    + rewrite (Hoth _ Hne) in H. now apply Hp.
  - intros t. rewrite Hsp, rdb_trie_of, trie_of_set.
    destruct (str_eqb_spec t t0) as [->|E]; [now rewrite eqb_reflx|].
    rewrite <- Hget, rdb_trie_of.
    destruct (Bool.eqb (starts_dollar t) (starts_dollar t0)) eqn:Eb; [|reflexivity].
    apply eqb_prop in Eb. rewrite Eb. apply Hoth.
    intros Hs. apply split_inj in Hs. contradiction.
Qed.

Lemma R_step d sp o : R d sp -> R (rdb_step d o) (rspec_step sp o).
Proof.
  intros HR. pose proof HR as (Hinv & Hnd & _).
  destruct o as [m|t0|]; cbn [rdb_step rspec_step]; [| |apply R_init].
  - destruct (Hinv (starts_dollar (m_topic m))) as [Hwf _]. rewrite <- rdb_trie_of in Hwf.
    apply (R_upd d sp _ _ _ (Some m) HR); [now apply rwf_add|apply msg_at_add_same| | | |].
    + intros q Hq. now apply msg_at_add_other.
    + now intros m' [= <-].
    + now apply NoDup_aset.
    + intros t. apply aget_aset.
  - destruct (Hinv (starts_dollar t0)) as [Hwf _]. rewrite <- rdb_trie_of in Hwf.
    apply (R_upd d sp _ _ _ None HR); [now apply rwf_remove| | |discriminate| |].
    + exact (msg_at_remove_same _ _ Hwf (split_nonempty t0)).
    + intros q Hq. now apply msg_at_remove_other.
    + now apply NoDup_adel.
    + intros t. now apply aget_adel.
Qed.

Lemma R_fold ops : forall d sp, R d sp -> R (fold_left rdb_step ops d) (fold_left rspec_step ops sp).
Proof.
  induction ops as [|o ops IH]; intros d sp H; [exact H|].
  cbn [fold_left]. apply IH. now apply R_step.
Qed.

Lemma R_run ops : R (rdb_run ops) (rspec_run ops).
Proof. apply R_fold. exact R_init. Qed.

Lemma R_spec_topic d sp t m : R d sp -> aget t sp = Some m -> m_topic m = t.
Proof.
  intros (Hinv & _ & Hget) H. rewrite <- Hget, rdb_trie_of in H.
  destruct (Hinv (starts_dollar t)) as [_ Hp]. apply Hp in H as [Hs _]. now apply split_inj.
Qed.

Lemma R_stored d sp b p m :
  R d sp -> msg_at (trie_of d b) p = Some m -> aget (m_topic m) sp = Some m.
Proof.
  intros (Hinv & _ & Hget) H. destruct (Hinv b) as [_ Hp].
  destruct (Hp p m H) as [Hs Hb]. rewrite <- Hget, rdb_trie_of, Hb, Hs. exact H.
Qed.

Lemma R_keyed d sp b : R d sp -> keyed (fun m => split (m_topic m)) (trie_of d b).
Proof. intros (Hinv & _) p m H. destruct (Hinv b) as [_ Hp]. now apply Hp. Qed.

Lemma nodup_topics (l : list msg) : NoDup (map (fun m => split (m_topic m)) l) -> NoDup (map m_topic l).
Proof. intros H. rewrite <- (map_map m_topic split) in H. exact (NoDup_map_inv _ _ H). Qed.

Lemma ret_get_exact ops t : rdb_get t (rdb_run ops) = aget t (rspec_run ops).
Proof.
  destruct (R_run ops) as (_ & _ & Hget). unfold rdb_get. rewrite r_find_msg_at. apply Hget.
Qed.

Lemma ret_matched_exact ops f :
  valid_filter_spec f = true ->
  (forall m, In m (rdb_matched f (rdb_run ops)) <->
             (aget (m_topic m) (rspec_run ops) = Some m /\ topic_match (m_topic m) f = true)) /\
  NoDup (map m_topic (rdb_matched f (rdb_run ops))).
Proof.
  intros Hv. unfold valid_filter_spec in Hv. apply andb_true_iff in Hv as [_ Hv].
  apply valid_filter_hash_last in Hv.
  pose proof (R_run ops) as HR. set (d := rdb_run ops) in *. set (sp := rspec_run ops) in *.
  pose proof HR as (Hinv & Hnd & Hget).
  unfold rdb_matched. rewrite (r_match_match' _ _ (split_nonempty f)), rdb_trie_of.
  destruct (Hinv (starts_dollar f)) as [Hwf Hp].
  split.
  - intros m. rewrite (in_match' (split f) _ Hwf Hv). split.
    + intros (p & Hm & Hl). destruct (Hp p m Hm) as [Hs Hb]. split.
      * exact (R_stored d sp _ p m HR Hm).
      * rewrite (topic_match_same_kind _ _ Hb), Hs. exact Hl.
    + intros [Ha Hm]. exists (split (m_topic m)). apply topic_match_kind in Hm as [Eb Hm].
      split; [|exact Hm]. rewrite <- Eb, <- rdb_trie_of, Hget. exact Ha.
  - apply nodup_topics. apply (nodup_match' (split f) _ Hwf Hv). exact (R_keyed d sp _ HR).
Qed.

Lemma ret_all_exact ops :
  (forall m, In m (rdb_all (rdb_run ops)) <-> aget (m_topic m) (rspec_run ops) = Some m) /\
  NoDup (map m_topic (rdb_all (rdb_run ops))).
Proof.
  pose proof (R_run ops) as HR. set (d := rdb_run ops) in *. set (sp := rspec_run ops) in *.
  pose proof HR as (Hinv & Hnd & Hget).
  unfold rdb_all. change (r_user d) with (trie_of d false). change (r_sys d) with (trie_of d true).
  destruct (Hinv false) as [Hwf0 Hp0]. destruct (Hinv true) as [Hwf1 Hp1].
  split.
  - intros m. rewrite in_app_iff, (in_traverse _ Hwf0), (in_traverse _ Hwf1). split.
    + intros [(p & H)|(p & H)]; exact (R_stored d sp _ p m HR H).
    + intros Ha. rewrite <- Hget, rdb_trie_of in Ha.
      destruct (starts_dollar (m_topic m)); [right|left]; now exists (split (m_topic m)).
  - rewrite map_app. apply NoDup_app_disjoint.
    + apply nodup_topics. apply (nodup_traverse _ Hwf0). exact (R_keyed d sp _ HR).
    + apply nodup_topics. apply (nodup_traverse _ Hwf1). exact (R_keyed d sp _ HR).
    + intros t Ht Ht'.
      apply in_map_iff in Ht as (m & Em & Hm). apply in_map_iff in Ht' as (m' & Em' & Hm').
      apply (in_traverse _ Hwf0) in Hm as (p & H). apply (in_traverse _ Hwf1) in Hm' as (p' & H').
      apply Hp0 in H as [_ H]. apply Hp1 in H' as [_ H']. congruence.
Qed.

(* "exactly the last message published with RETAIN=1 and a non-empty payload" *)
Fixpoint last_retained (t : str) (msgs : list msg) (acc : option msg) : option msg :=
  match msgs with
  | [] => acc
  | m :: r => last_retained t r (if str_eqb t (m_topic m) then (match m_payload m with [] => None | _ => Some m end) else acc)
  end.

Lemma rspec_step_nodup sp o : NoDup (map fst sp) -> NoDup (map fst (rspec_step sp o)).
Proof.
  intros H. destruct o; cbn [rspec_step]; [now apply NoDup_aset|now apply NoDup_adel|constructor].
Qed.

Lemma ret_last_value_gen msgs : forall sp t, NoDup (map fst sp) ->
  aget t (fold_left rspec_step (map retain_op msgs) sp) = last_retained t msgs (aget t sp).
Proof.
  induction msgs as [|m r IH]; intros sp t Hnd; [reflexivity|].
  cbn [map fold_left last_retained].
  rewrite (IH _ t (rspec_step_nodup sp (retain_op m) Hnd)). f_equal.
  unfold retain_op. destruct (m_payload m) as [|c pl]; cbn [rspec_step].
  - now apply aget_adel.
  - apply aget_aset.
Qed.

Lemma ret_last_value msgs t :
  aget t (rspec_run (map retain_op msgs)) = last_retained t msgs None.
Proof. apply (ret_last_value_gen msgs [] t). constructor. Qed.
