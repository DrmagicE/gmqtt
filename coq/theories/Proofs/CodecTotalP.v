(* Totality: Properties.Unpack, every packet's Unpack, NewPacket and ReadPacket return a
   packet or an error for every input: no panic, no fuel exhaustion.  Also: Pack is safe. *)
From Coq Require Import List NArith ZArith Bool Lia ZifyN ZifyNat ZifyBool.
Import ListNotations.
From GM Require Import Base.Topic Base.Msg Model.CodecBase Model.CodecProps Model.CodecPackets
  Proofs.CodecBaseP Proofs.CodecStrP.
Open Scope N_scope.

Lemma safe_of_rd : forall A b (r : res (A * list N)), safe_rd b r -> safe r.
Proof. intros A b [[x r]| | |]; cbn; auto. Qed.
Lemma safe_of_rd1 : forall A b (r : res (A * list N)), safe_rd1 b r -> safe r.
Proof. intros A b [[x r]| | |]; cbn; auto. Qed.
Lemma safe_bind_all : forall A B (r : res A) (f : A -> res B), safe r -> (forall a, safe (f a)) -> safe (bind r f).
Proof. intros A B [a| | |] f H1 H2; cbn in *; auto. Qed.
Lemma safe_total : forall A (r : res A), (exists a, r = Ok a) -> safe r.
Proof. intros A r [a ->]. exact I. Qed.

Lemma bind_ok_inv : forall A B (r : res A) (f : A -> res B) y, bind r f = Ok y -> exists a, r = Ok a /\ f a = Ok y.
Proof. intros A B [a| | |] f y H; try discriminate. eauto. Qed.
Lemma bind_ext : forall A B (r : res A) (f g : A -> res B), (forall a, f a = g a) -> bind r f = bind r g.
Proof. intros A B [a| | |] f g H; cbn; auto. Qed.
(* unlike `injection`, these leave the components as they are written *)
Lemma ok_inj : forall A (a b : A), Ok a = Ok b -> a = b.
Proof. intros. inversion H. reflexivity. Qed.
Lemma ok3_inj : forall A B C (a a' : A) (b b' : B) (c c' : C),
  @Ok (A * B * C) (a, b, c) = Ok (a', b', c') -> a = a' /\ b = b' /\ c = c'.
Proof. intros. inversion H. auto. Qed.
Lemma remap_ok_inv : forall A e (r : res A) a, remap e r = Ok a -> r = Ok a.
Proof. intros A e [x| | |] a H; try discriminate. exact H. Qed.

(* reader followed by a reader on what is left *)
Lemma safe_rd_bind : forall A B b (r : res (A * list N)) (f : A * list N -> res (B * list N)),
  safe_rd b r -> (forall a rest, safe_rd rest (f (a, rest))) -> safe_rd b (bind r f).
Proof.
  intros A B b [[a rest]| | |] f H1 H2; cbn in *; auto.
  specialize (H2 a rest). destruct (f (a, rest)) as [[y r2]| | |]; cbn in *; auto. now apply (Nat.le_trans _ (length rest)).
Qed.

Lemma safe_read_byte : forall b, safe (read_byte b). Proof. intros; eapply safe_of_rd1, read_byte_safe. Qed.
Lemma safe_read_uint16 : forall b, safe (read_uint16 b). Proof. intros; eapply safe_of_rd1, read_uint16_safe. Qed.
Lemma safe_read_uint32 : forall b, safe (read_uint32 b). Proof. intros; eapply safe_of_rd1, read_uint32_safe. Qed.
Lemma safe_read_varint : forall b, safe (read_varint b). Proof. intros; eapply safe_of_rd, read_varint_safe. Qed.
Lemma safe_read_utf8_string : forall m b, safe (read_utf8_string m b).
Proof. intros; eapply safe_of_rd1, read_utf8_string_safe. Qed.
Lemma safe_valid_utf8 : forall p, safe (valid_utf8_impl p). Proof. intros; apply safe_total, valid_utf8_impl_total. Qed.
Lemma safe_valid_name : forall m p, safe (valid_topic_name_impl m p).
Proof. intros; apply safe_total, valid_topic_name_impl_total. Qed.
Lemma safe_valid_filter : forall m p, safe (valid_topic_filter_impl m p).
Proof. intros; apply safe_total, valid_topic_filter_impl_total. Qed.
Lemma safe_valid_v5 : forall p, safe (valid_v5_topic_impl p).
Proof. intros; apply safe_total, valid_v5_topic_impl_total. Qed.

Create HintDb csafe.
#[export] Hint Resolve safe_read_byte safe_read_uint16 safe_read_uint32 safe_read_varint safe_read_utf8_string
  safe_valid_utf8 safe_valid_name safe_valid_filter safe_valid_v5 safe_remap encode_varint_safe
  encode_utf8_string_safe : csafe.

(* decompose a goal `safe e` along the structure of e *)
Ltac ss :=
  repeat first
    [ exact I
    | solve [auto with csafe]
    | apply safe_bind_all; [ | intros ]
    | match goal with
      | |- safe (match ?x with _ => _ end) => destruct x
      | |- safe (let '(_, _) := ?x in _) => destruct x
      end ].

Lemma read_single_safe : forall id k p b, safe_rd b (read_single id k p b).
Proof.
  intros. unfold read_single. destruct k; destruct (is_some _); try exact I.
  - destruct b as [|o r]; [exact I|]. destruct (_ && _); cbn; [exact I|lia].
  - apply safe_rd_bind; [apply safe_rd_remap, safe_rd1_rd, read_uint16_safe|].
    intros o rest. destruct (_ && _); [exact I|]. destruct (_ && _); cbn; [exact I|lia].
  - apply safe_rd_bind; [apply safe_rd_remap, safe_rd1_rd, read_uint32_safe|].
    intros o rest. destruct (_ && _); cbn; [exact I|lia].
  - apply safe_rd_bind; [apply safe_rd1_rd, read_utf8_string_safe|].
    intros o rest. destruct (_ =? _); [|cbn; lia].
    destruct (valid_topic_name_impl_total true o) as [ok ->]. cbn [bind].
    destruct ok; cbn; [lia|exact I].
  - apply safe_rd_bind; [apply safe_rd_remap, safe_rd1_rd, read_utf8_string_safe|].
    intros o rest. cbn. lia.
Qed.
Lemma read_user_safe : forall p b, safe_rd b (read_user p b).
Proof.
  intros. unfold read_user.
  apply safe_rd_bind; [apply safe_rd_remap, safe_rd1_rd, read_utf8_string_safe|]. intros k r.
  apply safe_rd_bind; [apply safe_rd_remap, safe_rd1_rd, read_utf8_string_safe|]. intros v r'.
  cbn. lia.
Qed.
Lemma read_subid_safe : forall p b, safe_rd b (read_subid p b).
Proof.
  intros. unfold read_subid. destruct (pr_subid p); [|exact I].
  apply safe_rd_bind; [apply safe_rd_remap, read_varint_safe|]. intros si r.
  destruct (_ =? _); cbn; [exact I|lia].
Qed.

(* the reader the `switch` of Properties.Unpack selects for property id, the same behind the ValidateID
   check, and the one UnpackWillProperties selects *)
Definition prop_reader (id : N) (p : props) (r : list N) : res (props * list N) :=
  if id =? 11 then read_subid p r
  else if id =? 38 then read_user p r
  else match prop_kind id with Some kd => read_single id kd p r | None => Err MALFORMED end.
Definition props_rd (pt id : N) (p : props) (r : list N) : res (props * list N) :=
  if negb (validate_id pt id) then Err PROTOCOL else prop_reader id p r.
Definition will_reader (id : N) (p : props) (r : list N) : res (props * list N) :=
  if id =? 38 then read_user p r
  else if will_prop_known id then
    match prop_kind id with Some kd => read_single id kd p r | None => Err MALFORMED end
  else Err MALFORMED.

Lemma prop_reader_safe : forall id p r, safe_rd r (prop_reader id p r).
Proof.
  intros. unfold prop_reader. destruct (id =? 11); [apply read_subid_safe|].
  destruct (id =? 38); [apply read_user_safe|]. destruct (prop_kind id); [apply read_single_safe|exact I].
Qed.
Lemma props_rd_safe : forall pt id p r, safe_rd r (props_rd pt id p r).
Proof. intros. unfold props_rd. destruct (negb _); [exact I|apply prop_reader_safe]. Qed.
Lemma will_reader_safe : forall id p r, safe_rd r (will_reader id p r).
Proof.
  intros. unfold will_reader. destruct (id =? 38); [apply read_user_safe|].
  destruct (will_prop_known id); [|exact I]. destruct (prop_kind id); [apply read_single_safe|exact I].
Qed.

(* Properties.Unpack and UnpackWillProperties are one loop and one wrapper around it, run with different
   readers `rd` and a different final check `chk` *)
Section GenUnpack.
  Variable rd : N -> props -> list N -> res (props * list N).
  Variable chk : props -> bool.
  Hypothesis rd_safe : forall id p r, safe_rd r (rd id p r).

  Fixpoint gen_loop (fuel : nat) (p : props) (b : list N) : res props :=
    match fuel with
    | O => OutOfFuel
    | S k => match b with
             | [] => Ok p
             | id :: r => do '(p', r') <- rd id p r; gen_loop k p' r'
             end
    end.

  Definition gen_unpack (b : list N) : res (props * list N) :=
    do '(n, r) <- read_varint b;
    if n =? 0 then Ok (props_empty, r)
    else if shorter r n then Err MALFORMED
    else do p <- gen_loop (S (length (takeN n r))) props_empty (takeN n r);
         if chk p then Err MALFORMED else Ok (p, dropN n r).

  Lemma gen_loop_safe : forall fuel p b, (length b < fuel)%nat -> safe (gen_loop fuel p b).
  Proof.
    induction fuel; intros p b Hf; [lia|]. destruct b as [|id r]; [exact I|]. cbn [gen_loop].
    pose proof (rd_safe id p r) as Hr. destruct (rd id p r) as [[p' r']| | |]; cbn in Hr |- *; auto.
    apply IHfuel. cbn [length] in Hf. lia.
  Qed.

  Lemma gen_unpack_safe : forall b, safe_rd b (gen_unpack b).
  Proof.
    intros. unfold gen_unpack. apply safe_rd_bind; [apply read_varint_safe|]. intros n r.
    destruct (n =? 0); [cbn; lia|]. destruct (shorter r n); [exact I|].
    pose proof (gen_loop_safe (S (length (takeN n r))) props_empty (takeN n r) (Nat.lt_succ_diag_r _)) as Hl.
    destruct (gen_loop _ _ _) as [p| | |]; cbn [bind safe safe_rd] in Hl |- *; auto.
    destruct (chk p); [exact I|apply dropN_length].
  Qed.
End GenUnpack.

Lemma props_loop_gen : forall fuel pt p b, props_loop fuel pt p b = gen_loop (props_rd pt) fuel p b.
Proof.
  induction fuel; intros; [reflexivity|]. destruct b as [|id r]; [reflexivity|].
  cbn [props_loop gen_loop]. unfold props_rd. destruct (negb _); [reflexivity|].
  apply bind_ext. intros [p' r']. apply IHfuel.
Qed.
Lemma will_props_loop_gen : forall fuel p b, will_props_loop fuel p b = gen_loop will_reader fuel p b.
Proof.
  induction fuel; intros; [reflexivity|]. destruct b as [|id r]; [reflexivity|].
  cbn [will_props_loop gen_loop]. apply bind_ext. intros [p' r']. apply IHfuel.
Qed.

(* AuthData without AuthMethod *)
Definition auth_orphan (p : props) : bool :=
  is_some (ps_get 22 (pr_single p)) && negb (is_some (ps_get 21 (pr_single p))).

Lemma props_unpack_gen : forall pt b, b <> [] -> props_unpack pt b = gen_unpack (props_rd pt) auth_orphan b.
Proof.
  intros pt [|x b] H; [congruence|]. unfold props_unpack, gen_unpack. apply bind_ext. intros [n r].
  destruct (n =? 0); [reflexivity|]. destruct (shorter r n); [reflexivity|].
  unfold buf_next. rewrite props_loop_gen. reflexivity.
Qed.
Lemma will_props_unpack_gen : forall b, will_props_unpack b = gen_unpack will_reader (fun _ => false) b.
Proof.
  intros. unfold will_props_unpack, gen_unpack. apply bind_ext. intros [n r].
  destruct (n =? 0); [reflexivity|]. destruct (shorter r n); [reflexivity|].
  unfold buf_next. rewrite will_props_loop_gen. reflexivity.
Qed.

Lemma props_unpack_safe : forall ptype b, safe_rd b (props_unpack ptype b).
Proof.
  intros ptype [|x b]; [cbn; destruct (_ || _); cbn; [lia|exact I]|].
  rewrite props_unpack_gen by discriminate. apply gen_unpack_safe, props_rd_safe.
Qed.
Lemma will_props_unpack_safe : forall b, safe_rd b (will_props_unpack b).
Proof. intros. rewrite will_props_unpack_gen. apply gen_unpack_safe, will_reader_safe. Qed.
Lemma safe_props_unpack : forall t b, safe (props_unpack t b). Proof. intros; eapply safe_of_rd, props_unpack_safe. Qed.
Lemma safe_will_props_unpack : forall b, safe (will_props_unpack b). Proof. intros; eapply safe_of_rd, will_props_unpack_safe. Qed.
#[export] Hint Resolve safe_props_unpack safe_will_props_unpack : csafe.

Lemma publish_flags_safe : forall f, safe (publish_flags f).
Proof. intros. unfold publish_flags. ss. Qed.
#[export] Hint Resolve publish_flags_safe : csafe.

Lemma sub_topics_loop_safe : forall fuel ver acc b, (length b < fuel)%nat -> safe (sub_topics_loop fuel ver acc b).
Proof.
  induction fuel; intros ver acc b Hf; [lia|]. cbn [sub_topics_loop].
  pose proof (read_utf8_string_safe true b) as H1.
  destruct (read_utf8_string true b) as [[tf b1]| | |]; cbn [bind safe safe_rd1] in H1 |- *; auto.
  apply safe_bind_all; [destruct (ver =? 5); auto with csafe|]. intros ok.
  destruct (negb ok); [exact I|].
  pose proof (read_byte_safe b1) as H2.
  destruct (read_byte b1) as [[opts b2]| | |]; cbn [bind remap safe safe_rd1] in H2 |- *; auto.
  do 5 (match goal with |- safe (if ?c then _ else _) => destruct c end; [exact I|]).
  destruct b2 as [|x b2']; [exact I|]. apply IHfuel. lia.
Qed.
Lemma safe_sub_topics : forall v b, safe (sub_topics_loop (S (length b)) v [] b).
Proof. intros. apply sub_topics_loop_safe. lia. Qed.
#[export] Hint Resolve safe_sub_topics : csafe.

Lemma unsub_topics_loop_safe : forall fuel ver acc b, (length b < fuel)%nat -> safe (unsub_topics_loop fuel ver acc b).
Proof.
  induction fuel; intros ver acc b Hf; [lia|]. cbn [unsub_topics_loop].
  pose proof (read_utf8_string_safe true b) as H1.
  destruct (read_utf8_string true b) as [[tf b1]| | |]; cbn [bind safe safe_rd1] in H1 |- *; auto.
  apply safe_bind_all; [destruct (ver =? 5); auto with csafe|]. intros ok.
  destruct (negb ok); [exact I|].
  destruct b1 as [|x b1']; [exact I|]. apply IHfuel. lia.
Qed.
Lemma safe_unsub_topics : forall v b, safe (unsub_topics_loop (S (length b)) v [] b).
Proof. intros. apply unsub_topics_loop_safe. lia. Qed.
#[export] Hint Resolve safe_unsub_topics : csafe.

Lemma parse_body_safe : forall v fh b, safe (parse_body v fh b).
Proof.
  intros. unfold parse_body, parse_connect, parse_connack, parse_publish, parse_ack, parse_pubrel, parse_subscribe,
    parse_suback, parse_unsubscribe, parse_unsuback, parse_codes, parse_disconnect, parse_auth. ss.
Qed.

Lemma precheck_safe : forall fh, safe (precheck fh).
Proof. intros. unfold precheck. ss. Qed.

(* C06_total: ReadPacket returns a packet or an error on every input *)
Lemma read_packet_safe : forall v bs, safe (read_packet v bs).
Proof.
  intros. unfold read_packet, read_packet_full.
  destruct bs as [|first r]; [exact I|].
  pose proof (safe_read_varint r) as Hv.
  destruct (read_varint r) as [[rl r1]| | |]; cbn in Hv |- *; auto.
  pose proof (precheck_safe {| fh_type := N.shiftr first 4; fh_flags := N.land first 15; fh_rl := rl |}) as Hp.
  destruct (precheck _) as [[|b]| | |]; cbn in Hp |- *; auto.
  destruct (shorter r1 rl); [exact I|]. cbn [fst].
  apply safe_bind_all; [apply parse_body_safe|]. intros. exact I.
Qed.

Theorem read_packet_total : forall v bs,
  (exists p rest, read_packet v bs = Ok (p, rest)) \/ (exists e, read_packet v bs = Err e).
Proof.
  intros. pose proof (read_packet_safe v bs) as H.
  destruct (read_packet v bs) as [[p rest]|e| |]; cbn in H; try contradiction; eauto.
Qed.

Lemma pack_body_safe : forall b, safe (pack_body b).
Proof. intros. destruct b; cbn [pack_body]; ss. Qed.
Lemma pack_full_safe : forall b, safe (pack_full b).
Proof.
  intros. unfold pack_full. apply safe_bind_all; [apply pack_body_safe|]. intros [[t f] bs].
  unfold pack_fixhdr. ss.
Qed.
