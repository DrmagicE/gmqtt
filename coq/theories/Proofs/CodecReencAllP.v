(* C06_reencode for all fifteen packet types, on every input. *)
From Coq Require Import List NArith ZArith Bool Lia ZifyN ZifyNat ZifyBool Sorted.
Import ListNotations.
From GM Require Import Base.Topic Base.Msg Model.CodecBase Model.CodecProps Model.CodecPackets Oracle.C06O
  Proofs.TopicP Proofs.CodecBaseP Proofs.CodecStrP Proofs.CodecTotalP Proofs.CodecSizeP Proofs.CodecPropsP Proofs.CodecPropsInvP
  Proofs.CodecWillP Proofs.CodecRoundP Proofs.CodecReencP Proofs.CodecRound2P Proofs.CodecConnectP.
Open Scope N_scope.

Definition dec_inv_all (v : N) (b : body) : Prop :=
  match b with
  | BConnect c => connect_inv c
  | BSubscribe _ _ _ _ => subscribe_inv v b
  | BUnsubscribe _ _ _ _ => unsubscribe_inv v b
  | _ => dec_inv v b
  end.

Lemma dec_inv_all_of : forall v b, dec_inv v b -> dec_inv_all v b.
Proof. intros v [] H; try exact H; contradiction. Qed.

Lemma parse_body_inv_all : forall v fh b body,
  parse_body v fh b = Ok body -> bytes_ok b -> dec_inv_all v body.
Proof.
  intros v fh b body H Hb. unfold parse_body in H.
  destruct (fh_type fh =? CONNECT).
  { destruct (parse_connect_inv _ _ H Hb) as [c [-> Hc]]. exact Hc. }
  destruct (fh_type fh =? CONNACK); [exact (dec_inv_all_of _ _ (parse_connack_inv v _ _ H Hb))|].
  destruct (fh_type fh =? PUBLISH).
  { apply bind_ok_inv in H. destruct H as [[[dup qos] retain] [Ef H]].
    apply publish_flags_inv in Ef. destruct Ef as [Hq Hd0].
    exact (dec_inv_all_of _ _ (parse_publish_inv _ _ _ _ _ _ Hq Hd0 H Hb)). }
  destruct ((fh_type fh =? PUBACK) || (fh_type fh =? PUBREC) || (fh_type fh =? PUBCOMP)) eqn:E4.
  { assert (Ht : fh_type fh = PUBACK \/ fh_type fh = PUBREC \/ fh_type fh = PUBCOMP)
      by (unfold PUBACK, PUBREC, PUBCOMP in *; lia).
    exact (dec_inv_all_of _ _ (parse_ack_inv _ _ _ _ _ Ht H Hb)). }
  destruct (fh_type fh =? PUBREL); [exact (dec_inv_all_of _ _ (parse_pubrel_inv v _ _ _ H Hb))|].
  destruct (fh_type fh =? SUBSCRIBE).
  { pose proof (parse_subscribe_inv _ _ _ H Hb) as Hd. destruct body; try contradiction. exact Hd. }
  destruct (fh_type fh =? SUBACK); [exact (dec_inv_all_of _ _ (parse_suback_inv _ _ _ H Hb))|].
  destruct (fh_type fh =? UNSUBSCRIBE).
  { pose proof (parse_unsubscribe_inv _ _ _ H Hb) as Hd. destruct body; try contradiction. exact Hd. }
  destruct (fh_type fh =? UNSUBACK); [exact (dec_inv_all_of _ _ (parse_unsuback_inv _ _ _ H Hb))|].
  destruct (fh_type fh =? DISCONNECT); [exact (dec_inv_all_of _ _ (parse_disconnect_inv _ _ _ _ H Hb))|].
  destruct (fh_type fh =? AUTH); [exact (dec_inv_all_of _ _ (parse_auth_inv v _ _ H Hb))|].
  discriminate.
Qed.

(* the decoder establishes the invariant on everything it accepts *)
Theorem read_packet_inv : forall v bs p rest,
  read_packet v bs = Ok (p, rest) -> bytes_ok bs -> dec_inv_all v (p_body p).
Proof.
  intros v bs p rest Hr Hb.
  destruct (read_packet_body _ _ _ _ Hr Hb) as [[fh [b [Hpb Hbb]]]|[ -> | [ -> | -> ] ]].
  - eapply parse_body_inv_all; eauto.
  - exact I.
  - exact I.
  - left. auto.
Qed.

(* every Unpack reads back what Pack wrote for a value with the invariant: the case of ReadPacket that
   read_packet_packed asks for *)
Lemma rt_body : forall v b t fl bytes,
  (v = 3 \/ v = 4 \/ v = 5) -> dec_inv_all v b -> pack_body b = Ok (t, fl, bytes) -> len bytes < BIG ->
  t < 16 /\ fl < 16 /\
  let fh := {| fh_type := t; fh_flags := fl; fh_rl := len bytes |} in
  (precheck fh = Ok PreBody /\ parse_body v fh bytes = Ok b) \/ (precheck fh = Ok (PreNoBody b) /\ bytes = []).
Proof.
  intros v b t fl bytes Hv Hinv Hpb Hlen.
  destruct b as [c|ver code sp pr|ver dup qos retain topic pid payload pr|ta ver pid code pr|pid code pr
                 |ver pid ts pr|ver pid pl pr|ver pid ts pr|ver pid pl pr| | |ver code pr|code pr];
    cbn [dec_inv_all] in Hinv;
    try (assert (ver = v) by (cbn in Hinv; tauto); subst ver).
  - destruct (rt_connect c t fl bytes Hinv Hpb Hlen) as (-> & -> & Hparse). repeat split. left. split; [reflexivity|exact Hparse].
  - destruct (rt_connack v code sp pr t fl bytes Hinv Hpb Hlen) as (-> & -> & Hparse). repeat split. left. split; [reflexivity|exact Hparse].
  - destruct (rt_publish v dup qos retain topic pid payload pr t fl bytes Hinv Hpb Hlen) as (-> & Hfl & Hpf & Hparse).
    split; [reflexivity|]. split; [exact Hfl|]. left.
    unfold precheck, parse_body. cbn [fh_type fh_flags]. cbn [N.eqb Pos.eqb PUBLISH CONNECT CONNACK]. rewrite Hpf. split; [reflexivity|exact Hparse].
  - destruct (rt_ack v ta pid code pr t fl bytes Hinv Hpb Hlen) as (-> & -> & Hparse).
    destruct Hinv as (Hta & _). split; [unfold PUBACK, PUBREC, PUBCOMP in Hta; lia|]. split; [reflexivity|]. left.
    destruct Hta as [ -> | [ -> | -> ] ]; (split; [reflexivity|exact Hparse]).
  - destruct (rt_pubrel v pid code pr t fl bytes Hinv Hpb Hlen) as (-> & -> & Hparse). repeat split. left. split; [reflexivity|exact Hparse].
  - destruct (rt_subscribe v pid ts pr t fl bytes Hinv Hpb Hlen) as (-> & -> & Hparse). repeat split. left. split; [reflexivity|exact Hparse].
  - destruct (rt_suback v pid pl pr t fl bytes Hinv Hpb Hlen) as (-> & -> & Hparse). repeat split. left. split; [reflexivity|exact Hparse].
  - destruct (rt_unsubscribe v pid ts pr t fl bytes Hinv Hpb Hlen) as (-> & -> & Hparse). repeat split. left. split; [reflexivity|exact Hparse].
  - destruct (rt_unsuback v pid pl pr t fl bytes Hv Hinv Hpb Hlen) as (-> & -> & Hparse). repeat split. left. split; [reflexivity|exact Hparse].
  - apply ok3_inj in Hpb. destruct Hpb as (<- & <- & <-). repeat split. right. split; reflexivity.
  - apply ok3_inj in Hpb. destruct Hpb as (<- & <- & <-). repeat split. right. split; reflexivity.
  - destruct (rt_disconnect v code pr t fl bytes Hv Hinv Hpb Hlen) as (-> & -> & Hparse). repeat split. left. split; [reflexivity|exact Hparse].
  - destruct (rt_auth v code pr t fl bytes Hinv Hpb Hlen) as (-> & -> & [(-> & -> & ->)|(Hne & Hparse)]); repeat split.
    + right. split; reflexivity.
    + left. split; [|exact Hparse]. unfold precheck. cbn [fh_type fh_flags fh_rl]. cbn [N.eqb Pos.eqb AUTH].
      destruct bytes; [congruence|]. rewrite len_cons. replace (1 + len bytes =? 0) with false by lia. reflexivity.
Qed.

(* ReadPacket reads back what Pack wrote for a value with the invariant *)
Theorem pack_read_back : forall v b bs,
  (v = 3 \/ v = 4 \/ v = 5) -> dec_inv_all v b -> pack b = Ok bs ->
  exists p', read_packet v bs = Ok (p', []) /\ p_body p' = b.
Proof.
  intros v b bs Hv Hinv Hp. unfold pack in Hp.
  apply bind_ok_inv in Hp. destruct Hp as [[bs0 fh] [Ef Hp]]. apply ok_inj in Hp. subst bs0.
  apply pack_full_inv in Ef. destruct Ef as (t & fl & bytes & h & Hpb & -> & Eh & ->).
  pose proof (pack_fixhdr_len' _ _ Eh) as Hlen. cbn [fh_rl] in Hlen.
  destruct (rt_body v b t fl bytes Hv Hinv Hpb Hlen) as (Ht & Hfl & Hcase).
  exact (read_packet_packed v t fl bytes b h Ht Hfl Hlen Hcase Eh).
Qed.

(* the re-encoding property, as a predicate of one decoding *)
Definition reencodes (v : N) (bs : list N) : Prop :=
  forall p rest, read_packet v bs = Ok (p, rest) ->
  forall bs', pack (p_body p) = Ok bs' ->
  exists p', read_packet v bs' = Ok (p', []) /\ p_body p' = p_body p.

(* former counterexamples (repaired in /repo): a 3.1 CONNECT ("MQIsdp", level 3) now re-encodes to
   the same bytes; a CONNECT with Will QoS 3 is refused *)
Definition connect31 : list N := [16; 18; 0; 6; 77; 81; 73; 115; 100; 112; 3; 2; 0; 60; 0; 4; 97; 98; 99; 100].
Definition connect_wq3 : list N := [16; 19; 0; 4; 77; 81; 84; 84; 4; 30; 0; 60; 0; 1; 99; 0; 1; 116; 0; 1; 109].
Lemma connect31_reencodes :
  match read_packet 4 connect31 with Ok (p, []) => pack (p_body p) = Ok connect31 | _ => False end.
Proof. vm_compute. reflexivity. Qed.
Lemma connect_wq3_refused : read_packet 4 connect_wq3 = Err MALFORMED.
Proof. vm_compute. reflexivity. Qed.

(* C06_reencode, all packet types *)
Theorem reencode_all : forall v bs,
  (v = 3 \/ v = 4 \/ v = 5) -> bytes_ok bs -> reencodes v bs.
Proof.
  intros v bs Hv Hb p rest Hr bs'. apply pack_read_back; [assumption|]. exact (read_packet_inv _ _ _ _ Hr Hb).
Qed.
