(* Structural invariant of the broker model (Model/Broker.v) and the session life-cycle
   facts of C05: one connection per client id, take-over closes the old socket before the
   CONNACK, nothing is sent to a closed socket, Session Present characterised.
   On the way, what the other proofs about the broker build on: the frame relations (what a function leaves
   alone), handle_publish, handle_connect and unregister cut into stages, and step_event_preserves, the one walk
   over step_event of which every fact about all events is an instance. *)
From Coq Require Import List NArith Bool Arith Lia ZifyN ZifyNat ZifyBool.
Import ListNotations.
From GM Require Import Base.Topic Base.Msg Model.SubTrie Model.SubSpec Model.RetTrie Model.Queue Model.Limiter
                       Model.TopicMatch Model.Broker Proofs.TopicP Proofs.SubTrieP.
From GM Require Export Proofs.BrokerBasicP.
From GM Require Proofs.BrokerPollP.
Open Scope N_scope.

Lemma nget_in_keys {V} c (v : V) l : nget c l = Some v -> In c (map fst l).
Proof. apply BrokerBasicP.nget_in_keys. Qed.

Lemma nget_In {V} c (v : V) l : nget c l = Some v -> In (c, v) l.
Proof. apply BrokerBasicP.nget_In. Qed.

Lemma In_nget {V} c (v : V) l : NoDup (map fst l) -> In (c, v) l -> nget c l = Some v.
Proof. apply BrokerBasicP.In_nget. Qed.

Section AssocMore.
  Context {V : Type}.
  Implicit Types (l : list (str * V)) (k : str) (v : V).

  Lemma adel_notin k l : ahas k l = false -> adel k l = l.
  Proof. apply AssocP.adel_notin. Qed.
End AssocMore.

Definition keys {V} (l : list (str * V)) : list str := map fst l.

Definition kext {V} (l l' : list (str * V)) : Prop :=
  (NoDup (keys l) -> NoDup (keys l')) /\ forall k, ahas k l = true -> ahas k l' = true.
Definition ksame {V} (l l' : list (str * V)) : Prop :=
  (NoDup (keys l) -> NoDup (keys l')) /\ forall k, ahas k l' = ahas k l.

Lemma kext_refl {V} (l : list (str * V)) : kext l l.
Proof. split; auto. Qed.
Lemma ksame_refl {V} (l : list (str * V)) : ksame l l.
Proof. split; auto. Qed.
Lemma kext_trans {V} (a b c : list (str * V)) : kext a b -> kext b c -> kext a c.
Proof. intros [H1 H2] [H3 H4]. split; auto. Qed.
Lemma ksame_trans {V} (a b c : list (str * V)) : ksame a b -> ksame b c -> ksame a c.
Proof. intros [H1 H2] [H3 H4]. split; [auto|]. intros k. now rewrite H4, H2. Qed.
Lemma kext_aset {V} k (v : V) l : kext l (aset k v l).
Proof.
  split; [apply NoDup_aset|]. intros k' H. rewrite ahas_aset, H. apply orb_true_r.
Qed.
Lemma ksame_aset {V} k (v : V) l : ahas k l = true -> ksame l (aset k v l).
Proof.
  intros Hk. split; [apply NoDup_aset|]. intros k'. rewrite ahas_aset.
  destruct (str_eqb_spec k' k) as [->|E]; [now rewrite Hk|reflexivity].
Qed.

Definition attached (ph : phase) : bool := match ph with PhConnected | PhZombie => true | _ => false end.

(* what the invariant reads of a connection *)
Definition kview (k : conn) : str * phase * bool := (k_cid k, k_phase k, k_force_remove k).
Definition pv (s : st) (c : N) : option (str * phase * bool) := option_map kview (nget c (b_conns s)).

(* What a step leaves alone: the registration tables (sessions, online, offline, unacks, the subscription store) and
   what the invariant reads of every socket; queues and wills may get entries. *)
Record frame (s s' : st) : Prop := {
  fr_cfg : b_cfg s' = b_cfg s;
  fr_hooks : b_hooks s' = b_hooks s;
  fr_now : b_now s' = b_now s;
  fr_rt : b_rt s' = b_rt s;
  fr_on : b_online s' = b_online s;
  fr_off : b_offline s' = b_offline s;
  fr_auto : b_auto s' = b_auto s;
  fr_sess : b_sessions s' = b_sessions s;
  fr_q : kext (b_queues s) (b_queues s');
  fr_u : b_unacks s' = b_unacks s;
  fr_subs : b_subs s' = b_subs s;
  fr_w : NoDup (keys (b_wills s)) -> NoDup (keys (b_wills s'));
  fr_ck : NoDup (map fst (b_conns s)) -> NoDup (map fst (b_conns s'));
  fr_pv : forall c, pv s' c = pv s c }.

Lemma frame_refl s : frame s s.
Proof. constructor; auto using ksame_refl, kext_refl. Qed.

Lemma frame_trans a b c : frame a b -> frame b c -> frame a c.
Proof.
  intros [] []. constructor; eauto using ksame_trans, kext_trans; congruence.
Qed.

(* the same, except that stored sessions may change their contents (DISCONNECT with a new
   Session Expiry Interval) and the id counter may advance *)
Record wframe (s s' : st) : Prop := {
  wf_cfg : b_cfg s' = b_cfg s;
  wf_hooks : b_hooks s' = b_hooks s;
  wf_now : b_now s' = b_now s;
  wf_rt : b_rt s' = b_rt s;
  wf_on : b_online s' = b_online s;
  wf_off : b_offline s' = b_offline s;
  wf_sess : ksame (b_sessions s) (b_sessions s');
  wf_q : kext (b_queues s) (b_queues s');
  wf_u : kext (b_unacks s) (b_unacks s');
  wf_w : NoDup (keys (b_wills s)) -> NoDup (keys (b_wills s'));
  wf_ck : NoDup (map fst (b_conns s)) -> NoDup (map fst (b_conns s'));
  wf_pv : forall c, pv s' c = pv s c }.

Lemma frame_wframe s s' : frame s s' -> wframe s s'.
Proof.
  intros []. constructor; auto; [rewrite fr_sess0; apply ksame_refl|rewrite fr_u0; apply kext_refl].
Qed.

Lemma wframe_refl s : wframe s s.
Proof. apply frame_wframe, frame_refl. Qed.

Lemma wframe_trans a b c : wframe a b -> wframe b c -> wframe a c.
Proof.
  intros [] []. constructor; eauto using ksame_trans, kext_trans; congruence.
Qed.

(* wframe with the subscription store left alone: what the handling of every packet but SUBSCRIBE and
   UNSUBSCRIBE is *)
Definition uframe (s s' : st) : Prop := wframe s s' /\ b_subs s' = b_subs s.

Lemma frame_uframe s s' : frame s s' -> uframe s s'.
Proof. intros F. split; [now apply frame_wframe|apply (fr_subs _ _ F)]. Qed.

Lemma uframe_refl s : uframe s s.
Proof. apply frame_uframe, frame_refl. Qed.

Lemma uframe_trans a b c : uframe a b -> uframe b c -> uframe a c.
Proof. intros [F E] [F' E']. split; [eapply wframe_trans; eauto|congruence]. Qed.

Lemma pv_upd_conn c' c k s : pv (upd_conn c k s) c' = if c' =? c then Some (kview k) else pv s c'.
Proof. unfold pv. proj. rewrite nget_nset. destruct (c' =? c); reflexivity. Qed.

Lemma frame_upd_conn c k s : pv s c = Some (kview k) -> frame s (upd_conn c k s).
Proof.
  intros H. constructor; proj; auto using ksame_refl, kext_refl.
  - apply NoDup_nset.
  - intros c'. rewrite pv_upd_conn. destruct (N.eqb_spec c' c) as [->|E]; [now rewrite H|reflexivity].
Qed.

Lemma frame_upd_conn_k c k k' s :
  nget c (b_conns s) = Some k -> kview k' = kview k -> frame s (upd_conn c k' s).
Proof. intros H E. apply frame_upd_conn. unfold pv. rewrite H. cbn [option_map]. now rewrite E. Qed.

Lemma frame_set_queues_aset cid q s : frame s (set_queues (aset cid q (b_queues s)) s).
Proof. constructor; proj; auto using ksame_refl, kext_refl, kext_aset. Qed.

Lemma frame_set_picks_tag p t s : frame s (set_picks_tag p t s).
Proof. constructor; proj; auto using ksame_refl, kext_refl. Qed.
Lemma wframe_set_subs d s : wframe s (set_subs d s).
Proof. constructor; proj; auto using ksame_refl, kext_refl. Qed.
Lemma frame_set_ret r s : frame s (set_ret r s).
Proof. constructor; proj; auto using ksame_refl, kext_refl. Qed.
Lemma frame_count_pick s : frame s (count_pick s).
Proof. constructor; proj; auto using ksame_refl, kext_refl. Qed.
Lemma wframe_set_auto a s : wframe s (set_auto a s).
Proof. constructor; proj; auto using ksame_refl, kext_refl. Qed.
Lemma wframe_set_unacks_aset cid u s : wframe s (set_unacks (aset cid u (b_unacks s)) s).
Proof. constructor; proj; auto using ksame_refl, kext_refl, kext_aset. Qed.
Lemma uframe_set_unacks_aset cid u s : uframe s (set_unacks (aset cid u (b_unacks s)) s).
Proof. split; [apply wframe_set_unacks_aset|reflexivity]. Qed.

Lemma frame_set_tables w q s :
  (NoDup (keys (b_wills s)) -> NoDup (keys w)) ->
  kext (b_queues s) q ->
  frame s (set_tables (b_sessions s) (b_online s) (b_offline s) w q (b_unacks s) s).
Proof. intros H2 H3. constructor; proj; auto. Qed.

Lemma frame_wills_adel cid s :
  frame s (set_tables (b_sessions s) (b_online s) (b_offline s) (adel cid (b_wills s)) (b_queues s) (b_unacks s) s).
Proof. apply frame_set_tables; auto using kext_refl. apply NoDup_adel. Qed.

Lemma frame_wills_aset cid w s :
  frame s (set_tables (b_sessions s) (b_online s) (b_offline s) (aset cid w (b_wills s)) (b_queues s) (b_unacks s) s).
Proof. apply frame_set_tables; auto using kext_refl. apply NoDup_aset. Qed.

Definition isdrop (x : out) : Prop := match x with ODropped _ _ _ => True | _ => False end.

Lemma drops_of_isdrop cid evs : Forall isdrop (drops_of cid evs).
Proof.
  unfold drops_of. apply Forall_forall. intros x Hin. apply in_flat_map in Hin as [e [_ Hin]].
  destruct e as [el r| |]; try destruct Hin.
  destruct (e_body el); [|destruct Hin]. destruct Hin as [<-|[]]. exact I.
Qed.

(* a step (s, o) -> r that is a frame and adds only drop notifications *)
Definition quiet (s : st) (o : list out) (r : st * list out) : Prop :=
  frame s (fst r) /\ (Forall isdrop o -> Forall isdrop (snd r)).

Lemma quiet_refl s o : quiet s o (s, o).
Proof. split; [apply frame_refl|auto]. Qed.

Lemma quiet_trans a oa b c : quiet a oa b -> quiet (fst b) (snd b) c -> quiet a oa c.
Proof. intros [H1 H2] [H3 H4]. split; [eapply frame_trans; eauto|auto]. Qed.

Lemma fold_quiet {A} (f : st * list out -> A -> st * list out) (l : list A) s :
  (forall s0 o0 x, quiet s0 o0 (f (s0, o0) x)) ->
  frame s (fst (fold_left f l (s, []))) /\ Forall isdrop (snd (fold_left f l (s, []))).
Proof.
  intros Hf. cut (quiet s [] (fold_left f l (s, []))); [intros [F D]; split; [exact F|apply D; constructor]|].
  refine (fold_rel (fun a b => quiet (fst a) (snd a) b) f l _ _ _ (s, [])).
  - intros [s0 o0]. apply quiet_refl.
  - intros a b c. apply quiet_trans.
  - intros [s0 o0] x. apply Hf.
Qed.

Lemma quiet_app s0 o0 (r : st * list out) :
  frame s0 (fst r) -> Forall isdrop (snd r) -> quiet s0 o0 (let '(s', o') := r in (s', o0 ++ o')).
Proof.
  destruct r as [s' o']. cbn [fst snd]. intros H1 H2. split; cbn [fst snd]; [exact H1|].
  intros H. apply Forall_app. now split.
Qed.

Lemma quiet_id s : frame s s /\ Forall isdrop [].
Proof. split; [apply frame_refl|constructor]. Qed.

Lemma release_dropped_frame cid evs s : frame s (release_dropped cid evs s).
Proof.
  unfold release_dropped. destruct (aget cid (b_online s)) as [c|]; [|apply frame_refl].
  destruct (nget c (b_conns s)) as [k|] eqn:E; [|apply frame_refl].
  eapply frame_upd_conn_k; [exact E|reflexivity].
Qed.

Lemma add_to_queue_quiet cid m sb ids s :
  frame s (fst (add_to_queue cid m sb ids s)) /\ Forall isdrop (snd (add_to_queue cid m sb ids s)).
Proof.
  destruct (DeliverP.add_to_queue_cases cid m sb ids s) as [->|(q & q' & evs & _ & _ & _ & ->)]; [apply quiet_id|].
  cbn [fst snd]. split; [|apply drops_of_isdrop].
  eapply frame_trans; [|apply release_dropped_frame].
  eapply frame_trans; [apply frame_set_queues_aset|apply frame_set_picks_tag].
Qed.

Lemma quiet_frame_l a b o r : frame a b -> quiet b o r -> quiet a o r.
Proof. intros H [H1 H2]. split; [eapply frame_trans; eauto|exact H2]. Qed.

Lemma deliver_quiet src m s :
  frame s (fst (fst (deliver src m s))) /\ Forall isdrop (snd (fst (deliver src m s))).
Proof.
  apply (BrokerPollP.deliver_acc_inv (fun r => frame s (fst r) /\ Forall isdrop (snd r))); cbn [fst snd].
  - intros cid sb ids a o [F D]. destruct (add_to_queue_quiet cid m sb ids a) as [F' D'].
    split; [eapply frame_trans; eauto|apply Forall_app; now split].
  - intros a o [F D]. split; [eapply frame_trans; [exact F|apply frame_count_pick]|exact D].
  - intros r a o [F D]. split; [eapply frame_trans; [exact F|apply frame_set_picks_tag]|exact D].
  - apply quiet_id.
Qed.

Lemma retain_update_frame m s : frame s (retain_update m s).
Proof. unfold retain_update. destruct (m_retained m); [apply frame_set_ret|apply frame_refl]. Qed.

Lemma send_will_cases cid m s :
  send_will cid m s = (s, []) \/ exists m', send_will cid m s = fst (deliver cid m' (retain_update m' s)).
Proof.
  unfold send_will. destruct (will_action cid s) as [|code| |t p q]; auto; right.
  - exists m. now destruct (deliver _ _ _) as [[s' o] b].
  - exists (with_topic_payload_qos t p q m). cbv zeta. now destruct (deliver _ _ _) as [[s' o] b].
Qed.

(* a message is published: stored if retained, then delivered *)
Lemma publish_quiet src m s :
  frame s (fst (fst (deliver src m (retain_update m s)))) /\ Forall isdrop (snd (fst (deliver src m (retain_update m s)))).
Proof.
  destruct (deliver_quiet src m (retain_update m s)) as [H1 H2].
  split; [eapply frame_trans; [apply retain_update_frame|exact H1]|exact H2].
Qed.

Lemma send_will_quiet cid m s :
  frame s (fst (send_will cid m s)) /\ Forall isdrop (snd (send_will cid m s)).
Proof. destruct (send_will_cases cid m s) as [->|[m' ->]]; [apply quiet_id|apply publish_quiet]. Qed.

Lemma release_will_quiet cid s :
  frame s (fst (release_will cid s)) /\ Forall isdrop (snd (release_will cid s)).
Proof.
  unfold release_will. destruct (aget cid (b_wills s)) as [[w t]|]; [|apply quiet_id].
  match goal with |- context [send_will cid w ?S] => pose proof (send_will_quiet cid w S) as [H1 H2]; set (s1 := S) in * end.
  split; [|exact H2]. eapply frame_trans; [apply frame_wills_adel|exact H1].
Qed.

Lemma fire_wills_quiet s :
  frame s (fst (fire_wills s)) /\ Forall isdrop (snd (fire_wills s)).
Proof.
  unfold fire_wills.
  apply fold_quiet.
  intros s0 o0 [cid [m at_]]. cbv beta iota zeta.
  destruct (at_ <=? b_rt s0); [|apply quiet_refl].
  destruct (aget cid (b_wills s0)); [|apply quiet_refl].
  eapply quiet_frame_l; [apply (frame_wills_adel cid)|]. apply quiet_app; apply send_will_quiet.
Qed.

Definition hres_st (r : hres) : st := match r with HOk s _ => s | HErr s _ _ => s | HErrRead s _ => s end.
Definition hres_out (r : hres) : list out := match r with HOk _ o => o | HErr _ o _ => o | HErrRead _ _ => [] end.

(* outputs of work done for socket c: packets go to c only, no socket is closed *)
Definition okout (c : N) (x : out) : Prop :=
  match x with OSend c' _ => c' = c | OClose _ => False | ODropped _ _ _ => True end.

Lemma isdrop_okout c o : Forall isdrop o -> Forall (okout c) o.
Proof. apply Forall_impl. intros [c' p|c'|cid m r]; cbn; intros H; try destruct H; exact I. Qed.

Lemma pv_frame s s' c : frame s s' -> pv s' c = pv s c.
Proof. intros H. apply (fr_pv _ _ H). Qed.

Lemma pv_some s c v : pv s c = Some v -> exists k, nget c (b_conns s) = Some k /\ kview k = v.
Proof. unfold pv. destruct (nget c (b_conns s)) as [k|]; cbn [option_map]; [|discriminate]. intros [= <-]. now exists k. Qed.

Lemma pv_of s c k : nget c (b_conns s) = Some k -> pv s c = Some (kview k).
Proof. unfold pv. now intros ->. Qed.

Definition hp_alias (k : conn) (v5 : bool) (topic : str) (props : list prop) (m0 : msg) : option (conn * msg) + N :=
  match (if v5 then p_alias props else None) with
  | None => inl (Some (k, m0))
  | Some a =>
      if (a =? 0) || (k_server_alias_max k <? a) then inr 148
      else
        match topic with
        | [] => match nget a (k_alias_in k) with
                | Some name => match name with [] => inr 148 | _ => inl (Some (k, with_topic name m0)) end
                | None => inr 148
                end
        | _ => inl (Some (set_alias_in (nset a topic (k_alias_in k)) k, m0))
        end
  end.

Definition hp_dupcheck (c : N) (k : conn) (v5 : bool) (qos pid : N) (s : st) : st * bool :=
  if qos =? 2 then
    let u := opt_or (aget (k_cid k) (b_unacks s)) [] in
    let '(u', ex) := unack_set pid u in
    let s := set_unacks (aset (k_cid k) u' (b_unacks s)) s in
    let s := if ex && v5 then
               match nget c (b_conns s) with
               | Some k1 => if k_quota k1 <? k_recv_max k1 then upd_conn c (set_quota (k_quota k1 + 1) k1) s else s
               | None => s
               end
             else s in
    (s, ex)
  else (s, false).

Definition hp_action (m : msg) (s : st) : msg_action :=
  if h_msg_on (b_hooks s) then opt_or (aget (m_topic m) (h_msg (b_hooks s))) MAccept else MAccept.

Definition hp_deliver (k : conn) (m : msg) (isdup : bool) (action : msg_action) (s : st) : st * list out * bool * option N :=
  if isdup then (s, [], false, None)
  else
    match action with
    | MReject code => (s, [], false, Some code)
    | MDrop => (s, [], false, None)
    | MAccept => let '(s', o, mt) := deliver (k_cid k) m (retain_update m s) in (s', o, mt, None)
    | MRewrite t p q => let m' := rewrite_msg t p q m in
                        let '(s', o, mt) := deliver (k_cid k) m' (retain_update m' s) in (s', o, mt, None)
    end.

Definition hp_finish (c : N) (k : conn) (v5 : bool) (qos pid : N) (o : list out) (matched : bool) (err : option N) (s : st) : hres :=
  let code := if v5 then match err with Some cd => cd | None => if matched then 0 else 16 end else 0 in
  let s := if (qos =? 2) && (128 <=? code)
           then set_unacks (aset (k_cid k) (unack_remove pid (opt_or (aget (k_cid k) (b_unacks s)) [])) (b_unacks s)) s
           else s in
  let ack := if qos =? 1 then [OSend c (KPuback pid code [])]
             else if qos =? 2 then [OSend c (KPubrec pid code [])] else [] in
  let s := match nget c (b_conns s) with
           | Some k1 =>
               if v5 && ((qos =? 1) || ((qos =? 2) && (128 <=? code))) && (k_quota k1 <? k_recv_max k1)
               then upd_conn c (set_quota (k_quota k1 + 1) k1) s else s
           | None => s
           end in
  HOk s (o ++ ack).

Lemma handle_publish_eq c k dup qos retain topic payload pid props s :
  handle_publish c k dup qos retain topic payload pid props s =
  let v5 := k_v k =? 5 in
  if negb (k_retain_avail k) && retain then HErr s [] (Some 154)
  else match hp_alias k v5 topic props (msg_of_publish v5 dup qos retain topic payload pid props) with
       | inr code => HErr s [] (Some code)
       | inl None => HErr s [] None
       | inl (Some (k, m)) =>
           let '(s, isdup) := hp_dupcheck c k v5 qos pid (upd_conn c k s) in
           let '(s, o, matched, err) := hp_deliver k m isdup (hp_action m s) s in
           hp_finish c k v5 qos pid o matched err s
       end.
Proof. reflexivity. Qed.

Lemma hp_alias_kview k v5 topic props m0 k' m' :
  hp_alias k v5 topic props m0 = inl (Some (k', m')) -> kview k' = kview k.
Proof.
  unfold hp_alias. destruct (if v5 then p_alias props else None) as [a|]; [|now intros [= <- _]].
  destruct ((a =? 0) || (k_server_alias_max k <? a)); [discriminate|].
  destruct topic as [|x t].
  - destruct (nget a (k_alias_in k)) as [[|y n]|]; try discriminate. now intros [= <- _].
  - now intros [= <- _].
Qed.

Lemma bump_quota_frame c s :
  forall (b : conn -> bool),
  frame s (match nget c (b_conns s) with
           | Some k1 => if b k1 then upd_conn c (set_quota (k_quota k1 + 1) k1) s else s
           | None => s
           end).
Proof.
  intros b. destruct (nget c (b_conns s)) as [k1|] eqn:E; [|apply frame_refl].
  destruct (b k1); [|apply frame_refl]. eapply frame_upd_conn_k; [exact E|reflexivity].
Qed.

Lemma hp_dupcheck_frame c k v5 qos pid s : uframe s (fst (hp_dupcheck c k v5 qos pid s)).
Proof.
  unfold hp_dupcheck. destruct (qos =? 2); [|apply uframe_refl]. cbv zeta.
  destruct (unack_set pid (opt_or (aget (k_cid k) (b_unacks s)) [])) as [u' ex]. cbn [fst].
  eapply uframe_trans; [apply (uframe_set_unacks_aset (k_cid k) u')|].
  destruct (ex && v5); [|apply uframe_refl]. apply frame_uframe.
  apply (bump_quota_frame c _ (fun k1 => k_quota k1 <? k_recv_max k1)).
Qed.

Lemma hp_deliver_quiet k m isdup action s :
  frame s (fst (fst (fst (hp_deliver k m isdup action s)))) /\
  Forall isdrop (snd (fst (fst (hp_deliver k m isdup action s)))).
Proof.
  unfold hp_deliver. destruct isdup; [apply quiet_id|].
  destruct action as [|code| |t p q]; try apply quiet_id; cbv zeta.
  - pose proof (publish_quiet (k_cid k) m s) as H. now destruct (deliver _ _ _) as [[s' o] b].
  - pose proof (publish_quiet (k_cid k) (rewrite_msg t p q m) s) as H. now destruct (deliver _ _ _) as [[s' o] b].
Qed.

Lemma hp_finish_frame c k v5 qos pid o matched err s :
  Forall (okout c) o ->
  uframe s (hres_st (hp_finish c k v5 qos pid o matched err s)) /\
  Forall (okout c) (hres_out (hp_finish c k v5 qos pid o matched err s)).
Proof.
  intros Ho. unfold hp_finish. cbv zeta. cbn [hres_st hres_out]. split.
  - match goal with |- context [if ?b then set_unacks ?u s else s] =>
      assert (F1 : uframe s (if b then set_unacks u s else s))
        by (destruct b; [apply uframe_set_unacks_aset|apply uframe_refl]);
      set (s1 := if b then set_unacks u s else s) in * end.
    eapply uframe_trans; [exact F1|]. apply frame_uframe.
    match goal with |- context [if ?v && ?x && _ then _ else _] =>
      apply (bump_quota_frame c s1 (fun k1 => v && x && (k_quota k1 <? k_recv_max k1))) end.
  - apply Forall_app. split; [exact Ho|].
    destruct (qos =? 1); [repeat constructor|]. destruct (qos =? 2); repeat constructor.
Qed.

Lemma handle_publish_frame c k dup qos retain topic payload pid props s :
  pv s c = Some (kview k) ->
  uframe s (hres_st (handle_publish c k dup qos retain topic payload pid props s)) /\
  Forall (okout c) (hres_out (handle_publish c k dup qos retain topic payload pid props s)).
Proof.
  intros Hpv. rewrite handle_publish_eq. cbv zeta.
  destruct (negb (k_retain_avail k) && retain); [split; [apply uframe_refl|constructor]|].
  destruct (hp_alias k (k_v k =? 5) topic props _) as [[[k' m']|]|code] eqn:EA;
    try (split; [apply uframe_refl|constructor]).
  apply hp_alias_kview in EA.
  assert (F0 : frame s (upd_conn c k' s)) by (apply frame_upd_conn; now rewrite EA).
  destruct (hp_dupcheck c k' (k_v k =? 5) qos pid (upd_conn c k' s)) as [s1 isdup] eqn:E1.
  pose proof (hp_dupcheck_frame c k' (k_v k =? 5) qos pid (upd_conn c k' s)) as F1. rewrite E1 in F1. cbn [fst] in F1.
  destruct (hp_deliver k' m' isdup (hp_action m' s1) s1) as [[[s2 o] matched] err] eqn:E2.
  pose proof (hp_deliver_quiet k' m' isdup (hp_action m' s1) s1) as [F2 D2]. rewrite E2 in F2, D2. cbn [fst snd] in F2, D2.
  destruct (hp_finish_frame c k' (k_v k =? 5) qos pid o matched err s2 (isdrop_okout c o D2)) as [F3 D3].
  split; [|exact D3].
  eapply uframe_trans; [apply frame_uframe, F0|]. eapply uframe_trans; [exact F1|].
  eapply uframe_trans; [apply frame_uframe, F2|exact F3].
Qed.

Lemma replay_retained_quiet c k sb s :
  frame s (fst (replay_retained c k sb s)) /\ Forall isdrop (snd (replay_retained c k sb s)).
Proof.
  unfold replay_retained.
  apply fold_quiet.
  intros s0 o0 m. cbv beta iota zeta.
  destruct (aget (k_cid k) (b_queues s0)) as [q|]; [|apply quiet_refl].
  match goal with |- context [q_add ?a ?b ?c] => destruct (q_add a b c) as [[q' evs]| | |] end;
    try apply quiet_refl.
  split; cbn [fst snd].
  - eapply frame_trans; [|apply release_dropped_frame].
    eapply frame_trans; [apply frame_set_queues_aset|apply frame_set_picks_tag].
  - intros H. apply Forall_app. split; [exact H|apply drops_of_isdrop].
Qed.

Definition hs_body (c : N) (k : conn) (v5 : bool) (subid : N) (topics : list topic_req)
                   (acc : st * list out * list N) (t : topic_req) : st * list out * list N :=
  let '(s0, o0, cs) := acc in
  let t_eff := last_with_name (tq_name t) topics t in
  let sb0 := sub_of_req t_eff subid in
  let action := opt_or (match find (fun e => str_eqb (fst (fst e)) (k_cid k) && str_eqb (snd (fst e)) (tq_name t)) (h_sub (b_hooks s0)) with
                        | Some e => Some (snd e) | None => None end) SAccept in
  let sb := match action with
            | SQos q => {| s_share := s_share sb0; s_filter := s_filter sb0; s_id := s_id sb0; s_qos := q;
                           s_nl := s_nl sb0; s_rap := s_rap sb0; s_rh := s_rh sb0 |}
            | _ => sb0
            end in
  let shared := negb (is_empty (s_share sb)) in
  let code := s_qos sb in
  let code := if v5 && shared && negb (k_shared k) then 158 else code in
  let code := if v5 && negb (k_subid k) && negb (subid =? 0) then 161 else code in
  let code := if v5 && negb (k_wildcard k) && has_wildcard (s_filter sb) then 162 else code in
  let code := match action with SReject cd => if v5 then cd else 128 | _ => code end in
  if code <? 128 then
    let '(d', existed) := db_subscribe (k_cid k) sb (b_subs s0) in
    let s1 := set_subs d' s0 in
    let '(s2, o2) :=
      if negb shared && ((negb existed && negb (tq_rh t =? 2)) || (tq_rh t =? 0))
      then replay_retained c k sb s1 else (s1, []) in
    (s2, o0 ++ o2, cs ++ [code])
  else (s0, o0, cs ++ [code]).

Lemma handle_subscribe_eq c k pid props topics s :
  handle_subscribe c k pid props topics s =
  let v5 := k_v k =? 5 in
  let subid := if v5 && k_subid k then match p_subids props with i :: _ => i | [] => 0 end else 0 in
  if v5 && negb (c_subid (b_cfg s)) && negb (subid =? 0) then HErr s [] (Some 161)
  else
    match h_sub_all (b_hooks s) with
    | Some code => HOk s [OSend c (KSuback pid (map (fun _ => if v5 then code else 128) topics) [])]
    | None =>
        let '(s, o, codes) := fold_left (hs_body c k v5 subid topics) topics (s, [], []) in
        HOk s (o ++ [OSend c (KSuback pid codes [])])
    end.
Proof. reflexivity. Qed.

Definition quiet3 (b b' : st * list out * list N) : Prop :=
  wframe (fst (fst b)) (fst (fst b')) /\ (Forall isdrop (snd (fst b)) -> Forall isdrop (snd (fst b'))).

Lemma hs_body_quiet c k v5 subid topics acc t : quiet3 acc (hs_body c k v5 subid topics acc t).
Proof.
  destruct acc as [[s0 o0] cs]. unfold hs_body. cbv zeta.
  match goal with |- context [if ?b <? 128 then _ else _] => destruct (b <? 128) end;
    [|split; cbn [fst snd]; [apply wframe_refl|auto]].
  match goal with |- context [db_subscribe ?a ?b ?d] => destruct (db_subscribe a b d) as [d' existed]; set (sb := b) in * end.
  match goal with |- context [if ?b then replay_retained c k sb ?S else _] =>
    destruct b; [pose proof (replay_retained_quiet c k sb S) as [H1 H2];
                 destruct (replay_retained c k sb S) as [s2 o2]|] end.
  - split; cbn [fst snd] in *.
    + eapply wframe_trans; [apply wframe_set_subs|apply frame_wframe, H1].
    + intros H. apply Forall_app. now split.
  - split; cbn [fst snd].
    + apply wframe_set_subs.
    + intros H. apply Forall_app. split; [exact H|constructor].
Qed.

Lemma handle_subscribe_frame c k pid props topics s :
  wframe s (hres_st (handle_subscribe c k pid props topics s)) /\
  Forall (okout c) (hres_out (handle_subscribe c k pid props topics s)).
Proof.
  rewrite handle_subscribe_eq. cbv zeta.
  match goal with |- context [if ?b then HErr s [] (Some 161) else _] => destruct b end;
    [split; [apply wframe_refl|constructor]|].
  destruct (h_sub_all (b_hooks s)); [split; [apply wframe_refl|repeat constructor]|].
  match goal with |- context [fold_left ?f topics ?a] =>
    pose proof (fold_rel quiet3 f topics) as HF; destruct (fold_left f topics a) as [[s' o] codes] eqn:E end.
  cbn [hres_st hres_out].
  match type of HF with _ -> _ -> _ -> forall b, _ => specialize (fun a b c => HF a b c (s, [], [])) end.
  rewrite E in HF. destruct HF as [H1 H2]; cbn [fst snd] in *.
  - intros b. split; [apply wframe_refl|auto].
  - intros a b d [A1 A2] [B1 B2]. split; [eapply wframe_trans; eauto|auto].
  - intros b x. apply hs_body_quiet.
  - split; [exact H1|]. apply Forall_app. split; [apply isdrop_okout, H2; constructor|repeat constructor].
Qed.

Lemma queue_op_frame cid f s : frame s (queue_op cid f s).
Proof. unfold queue_op. destruct (aget cid (b_queues s)); [apply frame_set_queues_aset|apply frame_refl]. Qed.

Lemma release_id_frame c pid s : frame s (release_id c pid s).
Proof.
  unfold release_id. destruct (nget c (b_conns s)) as [k|] eqn:E; [|apply frame_refl].
  eapply frame_upd_conn_k; [exact E|reflexivity].
Qed.

Lemma uframe_sessions_aset cid se s :
  ahas cid (b_sessions s) = true ->
  uframe s (set_tables (aset cid se (b_sessions s)) (b_online s) (b_offline s) (b_wills s) (b_queues s) (b_unacks s) s).
Proof. intros H. split; [|reflexivity]. constructor; proj; auto using kext_refl. now apply ksame_aset. Qed.

Definition is_subpkt (p : pkt) : bool :=
  match p with KSubscribe _ _ _ => true | KUnsubscribe _ _ _ => true | _ => false end.

Lemma handle_packet_uframe c k p s :
  nget c (b_conns s) = Some k -> is_subpkt p = false ->
  uframe s (hres_st (handle_packet c k p s)) /\ Forall (okout c) (hres_out (handle_packet c k p s)).
Proof.
  intros Hk Hp. pose proof (pv_of _ _ _ Hk) as Hpv.
  destruct p; try discriminate; cbn [handle_packet]; try (split; [apply uframe_refl|repeat constructor]).
  - (* PUBLISH *)
    destruct (has_wild topic); [split; [apply uframe_refl|constructor]|].
    match goal with |- context [if ?b then HErrRead s (Some 148) else _] => destruct b end;
      [split; [apply uframe_refl|constructor]|].
    match goal with |- context [if ?b then HErrRead s (Some 130) else _] => destruct b end;
      [split; [apply uframe_refl|constructor]|].
    match goal with |- context [if ?b then HErrRead s (Some 147) else _] => destruct b end;
      [split; [apply uframe_refl|constructor]|].
    match goal with |- context [handle_publish c ?K] => set (k' := K) end.
    assert (Ek : kview k' = kview k) by (unfold k'; destruct ((k_v k =? 5) && (0 <? qos)); reflexivity).
    assert (F0 : frame s (upd_conn c k' s)) by (apply frame_upd_conn; now rewrite Ek).
    match goal with |- context [handle_publish c k' ?a ?b ?d ?e ?f ?g ?h ?S] =>
      destruct (handle_publish_frame c k' a b d e f g h S) as [H1 H2] end.
    { rewrite pv_upd_conn, N.eqb_refl. reflexivity. }
    split; [eapply uframe_trans; [apply frame_uframe, F0|exact H1]|exact H2].
  - (* PUBACK *)
    cbn [hres_st hres_out]. split; [apply frame_uframe|constructor].
    eapply frame_trans; [apply queue_op_frame|apply release_id_frame].
  - (* PUBREC *)
    destruct ((k_v k =? 5) && (128 <=? code)); cbn [hres_st hres_out].
    + split; [apply frame_uframe|constructor]. eapply frame_trans; [apply queue_op_frame|apply release_id_frame].
    + split; [apply frame_uframe, queue_op_frame|repeat constructor].
  - (* PUBREL *)
    cbv zeta. cbn [hres_st hres_out]. split; [|repeat constructor].
    eapply uframe_trans; [apply (uframe_set_unacks_aset (k_cid k))|]. apply frame_uframe.
    match goal with |- frame ?S _ =>
      apply (bump_quota_frame c S (fun k1 => (k_v k =? 5) && (k_quota k1 <? k_recv_max k1))) end.
  - (* PUBCOMP *)
    cbn [hres_st hres_out]. split; [apply frame_uframe|constructor].
    eapply frame_trans; [apply queue_op_frame|apply release_id_frame].
  - (* DISCONNECT *)
    destruct (k_v k =? 5).
    + cbv zeta. destruct (aget (k_cid k) (b_sessions s)) as [se|] eqn:Es; [|split; [apply uframe_refl|constructor]].
      match goal with |- context [if ?b then HErr s [] None else _] => destruct b end;
        [split; [apply uframe_refl|constructor]|].
      cbn [hres_st hres_out]. split; [|constructor].
      match goal with |- uframe s (upd_conn c ?K ?S) => set (s1 := S) end.
      assert (F1 : uframe s s1).
      { unfold s1. destruct (p_sei props) as [x|]; [|apply uframe_refl].
        destruct (x =? 0); [apply uframe_refl|]. apply uframe_sessions_aset. eapply ahas_some; eauto. }
      eapply uframe_trans; [exact F1|]. apply frame_uframe, frame_upd_conn.
      rewrite (wf_pv _ _ (proj1 F1) c), Hpv. reflexivity.
    + cbn [hres_st hres_out]. split; [|constructor]. apply frame_uframe, frame_upd_conn. now rewrite Hpv.
Qed.

Lemma handle_packet_frame c k p s :
  nget c (b_conns s) = Some k ->
  wframe s (hres_st (handle_packet c k p s)) /\ Forall (okout c) (hres_out (handle_packet c k p s)).
Proof.
  intros Hk. destruct (is_subpkt p) eqn:Ep.
  - destruct p; try discriminate; cbn [handle_packet].
    + match goal with |- context [if ?b then handle_subscribe _ _ _ _ _ _ else _] => destruct b end;
        [apply handle_subscribe_frame|split; [apply wframe_refl|constructor]].
    + unfold handle_unsubscribe. cbn [hres_st hres_out]. split; [apply wframe_set_subs|repeat constructor].
  - destruct (handle_packet_uframe c k p s Hk Ep) as [[F _] Ho]. now split.
Qed.

Lemma write_publish_ok c k m :
  kview (fst (write_publish c k m)) = kview k /\ Forall (okout c) (snd (write_publish c k m)).
Proof.
  unfold write_publish. destruct ((k_v k =? 5) && (0 <? k_client_alias_max k) && (msg_total_bytes true m + 5 <=? k_client_max_packet k)).
  - destruct (am_check (m_topic m) (k_alias_out k)) as [am' [a ex|]]; cbn [fst snd]; split; try reflexivity;
      repeat constructor.
  - cbn [fst snd]. split; [reflexivity|repeat constructor].
Qed.

Definition kquiet (c : N) (b b' : conn * list out) : Prop :=
  kview (fst b') = kview (fst b) /\ (Forall (okout c) (snd b) -> Forall (okout c) (snd b')).

Lemma kquiet_refl c b : kquiet c b b.
Proof. split; auto. Qed.
Lemma kquiet_trans c a b d : kquiet c a b -> kquiet c b d -> kquiet c a d.
Proof. intros [A1 A2] [B1 B2]. split; [congruence|auto]. Qed.

Lemma replay_step_kquiet c now acc e : kquiet c acc (BrokerPollP.replay_step c now acc e).
Proof.
  destruct acc as [k0 o0]. unfold BrokerPollP.replay_step. destruct (e_body e) as [m|p].
  - match goal with |- context [write_publish c ?K ?M] =>
      pose proof (write_publish_ok c K M) as [W1 W2]; destruct (write_publish c K M) as [k2 o2] end.
    cbn [fst snd] in *. split; cbn [fst snd]; [rewrite W1; reflexivity|]. intros Ho. apply Forall_app. now split.
  - split; cbn [fst snd]; [reflexivity|]. intros Ho. apply Forall_app. split; [exact Ho|repeat constructor].
Qed.

Lemma send_step_kquiet c acc e : kquiet c acc (BrokerPollP.send_step c acc e).
Proof.
  destruct acc as [k0 o0]. unfold BrokerPollP.send_step. destruct (e_body e) as [m|p]; [|apply kquiet_refl].
  pose proof (write_publish_ok c k0 m) as [W1 W2]. destruct (write_publish c k0 m) as [k2 o2].
  cbn [fst snd] in *. split; cbn [fst snd]; [exact W1|]. intros Ho. apply Forall_app. now split.
Qed.

(* a turn of a poll loop rewrites the queue of its session and the record of its socket, keeping what the
   invariant reads of it, and writes to that socket only *)
Lemma poll_once_frame c s s' o :
  poll_once c s = Some (s', o) ->
  frame s s' /\ Forall (okout c) o /\ exists k, nget c (b_conns s) = Some k /\ attached (k_phase k) = true.
Proof.
  intros H. destruct (BrokerPollP.poll_once_turn c s s' o H) as (k & q & Ek & Hat & _ & T).
  cut (frame s s' /\ Forall (okout c) o).
  { intros [A B]. split; [exact A|]. split; [exact B|]. exists k. split; [exact Ek|]. now destruct Hat as [-> | ->]. }
  assert (Hfold : forall (f : conn * list out -> elem -> conn * list out) l k0 k' o',
            (forall acc e, kquiet c acc (f acc e)) -> fold_left f l (k0, []) = (k', o') ->
            kview k' = kview k0 /\ Forall (okout c) o').
  { intros f l k0 k' o' Hf E. destruct (fold_rel (kquiet c) f l (kquiet_refl c) (kquiet_trans c) Hf (k0, [])) as [K1 K2].
    rewrite E in K1, K2. split; [exact K1|apply K2; constructor]. }
  destruct T as [q' Hd Hr|q' rs k' o' Hd Hne Hr Hf|l' ids Hd Hh Hl|ids q' rs evs k' o' Hd Hh Hr Hf].
  - split; [|constructor]. eapply frame_trans; [apply frame_set_queues_aset|].
    eapply frame_upd_conn_k; [exact Ek|reflexivity].
  - destruct (Hfold _ _ _ _ _ (replay_step_kquiet c (b_now s)) Hf) as [K1 K2]. split; [|exact K2].
    eapply frame_trans; [apply frame_set_queues_aset|]. eapply frame_trans; [apply frame_set_queues_aset|].
    eapply frame_upd_conn_k; [exact Ek|exact K1].
  - split; [|constructor]. eapply frame_upd_conn_k; [exact Ek|reflexivity].
  - destruct (Hfold _ _ _ _ _ (send_step_kquiet c) Hf) as [K1 K2]. split.
    + eapply frame_trans; [apply frame_set_queues_aset|]. eapply frame_upd_conn_k; [exact Ek|]. rewrite K1. reflexivity.
    + apply Forall_app. split; [apply isdrop_okout, drops_of_isdrop|exact K2].
Qed.

Definition att (s : st) (c : N) : Prop := exists k, nget c (b_conns s) = Some k /\ attached (k_phase k) = true.

Lemma att_pv s s' c : pv s' c = pv s c -> att s c -> att s' c.
Proof.
  intros Hpv [k [Hk Ha]]. rewrite (pv_of _ _ _ Hk) in Hpv. apply pv_some in Hpv as [k' [Hk' Ev]].
  exists k'. split; [exact Hk'|]. unfold kview in Ev. injection Ev as _ E _. now rewrite E.
Qed.

Definition sendok (P : N -> Prop) (x : out) : Prop :=
  match x with OSend c _ => P c | OClose _ => False | ODropped _ _ _ => True end.

Lemma okout_sendok c (P : N -> Prop) o : P c -> Forall (okout c) o -> Forall (sendok P) o.
Proof. intros H. apply Forall_impl. intros [c' p|c'|cid m r]; cbn; auto. now intros ->. Qed.

Lemma isdrop_sendok (P : N -> Prop) o : Forall isdrop o -> Forall (sendok P) o.
Proof. apply Forall_impl. intros [c' p|c'|cid m r]; cbn; intros H; try destruct H; exact I. Qed.

Lemma sendok_att_back s s' x : frame s s' -> sendok (att s') x -> sendok (att s) x.
Proof. intros F. destruct x as [c p|c|cid m r]; cbn [sendok]; auto. apply att_pv. symmetry. apply (fr_pv _ _ F). Qed.

Lemma poll_conn_unattached fuel c s : ~ att s c -> poll_conn fuel c s = (s, []).
Proof.
  intros H. destruct fuel as [|f]; cbn [poll_conn]; [reflexivity|].
  destruct (poll_once c s) as [[s' o]|] eqn:E; [|reflexivity].
  apply poll_once_frame in E as (_ & _ & Hatt). contradiction.
Qed.

Lemma poll_all_frame s : frame s (fst (poll_all s)) /\ Forall (sendok (att s)) (snd (poll_all s)).
Proof.
  apply (BrokerPollP.poll_all_walk (fun _ => True) (fun _ => True) frame (fun s => sendok (att s))
           frame_refl frame_trans sendok_att_back); auto.
  intros c a a' o _ _ E. apply poll_once_frame in E as (F & Ho & Hatt).
  split; [exact I|]. split; [exact F|now apply (okout_sendok c)].
Qed.

(* coarse view of a socket: the client id it is attached to (and the force flag) *)
Definition cvk (k : conn) : option (str * bool) :=
  if attached (k_phase k) then Some (k_cid k, k_force_remove k) else None.
Definition cv (s : st) (c : N) : option (str * bool) :=
  match nget c (b_conns s) with Some k => cvk k | None => None end.

Lemma cv_upd_conn c' c k s : cv (upd_conn c k s) c' = if c' =? c then cvk k else cv s c'.
Proof. unfold cv. proj. rewrite nget_nset. destruct (c' =? c); reflexivity. Qed.

Lemma cv_set_tables se on off w q u s c : cv (set_tables se on off w q u s) c = cv s c.
Proof. reflexivity. Qed.
Lemma cv_set_subs d s c : cv (set_subs d s) c = cv s c.
Proof. reflexivity. Qed.
Lemma cv_set_queues q s c : cv (set_queues q s) c = cv s c.
Proof. reflexivity. Qed.

Lemma cv_pv s s' c : pv s' c = pv s c -> cv s' c = cv s c.
Proof.
  unfold pv, cv. destruct (nget c (b_conns s')) as [k'|], (nget c (b_conns s)) as [k|]; cbn [option_map];
    try discriminate; [|reflexivity].
  unfold kview, cvk. now intros [= -> -> ->].
Qed.

Lemma cv_some s c cid f :
  cv s c = Some (cid, f) <->
  exists k, nget c (b_conns s) = Some k /\ k_cid k = cid /\ attached (k_phase k) = true /\ k_force_remove k = f.
Proof.
  unfold cv, cvk. split.
  - destruct (nget c (b_conns s)) as [k|]; [|discriminate]. destruct (attached (k_phase k)) eqn:E; [|discriminate].
    intros [= <- <-]. now exists k.
  - intros (k & -> & <- & -> & <-). reflexivity.
Qed.

Lemma cv_att s c : att s c <-> exists cid f, cv s c = Some (cid, f).
Proof.
  split.
  - intros (k & Hk & Ha). exists (k_cid k), (k_force_remove k). apply cv_some. now exists k.
  - intros (cid & f & H). apply cv_some in H as (k & Hk & _ & Ha & _). now exists k.
Qed.

Record BInvG (ex : option str) (s : st) : Prop := {
  bi_on : forall cid c, aget cid (b_online s) = Some c -> ex <> Some cid -> exists f, cv s c = Some (cid, f);
  bi_conn : forall c cid f, cv s c = Some (cid, f) -> aget cid (b_online s) = Some c;
  bi_force : forall c cid f, cv s c = Some (cid, f) -> ex <> Some cid -> f = false;
  bi_disj : forall cid, ahas cid (b_online s) = true -> ahas cid (b_offline s) = false;
  bi_has : forall cid, ahas cid (b_online s) || ahas cid (b_offline s) = true ->
           ahas cid (b_sessions s) = true /\ ahas cid (b_queues s) = true /\ ahas cid (b_unacks s) = true;
  bi_sess : forall cid, ahas cid (b_sessions s) = true -> ahas cid (b_online s) || ahas cid (b_offline s) = true;
  bi_ne : forall cid, ahas cid (b_sessions s) = true -> cid <> [];
  bi_nd_on : NoDup (keys (b_online s));
  bi_nd_off : NoDup (keys (b_offline s));
  bi_nd_sess : NoDup (keys (b_sessions s));
  bi_nd_q : NoDup (keys (b_queues s));
  bi_nd_u : NoDup (keys (b_unacks s));
  bi_nd_w : NoDup (keys (b_wills s));
  bi_nd_c : NoDup (map fst (b_conns s)) }.

Definition BInv : st -> Prop := BInvG None.

(* the same with the coarse view of the sockets *)
Record cframe (s s' : st) : Prop := {
  cf_on : b_online s' = b_online s;
  cf_off : b_offline s' = b_offline s;
  cf_sess : ksame (b_sessions s) (b_sessions s');
  cf_q : kext (b_queues s) (b_queues s');
  cf_u : kext (b_unacks s) (b_unacks s');
  cf_w : NoDup (keys (b_wills s)) -> NoDup (keys (b_wills s'));
  cf_ck : NoDup (map fst (b_conns s)) -> NoDup (map fst (b_conns s'));
  cf_cv : forall c, cv s' c = cv s c }.

Lemma wframe_cframe s s' : wframe s s' -> cframe s s'.
Proof. intros []. constructor; auto. intros c. now apply cv_pv. Qed.

Lemma frame_cframe s s' : frame s s' -> cframe s s'.
Proof. intros F. now apply wframe_cframe, frame_wframe. Qed.

Lemma cframe_upd_conn c k s : cv s c = cvk k -> cframe s (upd_conn c k s).
Proof.
  intros H. constructor; proj; auto using ksame_refl, kext_refl.
  - apply NoDup_nset.
  - intros c'. rewrite cv_upd_conn. destruct (N.eqb_spec c' c) as [->|E]; [now rewrite H|reflexivity].
Qed.

Lemma BInvG_cframe ex s s' : cframe s s' -> BInvG ex s -> BInvG ex s'.
Proof.
  intros [Fon Foff [Fs1 Fs2] [Fq1 Fq2] [Fu1 Fu2] Fw Fck Fcv] [].
  constructor; rewrite ?Fon, ?Foff; auto.
  - intros cid c H1 H2. rewrite Fcv. eauto.
  - intros c cid f. rewrite Fcv. eauto.
  - intros c cid f. rewrite Fcv. eauto.
  - intros cid H. destruct (bi_has0 cid H) as (A & B & C). rewrite Fs2. auto.
  - intros cid. rewrite Fs2. auto.
  - intros cid. rewrite Fs2. auto.
Qed.

Lemma BInvG_frame ex s s' : frame s s' -> BInvG ex s -> BInvG ex s'.
Proof. intros F. apply BInvG_cframe. now apply frame_cframe. Qed.

Lemma BInvG_weaken ex s : BInv s -> BInvG ex s.
Proof.
  intros []. constructor; auto.
  - intros cid c H _. apply bi_on0; [exact H|discriminate].
  - intros c cid f H _. eapply bi_force0; [exact H|discriminate].
Qed.

(* no socket is attached to cid (its registration may still be there) *)
Definition BInvX (cid : str) (s : st) : Prop := BInvG (Some cid) s /\ forall c f, cv s c <> Some (cid, f).

Lemma BInvX_cframe cid s s' : cframe s s' -> BInvX cid s -> BInvX cid s'.
Proof.
  intros F [H1 H2]. split; [eapply BInvG_cframe; eauto|]. intros c f. rewrite (cf_cv _ _ F). apply H2.
Qed.

Lemma BInvX_of_offline cid s : BInv s -> ahas cid (b_online s) = false -> BInvX cid s.
Proof.
  intros HI Hoff. split; [now apply BInvG_weaken|]. intros c f H.
  apply (bi_conn _ _ HI) in H. apply ahas_some in H. congruence.
Qed.

(* the socket of an attached connection is closed (or otherwise detached) *)
Lemma BInvX_close c k k' s :
  BInvG (Some (k_cid k)) s -> nget c (b_conns s) = Some k -> attached (k_phase k) = true -> cvk k' = None ->
  BInvX (k_cid k) (upd_conn c k' s).
Proof.
  intros HI Hk Ha Hk'.
  assert (Hc : cv s c = Some (k_cid k, k_force_remove k)) by (apply cv_some; now exists k).
  split.
  - destruct HI. constructor; proj; auto.
    + intros cid c' H1 H2. destruct (bi_on0 cid c' H1 H2) as [f Hf]. exists f. rewrite cv_upd_conn.
      destruct (N.eqb_spec c' c) as [->|E]; [|exact Hf]. rewrite Hc in Hf. congruence.
    + intros c' cid f. rewrite cv_upd_conn. destruct (c' =? c); [congruence|apply bi_conn0].
    + intros c' cid f. rewrite cv_upd_conn. destruct (c' =? c); [congruence|apply bi_force0].
    + now apply NoDup_nset.
  - intros c' f. rewrite cv_upd_conn. destruct (N.eqb_spec c' c) as [->|E]; [congruence|].
    intros H. apply (bi_conn _ _ HI) in H. apply (bi_conn _ _ HI) in Hc. congruence.
Qed.

Ltac ab := rewrite ?ahas_aset, ?ahas_adel by assumption.

Lemma BInvX_remove cid s : BInvX cid s -> BInv (remove_session cid s).
Proof.
  intros [[] HX]. unfold keys in *. constructor; proj; unfold keys; auto using NoDup_adel.
  - intros cid' c' H _. rewrite aget_adel in H by assumption.
    destruct (str_eqb_spec cid' cid) as [->|E]; [discriminate|]. apply bi_on0; [exact H|now intros [= ->]].
  - intros c' cid' f H. rewrite aget_adel by assumption.
    destruct (str_eqb_spec cid' cid) as [->|E]; [now apply HX in H|eauto].
  - intros c' cid' f H _. destruct (str_eqb_spec cid' cid) as [->|E]; [now apply HX in H|].
    eapply bi_force0; [exact H|now intros [= ->]].
  - intros cid'. ab. destruct (str_eqb cid' cid); cbn [negb andb]; auto.
  - intros cid'. ab. destruct (str_eqb cid' cid); cbn [negb andb orb]; [discriminate|]. apply bi_has0.
  - intros cid'. ab. destruct (str_eqb cid' cid); cbn [negb andb orb]; [discriminate|]. apply bi_sess0.
  - intros cid'. ab. destruct (str_eqb cid' cid); cbn [negb andb orb]; [discriminate|]. apply bi_ne0.
Qed.

Lemma BInvX_store cid se dl s :
  BInvX cid s -> ahas cid (b_sessions s) = true ->
  BInv (set_tables (aset cid se (b_sessions s)) (adel cid (b_online s)) (aset cid dl (b_offline s)) (b_wills s)
                   (b_queues s) (b_unacks s) s).
Proof.
  intros [[] HX] Hs. unfold keys in *.
  destruct (bi_has0 cid (bi_sess0 cid Hs)) as (_ & Hq & Hu).
  constructor; proj; unfold keys; auto using NoDup_adel, NoDup_aset.
  - intros cid' c' H _. rewrite aget_adel in H by assumption.
    destruct (str_eqb_spec cid' cid) as [->|E]; [discriminate|]. apply bi_on0; [exact H|now intros [= ->]].
  - intros c' cid' f H. rewrite aget_adel by assumption.
    destruct (str_eqb_spec cid' cid) as [->|E]; [now apply HX in H|eauto].
  - intros c' cid' f H _. destruct (str_eqb_spec cid' cid) as [->|E]; [now apply HX in H|].
    eapply bi_force0; [exact H|now intros [= ->]].
  - intros cid'. ab. destruct (str_eqb cid' cid); cbn [negb andb orb]; [discriminate|]. apply bi_disj0.
  - intros cid'. ab. destruct (str_eqb_spec cid' cid) as [->|E]; cbn [negb andb orb]; [auto|]. apply bi_has0.
  - intros cid'. ab. destruct (str_eqb_spec cid' cid) as [->|E]; cbn [negb andb orb]; [reflexivity|].
    apply bi_sess0.
  - intros cid'. ab. destruct (str_eqb_spec cid' cid) as [->|E]; cbn [negb andb orb]; [intros _; now apply bi_ne0|].
    apply bi_ne0.
Qed.

Lemma BInvX_connect cid c k se s :
  BInvX cid s -> cv s c = None -> cvk k = Some (cid, false) -> cid <> [] ->
  ahas cid (b_queues s) = true -> ahas cid (b_unacks s) = true ->
  BInv (set_tables (aset cid se (b_sessions s)) (aset cid c (b_online s)) (adel cid (b_offline s)) (b_wills s)
                   (b_queues s) (b_unacks s) (upd_conn c k s)).
Proof.
  intros [[] HX] Hc Hk Hne Hq Hu. unfold keys in *.
  constructor; proj; unfold keys; auto using NoDup_adel, NoDup_aset, NoDup_nset.
  - intros cid' c' H _. rewrite aget_aset in H. rewrite cv_set_tables, cv_upd_conn.
    destruct (str_eqb_spec cid' cid) as [->|E].
    + injection H as <-. rewrite N.eqb_refl. now exists false.
    + destruct (bi_on0 cid' c' H) as [f Hf]; [congruence|]. exists f.
      destruct (N.eqb_spec c' c) as [->|E']; [congruence|exact Hf].
  - intros c' cid' f. rewrite cv_set_tables, cv_upd_conn, aget_aset. destruct (N.eqb_spec c' c) as [->|E'].
    + rewrite Hk. intros [= <- <-]. now rewrite str_eqb_refl.
    + intros H. destruct (str_eqb_spec cid' cid) as [->|E]; [now apply HX in H|eauto].
  - intros c' cid' f. rewrite cv_set_tables, cv_upd_conn. destruct (N.eqb_spec c' c) as [->|E'].
    + rewrite Hk. now intros [= <- <-].
    + intros H _. destruct (str_eqb_spec cid' cid) as [->|E]; [now apply HX in H|].
      eapply bi_force0; [exact H|now intros [= ->]].
  - intros cid'. ab. destruct (str_eqb cid' cid); cbn [negb andb orb]; [reflexivity|]. apply bi_disj0.
  - intros cid'. ab. destruct (str_eqb_spec cid' cid) as [->|E]; cbn [negb andb orb]; [auto|]. apply bi_has0.
  - intros cid'. ab. destruct (str_eqb_spec cid' cid) as [->|E]; cbn [negb andb orb]; [reflexivity|]. apply bi_sess0.
  - intros cid'. ab. destruct (str_eqb_spec cid' cid) as [->|E]; cbn [negb andb orb]; [auto|]. apply bi_ne0.
Qed.

Lemma BInv_init c h p : BInv (st_init c h p).
Proof.
  constructor; cbn; try constructor; try discriminate.
Qed.

(* the Session Expiry Interval that counts when the connection ends *)
Definition ur_expiry (k : conn) (se : session) (cf : cfg) : N :=
  if negb (k_force_remove k) && (k_v k =? 5) && k_got_disconnect k
  then N.min (opt_or (k_disc_sei k) (se_expiry se)) (c_session_expiry cf) else se_expiry se.

Definition ur_will (cid : str) (k : conn) (se : session) (expiry : N) (store : bool) (s : st) : st * list out :=
  match se_will se with
  | Some w =>
      if k_clean_will k then (s, [])
      else
        let delay := if expiry <=? se_will_delay se then expiry else se_will_delay se in
        if negb (delay =? 0) && store
        then (set_tables (b_sessions s) (b_online s) (b_offline s) (aset cid (w, b_rt s + delay * 1000) (b_wills s))
                         (b_queues s) (b_unacks s) s, [])
        else send_will cid w s
  | None => (s, [])
  end.

Definition stored_session (se : session) (expiry : N) : session :=
  {| se_will := se_will se; se_will_delay := se_will_delay se; se_connected_at := se_connected_at se; se_expiry := expiry |}.

Definition store_tables (cid : str) (se : session) (expiry : N) (s1 : st) : st :=
  set_tables (aset cid (stored_session se expiry) (b_sessions s1))
             (adel cid (b_online s1)) (aset cid (b_now s1 + expiry * 1000) (b_offline s1)) (b_wills s1)
             (b_queues s1) (b_unacks s1) s1.

Lemma unregister_eq c k s :
  unregister c k s =
  let cid := k_cid k in
  match aget cid (b_sessions s) with
  | None => (remove_session cid s, [])
  | Some se =>
      let expiry := ur_expiry k se (b_cfg s) in
      let store := negb (k_force_remove k) && negb (expiry =? 0) in
      let '(s1, o1) := ur_will cid k se expiry store s in
      if store then (store_tables cid se expiry s1, o1) else (remove_session cid s1, o1)
  end.
Proof. reflexivity. Qed.

Lemma ur_will_quiet cid k se expiry store s :
  frame s (fst (ur_will cid k se expiry store s)) /\ Forall isdrop (snd (ur_will cid k se expiry store s)).
Proof.
  unfold ur_will. destruct (se_will se) as [w|]; [|apply quiet_id].
  destruct (k_clean_will k); [apply quiet_id|]. cbv zeta.
  match goal with |- context [if ?b then (set_tables _ _ _ _ _ _ _, []) else _] => destruct b end.
  - cbn [fst snd]. split; [apply frame_wills_aset|constructor].
  - apply send_will_quiet.
Qed.

Inductive unreg_res (cid : str) (k : conn) (sess : list (str * session)) (cf : cfg) (s1 s' : st) : Prop :=
| UR_removed :
    (aget cid sess = None \/
     exists se, aget cid sess = Some se /\ (k_force_remove k = true \/ ur_expiry k se cf = 0)) ->
    s' = remove_session cid s1 -> unreg_res cid k sess cf s1 s'
| UR_stored se :
    aget cid sess = Some se -> k_force_remove k = false -> ur_expiry k se cf <> 0 ->
    s' = store_tables cid se (ur_expiry k se cf) s1 -> unreg_res cid k sess cf s1 s'.

Lemma unregister_spec c k s :
  exists s1, frame s s1 /\ Forall isdrop (snd (unregister c k s)) /\
             unreg_res (k_cid k) k (b_sessions s) (b_cfg s) s1 (fst (unregister c k s)).
Proof.
  rewrite unregister_eq. cbv zeta. destruct (aget (k_cid k) (b_sessions s)) as [se|] eqn:Es.
  - set (expiry := ur_expiry k se (b_cfg s)).
    destruct (ur_will_quiet (k_cid k) k se expiry (negb (k_force_remove k) && negb (expiry =? 0)) s) as [F D].
    destruct (ur_will (k_cid k) k se expiry (negb (k_force_remove k) && negb (expiry =? 0)) s) as [s1 o1].
    cbn [fst snd] in F, D. exists s1. split; [exact F|].
    destruct (k_force_remove k) eqn:Ef; cbn [negb andb fst snd].
    + split; [exact D|]. apply UR_removed; [|reflexivity]. right. exists se. auto.
    + destruct (N.eqb_spec expiry 0) as [E0|E0]; cbn [negb fst snd]; (split; [exact D|]).
      * apply UR_removed; [|reflexivity]. right. exists se. auto.
      * eapply UR_stored; eauto.
  - exists s. cbn [fst snd]. split; [apply frame_refl|]. split; [constructor|].
    apply UR_removed; [now left|reflexivity].
Qed.

Lemma unregister_inv c k s : BInvX (k_cid k) s -> BInv (fst (unregister c k s)).
Proof.
  intros HX. destruct (unregister_spec c k s) as (s1 & F & _ & HR).
  apply (BInvX_cframe _ _ _ (frame_cframe _ _ F)) in HX.
  destruct HR as [H ->|se Hs Hf He ->]; [now apply BInvX_remove|].
  apply BInvX_store; [exact HX|]. rewrite (fr_sess _ _ F). eapply ahas_some; eauto.
Qed.

(* what conn_gone does to an attached socket *)
Definition closed_q (cid : str) (s : st) : st :=
  match aget cid (b_queues s) with
  | Some q => set_queues (aset cid (q_close q) (b_queues s)) s
  | None => s
  end.

Lemma closed_q_frame cid s : frame s (closed_q cid s).
Proof. unfold closed_q. destruct (aget cid (b_queues s)); [apply frame_set_queues_aset|apply frame_refl]. Qed.

Lemma closed_q_conns cid s : b_conns (closed_q cid s) = b_conns s.
Proof. unfold closed_q. destruct (aget cid (b_queues s)); reflexivity. Qed.
Lemma closed_q_sessions cid s : b_sessions (closed_q cid s) = b_sessions s.
Proof. unfold closed_q. destruct (aget cid (b_queues s)); reflexivity. Qed.
Lemma closed_q_cfg cid s : b_cfg (closed_q cid s) = b_cfg s.
Proof. unfold closed_q. destruct (aget cid (b_queues s)); reflexivity. Qed.
Lemma closed_q_now cid s : b_now (closed_q cid s) = b_now s.
Proof. unfold closed_q. destruct (aget cid (b_queues s)); reflexivity. Qed.
Lemma closed_q_online cid s : b_online (closed_q cid s) = b_online s.
Proof. unfold closed_q. destruct (aget cid (b_queues s)); reflexivity. Qed.
Lemma closed_q_offline cid s : b_offline (closed_q cid s) = b_offline s.
Proof. unfold closed_q. destruct (aget cid (b_queues s)); reflexivity. Qed.

Lemma conn_gone_att c k s :
  nget c (b_conns s) = Some k -> attached (k_phase k) = true ->
  conn_gone c s =
  (fst (unregister c (set_phase PhClosed k) (upd_conn c (set_phase PhClosed k) (closed_q (k_cid k) s))),
   OClose c :: snd (unregister c (set_phase PhClosed k) (upd_conn c (set_phase PhClosed k) (closed_q (k_cid k) s)))).
Proof.
  intros Hk Ha. unfold conn_gone, closed_q. rewrite Hk.
  destruct (k_phase k); try discriminate;
    match goal with |- context [unregister ?a ?b ?d] => destruct (unregister a b d) end; reflexivity.
Qed.

Lemma conn_gone_unatt c s :
  cv s c = None ->
  conn_gone c s = (s, []) \/
  exists k, nget c (b_conns s) = Some k /\ conn_gone c s = (upd_conn c (set_phase PhClosed k) s, [OClose c]).
Proof.
  unfold cv, cvk, conn_gone. destruct (nget c (b_conns s)) as [k|]; [|now left].
  destruct (k_phase k); cbn [attached]; try discriminate; intros _; try (now left); right; now exists k.
Qed.

Lemma conn_gone_inv_att c k s :
  nget c (b_conns s) = Some k -> attached (k_phase k) = true -> BInvG (Some (k_cid k)) s ->
  BInv (fst (conn_gone c s)).
Proof.
  intros Hk Ha HI. rewrite (conn_gone_att c k s Hk Ha). cbn [fst].
  apply (unregister_inv c (set_phase PhClosed k)).
  change (k_cid (set_phase PhClosed k)) with (k_cid k).
  apply BInvX_close; [|now rewrite closed_q_conns|exact Ha|reflexivity].
  eapply BInvG_frame; [apply closed_q_frame|exact HI].
Qed.

Lemma conn_gone_inv c s : BInv s -> BInv (fst (conn_gone c s)).
Proof.
  intros HI. destruct (cv s c) as [[cid f]|] eqn:Ec.
  - apply cv_some in Ec as (k & Hk & <- & Ha & _). eapply conn_gone_inv_att; eauto. now apply BInvG_weaken.
  - destruct (conn_gone_unatt c s Ec) as [->|(k & Hk & ->)]; [exact HI|]. cbn [fst].
    eapply BInvG_cframe; [|exact HI]. apply cframe_upd_conn. now rewrite Ec.
Qed.

(* what fail_conn and send_unconnected can do, so that nobody has to open them *)
Inductive fail_conn_res (c : N) (s : st) : st * list out -> Prop :=
| fcr_none : fail_conn_res c s (s, [])
| fcr_zombie k :
    nget c (b_conns s) = Some k -> k_phase k = PhConnected ->
    fail_conn_res c s (upd_conn c (set_phase PhZombie k) s, [])
| fcr_gone k disc :
    nget c (b_conns s) = Some k -> k_phase k = PhConnected ->
    (disc = [] \/ exists cd, disc = [OSend c (KDisconnect cd [])]) ->
    fail_conn_res c s (fst (conn_gone c s), disc ++ snd (conn_gone c s)).

Lemma fail_conn_cases c code br s : fail_conn_res c s (fail_conn c code br s).
Proof.
  unfold fail_conn. destruct (nget c (b_conns s)) as [k|] eqn:Hk; [|constructor].
  destruct (k_phase k) eqn:Ep; try constructor.
  destruct (_ || _); [|now apply (fcr_zombie c s k)].
  destruct (conn_gone c s) as [s' o] eqn:E. change s' with (fst (s', o)). change o with (snd (s', o)) at 2.
  rewrite <- E. apply (fcr_gone c s k); [exact Hk|exact Ep|].
  destruct code as [cd|]; [|now left]. destruct (k_v k =? 5); [right; now exists cd|now left].
Qed.

Inductive send_unconnected_res (c : N) (k : conn) (s : st) : st * list out -> Prop :=
| sur_none : send_unconnected_res c k s (s, [])
| sur_fresh :
    k_phase k = PhFresh ->
    send_unconnected_res c k s (upd_conn c (set_phase PhDead k) s, [OSend c (KConnack false 129 [])])
| sur_quota : k_phase k = PhZombie -> send_unconnected_res c k s (upd_conn c (set_quota (k_quota k - 1) k) s, [])
| sur_gone : k_phase k = PhZombie \/ k_phase k = PhDead -> send_unconnected_res c k s (conn_gone c s).

Lemma send_unconnected_cases c k p s : send_unconnected_res c k s (send_unconnected c k p s).
Proof.
  unfold send_unconnected. destruct (k_phase k) eqn:Ep; try constructor; [exact Ep|..].
  - destruct p; try constructor. destruct (_ && _); [|constructor].
    destruct (k_quota k =? 0); [apply sur_gone; now left|now apply sur_quota].
  - destruct p; try constructor. destruct (_ && _); [apply sur_gone; now right|constructor].
Qed.

Definition hc_code (cn : connect) (s : st) : N :=
  if ((cn_ver cn =? 5) && match p_authmethod (cn_props cn) with Some _ => true | None => false end)
  then 128 else auth_code cn s.

(* the client id the connection is registered under *)
Definition hc_cid (cn : connect) (s : st) : str :=
  if is_empty (cn_cid cn) then AUTO_PREFIX ++ dec_str (b_auto s + 1) else cn_cid cn.
Definition hc_auto (cn : connect) (s : st) : st :=
  if is_empty (cn_cid cn) then set_auto (b_auto s + 1) s else s.

(* the Session Expiry Interval granted to a v5 client / the one stored for the session *)
Definition hc_sess_exp (cn : connect) (cf : cfg) : N :=
  if cn_ver cn =? 5 then match p_sei (cn_props cn) with
                         | None => 0
                         | Some i => if i <? c_session_expiry cf then i else c_session_expiry cf
                         end
  else c_session_expiry cf.
Definition hc_cmax (cn : connect) : N := if cn_ver cn =? 5 then opt_or (p_maxpkt (cn_props cn)) U32MAX else U32MAX.

Definition hc_takeover (cid : str) (s : st) : st * list out :=
  match aget cid (b_online s) with
  | Some oldc => conn_gone oldc s
  | None => (s, [])
  end.

Definition hc_resume0 (cid : str) (cn : connect) (s : st) : bool :=
  match aget cid (b_sessions s) with
  | Some se => negb (session_expired cid se s) && negb (cn_clean cn)
  | None => false
  end.

Definition hc_old (cid : str) (v5 : bool) (cmax : N) (resume0 : bool) (s : st) : st * list (str * msg) * bool :=
  match aget cid (b_sessions s) with
  | Some se =>
      if resume0 then
        match aget cid (b_queues s), aget cid (b_unacks s) with
        | Some q, Some u =>
            (set_tables (b_sessions s) (b_online s) (b_offline s) (adel cid (b_wills s))
                        (aset cid (q_init false v5 cmax q) (b_queues s)) (b_unacks s) s, [], true)
        | _, _ => (s, [], false)
        end
      else
        let s1 := remove_session cid s in
        match aget cid (b_wills s1) with
        | Some (w, _) =>
            let s2 := set_tables (b_sessions s1) (b_online s1) (b_offline s1) (adel cid (b_wills s1)) (b_queues s1) (b_unacks s1) s1 in
            (s2, [(cid, w)], false)
        | None => (s1, [], false)
        end
  | None => (s, [], false)
  end.

Definition hc_fresh (cid : str) (v5 : bool) (cmax : N) (cf : cfg) (resume : bool) (s : st) : st :=
  if resume then s
  else set_tables (b_sessions s) (b_online s) (b_offline s) (b_wills s)
                  (aset cid (q_init true v5 cmax (q_new (c_max_queued cf) (c_inflight_expiry cf * 1000))) (b_queues s))
                  (aset cid [] (b_unacks s)) s.

Definition hc_wd_exp (cn : connect) (cf : cfg) : N * N :=
  if negb (cn_ver cn =? 5) && negb (cn_clean cn) then (0, c_session_expiry cf)
  else if cn_ver cn =? 5 then (match cn_will cn with Some w => opt_or (p_willdelay (w_props w)) 0 | None => 0 end, hc_sess_exp cn cf)
  else (0, 0).

Definition hc_session (cn : connect) (wdelay expiry : N) (now : N) : session :=
  {| se_will := match cn_will cn with Some w => Some (will_msg w) | None => None end;
     se_will_delay := wdelay; se_connected_at := now; se_expiry := expiry |}.

Definition hc_ka (cn : connect) (cf : cfg) : N :=
  if cn_keepalive cn <? c_max_keepalive cf then cn_keepalive cn else c_max_keepalive cf.
Definition hc_max_inflight (cn : connect) (cf : cfg) : N :=
  if cn_ver cn =? 5 then
    match p_recvmax (cn_props cn) with
    | Some r => if r <? c_max_inflight cf then r else c_max_inflight cf
    | None => c_max_inflight cf
    end
  else c_max_inflight cf.
Definition hc_camax (cn : connect) : N := if cn_ver cn =? 5 then opt_or (p_aliasmax (cn_props cn)) 0 else 0.

Definition hc_conn (cid : str) (cn : connect) (cf : cfg) : conn :=
  {| k_cid := cid; k_v := cn_ver cn; k_phase := PhConnected; k_max_inflight := hc_max_inflight cn cf;
     k_client_max_packet := hc_cmax cn; k_client_alias_max := hc_camax cn; k_server_alias_max := c_alias_max cf;
     k_recv_max := c_recv_max cf; k_keepalive := if cn_ver cn =? 5 then hc_ka cn cf else cn_keepalive cn;
     k_session_expiry := hc_sess_exp cn cf;
     k_retain_avail := c_retain_avail cf; k_wildcard := c_wildcard cf; k_subid := c_subid cf;
     k_shared := c_shared cf;
     k_lim := lim_new (hc_max_inflight cn cf); k_held := None; k_alias_out := am_new (hc_camax cn); k_alias_in := [];
     k_alias_in_size := c_alias_max cf + 1;
     k_quota := c_recv_max cf; k_clean_will := false; k_disc_sei := None; k_got_disconnect := false;
     k_force_remove := false; k_drained := false |}.

Definition hc_register (c : N) (cid : str) (se : session) (k : conn) (s : st) : st :=
  set_tables (aset cid se (b_sessions s)) (aset cid c (b_online s)) (adel cid (b_offline s)) (b_wills s)
             (b_queues s) (b_unacks s) (upd_conn c k s).

Definition hc_props (cid : str) (cn : connect) (cf : cfg) : list prop :=
  if cn_ver cn =? 5 then
    [PSei (hc_sess_exp cn cf); PRecvMax (c_recv_max cf); PMaxQos (if 2 <=? c_max_qos cf then 1 else 0);
     PRetainAvail (if c_retain_avail cf then 1 else 0); PAliasMax (c_alias_max cf);
     PWildcard (if c_wildcard cf then 1 else 0); PSubIdAvail (if c_subid cf then 1 else 0);
     PSharedAvail (if c_shared cf then 1 else 0); PMaxPkt (c_max_packet cf); PKeepAlive (hc_ka cn cf)] ++
    (if is_empty (cn_cid cn) then [PAssigned cid] else [])
  else [].

Definition hc_wills (o_will : list (str * msg)) (s : st) : st * list out :=
  fold_left (fun acc cw => let '(s0, o0) := acc in
                           let '(s', o') := send_will (fst cw) (snd cw) s0 in (s', o0 ++ o'))
            o_will (s, []).

(* CONNECT is refused: empty client id not allowed / authentication *)
Definition hc_rejected (cn : connect) (s : st) : bool :=
  (negb (c_allow_zero_len (b_cfg s)) && is_empty (cn_cid cn)) || negb (hc_code cn s =? 0).

Definition hc_accept (c : N) (cn : connect) (s : st) : st * list out :=
  let cf := b_cfg s in
  let cid := hc_cid cn s in
  let '(s1, o_dup) := hc_takeover cid (hc_auto cn s) in
  let '(s2, o_will, resume) := hc_old cid (cn_ver cn =? 5) (hc_cmax cn) (hc_resume0 cid cn s1) s1 in
  let s3 := hc_fresh cid (cn_ver cn =? 5) (hc_cmax cn) cf resume s2 in
  let '(wdelay, expiry) := hc_wd_exp cn cf in
  let s4 := hc_register c cid (hc_session cn wdelay expiry (b_now s3)) (hc_conn cid cn cf) s3 in
  let '(s5, o_w) := hc_wills o_will s4 in
  (s5, o_dup ++ [OSend c (KConnack resume 0 (hc_props cid cn cf))] ++ o_w).

Lemma handle_connect_eq c cn s :
  handle_connect c cn s =
  if negb (c_allow_zero_len (b_cfg s)) && is_empty (cn_cid cn) then
    (upd_conn c (set_phase PhDead (fresh_conn [] 0)) s, [OSend c (KConnack false 133 [])])
  else if negb (hc_code cn s =? 0) then
    (upd_conn c (set_phase PhDead (fresh_conn (cn_cid cn) (cn_ver cn))) s,
     [OSend c (KConnack false (if negb (cn_ver cn =? 5) && (5 <? hc_code cn s) then 135 else hc_code cn s) [])])
  else hc_accept c cn s.
Proof. reflexivity. Qed.

(* a refused CONNECT marks the socket dead and answers with a CONNACK that carries an error code *)
Lemma handle_connect_cases c cn s :
  (hc_rejected cn s = true /\ exists k code, cvk k = None /\ code <> 0 /\
     handle_connect c cn s = (upd_conn c k s, [OSend c (KConnack false code [])])) \/
  (hc_rejected cn s = false /\ handle_connect c cn s = hc_accept c cn s).
Proof.
  rewrite handle_connect_eq. unfold hc_rejected.
  destruct (negb (c_allow_zero_len (b_cfg s)) && is_empty (cn_cid cn)); cbn [orb].
  - left. split; [reflexivity|]. eexists _, 133. split; [|split; [discriminate|reflexivity]]. reflexivity.
  - destruct (N.eqb_spec (hc_code cn s) 0) as [E0|E0]; cbn [negb]; [now right|]. left. split; [reflexivity|].
    eexists _, _. split; [|split; [|reflexivity]]; [reflexivity|]. now destruct (negb _ && _).
Qed.

(* the stages of an accepted CONNECT as functions of the state it arrives in: after the take-over of an online
   duplicate, after the old session is resumed or discarded, after the registration *)
Definition hc_dup (cn : connect) (s : st) : st * list out := hc_takeover (hc_cid cn s) (hc_auto cn s).
Definition hc_prev (cn : connect) (s : st) : st * list (str * msg) * bool :=
  hc_old (hc_cid cn s) (cn_ver cn =? 5) (hc_cmax cn) (hc_resume0 (hc_cid cn s) cn (fst (hc_dup cn s))) (fst (hc_dup cn s)).
Definition hc_new (cn : connect) (s : st) : st :=
  hc_fresh (hc_cid cn s) (cn_ver cn =? 5) (hc_cmax cn) (b_cfg s) (snd (hc_prev cn s)) (fst (fst (hc_prev cn s))).
Definition hc_reg (c : N) (cn : connect) (s : st) : st :=
  hc_register c (hc_cid cn s)
    (hc_session cn (fst (hc_wd_exp cn (b_cfg s))) (snd (hc_wd_exp cn (b_cfg s))) (b_now (hc_new cn s)))
    (hc_conn (hc_cid cn s) cn (b_cfg s)) (hc_new cn s).

Lemma hc_accept_eq c cn s :
  hc_accept c cn s =
  (fst (hc_wills (snd (fst (hc_prev cn s))) (hc_reg c cn s)),
   snd (hc_dup cn s) ++ [OSend c (KConnack (snd (hc_prev cn s)) 0 (hc_props (hc_cid cn s) cn (b_cfg s)))] ++
   snd (hc_wills (snd (fst (hc_prev cn s))) (hc_reg c cn s))).
Proof.
  unfold hc_accept, hc_reg, hc_new, hc_prev, hc_dup. cbv zeta.
  destruct (hc_takeover (hc_cid cn s) (hc_auto cn s)) as [s1 o_dup]. cbn [fst snd].
  destruct (hc_old _ _ _ _ s1) as [[s2 o_will] resume]. destruct (hc_wd_exp cn (b_cfg s)) as [wd ex].
  cbn [fst snd]. now destruct (hc_wills o_will _).
Qed.

Lemma unreg_res_conns cid k sess cf s1 s' : unreg_res cid k sess cf s1 s' -> b_conns s' = b_conns s1.
Proof. intros [H ->|se Hs Hf He ->]; reflexivity. Qed.
Lemma unreg_res_online cid k sess cf s1 s' : unreg_res cid k sess cf s1 s' -> b_online s' = adel cid (b_online s1).
Proof. intros [H ->|se Hs Hf He ->]; reflexivity. Qed.

(* conn_gone on an attached socket, summarised *)
Lemma conn_gone_att_spec c k s :
  nget c (b_conns s) = Some k -> attached (k_phase k) = true ->
  exists s1 o',
    conn_gone c s = (fst (conn_gone c s), OClose c :: o') /\ Forall isdrop o' /\
    frame (upd_conn c (set_phase PhClosed k) s) s1 /\
    unreg_res (k_cid k) (set_phase PhClosed k) (b_sessions s) (b_cfg s) s1 (fst (conn_gone c s)).
Proof.
  intros Hk Ha. rewrite (conn_gone_att c k s Hk Ha). cbn [fst].
  set (s0 := upd_conn c (set_phase PhClosed k) (closed_q (k_cid k) s)).
  destruct (unregister_spec c (set_phase PhClosed k) s0) as (s1 & F & D & R).
  exists s1, (snd (unregister c (set_phase PhClosed k) s0)). split; [reflexivity|]. split; [exact D|]. split.
  - eapply frame_trans; [|exact F]. unfold s0.
    replace (upd_conn c (set_phase PhClosed k) (closed_q (k_cid k) s))
      with (closed_q (k_cid k) (upd_conn c (set_phase PhClosed k) s)); [apply closed_q_frame|].
    unfold closed_q. proj. destruct (aget (k_cid k) (b_queues s)); reflexivity.
  - unfold s0 in R. proj_in R. rewrite closed_q_sessions, closed_q_cfg in R. exact R.
Qed.

Lemma unreg_res_env cid k sess cf s1 s' :
  unreg_res cid k sess cf s1 s' ->
  b_cfg s' = b_cfg s1 /\ b_hooks s' = b_hooks s1 /\ b_now s' = b_now s1 /\ b_auto s' = b_auto s1.
Proof. intros [H ->|se Hs Hf He ->]; auto. Qed.

Lemma conn_gone_misc c s :
  b_cfg (fst (conn_gone c s)) = b_cfg s /\ b_hooks (fst (conn_gone c s)) = b_hooks s /\
  b_now (fst (conn_gone c s)) = b_now s /\ b_auto (fst (conn_gone c s)) = b_auto s.
Proof.
  destruct (cv s c) as [[cid f]|] eqn:Ec.
  - apply cv_some in Ec as (k & Hk & _ & Ha & _).
    destruct (conn_gone_att_spec c k s Hk Ha) as (s1 & o' & _ & _ & F & R).
    destruct (unreg_res_env _ _ _ _ _ _ R) as (-> & -> & -> & ->).
    rewrite (fr_cfg _ _ F), (fr_hooks _ _ F), (fr_now _ _ F), (fr_auto _ _ F). auto.
  - destruct (conn_gone_unatt c s Ec) as [->|(k & Hk & ->)]; cbn [fst]; auto.
Qed.

Lemma hc_cid_ne cn s : hc_cid cn s <> [].
Proof.
  unfold hc_cid. destruct (is_empty (cn_cid cn)) eqn:E; [discriminate|]. now apply is_empty_false.
Qed.

Lemma hc_auto_frame cn s : wframe s (hc_auto cn s).
Proof. unfold hc_auto. destruct (is_empty (cn_cid cn)); [apply wframe_set_auto|apply wframe_refl]. Qed.

Lemma hc_auto_inv cn s : BInv s -> BInv (hc_auto cn s).
Proof. apply BInvG_cframe, wframe_cframe, hc_auto_frame. Qed.

(* the take-over of an online duplicate *)
Lemma hc_takeover_spec cid c s :
  BInv s -> cv s c = None ->
  BInv (fst (hc_takeover cid s)) /\ ahas cid (b_online (fst (hc_takeover cid s))) = false /\
  cv (fst (hc_takeover cid s)) c = None /\
  b_cfg (fst (hc_takeover cid s)) = b_cfg s /\ b_now (fst (hc_takeover cid s)) = b_now s /\
  b_hooks (fst (hc_takeover cid s)) = b_hooks s.
Proof.
  intros HI Hc. unfold hc_takeover. destruct (aget cid (b_online s)) as [oldc|] eqn:Eo.
  - destruct (bi_on _ _ HI cid oldc Eo) as [f Hf]; [discriminate|].
    apply cv_some in Hf as (k & Hk & Hcid & Ha & _).
    split; [now apply conn_gone_inv|]. destruct (conn_gone_misc oldc s) as (-> & -> & -> & _).
    destruct (conn_gone_att_spec oldc k s Hk Ha) as (s1 & o' & _ & _ & F & R).
    rewrite (unreg_res_online _ _ _ _ _ _ R), (fr_on _ _ F). proj.
    split; [|split; [|auto]].
    + rewrite Hcid. rewrite ahas_adel by apply (bi_nd_on _ _ HI). now rewrite str_eqb_refl.
    + unfold cv. rewrite (unreg_res_conns _ _ _ _ _ _ R). fold (cv s1 c).
      rewrite (cf_cv _ _ (frame_cframe _ _ F)), cv_upd_conn.
      destruct (c =? oldc); [reflexivity|exact Hc].
  - cbn [fst]. split; [exact HI|]. split; [now apply ahas_none|auto].
Qed.

Lemma cv_remove_session cid s c : cv (remove_session cid s) c = cv s c.
Proof. reflexivity. Qed.

Ltac fin := cbn [fst snd]; repeat match goal with |- _ /\ _ => split end; auto;
            try (intros; discriminate); try congruence.

Lemma hc_old_spec cid v5 cmax r0 c s :
  BInv s -> ahas cid (b_online s) = false -> cv s c = None ->
  let s2 := fst (fst (hc_old cid v5 cmax r0 s)) in
  BInv s2 /\ ahas cid (b_online s2) = false /\ cv s2 c = None /\
  b_cfg s2 = b_cfg s /\ b_now s2 = b_now s /\ b_hooks s2 = b_hooks s /\
  (snd (hc_old cid v5 cmax r0 s) = true -> ahas cid (b_queues s2) = true /\ ahas cid (b_unacks s2) = true).
Proof.
  intros HI Hon Hc. unfold hc_old. destruct (aget cid (b_sessions s)) as [se|] eqn:Es.
  - destruct r0.
    + destruct (aget cid (b_queues s)) as [q|] eqn:Eq; [|fin].
      destruct (aget cid (b_unacks s)) as [u|] eqn:Eu; [|fin].
      cbn [fst snd]. split; [|proj; fin; intros _; split].
      * eapply BInvG_frame; [|exact HI]. apply frame_set_tables; auto using kext_aset.
        apply NoDup_adel.
      * rewrite ahas_aset, str_eqb_refl. reflexivity.
      * eapply ahas_some; eauto.
    + cbv zeta.
      assert (HR : BInv (remove_session cid s)) by (apply BInvX_remove; now apply BInvX_of_offline).
      assert (Hon' : ahas cid (b_online (remove_session cid s)) = false).
      { proj. rewrite ahas_adel by apply (bi_nd_on _ _ HI). now rewrite str_eqb_refl. }
      destruct (aget cid (b_wills (remove_session cid s))) as [[w t]|]; cbn [fst snd].
      * split; [eapply BInvG_frame; [apply frame_wills_adel|exact HR]|]. fin.
      * fin.
  - fin.
Qed.

Lemma hc_fresh_frame cid v5 cmax cf resume s : wframe s (hc_fresh cid v5 cmax cf resume s).
Proof.
  unfold hc_fresh. destruct resume; [apply wframe_refl|].
  constructor; proj; auto using ksame_refl, kext_aset.
Qed.

Lemma hc_fresh_has cid v5 cmax cf resume s :
  (resume = true -> ahas cid (b_queues s) = true /\ ahas cid (b_unacks s) = true) ->
  ahas cid (b_queues (hc_fresh cid v5 cmax cf resume s)) = true /\
  ahas cid (b_unacks (hc_fresh cid v5 cmax cf resume s)) = true.
Proof.
  unfold hc_fresh. destruct resume; [auto|]. intros _. proj. now rewrite !ahas_aset, str_eqb_refl.
Qed.

Lemma hc_wills_quiet o_will s :
  frame s (fst (hc_wills o_will s)) /\ Forall isdrop (snd (hc_wills o_will s)).
Proof.
  unfold hc_wills.
  apply fold_quiet.
  intros s0 o0 cw. cbv beta iota. apply quiet_app; apply send_will_quiet.
Qed.

(* the first two stages under the invariant *)
Lemma hc_stages c cn s :
  BInv s -> cv s c = None ->
  let cid := hc_cid cn s in let s1 := fst (hc_dup cn s) in let s2 := fst (fst (hc_prev cn s)) in
  BInv s1 /\ ahas cid (b_online s1) = false /\
  BInv s2 /\ ahas cid (b_online s2) = false /\ cv s2 c = None /\
  b_cfg s2 = b_cfg s /\ b_now s2 = b_now s /\ b_hooks s2 = b_hooks s /\
  (snd (hc_prev cn s) = true -> ahas cid (b_queues s2) = true /\ ahas cid (b_unacks s2) = true).
Proof.
  intros HI Hc. cbv zeta. unfold hc_prev, hc_dup.
  pose proof (hc_auto_frame cn s) as F0.
  destruct (hc_takeover_spec (hc_cid cn s) c (hc_auto cn s)) as (HI1 & Hon1 & Hc1 & E1 & E2 & E3).
  { now apply hc_auto_inv. }
  { now rewrite (cf_cv _ _ (wframe_cframe _ _ F0)). }
  destruct (hc_old_spec (hc_cid cn s) (cn_ver cn =? 5) (hc_cmax cn)
              (hc_resume0 (hc_cid cn s) cn (fst (hc_takeover (hc_cid cn s) (hc_auto cn s)))) c _ HI1 Hon1 Hc1)
    as (HI2 & Hon2 & Hc2 & E4 & E5 & E6 & Hq2).
  rewrite E4, E5, E6, E1, E2, E3, (wf_cfg _ _ F0), (wf_now _ _ F0), (wf_hooks _ _ F0). auto 10.
Qed.

Lemma hc_accept_inv c cn s : BInv s -> cv s c = None -> BInv (fst (hc_accept c cn s)).
Proof.
  intros HI Hc. rewrite hc_accept_eq. cbn [fst]. eapply BInvG_frame; [apply hc_wills_quiet|].
  destruct (hc_stages c cn s HI Hc) as (_ & _ & HI2 & Hon2 & Hc2 & _ & _ & _ & Hq2).
  pose proof (hc_fresh_frame (hc_cid cn s) (cn_ver cn =? 5) (hc_cmax cn) (b_cfg s) _ _ : wframe _ (hc_new cn s)) as F3.
  destruct (hc_fresh_has (hc_cid cn s) (cn_ver cn =? 5) (hc_cmax cn) (b_cfg s) _ _ Hq2) as [Hq3 Hu3].
  unfold hc_reg, hc_register. apply BInvX_connect; auto.
  - apply BInvX_of_offline; [eapply BInvG_cframe; [apply wframe_cframe|]; eauto|]. now rewrite (wf_on _ _ F3).
  - now rewrite (cf_cv _ _ (wframe_cframe _ _ F3)).
  - apply hc_cid_ne.
Qed.

Lemma handle_connect_inv c cn s : BInv s -> cv s c = None -> BInv (fst (handle_connect c cn s)).
Proof.
  intros HI Hc. destruct (handle_connect_cases c cn s) as [(_ & k & code & Hk & _ & ->)|[_ ->]]; [|now apply hc_accept_inv].
  cbn [fst]. eapply BInvG_cframe; [|exact HI]. apply cframe_upd_conn. now rewrite Hc.
Qed.

Definition close_view (v : str * phase * bool) : str * phase * bool := (fst (fst v), PhClosed, snd v).

Lemma conn_gone_pv c s c' :
  pv (fst (conn_gone c s)) c' = if c' =? c then option_map close_view (pv s c) else pv s c'.
Proof.
  destruct (nget c (b_conns s)) as [k|] eqn:Hk.
  - destruct (attached (k_phase k)) eqn:Ha.
    + destruct (conn_gone_att_spec c k s Hk Ha) as (s1 & o' & _ & _ & F & R).
      unfold pv at 1. rewrite (unreg_res_conns _ _ _ _ _ _ R). fold (pv s1 c').
      rewrite (pv_frame _ _ c' F), pv_upd_conn. destruct (c' =? c); [|reflexivity].
      rewrite (pv_of _ _ _ Hk). reflexivity.
    + unfold conn_gone. rewrite Hk. destruct (k_phase k) eqn:Ep; try discriminate; cbn [fst];
        rewrite ?pv_upd_conn; destruct (N.eqb_spec c' c) as [->|E]; try reflexivity;
        rewrite (pv_of _ _ _ Hk); unfold kview; cbn [option_map close_view fst snd set_phase k_cid k_phase k_force_remove];
        rewrite ?Ep; reflexivity.
  - unfold conn_gone. rewrite Hk. cbn [fst]. destruct (N.eqb_spec c' c) as [->|E]; [|reflexivity].
    unfold pv. rewrite Hk. reflexivity.
Qed.

Lemma cv_of_pv s c :
  cv s c = match pv s c with Some (cid, ph, f) => if attached ph then Some (cid, f) else None | None => None end.
Proof. unfold cv, pv, cvk. destruct (nget c (b_conns s)); reflexivity. Qed.

Lemma conn_gone_cv_self c s : cv (fst (conn_gone c s)) c = None.
Proof.
  rewrite cv_of_pv, conn_gone_pv, N.eqb_refl. destruct (pv s c) as [[[cid ph] f]|]; reflexivity.
Qed.

Lemma conn_gone_cv_other c s c' : c' <> c -> cv (fst (conn_gone c s)) c' = cv s c'.
Proof.
  intros H. rewrite !cv_of_pv, conn_gone_pv. apply N.eqb_neq in H. now rewrite H.
Qed.

Lemma fail_conn_inv c code br s : BInv s -> BInv (fst (fail_conn c code br s)).
Proof.
  intros HI. destruct (fail_conn_cases c code br s) as [|k Hk Hp|k disc Hk Hp _]; cbn [fst].
  - exact HI.
  - eapply BInvG_cframe; [|exact HI]. apply cframe_upd_conn. unfold cv, cvk. rewrite Hk. cbn. now rewrite Hp.
  - now apply conn_gone_inv.
Qed.

Lemma cframe_set_time now rt s : cframe s (set_time now rt s).
Proof. constructor; proj; auto using ksame_refl, kext_refl. Qed.

Lemma BInv_remove_offline cid s : BInv s -> ahas cid (b_online s) = false -> BInv (remove_session cid s).
Proof. intros HI H. apply BInvX_remove. now apply BInvX_of_offline. Qed.

Lemma BInvG_set_force c k s :
  BInv s -> nget c (b_conns s) = Some k -> attached (k_phase k) = true ->
  BInvG (Some (k_cid k)) (upd_conn c (set_force k) s).
Proof.
  intros HI Hk Ha.
  assert (Hc : cv s c = Some (k_cid k, k_force_remove k)) by (apply cv_some; now exists k).
  assert (Hc' : cvk (set_force k) = Some (k_cid k, true)) by (unfold cvk; cbn [set_force k_phase]; now rewrite Ha).
  pose proof (BInvG_weaken (Some (k_cid k)) s HI) as [].
  constructor; proj; auto using NoDup_nset.
  - intros cid' c' H1 H2. destruct (bi_on0 cid' c' H1 H2) as [f' Hf']. exists f'. rewrite cv_upd_conn.
    destruct (N.eqb_spec c' c) as [->|E]; [congruence|exact Hf'].
  - intros c' cid' f'. rewrite cv_upd_conn. destruct (N.eqb_spec c' c) as [->|E]; [|apply bi_conn0].
    rewrite Hc'. intros [= <- <-]. eapply bi_conn0, Hc.
  - intros c' cid' f'. rewrite cv_upd_conn. destruct (c' =? c); [|apply bi_force0].
    rewrite Hc'. intros [= E _] H. now rewrite E in H.
Qed.

Lemma send_unconnected_inv c k p s :
  BInv s -> nget c (b_conns s) = Some k -> BInv (fst (send_unconnected c k p s)).
Proof.
  intros HI Hk. destruct (send_unconnected_cases c k p s) as [|Hp|Hp|_]; cbn [fst].
  - exact HI.
  - eapply BInvG_cframe; [|exact HI]. apply cframe_upd_conn. unfold cv, cvk. rewrite Hk. cbn. now rewrite Hp.
  - eapply BInvG_frame; [|exact HI]. eapply frame_upd_conn_k; [exact Hk|reflexivity].
  - now apply conn_gone_inv.
Qed.

Definition overdue (s : st) : list (str * N) := filter (fun cd => snd cd <? b_now s) (b_offline s).
Definition expire_sessions (s : st) : st := fold_left (fun s0 cd => remove_session (fst cd) s0) (overdue s) s.
Definition sends (e : event) (c : N) (p : pkt) : Prop := e = ESend c p \/ exists n, e = ESendSz c p n.

(* the sessions removed by EExpireCheck are offline ones: what the removal of an offline session keeps, the sweep keeps *)
Lemma expire_sessions_keeps (P : st -> Prop) s :
  (forall cid a, BInv a -> ahas cid (b_online a) = false -> cid <> [] -> P a -> P (remove_session cid a)) ->
  BInv s -> P s -> BInv (expire_sessions s) /\ P (expire_sessions s).
Proof.
  intros Hrm HI HP.
  assert (Hov : forall cd, In cd (overdue s) -> ahas (fst cd) (b_online s) = false /\ fst cd <> []).
  { intros [cid dl] Hin. apply filter_In in Hin as [Hin _]. cbn [fst].
    assert (Hoff : ahas cid (b_offline s) = true) by (apply ahas_in_keys, in_map_iff; now exists (cid, dl)). split.
    - destruct (ahas cid (b_online s)) eqn:E; [|reflexivity]. apply (bi_disj _ _ HI) in E. congruence.
    - apply (bi_ne _ _ HI), (bi_has _ _ HI). rewrite Hoff. apply orb_true_r. }
  enough (H : BInv (expire_sessions s) /\ P (expire_sessions s) /\
              forall cid, ahas cid (b_online s) = false -> ahas cid (b_online (expire_sessions s)) = false) by tauto.
  apply (fold_left_In_inv (fun a => BInv a /\ P a /\
           forall cid, ahas cid (b_online s) = false -> ahas cid (b_online a) = false)); [|auto].
  intros a cd Hin (Ha & Pa & Hm). destruct (Hov cd Hin) as [Hon Hne]. apply Hm in Hon.
  split; [now apply BInv_remove_offline|]. split; [now apply Hrm|].
  intros cid H. proj. rewrite ahas_adel by apply (bi_nd_on _ _ Ha). rewrite (Hm cid H). apply andb_false_r.
Qed.

(* The shape of step_event, for every fact that is proved by walking it.  `R a r` reads: from state a, the result r
   (a state with the outputs produced on the way) is acceptable.  R is closed under the step from s on event e when
   it is closed under sequencing and under dropping outputs, relates s to what step_event applies to s first, and
   every state to what may be applied to a later one; then it relates s to step_event s e.  A field names the event
   where the fact may depend on it.  G is what may be assumed of the state a primitive is applied to. *)
Record step_closed_under (G : st -> Prop) (R : st -> st * list out -> Prop) (s : st) (e : event) : Prop := {
  cs_refl : forall a, R a (a, []);
  cs_seq : forall a r1 r2, R a r1 -> R (fst r1) r2 -> R a (fst r2, snd r1 ++ snd r2);
  cs_filter : forall g a r, R a r -> R a (fst r, filter g (snd r));
  cs_conn_gone : forall c a, G a -> R a (conn_gone c a);
  cs_connect : forall c cn, e = EConnect c cn -> G (fst (conn_gone c s)) ->
    R (fst (conn_gone c s)) (handle_connect c cn (fst (conn_gone c s)));
  cs_open : forall c, e = EOpen c -> G (fst (conn_gone c s)) ->
    R (fst (conn_gone c s)) (upd_conn c (fresh_conn [] 0) (fst (conn_gone c s)), []);
  cs_packet : forall c p k, sends e c p -> nget c (b_conns s) = Some k -> k_phase k = PhConnected -> G s ->
    R s (hres_st (handle_packet c k p s), hres_out (handle_packet c k p s));
  cs_fail : forall c p code br a, sends e c p -> G a -> R a (fail_conn c code br a);
  cs_unconnected : forall c p k, sends e c p -> nget c (b_conns s) = Some k -> k_phase k <> PhConnected -> G s ->
    R s (send_unconnected c k p s);
  cs_quota : forall c p k q, sends e c p -> nget c (b_conns s) = Some k -> k_phase k = PhConnected -> G s ->
    R s (upd_conn c (set_quota q k) s, []);
  cs_deliver : forall m, e = EApiPublish m -> G s -> R s (fst (deliver [] m s));
  cs_terminate : forall cid c k, e = ETerminate cid ->
    aget cid (b_online s) = Some c -> nget c (b_conns s) = Some k -> G s ->
    R s (conn_gone c (upd_conn c (set_force k) s));
  cs_remove : forall cid, e = ETerminate cid ->
    aget cid (b_online s) = None -> ahas cid (b_offline s) = true -> G s -> R s (remove_session cid s, []);
  cs_release : forall cid a, G a -> R a (release_will cid a);
  cs_time : forall now rt, G s -> R s (set_time now rt s, []);
  cs_expire : G s -> R s (expire_sessions s, []);
  cs_fire : forall a, G a -> R a (fire_wills a) }.

Theorem step_event_preserves R s e : step_closed_under (fun _ => True) R s e -> R s (step_event s e).
Proof.
  intros [R_refl R_seq R_filter R_conn_gone R_connect R_open R_packet R_fail R_unconnected R_quota R_deliver
            R_terminate R_remove R_release R_time R_expire R_fire].
  assert (HSend : forall c p, sends e c p -> R s (step_event s (ESend c p))).
  { intros c p He. cbn [step_event]. destruct (nget c (b_conns s)) as [k|] eqn:Hk; [|apply R_refl].
    destruct (k_phase k) eqn:Ep; try (apply (R_unconnected c p k He Hk); [congruence|exact I]).
    pose proof (R_packet c p k He Hk Ep I) as H.
    destruct (handle_packet c k p s) as [s' o|s' o code|s' code]; cbn [hres_st hres_out] in H; [exact H|..].
    - pose proof (R_seq _ _ _ H (R_fail c p code false s' He I)) as H1.
      destruct (fail_conn c code false s'). exact H1.
    - pose proof (R_seq _ _ _ H (R_fail c p code true s' He I)) as H1.
      destruct (fail_conn c code true s'). exact H1. }
  destruct e as [c cn|c|c p|c p n|c|m|cid|ms| |ms|].
  - pose proof (R_seq _ _ _ (R_filter (fun x => match x with OClose c' => negb (c' =? c) | _ => true end) _ _
                                (R_conn_gone c s I)) (R_connect c cn eq_refl I)) as H.
    cbn [step_event]. destruct (conn_gone c s) as [s0 o0]. cbn [fst snd] in H.
    destruct (handle_connect c cn s0). exact H.
  - pose proof (R_seq _ _ _ (R_conn_gone c s I) (R_open c eq_refl I)) as H.
    cbn [step_event]. destruct (conn_gone c s) as [s0 o0]. cbn [fst snd] in H. now rewrite app_nil_r in H.
  - apply HSend. now left.
  - assert (He : sends (ESendSz c p n) c p) by (right; now exists n).
    destruct (step_event_sz s c p n) as [E|(k & Hk & Hp & _ & [[code E]|[E|[q E]]])]; rewrite E.
    + now apply HSend.
    + now apply (R_fail c p).
    + now apply (R_fail c p).
    + pose proof (R_seq _ _ _ (R_quota c p k q He Hk Hp I) (R_fail c p (Some 149) false _ He I)) as H.
      cbn [fst snd app] in H. destruct (fail_conn c (Some 149) false _). exact H.
  - pose proof (R_filter (fun x => match x with OClose _ => false | _ => true end) _ _ (R_conn_gone c s I)) as H.
    cbn [step_event]. destruct (conn_gone c s) as [s0 o0]. exact H.
  - pose proof (R_deliver m eq_refl I) as H. cbn [step_event]. destruct (deliver [] m s) as [[s' o] b]. exact H.
  - cbn [step_event]. destruct (aget cid (b_online s)) as [c|] eqn:Eo.
    + destruct (nget c (b_conns s)) as [k|] eqn:Hk; [now apply (R_terminate cid)|apply R_refl].
    + destruct (ahas cid (b_offline s)) eqn:Ef; [|apply R_refl].
      pose proof (R_seq _ _ _ (R_remove cid eq_refl Eo Ef I) (R_release cid _ I)) as H. cbn [fst snd app] in H.
      destruct (release_will cid (remove_session cid s)). exact H.
  - now apply R_time.
  - cbn [step_event]. fold (overdue s). fold (expire_sessions s).
    apply (fold_rel (fun b b' => R s b -> R s b')); [auto|auto| |exact (R_expire I)].
    intros [s0 o0] cd H. pose proof (R_seq _ _ _ H (R_release (fst cd) s0 I)) as H1. cbn [fst snd] in H1.
    destruct (release_will (fst cd) s0). exact H1.
  - cbn [step_event]. set (s0 := set_time (b_now s + ms) (b_rt s + ms) s).
    match goal with |- context [fold_left ?f (b_conns s0) (s0, [])] => assert (H : R s (fold_left f (b_conns s0) (s0, []))) end.
    { apply (fold_rel (fun b b' => R s b -> R s b')); [auto|auto| |now apply R_time].
      intros [sa oa] ck H. destruct (k_phase (snd ck)); try exact H;
        (destruct (_ && _); [|exact H]); pose proof (R_seq _ _ _ H (R_conn_gone (fst ck) sa I)) as H1;
        cbn [fst snd] in H1; destruct (conn_gone (fst ck) sa); exact H1. }
    destruct (fold_left _ (b_conns s0) (s0, [])) as [s1 o1].
    pose proof (R_seq _ _ _ H (R_fire s1 I)) as H1. cbn [fst snd] in H1. destruct (fire_wills s1). exact H1.
  - apply R_refl.
Qed.

(* the same under an invariant G of the state that the step itself maintains *)
Theorem step_event_preserves_under (G : st -> Prop) R s e :
  step_closed_under (fun _ => True) (fun a r => G a -> G (fst r)) s e -> step_closed_under G R s e ->
  G s -> R s (step_event s e).
Proof.
  intros HG HR H0. apply (step_event_preserves (fun a r => G a -> G (fst r) /\ R a r)); [|exact H0].
  destruct HG as [G_refl G_seq G_filter G_conn_gone G_connect G_open G_packet G_fail G_unconnected G_quota G_deliver
                    G_terminate G_remove G_release G_time G_expire G_fire].
  destruct HR as [R_refl R_seq R_filter R_conn_gone R_connect R_open R_packet R_fail R_unconnected R_quota R_deliver
                    R_terminate R_remove R_release R_time R_expire R_fire].
  constructor; auto 6.
  - intros a r1 r2 H1 H2 Ha. destruct (H1 Ha) as [A B]. destruct (H2 A) as [C D]. split; [exact C|now apply R_seq].
  - intros g a r H1 Ha. destruct (H1 Ha) as [A B]. split; [exact A|now apply R_filter].
  - intros c p code br a He _ Ha. split; [now apply (G_fail c p)|now apply (R_fail c p)].
  - intros c p k q He Hk Hp _ Ha. split; [now apply (G_quota c p k q)|now apply (R_quota c p)].
  - intros cid c k Ee Eo Hk _ Ha. split; [now apply (G_terminate cid)|now apply (R_terminate cid)].
Qed.

(* ... and for a whole step, given the poll loops *)
Theorem step_preserves R s e :
  step_closed_under (fun _ => True) R s e -> (forall a, R a (poll_all a)) -> R s (step s e).
Proof.
  intros HR Hpoll. pose proof (step_event_preserves R s e HR) as H0.
  unfold step. destruct (step_event s e) as [s1 o1].
  pose proof (cs_seq _ _ _ _ HR _ _ _ H0 (Hpoll s1)) as H. cbn [fst snd] in H. destruct (poll_all s1). exact H.
Qed.

Lemma BInv_step_closed s e : step_closed_under (fun _ => True) (fun a r => BInv a -> BInv (fst r)) s e.
Proof.
  constructor; cbn [fst]; auto.
  - intros c a _. apply conn_gone_inv.
  - intros c cn _ _ HI. apply handle_connect_inv; [exact HI|apply conn_gone_cv_self].
  - intros c _ _ HI. eapply BInvG_cframe; [|exact HI]. apply cframe_upd_conn. now rewrite conn_gone_cv_self.
  - intros c p k _ Hk _ _. apply BInvG_cframe, wframe_cframe, handle_packet_frame, Hk.
  - intros c p code br a _ _. apply fail_conn_inv.
  - intros c p k _ Hk _ _ HI. now apply send_unconnected_inv.
  - intros c p k q _ Hk _ _. apply BInvG_frame. eapply frame_upd_conn_k; [exact Hk|reflexivity].
  - intros m _ _. apply BInvG_frame, deliver_quiet.
  - intros cid c k _ Eo Hk _ HI. destruct (bi_on _ _ HI cid c Eo) as [f Hf]; [discriminate|].
    apply cv_some in Hf as (k0 & Hk0 & Hcid & Ha & _). rewrite Hk in Hk0. injection Hk0 as <-.
    apply (conn_gone_inv_att c (set_force k)); [proj; apply nget_nset_same|exact Ha|].
    change (k_cid (set_force k)) with (k_cid k). now apply BInvG_set_force.
  - intros cid _ Eo _ _ HI. apply BInv_remove_offline; [exact HI|now apply ahas_none].
  - intros cid a _. apply BInvG_frame, release_will_quiet.
  - intros now rt _. apply BInvG_cframe, cframe_set_time.
  - intros _ HI. now apply (expire_sessions_keeps (fun _ => True)).
  - intros a _. apply BInvG_frame, fire_wills_quiet.
Qed.

Lemma step_event_inv s e : BInv s -> BInv (fst (step_event s e)).
Proof. exact (step_event_preserves _ s e (BInv_step_closed s e)). Qed.

Lemma step_frame_poll s e : frame (fst (step_event s e)) (fst (step s e)).
Proof.
  unfold step. destruct (step_event s e) as [s1 o1]. destruct (poll_all_frame s1) as [F _].
  destruct (poll_all s1) as [s2 o2]. exact F.
Qed.

Theorem step_inv s e : BInv s -> BInv (fst (step s e)).
Proof. intros HI. eapply BInvG_frame; [apply step_frame_poll|]. now apply step_event_inv. Qed.

Theorem run_inv es : forall s, BInv s -> BInv (fst (run s es)).
Proof. apply run_invariant. intros s e. apply step_inv. Qed.

Theorem reachable_inv c h p es : BInv (fst (run (st_init c h p) es)).
Proof. apply run_inv, BInv_init. Qed.

(* the configuration and the hooks never change: no invariant is needed for that *)
Definition same_env (a : st) (r : st * list out) : Prop :=
  b_cfg (fst r) = b_cfg a /\ b_hooks (fst r) = b_hooks a.

Lemma wframe_env a r : wframe a (fst r) -> same_env a r.
Proof. intros F. split; [apply (wf_cfg _ _ F)|apply (wf_hooks _ _ F)]. Qed.

Lemma frame_env a r : frame a (fst r) -> same_env a r.
Proof. intros F. now apply wframe_env, frame_wframe. Qed.

Lemma same_env_trans a r1 r2 : same_env a r1 -> same_env (fst r1) r2 -> same_env a (fst r2, snd r1 ++ snd r2).
Proof. unfold same_env. cbn [fst]. intros [A B] [C D]. split; congruence. Qed.

Lemma conn_gone_env c s : same_env s (conn_gone c s).
Proof. destruct (conn_gone_misc c s) as (A & B & _). now split. Qed.

Lemma hc_old_env cid v5 cmax r0 s : same_env s (fst (fst (hc_old cid v5 cmax r0 s)), []).
Proof.
  unfold hc_old. destruct (aget cid (b_sessions s)); [|now split]. destruct r0.
  - destruct (aget cid (b_queues s)); [|now split]. destruct (aget cid (b_unacks s)); now split.
  - cbv zeta. destruct (aget cid (b_wills (remove_session cid s))) as [[w t]|]; now split.
Qed.

Lemma handle_connect_env c cn s : same_env s (handle_connect c cn s).
Proof.
  destruct (handle_connect_cases c cn s) as [(_ & k & code & _ & _ & ->)|[_ ->]]; [now split|].
  rewrite hc_accept_eq. destruct (hc_wills_quiet (snd (fst (hc_prev cn s))) (hc_reg c cn s)) as [F5 _].
  destruct (frame_env _ (_, []) F5) as [A B]. unfold same_env. cbn [fst] in *. rewrite A, B.
  unfold hc_reg, hc_register. proj.
  destruct (wframe_env _ (_, []) (hc_fresh_frame (hc_cid cn s) (cn_ver cn =? 5) (hc_cmax cn) (b_cfg s)
              (snd (hc_prev cn s)) (fst (fst (hc_prev cn s))))) as [A3 B3].
  destruct (hc_old_env (hc_cid cn s) (cn_ver cn =? 5) (hc_cmax cn) (hc_resume0 (hc_cid cn s) cn (fst (hc_dup cn s)))
              (fst (hc_dup cn s))) as [A2 B2].
  destruct (wframe_env _ (_, []) (hc_auto_frame cn s)) as [A0 B0].
  assert (H1 : same_env (hc_auto cn s) (hc_dup cn s)).
  { unfold hc_dup, hc_takeover. destruct (aget _ _); [apply conn_gone_env|now split]. }
  destruct H1 as [A1 B1]. unfold hc_new, hc_prev in *. cbn [fst] in *. split; congruence.
Qed.

Lemma fail_conn_env c code br s : same_env s (fail_conn c code br s).
Proof. destruct (fail_conn_cases c code br s); try now split. apply conn_gone_env. Qed.

Lemma send_unconnected_env c k p s : same_env s (send_unconnected c k p s).
Proof. destruct (send_unconnected_cases c k p s); try now split. apply conn_gone_env. Qed.

Theorem step_cfg_hooks s e : b_cfg (fst (step s e)) = b_cfg s /\ b_hooks (fst (step s e)) = b_hooks s.
Proof.
  apply (step_preserves same_env); [constructor|].
  - intros a. now split.
  - exact same_env_trans.
  - intros g a r H. exact H.
  - intros c a _. apply conn_gone_env.
  - intros c cn _ _. apply handle_connect_env.
  - intros c _ _. now split.
  - intros c p k _ Hk _ _. apply wframe_env. now apply handle_packet_frame.
  - intros c p code br a _ _. apply fail_conn_env.
  - intros c p k _ _ _ _. apply send_unconnected_env.
  - intros c p k q _ _ _ _. now split.
  - intros m _ _. apply frame_env, deliver_quiet.
  - intros cid c k _ _ _ _. apply (conn_gone_env c (upd_conn c (set_force k) s)).
  - intros cid _ _ _ _. now split.
  - intros cid a _. apply frame_env, release_will_quiet.
  - intros now rt _. now split.
  - intros _. unfold expire_sessions. apply (fold_left_inv (fun a => same_env s (a, []))); [|now split].
    intros a cd H. exact H.
  - intros a _. apply frame_env, fire_wills_quiet.
  - intros a. apply frame_env, poll_all_frame.
Qed.

Theorem run_cfg_hooks es s : b_cfg (fst (run s es)) = b_cfg s /\ b_hooks (fst (run s es)) = b_hooks s.
Proof.
  apply (run_invariant (fun a => b_cfg a = b_cfg s /\ b_hooks a = b_hooks s)); [|now split].
  intros a e [A B]. destruct (step_cfg_hooks a e) as [C D]. split; congruence.
Qed.

(* C05: one connection per client id *)
Theorem one_connection s c1 c2 k1 k2 :
  BInv s -> nget c1 (b_conns s) = Some k1 -> nget c2 (b_conns s) = Some k2 ->
  attached (k_phase k1) = true -> attached (k_phase k2) = true -> k_cid k1 = k_cid k2 -> c1 = c2.
Proof.
  intros HI H1 H2 A1 A2 E.
  assert (V1 : cv s c1 = Some (k_cid k1, k_force_remove k1)) by (apply cv_some; now exists k1).
  assert (V2 : cv s c2 = Some (k_cid k2, k_force_remove k2)) by (apply cv_some; now exists k2).
  apply (bi_conn _ _ HI) in V1, V2. congruence.
Qed.

(* the readable form of the invariant *)
Lemma BInv_online_attached s cid c :
  BInv s -> aget cid (b_online s) = Some c ->
  exists k, nget c (b_conns s) = Some k /\ k_cid k = cid /\ attached (k_phase k) = true /\ k_force_remove k = false.
Proof.
  intros HI H. destruct (bi_on _ _ HI cid c H) as [f Hf]; [discriminate|].
  pose proof (bi_force _ _ HI c cid f Hf) as E. rewrite E in Hf by discriminate. now apply cv_some in Hf.
Qed.

Lemma BInv_attached_online s c k :
  BInv s -> nget c (b_conns s) = Some k -> attached (k_phase k) = true -> aget (k_cid k) (b_online s) = Some c.
Proof.
  intros HI Hk Ha. apply (bi_conn _ _ HI c (k_cid k) (k_force_remove k)). apply cv_some. now exists k.
Qed.

Definition nosend (x : out) : Prop := match x with OSend _ _ => False | _ => True end.
Definition sendto (c : N) (x : out) : Prop := match x with OSend c' _ => c' = c | _ => True end.

Lemma isdrop_nosend o : Forall isdrop o -> Forall nosend o.
Proof. apply Forall_impl. intros [c' p|c'|cid m r]; cbn; auto. Qed.
Lemma nosend_sendto c o : Forall nosend o -> Forall (sendto c) o.
Proof. apply Forall_impl. intros [c' p|c'|cid m r]; cbn; auto. intros []. Qed.
Lemma okout_sendto c o : Forall (okout c) o -> Forall (sendto c) o.
Proof. apply Forall_impl. intros [c' p|c'|cid m r]; cbn; auto. Qed.
Lemma nosend_not_in o c p : Forall nosend o -> ~ In (OSend c p) o.
Proof. intros H Hin. rewrite Forall_forall in H. apply (H _ Hin). Qed.
Lemma sendto_in o c c' p : Forall (sendto c) o -> In (OSend c' p) o -> c' = c.
Proof. intros H Hin. rewrite Forall_forall in H. apply (H _ Hin). Qed.

Lemma conn_gone_nosend c s : Forall nosend (snd (conn_gone c s)).
Proof.
  destruct (cv s c) as [[cid f]|] eqn:Ec.
  - apply cv_some in Ec as (k & Hk & _ & Ha & _).
    destruct (conn_gone_att_spec c k s Hk Ha) as (s1 & o' & E & D & _). rewrite E. cbn [snd].
    constructor; [exact I|now apply isdrop_nosend].
  - destruct (conn_gone_unatt c s Ec) as [->|(k & Hk & ->)]; cbn [snd]; repeat constructor.
Qed.

Lemma fail_conn_sends c code br s :
  Forall (sendto c) (snd (fail_conn c code br s)) /\
  (forall c' p, In (OSend c' p) (snd (fail_conn c code br s)) ->
                exists k, nget c (b_conns s) = Some k /\ k_phase k = PhConnected).
Proof.
  destruct (fail_conn_cases c code br s) as [|k Hk Hp|k disc Hk Hp Hd]; cbn [snd].
  - split; [constructor|intros c' p []].
  - split; [constructor|intros c' p []].
  - split; [|intros c' p _; now exists k]. apply Forall_app. split; [|apply nosend_sendto, conn_gone_nosend].
    destruct Hd as [->|[cd ->]]; repeat constructor.
Qed.

Lemma hc_takeover_nosend cid s : Forall nosend (snd (hc_takeover cid s)).
Proof. unfold hc_takeover. destruct (aget cid (b_online s)); [apply conn_gone_nosend|constructor]. Qed.

Lemma handle_connect_sendto c cn s : Forall (sendto c) (snd (handle_connect c cn s)).
Proof.
  destruct (handle_connect_cases c cn s) as [(_ & k & code & _ & _ & ->)|[_ ->]]; [repeat constructor|].
  rewrite hc_accept_eq. cbn [snd]. apply Forall_app. split; [apply nosend_sendto, hc_takeover_nosend|].
  constructor; [reflexivity|]. apply nosend_sendto, isdrop_nosend, hc_wills_quiet.
Qed.

Definition phase_at (s : st) (c : N) : option phase := option_map k_phase (nget c (b_conns s)).
Definition closed_at (s : st) (c : N) : Prop := phase_at s c = Some PhClosed.

Lemma phase_at_pv s c : phase_at s c = option_map (fun v => snd (fst v)) (pv s c).
Proof. unfold phase_at, pv. destruct (nget c (b_conns s)); reflexivity. Qed.

Lemma phase_pv s s' c : pv s' c = pv s c -> phase_at s' c = phase_at s c.
Proof. intros H. now rewrite !phase_at_pv, H. Qed.

Lemma closed_frame s s' c : frame s s' -> closed_at s c -> closed_at s' c.
Proof. intros F. unfold closed_at. now rewrite (phase_pv _ _ c (pv_frame _ _ c F)). Qed.

Lemma closed_wframe s s' c : wframe s s' -> closed_at s c -> closed_at s' c.
Proof. intros F. unfold closed_at. now rewrite (phase_pv _ _ c (wf_pv _ _ F c)). Qed.

Lemma closed_phase s c k : closed_at s c -> nget c (b_conns s) = Some k -> k_phase k = PhClosed.
Proof. unfold closed_at, phase_at. intros H Hk. rewrite Hk in H. now injection H. Qed.

Lemma closed_not_att s c : closed_at s c -> ~ att s c.
Proof. intros H (k & Hk & Ha). now rewrite (closed_phase _ _ _ H Hk) in Ha. Qed.

Lemma phase_upd_conn c' c k s : phase_at (upd_conn c k s) c' = if c' =? c then Some (k_phase k) else phase_at s c'.
Proof. unfold phase_at. proj. rewrite nget_nset. destruct (c' =? c); reflexivity. Qed.

Lemma closed_upd_other c' c k s : c' <> c -> closed_at s c' -> closed_at (upd_conn c k s) c'.
Proof. intros H. unfold closed_at. rewrite phase_upd_conn. apply N.eqb_neq in H. now rewrite H. Qed.

Lemma conn_gone_closed c s c0 : closed_at s c0 -> closed_at (fst (conn_gone c s)) c0.
Proof.
  unfold closed_at. rewrite !phase_at_pv, conn_gone_pv. destruct (N.eqb_spec c0 c) as [->|E]; [|auto].
  destruct (pv s c) as [[[cid ph] f]|]; cbn; [reflexivity|discriminate].
Qed.

Lemma fail_conn_closed c code br s c0 : closed_at s c0 -> closed_at (fst (fail_conn c code br s)) c0.
Proof.
  intros H. destruct (fail_conn_cases c code br s) as [|k Hk Hp|k disc Hk Hp _]; cbn [fst].
  - exact H.
  - apply closed_upd_other; [|exact H]. intros ->. now rewrite (closed_phase _ _ _ H Hk) in Hp.
  - now apply conn_gone_closed.
Qed.

Lemma hc_old_pv cid v5 cmax r0 s c : pv (fst (fst (hc_old cid v5 cmax r0 s))) c = pv s c.
Proof.
  unfold hc_old. destruct (aget cid (b_sessions s)); [|reflexivity]. destruct r0.
  - destruct (aget cid (b_queues s)); [|reflexivity]. destruct (aget cid (b_unacks s)); reflexivity.
  - cbv zeta. destruct (aget cid (b_wills (remove_session cid s))) as [[w t]|]; reflexivity.
Qed.

Lemma hc_takeover_closed cid s c0 : closed_at s c0 -> closed_at (fst (hc_takeover cid s)) c0.
Proof. unfold hc_takeover. destruct (aget cid (b_online s)); [apply conn_gone_closed|auto]. Qed.

(* the sockets other than c, from the take-over on *)
Lemma hc_accept_pv_other c cn s c' :
  c' <> c -> pv (fst (hc_accept c cn s)) c' = pv (fst (hc_takeover (hc_cid cn s) (hc_auto cn s))) c'.
Proof.
  intros Hne. rewrite hc_accept_eq. cbn [fst]. rewrite (pv_frame _ _ c' (proj1 (hc_wills_quiet _ _))).
  unfold hc_reg, hc_register. change (pv (set_tables ?a ?b ?d ?e ?f ?g ?S) c') with (pv S c'). rewrite pv_upd_conn.
  apply N.eqb_neq in Hne. rewrite Hne. unfold hc_new. rewrite (wf_pv _ _ (hc_fresh_frame _ _ _ _ _ _) c').
  apply hc_old_pv.
Qed.

Lemma handle_connect_closed c cn s c0 : c0 <> c -> closed_at s c0 -> closed_at (fst (handle_connect c cn s)) c0.
Proof.
  intros Hne H. destruct (handle_connect_cases c cn s) as [(_ & k & code & _ & _ & ->)|[_ ->]]; [now apply closed_upd_other|].
  unfold closed_at. rewrite (phase_pv _ _ c0 (hc_accept_pv_other c cn s c0 Hne)).
  apply hc_takeover_closed. eapply closed_wframe; [apply hc_auto_frame|exact H].
Qed.

Definition reopens (c0 : N) (e : event) : bool :=
  match e with EConnect c _ => c =? c0 | EOpen c => c =? c0 | _ => false end.

(* rewriting the record of a socket keeps every socket's phase when it keeps this one's *)
Lemma closed_upd_same c k k' s c0 :
  nget c (b_conns s) = Some k -> k_phase k' = k_phase k -> closed_at s c0 -> closed_at (upd_conn c k' s) c0.
Proof.
  intros Hk E. unfold closed_at. rewrite phase_upd_conn. destruct (N.eqb_spec c0 c) as [->|_]; [|auto].
  unfold phase_at. rewrite Hk. cbn [option_map]. now rewrite E.
Qed.

Lemma step_outputs s e :
  snd (step s e) = snd (step_event s e) ++ snd (poll_all (fst (step_event s e))).
Proof. unfold step. destruct (step_event s e) as [s1 o1]. cbn [fst snd]. destruct (poll_all s1) as [s2 o2]. reflexivity. Qed.

Lemma poll_all_not_att s c p : ~ att s c -> ~ In (OSend c p) (snd (poll_all s)).
Proof.
  intros Hn Hin. destruct (poll_all_frame s) as [_ H]. rewrite Forall_forall in H. apply H in Hin. exact (Hn Hin).
Qed.

(* socket c0, closed before, is closed after and was written nothing *)
Definition closed_silent (c0 : N) (a : st) (r : st * list out) : Prop :=
  closed_at a c0 -> closed_at (fst r) c0 /\ forall p, ~ In (OSend c0 p) (snd r).

Lemma send_unconnected_closed c k p s c0 :
  nget c (b_conns s) = Some k -> closed_silent c0 s (send_unconnected c k p s).
Proof.
  intros Hk H.
  assert (Hne : k_phase k <> PhClosed -> c0 <> c).
  { intros Hp ->. now rewrite (closed_phase _ _ _ H Hk) in Hp. }
  destruct (send_unconnected_cases c k p s) as [|Hp|Hp|_]; cbn [fst snd].
  - split; [assumption|intros p' []].
  - split; [apply closed_upd_other; [apply Hne; congruence|exact H]|].
    intros p' [E|[]]. injection E as E _. apply Hne; [congruence|now symmetry].
  - split; [apply closed_upd_other; [apply Hne; congruence|exact H]|intros p' []].
  - split; [now apply conn_gone_closed|]. intros p'. apply nosend_not_in, conn_gone_nosend.
Qed.

Theorem step_closed_silent s e c0 : reopens c0 e = false -> closed_silent c0 s (step s e).
Proof.
  intros Hre. apply step_preserves; [constructor|]; unfold closed_silent; cbn [fst snd].
  - intros a H. split; [exact H|intros p []].
  - intros a r1 r2 H1 H2 H. destruct (H1 H) as [A B]. destruct (H2 A) as [C D]. split; [exact C|].
    intros p Hin. apply in_app_or in Hin as [Hin|Hin]; [exact (B p Hin)|exact (D p Hin)].
  - intros g a r H1 H. destruct (H1 H) as [A B]. split; [exact A|].
    intros p Hin. apply filter_In in Hin as [Hin _]. exact (B p Hin).
  - intros c a _ H. split; [now apply conn_gone_closed|]. intros p. apply nosend_not_in, conn_gone_nosend.
  - intros c cn -> _ H. cbn in Hre. apply N.eqb_neq in Hre. split; [apply handle_connect_closed; congruence|].
    intros p Hin. apply (sendto_in _ _ _ _ (handle_connect_sendto c cn _)) in Hin. congruence.
  - intros c -> _ H. cbn in Hre. apply N.eqb_neq in Hre. split; [apply closed_upd_other; congruence|intros p []].
  - intros c p k _ Hk Hp _ H. destruct (handle_packet_frame c k p s Hk) as [F Ho].
    split; [eapply closed_wframe; eauto|]. intros p' Hin.
    apply (sendto_in _ c) in Hin; [|apply okout_sendto, Ho]. subst c0. now rewrite (closed_phase _ _ _ H Hk) in Hp.
  - intros c p code br a _ _ H. split; [now apply fail_conn_closed|]. intros p' Hin.
    destruct (fail_conn_sends c code br a) as [Hf Hc]. pose proof (sendto_in _ _ _ _ Hf Hin) as ->.
    destruct (Hc _ _ Hin) as (k & Hk & Hp). now rewrite (closed_phase _ _ _ H Hk) in Hp.
  - intros c p k _ Hk _ _. now apply send_unconnected_closed.
  - intros c p k q _ Hk _ _ H. split; [now apply (closed_upd_same c k)|intros p' []].
  - intros m _ _ H. destruct (deliver_quiet [] m s) as [F D]. split; [eapply closed_frame; eauto|].
    intros p. now apply nosend_not_in, isdrop_nosend.
  - intros cid c k _ _ Hk _ H. split; [apply conn_gone_closed; now apply (closed_upd_same c k)|].
    intros p. apply nosend_not_in, conn_gone_nosend.
  - intros cid _ _ _ _ H. split; [exact H|intros p []].
  - intros cid a _ H. destruct (release_will_quiet cid a) as [F D]. split; [eapply closed_frame; eauto|].
    intros p. now apply nosend_not_in, isdrop_nosend.
  - intros now rt _ H. split; [exact H|intros p []].
  - intros _ H. split; [|intros p []]. revert H. apply (fold_left_inv (fun a => closed_at a c0)). auto.
  - intros a _ H. destruct (fire_wills_quiet a) as [F D]. split; [eapply closed_frame; eauto|].
    intros p. now apply nosend_not_in, isdrop_nosend.
  - intros a H. destruct (poll_all_frame a) as [F _]. split; [eapply closed_frame; eauto|].
    intros p. now apply poll_all_not_att, closed_not_att.
Qed.

Theorem step_closed s e c0 : reopens c0 e = false -> closed_at s c0 -> closed_at (fst (step s e)) c0.
Proof. intros Hre H. now apply step_closed_silent. Qed.

Theorem nothing_to_closed_step s e c0 p :
  reopens c0 e = false -> closed_at s c0 -> ~ In (OSend c0 p) (snd (step s e)).
Proof. intros Hre H. now apply step_closed_silent. Qed.

Theorem nothing_to_closed_run es : forall s c0,
  closed_at s c0 -> forallb (fun e => negb (reopens c0 e)) es = true ->
  forall o p, In o (snd (run s es)) -> ~ In (OSend c0 p) o.
Proof.
  intros s c0 H Hes o p Hin.
  destruct (run_guarded (fun _ e => reopens c0 e = false) (fun a => closed_at a c0)
              (fun o => forall p, ~ In (OSend c0 p) o)) with (es := es) (s := s) as [_ Ho]; [..|exact H| |].
  - intros a e Ha He. now apply step_closed_silent.
  - apply run_all_Forall, Forall_forall. intros e He. apply negb_true_iff.
    rewrite forallb_forall in Hes. now apply Hes.
  - rewrite Forall_forall in Ho. now apply Ho.
Qed.

Lemma conn_gone_online_other c s cid c0 :
  BInv s -> aget cid (b_online s) = Some c0 -> c0 <> c -> aget cid (b_online (fst (conn_gone c s))) = Some c0.
Proof.
  intros HI Ho Hne. destruct (cv s c) as [[cid' f]|] eqn:Ec.
  - pose proof (bi_conn _ _ HI _ _ _ Ec) as Hc'.
    apply cv_some in Ec as (k & Hk & Hcid & Ha & _).
    destruct (conn_gone_att_spec c k s Hk Ha) as (s1 & o' & _ & _ & F & R).
    rewrite (unreg_res_online _ _ _ _ _ _ R), (fr_on _ _ F). proj.
    rewrite aget_adel by apply (bi_nd_on _ _ HI). rewrite Hcid.
    destruct (str_eqb_spec cid cid') as [->|E]; [congruence|exact Ho].
  - now destruct (conn_gone_unatt c s Ec) as [->|(k & Hk & ->)].
Qed.

Lemma hc_code_ext cn s s' : b_hooks s' = b_hooks s -> hc_code cn s' = hc_code cn s.
Proof. intros H. unfold hc_code, auth_code. now rewrite H. Qed.

Lemma hc_rejected_ext cn s s' : b_hooks s' = b_hooks s -> b_cfg s' = b_cfg s -> hc_rejected cn s' = hc_rejected cn s.
Proof. intros H1 H2. unfold hc_rejected. now rewrite (hc_code_ext cn s s' H1), H2. Qed.

Lemma handle_connect_accepted c cn s : hc_rejected cn s = false -> handle_connect c cn s = hc_accept c cn s.
Proof.
  intros H. destruct (handle_connect_cases c cn s) as [[E _]|[_ E]]; [congruence|exact E].
Qed.

Lemma step_event_connect s c cn :
  step_event s (EConnect c cn) =
  (fst (handle_connect c cn (fst (conn_gone c s))),
   filter (fun x => match x with OClose c' => negb (c' =? c) | _ => true end) (snd (conn_gone c s)) ++
   snd (handle_connect c cn (fst (conn_gone c s)))).
Proof. cbn [step_event]. destruct (conn_gone c s) as [s0 o0]. cbn [fst snd]. now destruct (handle_connect c cn s0). Qed.

Theorem displaced_closed_before_connack s c cn c0 :
  BInv s -> hc_rejected cn s = false -> aget (hc_cid cn s) (b_online s) = Some c0 -> c0 <> c ->
  exists o1 o2 o3 sp props,
    snd (step s (EConnect c cn)) = o1 ++ OClose c0 :: o2 ++ OSend c (KConnack sp 0 props) :: o3 /\
    Forall nosend o1 /\ Forall nosend o2 /\ (forall p, ~ In (OSend c0 p) o3) /\
    closed_at (fst (step s (EConnect c cn))) c0.
Proof.
  intros HI Hrej Hon Hne.
  pose proof (conn_gone_misc c s) as (Hcfg & Hhooks & _ & Hauto). set (s0 := fst (conn_gone c s)) in *.
  assert (Hcid : hc_cid cn s0 = hc_cid cn s) by (unfold hc_cid; now rewrite Hauto).
  assert (Hacc : handle_connect c cn s0 = hc_accept c cn s0).
  { apply handle_connect_accepted. now rewrite (hc_rejected_ext cn s s0 Hhooks Hcfg). }
  (* the duplicate is still online when the CONNECT is handled, so the take-over closes it *)
  assert (Hon0 : aget (hc_cid cn s0) (b_online (hc_auto cn s0)) = Some c0).
  { rewrite Hcid, (wf_on _ _ (hc_auto_frame cn s0)). now apply conn_gone_online_other. }
  destruct (BInv_online_attached _ _ c0 (hc_auto_inv cn s0 (conn_gone_inv c s HI)) Hon0) as (k & Hk & _ & Ha & _).
  destruct (conn_gone_att_spec c0 k _ Hk Ha) as (s1' & o' & E & D & _).
  assert (Edup : hc_dup cn s0 = (fst (conn_gone c0 (hc_auto cn s0)), OClose c0 :: o')).
  { unfold hc_dup, hc_takeover. now rewrite Hon0. }
  assert (Hcl : closed_at (fst (step_event s (EConnect c cn))) c0).
  { rewrite step_event_connect. cbn [fst]. fold s0. rewrite Hacc. unfold closed_at.
    rewrite (phase_pv _ _ c0 (hc_accept_pv_other c cn s0 c0 Hne)). fold (hc_dup cn s0). rewrite Edup. cbn [fst].
    now rewrite phase_at_pv, conn_gone_pv, N.eqb_refl, (pv_of _ _ _ Hk). }
  exists (filter (fun x => match x with OClose c' => negb (c' =? c) | _ => true end) (snd (conn_gone c s))), o',
    (snd (hc_wills (snd (fst (hc_prev cn s0))) (hc_reg c cn s0)) ++ snd (poll_all (fst (step_event s (EConnect c cn))))),
    (snd (hc_prev cn s0)), (hc_props (hc_cid cn s0) cn (b_cfg s0)).
  split; [|split; [|split; [|split]]].
  - rewrite step_outputs, step_event_connect. cbn [snd]. fold s0. rewrite Hacc, hc_accept_eq, Edup. cbn [snd].
    rewrite <- !app_assoc. cbn [app]. rewrite <- ?app_assoc. reflexivity.
  - apply Forall_filter, conn_gone_nosend.
  - now apply isdrop_nosend.
  - intros p Hin. apply in_app_or in Hin as [Hin|Hin].
    + apply nosend_not_in in Hin; [easy|apply isdrop_nosend, hc_wills_quiet].
    + revert Hin. apply poll_all_not_att, closed_not_att, Hcl.
  - eapply closed_frame; [apply step_frame_poll|exact Hcl].
Qed.

(* the Session Expiry Interval in force when a connection ends: the stored one, or for a v5
   client that sent DISCONNECT the one carried by it (absent: the stored one), capped *)
Definition takeover_expiry (k : conn) (se : session) (cf : cfg) : N :=
  if (k_v k =? 5) && k_got_disconnect k
  then N.min (opt_or (k_disc_sei k) (se_expiry se)) (c_session_expiry cf) else se_expiry se.

Lemma ur_expiry_noforce k se cf : k_force_remove k = false -> ur_expiry k se cf = takeover_expiry k se cf.
Proof. unfold ur_expiry, takeover_expiry. now intros ->. Qed.

Definition session_alive (cid : str) (s : st) : Prop :=
  (exists dl, aget cid (b_offline s) = Some dl /\ b_now s <= dl) \/
  (exists c0 k0 se, aget cid (b_online s) = Some c0 /\ nget c0 (b_conns s) = Some k0 /\
                    aget cid (b_sessions s) = Some se /\ takeover_expiry k0 se (b_cfg s) <> 0).

Lemma hc_old_resume cid cn v5 cmax s :
  BInv s -> ahas cid (b_online s) = false ->
  (snd (hc_old cid v5 cmax (hc_resume0 cid cn s) s) = true <->
   cn_clean cn = false /\ exists dl, aget cid (b_offline s) = Some dl /\ b_now s <= dl).
Proof.
  intros HI Hon. unfold hc_old, hc_resume0. destruct (aget cid (b_sessions s)) as [se|] eqn:Es.
  - pose proof (bi_sess _ _ HI cid (ahas_some _ _ _ Es)) as Hoo. rewrite Hon in Hoo. cbn [orb] in Hoo.
    destruct (bi_has _ _ HI cid) as (_ & Hq & Hu); [now rewrite Hoo, orb_true_r|].
    apply ahas_true in Hoo as [dl Hdl], Hq as [q Hq], Hu as [u Hu].
    unfold session_expired. rewrite Hdl, Hq, Hu.
    destruct (dl <? b_now s) eqn:El; cbn [negb andb].
    + cbv zeta. destruct (aget cid (b_wills (remove_session cid s))) as [[w t]|]; cbn [snd];
        (split; [discriminate|]); intros [_ (dl' & [= <-] & Hle)]; lia.
    + destruct (cn_clean cn); cbn [negb snd].
      * cbv zeta. destruct (aget cid (b_wills (remove_session cid s))) as [[w t]|]; cbn [snd];
          (split; [discriminate|]); intros [? _]; discriminate.
      * split; [|reflexivity]. intros _. split; [reflexivity|]. exists dl. split; [reflexivity|lia].
  - cbn [snd]. split; [discriminate|]. intros [_ (dl & Hdl & _)].
    destruct (bi_has _ _ HI cid) as (Hs & _); [erewrite (ahas_some _ _ _ Hdl); apply orb_true_r|].
    apply ahas_none in Es. congruence.
Qed.

Lemma takeover_alive cid s :
  BInv s ->
  ((exists dl, aget cid (b_offline (fst (hc_takeover cid s))) = Some dl /\ b_now (fst (hc_takeover cid s)) <= dl) <->
   session_alive cid s).
Proof.
  intros HI. unfold hc_takeover, session_alive. destruct (aget cid (b_online s)) as [c0|] eqn:Eo.
  - destruct (BInv_online_attached s cid c0 HI Eo) as (k0 & Hk0 & Hcid & Ha & Hf).
    destruct (conn_gone_att_spec c0 k0 s Hk0 Ha) as (s1 & o' & _ & _ & F & R).
    assert (Hoff : aget cid (b_offline s) = None).
    { apply ahas_false. apply (bi_disj _ _ HI). eapply ahas_some; eauto. }
    rewrite Hcid in R.
    destruct R as [H E|se Hs Hfr He E]; rewrite E; unfold store_tables; proj; rewrite (fr_off _ _ F); proj;
      change (ur_expiry (set_phase PhClosed k0)) with (ur_expiry k0) in *;
      change (k_force_remove (set_phase PhClosed k0)) with (k_force_remove k0) in *.
    + split.
      * intros (dl & Hdl & _). rewrite aget_adel in Hdl by apply (bi_nd_off _ _ HI).
        rewrite str_eqb_refl in Hdl. discriminate.
      * intros [(dl & Hdl & _)|(c0' & k0' & se & H1 & H2 & H3 & H4)]; [congruence|].
        injection H1 as <-. rewrite Hk0 in H2. injection H2 as <-.
        destruct H as [H|(se' & Hs' & [Hf'|He'])]; try congruence.
        rewrite H3 in Hs'. injection Hs' as <-. rewrite (ur_expiry_noforce _ _ _ Hf) in He'. contradiction.
    + split.
      * intros _. right. exists c0, k0, se. rewrite <- (ur_expiry_noforce _ _ _ Hf). auto.
      * intros _. eexists. rewrite aget_aset_same. split; [reflexivity|]. rewrite (fr_now _ _ F). proj. apply N.le_add_r.
  - cbn [fst]. split; [now left|]. intros [H|(c0' & k0' & se & H1 & _)]; [exact H|congruence].
Qed.

Lemma session_alive_auto cid cn s : session_alive cid (hc_auto cn s) <-> session_alive cid s.
Proof. unfold hc_auto. destruct (is_empty (cn_cid cn)); reflexivity. Qed.

Lemma accept_sends_connack c cn s :
  exists sp props, In (OSend c (KConnack sp 0 props)) (snd (hc_accept c cn s)).
Proof.
  rewrite hc_accept_eq. cbn [snd]. eexists _, _. apply in_or_app. right. left. reflexivity.
Qed.

Lemma accept_connack c cn s sp props :
  In (OSend c (KConnack sp 0 props)) (snd (hc_accept c cn s)) -> sp = snd (hc_prev cn s).
Proof.
  rewrite hc_accept_eq. cbn [snd]. intros Hin.
  apply in_app_or in Hin as [Hin|Hin]; [now apply (nosend_not_in _ _ _ (hc_takeover_nosend _ _)) in Hin|].
  destruct Hin as [Hin|Hin]; [now injection Hin|].
  apply nosend_not_in in Hin; [easy|apply isdrop_nosend, hc_wills_quiet].
Qed.

Theorem resume_iff c cn s sp props :
  BInv s -> cv s c = None -> hc_rejected cn s = false ->
  In (OSend c (KConnack sp 0 props)) (snd (handle_connect c cn s)) ->
  (sp = true <-> cn_clean cn = false /\ session_alive (hc_cid cn s) s).
Proof.
  intros HI Hc Hrej Hin. rewrite handle_connect_accepted in Hin by exact Hrej. apply accept_connack in Hin as ->.
  destruct (hc_stages c cn s HI Hc) as (HI1 & Hon1 & _).
  unfold hc_prev. rewrite (hc_old_resume _ cn _ _ _ HI1 Hon1).
  unfold hc_dup. rewrite takeover_alive, session_alive_auto; [reflexivity|now apply hc_auto_inv].
Qed.

(* the deadline of an offline session is counted from the end of its connection *)
Theorem offline_deadline_from_disconnect c k s dl :
  BInv s -> nget c (b_conns s) = Some k -> attached (k_phase k) = true ->
  aget (k_cid k) (b_offline (fst (conn_gone c s))) = Some dl ->
  exists se, aget (k_cid k) (b_sessions s) = Some se /\ takeover_expiry k se (b_cfg s) <> 0 /\
             dl = b_now s + takeover_expiry k se (b_cfg s) * 1000.
Proof.
  intros HI Hk Ha Hdl.
  assert (Hf : k_force_remove k = false).
  { apply (bi_force _ _ HI c (k_cid k)); [apply cv_some; now exists k|discriminate]. }
  destruct (conn_gone_att_spec c k s Hk Ha) as (s1 & o' & _ & _ & F & R).
  destruct R as [H E|se Hs Hfr He E]; rewrite E in Hdl; unfold store_tables in Hdl; proj_in Hdl;
    rewrite (fr_off _ _ F) in Hdl; proj_in Hdl;
    change (ur_expiry (set_phase PhClosed k)) with (ur_expiry k) in *;
    change (k_force_remove (set_phase PhClosed k)) with (k_force_remove k) in *.
  - rewrite aget_adel in Hdl by apply (bi_nd_off _ _ HI). rewrite str_eqb_refl in Hdl. discriminate.
  - rewrite aget_aset_same in Hdl. injection Hdl as <-. exists se.
    rewrite <- (ur_expiry_noforce _ _ _ Hf). rewrite (fr_now _ _ F). proj. auto.
Qed.

(* the Session Expiry Interval stored by a successful CONNECT *)
Definition connect_expiry (cn : connect) (cf : cfg) : N :=
  if cn_ver cn =? 5 then match p_sei (cn_props cn) with Some i => N.min i (c_session_expiry cf) | None => 0 end
  else if cn_clean cn then 0 else c_session_expiry cf.

Lemma hc_wd_exp_value cn cf : snd (hc_wd_exp cn cf) = connect_expiry cn cf.
Proof.
  unfold hc_wd_exp, connect_expiry, hc_sess_exp. destruct (cn_ver cn =? 5); cbn [negb andb snd].
  - destruct (p_sei (cn_props cn)) as [i|]; [|reflexivity]. destruct (i <? c_session_expiry cf) eqn:E; lia.
  - destruct (cn_clean cn); reflexivity.
Qed.

Theorem connect_session_expiry c cn s :
  hc_rejected cn s = false ->
  exists se, aget (hc_cid cn s) (b_sessions (fst (handle_connect c cn s))) = Some se /\
             se_expiry se = connect_expiry cn (b_cfg s).
Proof.
  intros Hrej. rewrite handle_connect_accepted, hc_accept_eq by exact Hrej. cbn [fst].
  rewrite (fr_sess _ _ (proj1 (hc_wills_quiet _ _))). unfold hc_reg, hc_register. proj. rewrite aget_aset_same.
  eexists. split; [reflexivity|]. apply hc_wd_exp_value.
Qed.

(* a v5 DISCONNECT with a non-zero Session Expiry Interval x stores min(x, configured) and
   leaves the connection a zombie that remembers x *)
Lemma disconnect_step_event c k s code props se x :
  nget c (b_conns s) = Some k -> k_phase k = PhConnected -> k_v k = 5 ->
  aget (k_cid k) (b_sessions s) = Some se -> se_expiry se <> 0 -> p_sei props = Some x -> x <> 0 ->
  step_event s (ESend c (KDisconnect code props)) =
  (upd_conn c (set_phase PhZombie (set_disc (negb (code =? 4)) (Some x) k))
     (upd_conn c (set_disc (negb (code =? 4)) (Some x) k)
       (set_tables (aset (k_cid k) (stored_session se (N.min x (c_session_expiry (b_cfg s)))) (b_sessions s))
                   (b_online s) (b_offline s) (b_wills s) (b_queues s) (b_unacks s) s)), []).
Proof.
  intros Hk Hp Hv Hs Hse Hx Hx0.
  cbn [step_event]. rewrite Hk, Hp. cbn [handle_packet]. rewrite Hv. cbn [N.eqb Pos.eqb]. cbv zeta.
  rewrite Hs, Hx. apply N.eqb_neq in Hse, Hx0. rewrite Hse, Hx0. cbn [andb negb opt_or].
  unfold fail_conn. proj. rewrite nget_nset_same. cbn [set_disc k_phase]. rewrite Hp. cbn [orb app].
  reflexivity.
Qed.

Theorem disconnect_session_expiry c k s code props se x :
  nget c (b_conns s) = Some k -> k_phase k = PhConnected -> k_v k = 5 ->
  aget (k_cid k) (b_sessions s) = Some se -> se_expiry se <> 0 -> p_sei props = Some x -> x <> 0 ->
  aget (k_cid k) (b_sessions (fst (step s (ESend c (KDisconnect code props))))) =
  Some (stored_session se (N.min x (c_session_expiry (b_cfg s)))).
Proof.
  intros Hk Hp Hv Hs Hse Hx Hx0.
  rewrite (fr_sess _ _ (step_frame_poll s (ESend c (KDisconnect code props)))).
  rewrite (disconnect_step_event c k s code props se x) by assumption. cbn [fst]. proj. apply aget_aset_same.
Qed.

(* and when that zombie's connection ends, the interval in force is min(x, configured) *)
Lemma takeover_expiry_after_disconnect k se cf x clean_will :
  k_v k = 5 ->
  takeover_expiry (set_phase PhZombie (set_disc clean_will (Some x) k)) se cf = N.min x (c_session_expiry cf).
Proof. intros Hv. unfold takeover_expiry. cbn [set_phase set_disc k_v k_got_disconnect k_disc_sei opt_or]. now rewrite Hv. Qed.

(* the store is the result of a well-formed history (so the refinement of SubTrieP applies)
   and only clients with a session have entries *)
Definition SubsInv (s : st) : Prop :=
  exists ops, wf_ops ops = true /\ b_subs s = db_run ops /\
              forall c g f, In (c, g, f) (map fst (spec_run ops)) -> ahas c (b_sessions s) = true.

(* the general form, a well-formed history whose specification meets Q; SubsInv s is hist (owned s) s *)
Definition hist (Q : spec -> Prop) (s : st) : Prop :=
  exists ops, wf_ops ops = true /\ b_subs s = db_run ops /\ Q (spec_run ops).

Definition owned (s : st) (sp : spec) : Prop :=
  forall c g f, In (c, g, f) (map fst sp) -> ahas c (b_sessions s) = true.

Lemma spec_run_snoc ops o : spec_run (ops ++ [o]) = spec_step (spec_run ops) o.
Proof. unfold spec_run. now rewrite fold_left_app. Qed.

Lemma hist_weaken (Q Q' : spec -> Prop) s s' :
  b_subs s' = b_subs s -> (forall sp, Q sp -> Q' sp) -> hist Q s -> hist Q' s'.
Proof. intros E HQ (ops & Hwf & Hd & H). exists ops. rewrite E. auto. Qed.

Lemma hist_step o (Q Q' : spec -> Prop) s s' :
  wf_op o = true -> b_subs s' = db_step (b_subs s) o -> (forall sp, Q sp -> Q' (spec_step sp o)) ->
  hist Q s -> hist Q' s'.
Proof.
  intros Ho E HQ (ops & Hwf & Hd & H). exists (ops ++ [o]). rewrite spec_run_snoc, E, Hd. split; [|split; [|auto]].
  - unfold wf_ops. rewrite forallb_app. cbn [forallb]. fold (wf_ops ops). now rewrite Hwf, Ho.
  - unfold db_run. now rewrite fold_left_app.
Qed.

Lemma SubsInv_init c h p : SubsInv (st_init c h p).
Proof. exists []. split; [reflexivity|]. split; [reflexivity|]. intros c0 g f []. Qed.

Lemma SubsInv_ext s s' :
  b_subs s' = b_subs s -> (forall c, ahas c (b_sessions s) = true -> ahas c (b_sessions s') = true) ->
  SubsInv s -> SubsInv s'.
Proof. intros Hs Hk. apply (hist_weaken (owned s) (owned s')); [exact Hs|]. intros sp H c g f Hin. apply Hk, (H c g f Hin). Qed.

Lemma SubsInv_frame s s' : frame s s' -> SubsInv s -> SubsInv s'.
Proof. intros F. apply SubsInv_ext; [apply (fr_subs _ _ F)|]. rewrite (fr_sess _ _ F). auto. Qed.

(* no entry of cid survives OUnsubAll cid *)
Lemma sp_del_client_keys cid sp c g f :
  In (c, g, f) (map fst (sp_del_client cid sp)) -> c <> cid /\ In (c, g, f) (map fst sp).
Proof.
  unfold sp_del_client. rewrite (map_fst_filter (fun k => negb (str_eqb cid (fst (fst k))))).
  intros Hin. apply filter_In in Hin as [Hin Hc]. cbn [fst] in Hc. split; [|exact Hin].
  apply negb_true_iff, str_eqb_neq in Hc. congruence.
Qed.

Lemma SubsInv_remove cid s :
  cid <> [] -> NoDup (keys (b_sessions s)) -> SubsInv s -> SubsInv (remove_session cid s).
Proof.
  intros Hne Hnd. apply (hist_step (OUnsubAll cid) (owned s) (owned (remove_session cid s)));
    [now apply negb_true_iff, is_empty_false|reflexivity|].
  intros sp Hc c g f Hin. apply sp_del_client_keys in Hin as [Hcid Hin]. proj. rewrite ahas_adel by exact Hnd.
  rewrite (Hc c g f Hin), andb_true_r. now apply negb_true_iff, str_eqb_neq.
Qed.

Lemma SubsInv_sessions_aset cid se s on off w q u :
  SubsInv s -> SubsInv (set_tables (aset cid se (b_sessions s)) on off w q u s).
Proof.
  apply SubsInv_ext; [reflexivity|]. intros c H. proj. rewrite ahas_aset, H. apply orb_true_r.
Qed.

Lemma SubsInv_subscribe cid sb s :
  cid <> [] -> no_slash (s_share sb) = true -> ahas cid (b_sessions s) = true ->
  SubsInv s -> SubsInv (set_subs (fst (db_subscribe cid sb (b_subs s))) s).
Proof.
  intros Hne Hns Hs. apply (hist_step (OSub cid sb) (owned s) (owned s)); [|reflexivity|].
  - cbn [wf_op]. rewrite Hns, andb_true_r. now apply negb_true_iff, is_empty_false.
  - intros sp Hc c g f Hin. cbn [spec_step] in Hin. rewrite map_fst_sp_set in Hin. revert Hin.
    match goal with |- context [sp_get ?k ?sp] => destruct (sp_get k sp) end; intros Hin; [eauto|].
    apply in_app_or in Hin as [Hin|[Hin|[]]]; [eauto|]. now injection Hin as <- _ _.
Qed.

Lemma SubsInv_unsubscribe cid t s :
  cid <> [] -> SubsInv s -> SubsInv (set_subs (db_unsubscribe cid t (b_subs s)) s).
Proof.
  intros Hne. apply (hist_step (OUnsub cid t) (owned s) (owned s)); [now apply negb_true_iff, is_empty_false|reflexivity|].
  intros sp Hc c g f Hin. rewrite spec_step_unsub in Hin. apply in_keys_sp_del in Hin. eauto.
Qed.

Lemma unreg_res_subsinv cid k sess cf s1 s' :
  unreg_res cid k sess cf s1 s' -> cid <> [] -> NoDup (keys (b_sessions s1)) -> SubsInv s1 -> SubsInv s'.
Proof.
  intros [H ->|se Hs Hf He ->] Hne Hnd HS.
  - now apply SubsInv_remove.
  - unfold store_tables. now apply SubsInv_sessions_aset.
Qed.

Lemma conn_gone_subsinv ex c s : BInvG ex s -> SubsInv s -> SubsInv (fst (conn_gone c s)).
Proof.
  intros HI HS. destruct (cv s c) as [[cid f]|] eqn:Ec.
  - pose proof (bi_conn _ _ HI _ _ _ Ec) as Hon.
    apply cv_some in Ec as (k & Hk & Hcid & Ha & _).
    destruct (conn_gone_att_spec c k s Hk Ha) as (s1 & o' & _ & _ & F & R).
    eapply unreg_res_subsinv; [exact R| | |].
    + rewrite Hcid. apply (bi_ne _ _ HI). apply (bi_has _ _ HI). now rewrite (ahas_some _ _ _ Hon).
    + rewrite (fr_sess _ _ F). proj. apply (bi_nd_sess _ _ HI).
    + eapply SubsInv_frame; [exact F|]. revert HS. apply SubsInv_ext; [reflexivity|auto].
  - destruct (conn_gone_unatt c s Ec) as [->|(k & Hk & ->)]; [exact HS|]. cbn [fst].
    revert HS. apply SubsInv_ext; [reflexivity|auto].
Qed.

Lemma fail_conn_subsinv c code br s : BInv s -> SubsInv s -> SubsInv (fst (fail_conn c code br s)).
Proof.
  intros HI HS. destruct (fail_conn_cases c code br s); try exact HS. now apply (conn_gone_subsinv None).
Qed.

Lemma hc_dup_subsinv cn s : BInv s -> SubsInv s -> SubsInv (fst (hc_dup cn s)).
Proof.
  intros HI HS.
  assert (HS0 : SubsInv (hc_auto cn s)).
  { revert HS. apply SubsInv_ext; unfold hc_auto; destruct (is_empty (cn_cid cn)); auto. }
  unfold hc_dup, hc_takeover. destruct (aget _ _); [|exact HS0].
  apply (conn_gone_subsinv None); [now apply hc_auto_inv|exact HS0].
Qed.

Lemma hc_old_subsinv cid v5 cmax r0 s :
  cid <> [] -> BInv s -> SubsInv s -> SubsInv (fst (fst (hc_old cid v5 cmax r0 s))).
Proof.
  intros Hne HI HS. unfold hc_old. destruct (aget cid (b_sessions s)); [|exact HS]. destruct r0.
  - destruct (aget cid (b_queues s)); [|exact HS]. destruct (aget cid (b_unacks s)); [|exact HS].
    cbn [fst]. revert HS. apply SubsInv_ext; [reflexivity|auto].
  - cbv zeta. pose proof (SubsInv_remove cid s Hne (bi_nd_sess _ _ HI) HS) as HR.
    destruct (aget cid (b_wills (remove_session cid s))) as [[w t]|]; cbn [fst]; [|exact HR].
    revert HR. apply SubsInv_ext; [reflexivity|auto].
Qed.

Lemma hc_accept_subsinv c cn s : BInv s -> cv s c = None -> SubsInv s -> SubsInv (fst (hc_accept c cn s)).
Proof.
  intros HI Hc HS. rewrite hc_accept_eq. cbn [fst]. eapply SubsInv_frame; [apply hc_wills_quiet|].
  destruct (hc_stages c cn s HI Hc) as (HI1 & _).
  pose proof (hc_dup_subsinv cn s HI HS) as HS1.
  pose proof (hc_old_subsinv _ (cn_ver cn =? 5) (hc_cmax cn) (hc_resume0 (hc_cid cn s) cn (fst (hc_dup cn s))) _
                (hc_cid_ne cn s) HI1 HS1) as HS2.
  assert (HS3 : SubsInv (hc_new cn s)).
  { revert HS2. apply SubsInv_ext; unfold hc_new, hc_fresh; destruct (snd (hc_prev cn s)); auto. }
  revert HS3. apply SubsInv_ext; [reflexivity|]. intros c0 H. unfold hc_reg, hc_register. proj.
  rewrite ahas_aset, H. apply orb_true_r.
Qed.

Lemma handle_connect_subsinv c cn s : BInv s -> cv s c = None -> SubsInv s -> SubsInv (fst (handle_connect c cn s)).
Proof.
  intros HI Hc HS. destruct (handle_connect_cases c cn s) as [(_ & k & code & _ & _ & ->)|[_ ->]]; [|now apply hc_accept_subsinv].
  revert HS. now apply SubsInv_ext.
Qed.

Lemma hs_fold_subsinv c k v5 subid all topics acc :
  k_cid k <> [] -> ahas (k_cid k) (b_sessions (fst (fst acc))) = true -> SubsInv (fst (fst acc)) ->
  SubsInv (fst (fst (fold_left (hs_body c k v5 subid all) topics acc))).
Proof.
  intros Hne Hs0 HS0.
  apply (fold_left_inv (fun a => ahas (k_cid k) (b_sessions (fst (fst a))) = true /\ SubsInv (fst (fst a)))); [|now split].
  clear acc Hs0 HS0. intros acc t [Hs HS]. split.
  - destruct (hs_body_quiet c k v5 subid all acc t) as [F _]. now rewrite (proj2 (wf_sess _ _ F)).
  - destruct acc as [[s0 o0] cs]. cbn [fst] in *. unfold hs_body. cbv zeta.
    match goal with |- context [if ?b <? 128 then _ else _] => destruct (b <? 128) end; [|exact HS].
    match goal with |- context [db_subscribe ?a ?b ?d] =>
      pose proof (SubsInv_subscribe a b s0 Hne) as HH; destruct (db_subscribe a b d) as [d' existed]; set (sb := b) in * end.
    cbn [fst] in HH.
    assert (HS1 : SubsInv (set_subs d' s0)).
    { apply HH; [|exact Hs|exact HS]. unfold sb.
      match goal with |- context [opt_or ?x SAccept] => destruct (opt_or x SAccept) end;
        cbn [s_share]; unfold sub_of_req;
        match goal with |- context [split_topic ?t] =>
          pose proof (split_topic_no_slash t) as Hn; destruct (split_topic t) as [g f] end; exact Hn. }
    match goal with |- context [if ?b then replay_retained c k sb ?S else _] =>
      destruct b; [pose proof (replay_retained_quiet c k sb S) as [H1 _];
                   destruct (replay_retained c k sb S) as [s2 o2]|] end; cbn [fst] in *.
    + eapply SubsInv_frame; eauto.
    + exact HS1.
Qed.

Lemma handle_packet_subsinv c k p s :
  BInv s -> SubsInv s -> nget c (b_conns s) = Some k -> attached (k_phase k) = true ->
  SubsInv (hres_st (handle_packet c k p s)).
Proof.
  intros HI HS Hk Ha.
  pose proof (BInv_attached_online s c k HI Hk Ha) as Hon.
  assert (Hs : ahas (k_cid k) (b_sessions s) = true).
  { apply (bi_has _ _ HI). now rewrite (ahas_some _ _ _ Hon). }
  pose proof (bi_ne _ _ HI _ Hs) as Hne.
  destruct (is_subpkt p) eqn:Ep.
  - destruct p; try discriminate; cbn [handle_packet].
    + match goal with |- context [if ?b then handle_subscribe _ _ _ _ _ _ else _] => destruct b end; [|exact HS].
      rewrite handle_subscribe_eq. cbv zeta.
      match goal with |- context [if ?b then HErr s [] (Some 161) else _] => destruct b end; [exact HS|].
      destruct (h_sub_all (b_hooks s)); [exact HS|].
      match goal with |- context [fold_left (hs_body c k ?v ?sid topics) topics ?a] =>
        pose proof (hs_fold_subsinv c k v sid topics topics a Hne Hs HS) as HF;
        destruct (fold_left (hs_body c k v sid topics) topics a) as [[s' o] codes] end.
      exact HF.
    + unfold handle_unsubscribe. cbn [hres_st].
      apply (fold_left_inv (fun d => SubsInv (set_subs d s))).
      * intros d t H. exact (SubsInv_unsubscribe (k_cid k) t (set_subs d s) Hne H).
      * revert HS. now apply SubsInv_ext.
  - destruct (handle_packet_uframe c k p s Hk Ep) as [[F E] _]. revert HS. apply SubsInv_ext; [exact E|].
    intros c0 H. now rewrite (proj2 (wf_sess _ _ F)).
Qed.

Definition BSInv (s : st) : Prop := BInv s /\ SubsInv s.

Lemma send_unconnected_subsinv c k p s : BInv s -> SubsInv s -> SubsInv (fst (send_unconnected c k p s)).
Proof.
  intros HI HS. destruct (send_unconnected_cases c k p s); try exact HS. now apply (conn_gone_subsinv None).
Qed.

Lemma step_event_subsinv s e : BInv s -> SubsInv s -> SubsInv (fst (step_event s e)).
Proof.
  intros HI.
  apply (step_event_preserves_under BInv (fun a r => SubsInv a -> SubsInv (fst r)) s e (BInv_step_closed s e));
    [|exact HI].
  constructor; cbn [fst]; auto.
  - intros c a Ha. now apply (conn_gone_subsinv None).
  - intros c cn _ H0. apply handle_connect_subsinv; [exact H0|apply conn_gone_cv_self].
  - intros c p k _ Hk Hp H0 HS. apply handle_packet_subsinv; auto. now rewrite Hp.
  - intros c p code br a _ Ha. now apply fail_conn_subsinv.
  - intros c p k _ _ _ H0. now apply send_unconnected_subsinv.
  - intros m _ _. apply SubsInv_frame, deliver_quiet.
  - intros cid c k _ Eo Hk H0 HS. destruct (BInv_online_attached s cid c H0 Eo) as (k0 & Hk0 & Hcid & Ha & _).
    rewrite Hk in Hk0. injection Hk0 as <-.
    apply (conn_gone_subsinv (Some (k_cid k))); [now apply BInvG_set_force|exact HS].
  - intros cid _ _ Eoff H0. apply SubsInv_remove; [|apply (bi_nd_sess _ _ H0)].
    apply (bi_ne _ _ H0). apply (bi_has _ _ H0). rewrite Eoff. apply orb_true_r.
  - intros cid a _. apply SubsInv_frame, release_will_quiet.
  - intros H0 HS. apply (expire_sessions_keeps SubsInv); auto.
    intros cid a Ha _ Hne. apply SubsInv_remove; [exact Hne|apply (bi_nd_sess _ _ Ha)].
  - intros a _. apply SubsInv_frame, fire_wills_quiet.
Qed.

Theorem step_subsinv s e : BInv s -> SubsInv s -> SubsInv (fst (step s e)).
Proof. intros HI HS. eapply SubsInv_frame; [apply step_frame_poll|]. now apply step_event_subsinv. Qed.

Theorem run_subsinv es : forall s, BInv s -> SubsInv s -> SubsInv (fst (run s es)).
Proof.
  intros s HI HS. apply (run_invariant BSInv); [|now split].
  intros a e [Ha Sa]. split; [now apply step_inv|now apply step_subsinv].
Qed.

Theorem reachable_subsinv c h p es : SubsInv (fst (run (st_init c h p) es)).
Proof. apply run_subsinv; [apply BInv_init|apply SubsInv_init]. Qed.

Fixpoint nsize (n : node) : nat :=
  match n with
  | Node _ _ _ ch => S (list_sum (map (fun p : level * node => let '(_, c) := p in nsize c) ch))
  end.

Lemma nsize_child lv c cl sh tn ch : In (lv, c) ch -> (nsize c < nsize (Node cl sh tn ch))%nat.
Proof.
  intros Hin. cbn [nsize]. induction ch as [|[lv0 c0] r IH]; [destruct Hin|].
  destruct Hin as [E|Hin]; [injection E as -> ->; simpl; lia|]. specialize (IH Hin). simpl in *. lia.
Qed.

(* every entry found by the pre-order traversal sits at some node *)
Lemma traverse_sound_n (m : nat) : forall n, (nsize n < m)%nat -> wfT n ->
  forall e, In e (traverse n) -> exists p, In e (set_rs (nd p n)).
Proof.
  induction m as [|m IH]; intros n Hm Hwf e Hin; [lia|].
  destruct n as [cl sh tn ch]. cbn [traverse] in Hin. apply in_app_or in Hin as [Hin|Hin].
  - exists []. cbn [nd]. destruct (is_empty tn); [destruct Hin|exact Hin].
  - apply in_flat_map in Hin as ([lv c] & Hc & Hin).
    pose proof (nsize_child lv c cl sh tn ch Hc) as Hlt.
    assert (Hsub : sub_child lv (Node cl sh tn ch) = c).
    { unfold sub_child, child. cbn [n_children]. now rewrite (In_aget lv c ch (Hwf [])). }
    destruct (IH c ltac:(lia) ltac:(rewrite <- Hsub; now apply wfT_child) e Hin) as [p Hp].
    exists (lv :: p). cbn [nd]. now rewrite Hsub.
Qed.

Lemma traverse_sound n e : wfT n -> In e (traverse n) -> exists p, In e (set_rs (nd p n)).
Proof. intros Hwf. apply (traverse_sound_n (S (nsize n)) n); [lia|exact Hwf]. Qed.

Lemma tmatch_sound ts n e : In e (tmatch ts n) -> exists p, In e (set_rs (nd p n)).
Proof. rewrite tmatch_cands. intros Hin. apply in_flat_map in Hin as (p & _ & Hin). now exists p. Qed.

Lemma tmatch_top_sound topic n e : In e (tmatch_top topic n) -> exists p, In e (set_rs (nd p n)).
Proof.
  unfold tmatch_top. destruct (starts_dollar topic); [|apply tmatch_sound].
  rewrite tmatch_lit_cands. intros Hin. apply in_flat_map in Hin as (p & _ & Hin). now exists p.
Qed.

Lemma node_entry_key k sp T p c sb :
  spec_ok sp -> TInv k (fun key => sp_get key sp) T -> In (c, sb) (set_rs (nd p T)) ->
  In (c, s_share sb, s_filter sb) (map fst sp).
Proof.
  intros Hok [_ HN] Hin. destruct (entry_sound k sp Hok p _ c sb (HN p) Hin) as (_ & _ & Hget).
  eapply sp_get_some_in; eauto.
Qed.

(* the entries deliverMessage iterates over all belong to clients with an entry in the specification *)
Lemma deliver_ents_clients topic d sp l :
  Inv d sp -> db_iterate (deliver_opts topic) d = IOk l ->
  forall c x, In (c, x) l -> exists sb, x = Some sb /\ In (c, s_share sb, s_filter sb) (map fst sp).
Proof.
  intros HI. pose proof (inv_ok _ _ HI) as Hok.
  assert (HT : forall k e, (In e (traverse (trie_of k d)) \/ In e (tmatch_top topic (trie_of k d))) ->
               In (fst e, s_share (snd e), s_filter (snd e)) (map fst sp)).
  { intros k [c sb] [Hin|Hin]; cbn [fst snd].
    - destruct (traverse_sound _ _ (proj1 (inv_trie _ _ HI k)) Hin) as [p Hp].
      eapply node_entry_key; eauto. apply (inv_trie _ _ HI k).
    - destruct (tmatch_top_sound _ _ _ Hin) as [p Hp]. eapply node_entry_key; eauto. apply (inv_trie _ _ HI k). }
  assert (HS : forall k (L : list (cid * sub)),
            (forall e, In e L -> In e (traverse (trie_of k d)) \/ In e (tmatch_top topic (trie_of k d))) ->
            forall c x, In (c, x) (some_ents L) -> exists sb, x = Some sb /\ In (c, s_share sb, s_filter sb) (map fst sp)).
  { intros k L HL c x Hin. unfold some_ents in Hin. apply in_map_iff in Hin as ([c' sb] & E & Hin).
    injection E as <- <-. exists sb. split; [reflexivity|]. apply (HT k (c', sb)). now apply HL. }
  unfold db_iterate, deliver_opts. cbn [io_shared io_nonshared io_sys io_topic].
  unfold iterate_shared, iterate_nonshared. cbn [io_client io_topic io_mt is_empty negb].
  change (sharedT d) with (trie_of KShared d). change (userT d) with (trie_of KUser d).
  change (sysT d) with (trie_of KSys d).
  destruct (is_empty topic) eqn:Et; cbn [negb andb].
  - intros [= <-] c x Hin. apply in_app_or in Hin as [Hin|Hin]; [|apply in_app_or in Hin as [Hin|Hin]].
    + apply (HS KShared _ (fun e H => or_introl H) c x Hin).
    + apply (HS KUser _ (fun e H => or_introl H) c x Hin).
    + apply (HS KSys _ (fun e H => or_introl H) c x Hin).
  - intros [= <-] c x Hin. apply in_app_or in Hin as [Hin|Hin]; [|apply in_app_or in Hin as [Hin|Hin]].
    + apply (HS KShared _ (fun e H => or_intror H) c x Hin).
    + destruct (starts_dollar topic); cbn [negb] in Hin; [destruct Hin|].
      apply (HS KUser _ (fun e H => or_intror H) c x Hin).
    + destruct (starts_dollar topic); cbn [negb] in Hin; [|destruct Hin].
      apply (HS KSys _ (fun e H => or_intror H) c x Hin).
Qed.

Lemma fold_in_inv {A} (P : st -> Prop) (f : st * list out -> A -> st * list out) (l : list A) :
  (forall s0 o0 x, In x l -> P s0 -> P (fst (f (s0, o0) x))) ->
  forall s0 o0, P s0 -> P (fst (fold_left f l (s0, o0))).
Proof.
  intros Hf s0 o0. refine (fold_left_In_inv (fun acc => P (fst acc)) f l _ (s0, o0)). intros [s1 o1] x Hx. now apply Hf.
Qed.

Lemma release_dropped_queues cid evs s : b_queues (release_dropped cid evs s) = b_queues s.
Proof.
  unfold release_dropped. destruct (aget cid (b_online s)) as [c|]; [|reflexivity].
  destruct (nget c (b_conns s)); reflexivity.
Qed.

Lemma add_to_queue_other cid cid' m sb ids s :
  cid' <> cid -> aget cid (b_queues (fst (add_to_queue cid' m sb ids s))) = aget cid (b_queues s).
Proof.
  intros Hne. destruct (DeliverP.add_to_queue_cases cid' m sb ids s) as [->|(q & q' & evs & _ & _ & _ & ->)];
    [reflexivity|].
  cbn [fst]. rewrite release_dropped_queues. unfold DeliverP.enq. proj. apply aget_aset_other. congruence.
Qed.

(* a message is queued only for clients that have a matching entry: deliver is a list of add_to_queue calls
   (DeliverP.deliver_calls), none of them for a client without an entry *)
Lemma deliver_queue_other cid src m s :
  (forall l, db_iterate (deliver_opts (m_topic m)) (b_subs s) = IOk l -> forall c x, In (c, x) l -> c <> cid) ->
  aget cid (b_queues (fst (fst (deliver src m s)))) = aget cid (b_queues s).
Proof.
  intros Hdb.
  assert (E0 : DeliverP.of_cl cid (DeliverP.d_ents src m s) = []).
  { apply filter_none. intros e He. apply filter_In in He as [He _]. unfold DeliverP.d_found in He.
    destruct (db_iterate (deliver_opts (m_topic m)) (b_subs s)) as [l|]; [|destruct He].
    apply in_flat_map in He as ([c x] & Hin & He). cbn [fst snd] in He.
    destruct x as [sb|]; [|destruct He]. destruct He as [<-|[]]. cbn [fst].
    destruct (str_eqb_spec cid c) as [<-|_]; [|reflexivity]. now destruct (Hdb _ eq_refl _ _ Hin). }
  destruct (DeliverP.deliver_calls src m s) as (cl1 & cl2 & cl3 & p & n & Sh & ->). cbn [fst].
  pose proof (DeliverP.shape_count src m s cl1 cl2 cl3 cid Sh) as Hc. rewrite E0 in Hc.
  change (b_queues (DeliverP.set_pk p n ?X)) with (b_queues X).
  apply (fold_left_In_inv (fun acc => aget cid (b_queues (fst acc)) = aget cid (b_queues s))); [|reflexivity].
  intros [a o] cl Hin Ha. rewrite DeliverP.call_step_eq. cbn [fst] in *. rewrite add_to_queue_other; [exact Ha|].
  intros E. assert (Hf : In cl (DeliverP.calls_for cid (cl1 ++ cl2 ++ cl3))).
  { apply filter_In. split; [exact Hin|]. rewrite E. apply str_eqb_refl. }
  destruct (DeliverP.calls_for cid (cl1 ++ cl2 ++ cl3)); [destruct Hf|cbn [length] in Hc; lia].
Qed.

Definition NoSubs (cid : str) : st -> Prop := hist (fun sp => forall g f, ~ In (cid, g, f) (map fst sp)).

Lemma NoSubs_ext cid s s' : b_subs s' = b_subs s -> NoSubs cid s -> NoSubs cid s'.
Proof. intros E. now apply hist_weaken. Qed.

Lemma nil_of_no_member {A} (l : list A) : (forall x, ~ In x l) -> l = [].
Proof. destruct l as [|a r]; [reflexivity|]. intros H. exfalso. apply (H a). now left. Qed.

Lemma NoSubs_lookup cid s :
  NoSubs cid s -> cid <> [] ->
  db_iterate (q_client cid) (b_subs s) = IOk [] /\ db_iterate (q_sh_client cid) (b_subs s) = IOk [].
Proof.
  intros (ops & Hwf & Hd & Hno) Hne. rewrite Hd. split.
  - destruct (lookup_client_exact ops cid Hwf Hne) as (l & -> & _ & Hl).
    rewrite (nil_of_no_member l); [reflexivity|]. intros [c' sb] Hin. apply Hl in Hin as [-> Hget].
    apply sp_get_some_in in Hget. exact (Hno _ _ Hget).
  - destruct (sh_lookup_client_exact ops cid Hwf Hne) as (l & -> & _ & Hl).
    rewrite (nil_of_no_member l); [reflexivity|]. intros [c' sb] Hin. apply Hl in Hin as (-> & _ & Hget).
    apply sp_get_some_in in Hget. exact (Hno _ _ Hget).
Qed.

Lemma NoSubs_deliver cid s topic l :
  NoSubs cid s -> db_iterate (deliver_opts topic) (b_subs s) = IOk l -> forall c x, In (c, x) l -> c <> cid.
Proof.
  intros (ops & Hwf & Hd & Hno) Hl c x Hin ->. rewrite Hd in Hl.
  destruct (deliver_ents_clients topic _ _ l (Inv_run ops Hwf) Hl cid x Hin) as (sb & _ & Hk).
  exact (Hno _ _ Hk).
Qed.

Lemma send_will_queue_other cid cid' m s :
  NoSubs cid s -> aget cid (b_queues (fst (send_will cid' m s))) = aget cid (b_queues s).
Proof.
  intros HN. destruct (send_will_cases cid' m s) as [->|[m' ->]]; [reflexivity|]. rewrite deliver_queue_other.
  - unfold retain_update. destruct (m_retained m'); reflexivity.
  - intros l. apply NoSubs_deliver. revert HN. apply NoSubs_ext. unfold retain_update. destruct (m_retained m'); reflexivity.
Qed.

Lemma hc_wills_queue_other cid o_will s :
  NoSubs cid s -> aget cid (b_queues (fst (hc_wills o_will s))) = aget cid (b_queues s).
Proof.
  intros HN. unfold hc_wills.
  apply (fold_inv (fun s0 => NoSubs cid s0 /\ aget cid (b_queues s0) = aget cid (b_queues s))); [|now split].
  intros s0 o0 cw [N0 Q0]. cbv beta iota.
  pose proof (send_will_queue_other cid (fst cw) (snd cw) s0 N0) as HQ.
  destruct (send_will_quiet (fst cw) (snd cw) s0) as [F _].
  destruct (send_will (fst cw) (snd cw) s0) as [s' o']. cbn [fst] in *. split; [|congruence].
  revert N0. apply NoSubs_ext. apply (fr_subs _ _ F).
Qed.

Lemma hc_old_nosubs cid v5 cmax r0 s :
  BInv s -> SubsInv s -> cid <> [] -> snd (hc_old cid v5 cmax r0 s) = false ->
  NoSubs cid (fst (fst (hc_old cid v5 cmax r0 s))).
Proof.
  intros HI HS Hne. unfold hc_old. destruct (aget cid (b_sessions s)) as [se|] eqn:Es.
  - assert (HR : NoSubs cid (remove_session cid s)).
    { revert HS. apply (hist_step (OUnsubAll cid) (owned s)); [now apply negb_true_iff, is_empty_false|reflexivity|].
      intros sp _ g f Hin. now apply sp_del_client_keys in Hin as [Hcid _]. }
    destruct r0.
    + pose proof (bi_has _ _ HI cid (bi_sess _ _ HI cid (ahas_some _ _ _ Es))) as (_ & Hq & Hu).
      apply ahas_true in Hq as [q Hq], Hu as [u Hu]. rewrite Hq, Hu. cbn [snd]. discriminate.
    + cbv zeta. intros _. destruct (aget cid (b_wills (remove_session cid s))) as [[w t]|]; cbn [fst]; [|exact HR].
      revert HR. apply NoSubs_ext. reflexivity.
  - intros _. cbn [fst]. revert HS. apply (hist_weaken (owned s)); [reflexivity|]. intros sp Hc g f Hin.
    apply Hc in Hin. apply ahas_none in Es. congruence.
Qed.

Theorem fresh_session_is_empty c cn s props :
  BInv s -> SubsInv s -> cv s c = None -> hc_rejected cn s = false ->
  In (OSend c (KConnack false 0 props)) (snd (handle_connect c cn s)) ->
  (exists q, aget (hc_cid cn s) (b_queues (fst (handle_connect c cn s))) = Some q /\ q_l q = []) /\
  aget (hc_cid cn s) (b_unacks (fst (handle_connect c cn s))) = Some [] /\
  db_iterate (q_client (hc_cid cn s)) (b_subs (fst (handle_connect c cn s))) = IOk [] /\
  db_iterate (q_sh_client (hc_cid cn s)) (b_subs (fst (handle_connect c cn s))) = IOk [].
Proof.
  intros HI HS Hc Hrej Hin. rewrite handle_connect_accepted in * by exact Hrej.
  apply accept_connack in Hin. symmetry in Hin. rewrite hc_accept_eq. cbn [fst]. set (cid := hc_cid cn s).
  destruct (hc_stages c cn s HI Hc) as (HI1 & _).
  pose proof (hc_old_nosubs cid (cn_ver cn =? 5) (hc_cmax cn) (hc_resume0 cid cn (fst (hc_dup cn s))) _ HI1
                (hc_dup_subsinv cn s HI HS) (hc_cid_ne cn s) Hin) as HN2.
  destruct (hc_wills_quiet (snd (fst (hc_prev cn s))) (hc_reg c cn s)) as [F5 _].
  assert (N4 : NoSubs cid (hc_reg c cn s)).
  { revert HN2. apply NoSubs_ext. unfold hc_reg, hc_new. now rewrite Hin. }
  rewrite (fr_u _ _ F5), (fr_subs _ _ F5), (hc_wills_queue_other cid _ _ N4).
  unfold hc_reg, hc_register, hc_new, hc_fresh. rewrite Hin. proj. rewrite !aget_aset_same.
  split; [eexists; split; [reflexivity|reflexivity]|]. split; [reflexivity|].
  apply NoSubs_lookup; [exact HN2|apply hc_cid_ne].
Qed.

Lemma takeover_subs cid s :
  BInv s -> ahas cid (b_offline (fst (hc_takeover cid s))) = true -> b_subs (fst (hc_takeover cid s)) = b_subs s.
Proof.
  intros HI. unfold hc_takeover. destruct (aget cid (b_online s)) as [c0|] eqn:Eo; [|reflexivity].
  destruct (BInv_online_attached s cid c0 HI Eo) as (k0 & Hk0 & Hcid & Ha & Hf).
  destruct (conn_gone_att_spec c0 k0 s Hk0 Ha) as (s1 & o' & _ & _ & F & R). rewrite Hcid in R.
  destruct R as [H E|se Hs Hfr He E]; rewrite E; unfold store_tables; proj.
  - rewrite (fr_off _ _ F). proj. rewrite ahas_adel by apply (bi_nd_off _ _ HI). now rewrite str_eqb_refl.
  - intros _. apply (fr_subs _ _ F).
Qed.

Lemma hc_old_true cid v5 cmax r0 s s2 o_will :
  hc_old cid v5 cmax r0 s = (s2, o_will, true) ->
  exists q u, aget cid (b_queues s) = Some q /\ aget cid (b_unacks s) = Some u /\ o_will = [] /\
    s2 = set_tables (b_sessions s) (b_online s) (b_offline s) (adel cid (b_wills s))
                    (aset cid (q_init false v5 cmax q) (b_queues s)) (b_unacks s) s.
Proof.
  unfold hc_old. destruct (aget cid (b_sessions s)) as [se|]; [|discriminate]. destruct r0.
  - destruct (aget cid (b_queues s)) as [q|]; [|discriminate].
    destruct (aget cid (b_unacks s)) as [u|]; [|discriminate]. intros [= <- <-]. now exists q, u.
  - cbv zeta. destruct (aget cid (b_wills (remove_session cid s))) as [[w t]|]; discriminate.
Qed.

Theorem resumed_session_is_intact c cn s props :
  BInv s -> cv s c = None -> hc_rejected cn s = false ->
  In (OSend c (KConnack true 0 props)) (snd (handle_connect c cn s)) ->
  b_subs (fst (handle_connect c cn s)) = b_subs s /\
  aget (hc_cid cn s) (b_unacks (fst (handle_connect c cn s))) =
    aget (hc_cid cn s) (b_unacks (fst (hc_takeover (hc_cid cn s) (hc_auto cn s)))) /\
  exists q q', aget (hc_cid cn s) (b_queues (fst (hc_takeover (hc_cid cn s) (hc_auto cn s)))) = Some q /\
               aget (hc_cid cn s) (b_queues (fst (handle_connect c cn s))) = Some q' /\ q_l q' = q_l q.
Proof.
  intros HI Hc Hrej Hin. rewrite handle_connect_accepted in * by exact Hrej.
  apply accept_connack in Hin. symmetry in Hin. rewrite hc_accept_eq. cbn [fst]. set (cid := hc_cid cn s).
  destruct (hc_stages c cn s HI Hc) as (HI1 & Hon1 & _).
  destruct (proj1 (hc_old_resume cid cn (cn_ver cn =? 5) (hc_cmax cn) _ HI1 Hon1) Hin) as (_ & dl & Hdl & _).
  pose proof (takeover_subs cid (hc_auto cn s) (hc_auto_inv cn s HI) (ahas_some _ _ _ Hdl)) as HT.
  change (hc_takeover cid (hc_auto cn s)) with (hc_dup cn s) in HT. unfold hc_reg, hc_new, hc_register. destruct (hc_prev cn s) as [[s2 o_will] resume] eqn:E2.
  cbn [fst snd] in *. subst resume. destruct (hc_old_true _ _ _ _ _ _ _ E2) as (q & u & Hq & Hu & -> & ->).
  unfold hc_wills, hc_fresh. cbn [fold_left fst]. proj. split; [|split].
  - rewrite HT. unfold hc_auto. destruct (is_empty (cn_cid cn)); reflexivity.
  - reflexivity.
  - exists q. eexists. split; [exact Hq|]. rewrite aget_aset_same. split; reflexivity.
Qed.

Definition BInv_spec (s : st) : Prop :=
  (* (a) an online client id points to a socket attached to it *)
  (forall cid c, aget cid (b_online s) = Some c ->
     exists k, nget c (b_conns s) = Some k /\ k_cid k = cid /\ attached (k_phase k) = true) /\
  (* (b) an attached socket is the online entry of its client id *)
  (forall c k, nget c (b_conns s) = Some k -> attached (k_phase k) = true -> aget (k_cid k) (b_online s) = Some c) /\
  (* (c) online and offline are disjoint; they have a session, a queue, an unack set; sessions are online or offline *)
  (forall cid, ahas cid (b_online s) = true -> ahas cid (b_offline s) = false) /\
  (forall cid, ahas cid (b_online s) || ahas cid (b_offline s) = true ->
     ahas cid (b_sessions s) = true /\ ahas cid (b_queues s) = true /\ ahas cid (b_unacks s) = true) /\
  (forall cid, ahas cid (b_sessions s) = true -> ahas cid (b_online s) || ahas cid (b_offline s) = true) /\
  (* (d) no duplicate keys *)
  NoDup (map fst (b_online s)) /\ NoDup (map fst (b_offline s)) /\ NoDup (map fst (b_sessions s)) /\
  NoDup (map fst (b_queues s)) /\ NoDup (map fst (b_unacks s)) /\ NoDup (map fst (b_conns s)) /\
  NoDup (map fst (b_wills s)) /\
  (* (e) the forced-removal mark never survives on an attached socket; client ids are not empty *)
  (forall c k, nget c (b_conns s) = Some k -> attached (k_phase k) = true -> k_force_remove k = false) /\
  (forall cid, ahas cid (b_sessions s) = true -> cid <> []).

Lemma BInv_iff_spec s : BInv s <-> BInv_spec s.
Proof.
  split.
  - intros HI. unfold BInv_spec. repeat match goal with |- _ /\ _ => split end; try apply HI.
    + intros cid c H. destruct (BInv_online_attached s cid c HI H) as (k & A & B & C & _). now exists k.
    + intros c k. now apply BInv_attached_online.
    + intros c k Hk Ha. apply (bi_force _ _ HI c (k_cid k)); [apply cv_some; now exists k|discriminate].
  - intros (A & B & C1 & C2 & C3 & D1 & D2 & D3 & D4 & D5 & D6 & D7 & E1 & E2). constructor; auto.
    + intros cid c H _. destruct (A cid c H) as (k & Hk & Hc & Ha). exists (k_force_remove k). apply cv_some. now exists k.
    + intros c cid f H. apply cv_some in H as (k & Hk & <- & Ha & _). now apply B.
    + intros c cid f H _. apply cv_some in H as (k & Hk & _ & Ha & <-). now apply (E1 c).
Qed.

Lemma session_alive_def (cid : str) (s : st) :
  session_alive cid s <->
  (exists dl, aget cid (b_offline s) = Some dl /\ b_now s <= dl) \/
  (exists c0 k0 se, aget cid (b_online s) = Some c0 /\ nget c0 (b_conns s) = Some k0 /\
                    aget cid (b_sessions s) = Some se /\ takeover_expiry k0 se (b_cfg s) <> 0).
Proof. reflexivity. Qed.

Lemma takeover_expiry_def (k : conn) (se : session) (cf : cfg) :
  takeover_expiry k se cf =
  if (k_v k =? 5) && k_got_disconnect k
  then N.min (match k_disc_sei k with Some x => x | None => se_expiry se end) (c_session_expiry cf)
  else se_expiry se.
Proof. reflexivity. Qed.

Lemma connect_expiry_def (cn : connect) (cf : cfg) :
  connect_expiry cn cf =
  if cn_ver cn =? 5 then match p_sei (cn_props cn) with Some i => N.min i (c_session_expiry cf) | None => 0 end
  else if cn_clean cn then 0 else c_session_expiry cf.
Proof. reflexivity. Qed.

(* Session Present at the level of a whole step: the socket's previous connection, if any, ends first *)
Theorem resume_iff_step c cn s sp props :
  BInv s -> hc_rejected cn s = false ->
  In (OSend c (KConnack sp 0 props)) (snd (step_event s (EConnect c cn))) ->
  (sp = true <-> cn_clean cn = false /\
                 session_alive (hc_cid cn (fst (conn_gone c s))) (fst (conn_gone c s))).
Proof.
  intros HI Hrej Hin. cbn [step_event] in Hin.
  pose proof (conn_gone_inv c s HI) as H0. pose proof (conn_gone_cv_self c s) as Hc.
  pose proof (conn_gone_nosend c s) as Hn. pose proof (conn_gone_misc c s) as (Hcfg & Hhooks & _).
  destruct (conn_gone c s) as [s0 o0]. cbn [fst snd] in *.
  pose proof (resume_iff c cn s0 sp props H0 Hc) as HR.
  destruct (handle_connect c cn s0) as [s1 o1]. cbn [snd] in *.
  apply in_app_or in Hin as [Hin|Hin].
  - apply filter_In in Hin as [Hin _]. now apply nosend_not_in in Hin.
  - apply HR; [|exact Hin]. now rewrite (hc_rejected_ext cn s s0 Hhooks Hcfg).
Qed.

(* `hc_rejected cn s = false` is exactly "the CONNACK carries reason code 0" *)
Lemma connack_success_iff c cn s :
  hc_rejected cn s = false <-> exists sp props, In (OSend c (KConnack sp 0 props)) (snd (handle_connect c cn s)).
Proof.
  split.
  - intros H. rewrite (handle_connect_accepted c cn s H). apply accept_sends_connack.
  - intros (sp & props & Hin). destruct (handle_connect_cases c cn s) as [(_ & k & code & _ & Hne & E)|[H _]]; [|exact H].
    rewrite E in Hin. destruct Hin as [Hin|[]]. injection Hin as _ Hc _. congruence.
Qed.

(* concrete scenarios, so that the hypotheses of the theorems above are seen to be met *)
Definition ex_cfg : cfg :=
  {| c_onlyonce := false; c_max_inflight := 10; c_max_queued := 10; c_queue_qos0 := true;
     c_session_expiry := 100; c_message_expiry := 0; c_recv_max := 10; c_alias_max := 0; c_max_packet := 1000;
     c_max_qos := 2; c_retain_avail := true; c_wildcard := true; c_subid := true; c_shared := true;
     c_max_keepalive := 60; c_allow_zero_len := true; c_inflight_expiry := 0 |}.

(* client "a", MQTT 3.1.1 *)
Definition ex_cn (clean : bool) : connect :=
  {| cn_ver := 4; cn_cid := [97]; cn_clean := clean; cn_keepalive := 0; cn_user := None; cn_pass := None;
     cn_will := None; cn_props := [] |}.
(* client "b", MQTT 5 with Session Expiry Interval 30 *)
Definition ex_cn5 : connect :=
  {| cn_ver := 5; cn_cid := [98]; cn_clean := false; cn_keepalive := 0; cn_user := None; cn_pass := None;
     cn_will := None; cn_props := [PSei 30] |}.
Definition ex_sub : pkt :=
  KSubscribe 1 [] [{| tq_name := [116]; tq_qos := 1; tq_nl := false; tq_rap := false; tq_rh := 0 |}].
Definition ex_msg : msg :=
  {| m_dup := false; m_qos := 1; m_retained := false; m_topic := [116]; m_payload := [120]; m_pid := 0;
     m_ctype := []; m_corr := []; m_expiry := 0; m_pfmt := 0; m_resp := []; m_subids := []; m_uprops := [] |}.

(* "a" connected on socket 1 and subscribed to "t" *)
Definition ex_s1 : st := fst (run (st_init ex_cfg no_hooks []) [EConnect 1 (ex_cn false); ESend 1 ex_sub]).
(* ... its connection closed, a message queued for it *)
Definition ex_s2 : st := fst (run ex_s1 [EClose 1; EApiPublish ex_msg]).
(* ... and its session expired *)
Definition ex_s3 : st := fst (run ex_s2 [EAdvance 200000]).
(* "b" (v5) connected on socket 3 *)
Definition ex_s5 : st := fst (run (st_init ex_cfg no_hooks []) [EConnect 3 ex_cn5]).
