(* C01, order clause, over whole runs of the broker model (Model/Broker.v):
   "messages from one publisher reach a given subscriber in publication order".

   1. every stored queue keeps its PUBLISH entries in strictly increasing ghost-tag order, all below the tag
      counter b_tag, in every state reachable by ANY run (no side condition at all);
   2. hence copies of an earlier publication precede copies of a later one in every queue, for ever;
   3. and the poll loops hand the entries of one session to the writer (first transmissions, DUP=0) in strictly
      increasing tag order over a whole (well-behaved) run.

   Method: a relation `qstep` on (tag counter, queue table) generated by the few things the broker ever does to
   a stored queue (element-wise evolution and removal, append with the current tag, new empty queue, removal of
   the queue); the handlers of an event are compositions of `edits` (Proofs/BrokerEditsP.v), which are qsteps, and
   so is every turn of a poll loop; any per-queue predicate closed under the generators is therefore an invariant
   of all runs. *)
From Coq Require Import List NArith ZArith Bool Arith Lia ZifyN ZifyNat ZifyBool Sorted.
Import ListNotations.
From GM Require Import Base.Topic Base.Msg Model.SubTrie Model.RetTrie Model.Queue Model.Limiter
                       Model.TopicMatch Model.Broker Proofs.TopicP Proofs.SubTrieP Proofs.LimiterP Proofs.QueueP
                       Proofs.BrokerBasicP Proofs.BrokerInvP Proofs.BrokerPollP Proofs.BrokerPollGlobalP Proofs.BrokerEditsP.
From GM Require Proofs.DeliverP.
Open Scope N_scope.

(* the part of a message that identifies the publication it is a copy of *)
Definition same_msg (m m' : msg) : Prop := m_topic m' = m_topic m /\ m_payload m' = m_payload m.

Lemma same_msg_refl m : same_msg m m. Proof. split; reflexivity. Qed.
Lemma same_msg_trans a b c : same_msg a b -> same_msg b c -> same_msg a c.
Proof. unfold same_msg. intros [] []. split; congruence. Qed.

(* e' is a later form of the stored element e.  A PUBLISH entry keeps its tag, topic and payload (packet id, DUP,
   expiry, subscription identifiers may change); it may be replaced by a PUBREL entry, which carries tag 0;
   a PUBREL entry stays one.  g = true ("guarded") additionally says that an entry never loses its packet id:
   that holds as long as the poll loop is only handed non-zero ids. *)
Definition evo (g : bool) (e e' : elem) : Prop :=
  match e_body e' with
  | QPub m' => exists m, e_body e = QPub m /\ e_tag e' = e_tag e /\ same_msg m m' /\
                         (g = true -> m_pid m' = 0 -> m_pid m = 0)
  | QRel _ => e_tag e' = 0 \/ (is_pub e = false /\ e_tag e' = e_tag e)
  end.

Lemma evo_refl g e : evo g e e.
Proof.
  unfold evo. destruct (e_body e) as [m|p] eqn:Eb.
  - exists m. auto using same_msg_refl.
  - right. unfold is_pub. now rewrite Eb.
Qed.

Lemma evo_trans g a b c : evo g a b -> evo g b c -> evo g a c.
Proof.
  unfold evo. intros Hab Hbc. destruct (e_body c) as [mc|pc].
  - destruct Hbc as (mb & Eb & Ht & Hs & Hp). rewrite Eb in Hab.
    destruct Hab as (ma & Ea & Ht' & Hs' & Hp'). exists ma.
    split; [exact Ea|]. split; [congruence|]. split; [eapply same_msg_trans; eauto|auto].
  - destruct Hbc as [H0|[Hb Ht]]; [now left|]. unfold is_pub in Hb.
    destruct (e_body b) as [mb|pb]; [discriminate|].
    destruct Hab as [H0|[Ha Ht']]; [left; congruence|right; split; [exact Ha|congruence]].
Qed.

Lemma evo_weaken g e e' : evo g e e' -> evo false e e'.
Proof.
  unfold evo. destruct (e_body e'); [|auto]. intros (m0 & H1 & H2 & H3 & _). exists m0.
  split; [exact H1|]. split; [exact H2|]. split; [exact H3|discriminate].
Qed.

(* in-place changes that keep the body *)
Lemma evo_same_body g e e' : e_body e' = e_body e -> e_tag e' = e_tag e -> evo g e e'.
Proof.
  intros Hb Ht. unfold evo. rewrite Hb. destruct (e_body e) as [m|p] eqn:Eb.
  - exists m. auto using same_msg_refl.
  - right. unfold is_pub. now rewrite Eb.
Qed.

Lemma evo_rel g e e' p : e_body e' = QRel p -> e_tag e' = 0 -> evo g e e'.
Proof. intros Hb Ht. unfold evo. rewrite Hb. now left. Qed.

(* the list of a queue: elements evolve or disappear, the order is kept *)
Inductive lrel (g : bool) : list elem -> list elem -> Prop :=
| lr_nil : lrel g [] []
| lr_drop e l l' : lrel g l l' -> lrel g (e :: l) l'
| lr_keep e e' l l' : evo g e e' -> lrel g l l' -> lrel g (e :: l) (e' :: l').

Lemma lrel_refl g l : lrel g l l.
Proof. induction l; [apply lr_nil|apply lr_keep; auto using evo_refl]. Qed.

Lemma lrel_trans g a b : lrel g a b -> forall c, lrel g b c -> lrel g a c.
Proof.
  induction 1 as [|e l l' H IH|e e' l l' He H IH]; intros c Hc.
  - exact Hc.
  - apply lr_drop. now apply IH.
  - inversion Hc as [|? ? ? Hc'|? e'' ? c' He' Hc']; subst.
    + apply lr_drop. now apply IH.
    + apply lr_keep; [eapply evo_trans; eauto|now apply IH].
Qed.

Lemma lrel_weaken g a b : lrel g a b -> lrel false a b.
Proof. induction 1; [apply lr_nil|now apply lr_drop|apply lr_keep; eauto using evo_weaken]. Qed.

Lemma lrel_nil_r g l : lrel g l [].
Proof. induction l; [apply lr_nil|now apply lr_drop]. Qed.

Lemma lrel_app g a a' b b' : lrel g a a' -> lrel g b b' -> lrel g (a ++ b) (a' ++ b').
Proof. induction 1; cbn [app]; intros Hb; [exact Hb|apply lr_drop; auto|apply lr_keep; auto]. Qed.

Lemma lrel_remove_nth g l : forall i, lrel g l (remove_nth i l).
Proof.
  induction l as [|x r IH]; intros [|i]; cbn [remove_nth]; try apply lr_nil.
  - apply lr_drop, lrel_refl.
  - apply lr_keep; [apply evo_refl|apply IH].
Qed.

Lemma lrel_replace_nth g y l : forall i, (forall e, nth_error l i = Some e -> evo g e y) -> lrel g l (replace_nth i y l).
Proof.
  induction l as [|x r IH]; intros [|i] H; cbn [replace_nth]; try apply lr_nil.
  - apply lr_keep; [now apply H|apply lrel_refl].
  - apply lr_keep; [apply evo_refl|apply IH; intros e He; now apply H].
Qed.

Lemma lrel_map g (f : elem -> elem) l : (forall e, In e l -> evo g e (f e)) -> lrel g l (map f l).
Proof.
  induction l as [|x r IH]; intros H; cbn [map]; [apply lr_nil|].
  apply lr_keep; [apply H; now left|apply IH; intros e He; apply H; now right].
Qed.

Lemma lrel_in g l l' : lrel g l l' -> forall e', In e' l' -> exists e, In e l /\ evo g e e'.
Proof.
  induction 1 as [|e l l' H IH|e e0 l l' He H IH]; intros e' Hin.
  - destruct Hin.
  - destruct (IH e' Hin) as (x & Hx & Hev). exists x. split; [now right|exact Hev].
  - destruct Hin as [<-|Hin]; [exists e; split; [now left|exact He]|].
    destruct (IH e' Hin) as (x & Hx & Hev). exists x. split; [now right|exact Hev].
Qed.

Lemma evo_pub g e e' : evo g e e' -> is_pub e' = true -> is_pub e = true /\ e_tag e' = e_tag e.
Proof.
  unfold evo, is_pub. destruct (e_body e'); [|discriminate]. intros (m0 & -> & Ht & _) _. auto.
Qed.

(* the tags of the PUBLISH entries: a subsequence survives *)
Lemma lrel_pub_tags g l l' : lrel g l l' -> subseq (pub_tags l') (pub_tags l).
Proof.
  unfold pub_tags. induction 1 as [|e l l' H IH|e e' l l' He H IH]; cbn [filter map].
  - constructor.
  - destruct (is_pub e); cbn [map]; [constructor|]; exact IH.
  - destruct (is_pub e') eqn:Ep.
    + destruct (evo_pub _ _ _ He Ep) as [Hp Ht]. rewrite Hp. cbn [map]. rewrite Ht. now constructor.
    + destruct (is_pub e); cbn [map]; [constructor|]; exact IH.
Qed.

Lemma q_add_lrel g now e q q' evs : q_add now e q = QOk (q', evs) ->
  q' = q \/ exists l1, lrel g (q_l q) l1 /\ q_l q' = l1 ++ [e].
Proof.
  unfold q_add. destruct (q_max q <=? length (q_l q))%nat.
  - destruct (add_victim now e q) as [|r|i r]; [discriminate| |].
    + intros [= <- _]. now left.
    + destruct (nth_error (q_l q) i); [|discriminate]. intros [= <- _]. right.
      exists (remove_nth i (q_l q)). split; [apply lrel_remove_nth|reflexivity].
  - intros [= <- _]. right. exists (q_l q). split; [apply lrel_refl|reflexivity].
Qed.

(* Read walks over a part `pre` of the unread entries and leaves `inf` in its place *)
Lemma q_read_reads now pids q q' rs evs :
  q_read now pids q = QOk (q', rs, evs) ->
  exists pre rest inf drops,
    skipn (q_cur q) (q_l q) = pre ++ rest /\ reads now (q_limit q) (q_v5 q) (q_ifexp q) pids pre inf drops rs /\
    q_l q' = firstn (q_cur q) (q_l q) ++ inf ++ rest /\ skipn (q_cur q') (q_l q') = rest.
Proof.
  unfold q_read. destruct (negb (q_drained q)); [discriminate|]. destruct (q_closed q); [discriminate|].
  destruct (q_cur q =? length (q_l q))%nat; [discriminate|].
  destruct (read_loop now _ pids (q_l q) (q_cur q) (q_limit q) (q_v5 q) (q_ifexp q) 0%Z 0%Z [] [])
    as [[[[[[l cur] dq] di] evs0] rs0]|] eqn:E; [|discriminate].
  intros [= <- <- _]. apply read_loop_reads in E as (inf & drops & rs2 & Hr & -> & -> & Hs & _ & _ & _ & ->).
  do 4 eexists. cbn [q_set q_l q_cur]. split; [symmetry; apply firstn_skipn|]. split; [exact Hr|]. split; [reflexivity|exact Hs].
Qed.

Lemma reads_lrel g now limit v5 ifexp pids pre inf drops rs :
  (g = true -> ~ In 0 pids) -> reads now limit v5 ifexp pids pre inf drops rs -> lrel g pre inf.
Proof.
  intros Hnz H.
  induction H as [pids| | | |p pids v m pre inf drops rs _ Eb _ _ _ IH]; [apply lr_nil|apply lr_drop; auto..|].
  apply lr_keep; [|apply IH; intros Hg Hin; apply (Hnz Hg); now right].
  assert (Hev : evo g v (with_body (QPub (set_pid p m)) v)).
  { unfold evo. cbn [with_body e_body e_tag]. exists m. split; [exact Eb|]. split; [reflexivity|].
    split; [split; reflexivity|]. cbn [set_pid m_pid]. intros Hg Hp. exfalso. apply (Hnz Hg). now left. }
  unfold hand. destruct (ifexp =? 0); [exact Hev|].
  eapply evo_trans; [exact Hev|]. apply evo_same_body; reflexivity.
Qed.

Lemma q_read_lrel g now pids q q' rs evs :
  (g = true -> ~ In 0 pids) -> q_read now pids q = QOk (q', rs, evs) -> lrel g (q_l q) (q_l q').
Proof.
  intros Hnz Hr. destruct (q_read_reads _ _ _ _ _ _ Hr) as (pre & rest & inf & drops & Hs & Hrd & -> & _).
  rewrite <- (firstn_skipn (q_cur q) (q_l q)) at 1. rewrite Hs.
  apply lrel_app; [apply lrel_refl|]. apply lrel_app; [eapply reads_lrel; eauto|apply lrel_refl].
Qed.

Lemma rif_loop_lrel g now ifexp : forall n l cur rs l' cur' dr rs',
  rif_loop now n l cur ifexp rs = (l', cur', dr, rs') -> lrel g l l'.
Proof.
  induction n as [|n IH]; intros l cur rs l' cur' dr rs' H; cbn [rif_loop] in H.
  - injection H as <- _ _ _. apply lrel_refl.
  - destruct (nth_error l cur) as [e|] eqn:Ee; [|injection H as <- _ _ _; apply lrel_refl].
    destruct (e_id e =? 0); [injection H as <- _ _ _; apply lrel_refl|].
    eapply lrel_trans; [|eapply IH; exact H].
    apply lrel_replace_nth. intros e0 He0. rewrite Ee in He0. injection He0 as <-.
    destruct (ifexp =? 0); [apply evo_refl|apply evo_same_body; reflexivity].
Qed.

Lemma q_read_inflight_lrel g now n q : lrel g (q_l q) (q_l (fst (q_read_inflight now n q))).
Proof.
  unfold q_read_inflight. destruct ((length (q_l q) =? 0)%nat || (q_cur q =? length (q_l q))%nat); [apply lrel_refl|].
  destruct (rif_loop now (Nat.min n (length (q_l q))) (q_l q) (q_cur q) (q_ifexp q) []) as [[[l cur] dr] rs] eqn:E.
  cbn [fst q_set q_l]. eapply rif_loop_lrel; eauto.
Qed.

Lemma q_remove_lrel g pid q : lrel g (q_l q) (q_l (fst (q_remove pid q))).
Proof.
  unfold q_remove. destruct (find_id pid (q_l q) (q_cur q) 0); cbn [fst q_set q_l]; [apply lrel_remove_nth|apply lrel_refl].
Qed.

Lemma q_replace_lrel g e p q : e_body e = QRel p -> e_tag e = 0 -> lrel g (q_l q) (q_l (fst (q_replace e q))).
Proof.
  intros Hb Ht. unfold q_replace. destruct (find_id (e_id e) (q_l q) (q_cur q) 0); cbn [fst q_set q_l]; [|apply lrel_refl].
  apply lrel_replace_nth. intros e0 _. eapply evo_rel; eauto.
Qed.

Lemma dupmark_evo g rs e : evo g e (dupmark rs e).
Proof.
  unfold dupmark. destruct (e_body e) as [m|p] eqn:Eb; [|apply evo_refl].
  destruct (existsb (fun r => e_tag r =? e_tag e) rs); [|apply evo_refl].
  unfold evo. cbn [with_body e_body e_tag]. exists m. split; [exact Eb|]. split; [reflexivity|].
  split; [split; reflexivity|]. cbn [as_dup m_pid]. auto.
Qed.

Definition qtab := (N * list (str * queue))%type.

(* P describes the messages that are appended *)
Inductive qstep (g : bool) (P : msg -> Prop) : qtab -> qtab -> Prop :=
| qs_refl x : qstep g P x x
| qs_trans x y z : qstep g P x y -> qstep g P y z -> qstep g P x z
| qs_upd b Q cid q q' : In (cid, q) Q -> lrel g (q_l q) (q_l q') -> qstep g P (b, Q) (b, aset cid q' Q)
| qs_snoc b Q cid q q' e m : In (cid, q) Q -> q_l q' = q_l q ++ [e] -> e_tag e = b -> e_body e = QPub m -> P m ->
    qstep g P (b, Q) (b + 1, aset cid q' Q)
| qs_tag b Q : qstep g P (b, Q) (b + 1, Q)
| qs_new b Q cid q' : q_l q' = [] -> qstep g P (b, Q) (b, aset cid q' Q)
| qs_del b Q cid : qstep g P (b, Q) (b, adel cid Q).

Lemma qstep_weaken g (P P' : msg -> Prop) x y : (forall m, P m -> P' m) -> qstep g P x y -> qstep false P' x y.
Proof.
  intros HP. induction 1.
  - apply qs_refl.
  - eapply qs_trans; eauto.
  - eapply qs_upd; eauto using lrel_weaken.
  - eapply qs_snoc; eauto.
  - apply qs_tag.
  - now apply qs_new.
  - apply qs_del.
Qed.

Lemma qstep_tag_mono g P x y : qstep g P x y -> fst x <= fst y.
Proof. induction 1; cbn [fst] in *; lia. Qed.

(* per-queue predicates closed under the generators are preserved *)
Section Closure.
  Variables (g : bool) (P : msg -> Prop) (b0 : N) (Phi : N -> str -> list elem -> Prop).
  Hypothesis Phi_nil : forall b cid, Phi b cid [].
  Hypothesis Phi_mono : forall b cid l, b0 <= b -> Phi b cid l -> Phi (b + 1) cid l.
  Hypothesis Phi_lrel : forall b cid l l', lrel g l l' -> Phi b cid l -> Phi b cid l'.
  Hypothesis Phi_snoc : forall b cid l e m, b0 <= b -> Phi b cid l -> e_tag e = b -> e_body e = QPub m -> P m ->
                                            Phi (b + 1) cid (l ++ [e]).

  Definition Holds (x : qtab) : Prop := b0 <= fst x /\ forall cid q, In (cid, q) (snd x) -> Phi (fst x) cid (q_l q).

  Theorem qstep_closed x y : qstep g P x y -> Holds x -> Holds y.
  Proof.
    induction 1 as [x|x y z H1 IH1 H2 IH2|b Q cid q q' Hin Hl|b Q cid q q' e m Hin Hl Ht Hb Hm|b Q|b Q cid q' Hl|b Q cid];
      intros [Hb0 HQ]; unfold Holds; cbn [fst snd] in *.
    - now split.
    - apply IH2, IH1. now split.
    - split; [exact Hb0|]. intros cid1 q1 H. apply in_aset in H as [H|H]; [|auto].
      injection H as -> ->. eapply Phi_lrel; [exact Hl|]. now apply HQ.
    - split; [lia|]. intros cid1 q1 H. apply in_aset in H as [H|H].
      + injection H as -> ->. rewrite Hl. eapply Phi_snoc; eauto.
      + apply Phi_mono; auto.
    - split; [lia|]. intros cid1 q1 H. apply Phi_mono; auto.
    - split; [exact Hb0|]. intros cid1 q1 H. apply in_aset in H as [H|H]; [|auto].
      injection H as -> ->. rewrite Hl. apply Phi_nil.
    - split; [exact Hb0|]. intros cid1 q1 H. apply HQ. eapply in_adel; eauto.
  Qed.
End Closure.

Definition QR (g : bool) (P : msg -> Prop) (s s' : st) : Prop :=
  qstep g P (b_tag s, b_queues s) (b_tag s', b_queues s').

Definition anym : msg -> Prop := fun _ => True.

Lemma QR_refl g P s : QR g P s s.
Proof. apply qs_refl. Qed.
Lemma QR_trans g P a b c : QR g P a b -> QR g P b c -> QR g P a c.
Proof. apply qs_trans. Qed.
Lemma QR_same g P s s' : b_tag s' = b_tag s -> b_queues s' = b_queues s -> QR g P s s'.
Proof. unfold QR. intros -> ->. apply qs_refl. Qed.
Lemma QR_then g P s s1 s2 : QR g P s s1 -> b_tag s2 = b_tag s1 -> b_queues s2 = b_queues s1 -> QR g P s s2.
Proof. unfold QR. intros H -> ->. exact H. Qed.
Lemma QR_weaken g P s s' : QR g P s s' -> QR false P s s'.
Proof. apply qstep_weaken. auto. Qed.
Lemma QR_tag_mono g P s s' : QR g P s s' -> b_tag s <= b_tag s'.
Proof. intros H. apply qstep_tag_mono in H. exact H. Qed.

Lemma QR_set_queue g P cid q q' s :
  aget cid (b_queues s) = Some q -> lrel g (q_l q) (q_l q') -> QR g P s (set_queues (aset cid q' (b_queues s)) s).
Proof. intros Hq Hl. unfold QR. cbn [set_queues b_tag b_queues]. eapply qs_upd; [eapply aget_In; eauto|exact Hl]. Qed.

Definition nopub (x : out) : Prop := match x with OSend _ (KPublish _ _ _ _ _ _ _) => False | _ => True end.

(* The handlers of the event part of a step are compositions of `edits` (BrokerEditsP); here is what an edit is
   to the tag counter and the queue table, and to the outputs. *)
Lemma edits_nopub P fresh acks s o s' : edits P fresh acks s o s' -> Forall nopub o.
Proof.
  induction 1; try constructor.
  - revert H0. apply Forall_impl. now intros [c [] |c|cid m r].
  - apply Forall_app. now split.
  - eapply Forall_impl; [|apply drops_of_isdrop]. now intros [c p|c|cid0 m0 r].
Qed.

Lemma edits_QR g P fresh acks s o s' : edits P fresh acks s o s' -> QR g P s s'.
Proof.
  induction 1 as [s o s' E _|s s1 s2 o1 o2 _ IH1 _ IH2|s cid q q' Hq Hl|s cid q e m q' evs Hq Hqa Ht Hb Hm
                  |s cid q pid _ Hq|s cid q e p _ Hq Hb Ht|s cid q' u _ Hl|s cid|s m _|s cid se on off _|s cid w _|s cid];
    try (apply QR_same; reflexivity).
  - destruct (tracked_inv _ _ E) as (_ & _ & _ & _ & _ & _ & Eq & Et). now apply QR_same.
  - eapply QR_trans; eauto.
  - apply (QR_set_queue _ _ cid q); [exact Hq|]. rewrite Hl. apply lrel_refl.
  - unfold QR. cbn [DeliverP.enq set_picks_tag set_queues b_tag b_queues]. rewrite <- Ht.
    apply aget_In in Hq. destruct (q_add_lrel g (b_now s) e q q' evs Hqa) as [->|(l1 & Hl & Hq')].
    + eapply qs_trans; [eapply (qs_upd g P _ _ cid q q Hq); apply lrel_refl|rewrite Ht; apply qs_tag].
    + (* the victim leaves first, then the new entry is appended *)
      set (q1 := q_set l1 (q_cur q) (q_drained q) q).
      eapply qs_trans; [eapply (qs_upd g P _ _ cid q q1 Hq); exact Hl|].
      rewrite <- (aset_aset cid q' q1 (b_queues s)).
      eapply (qs_snoc g P _ _ cid q1 q' e m); auto. apply In_aset_self.
  - apply (QR_set_queue _ _ cid q); [exact Hq|apply q_remove_lrel].
  - apply (QR_set_queue _ _ cid q); [exact Hq|eapply q_replace_lrel; eauto].
  - now apply qs_new.
  - apply qs_del.
Qed.

Lemma deliver_QR g src m s : QR g (same_msg m) s (fst (fst (deliver src m s))).
Proof. apply (edits_QR g _ (fun _ => True) true _ _ _ (deliver_ed _ _ _ m (fun m' Ht Hp => conj Ht Hp) src s)). Qed.

Lemma step_event_QR g s e : QR g anym s (fst (step_event s e)).
Proof.
  apply (QR_trans _ _ _ (clocked s e)); [destruct e; apply QR_same; reflexivity|]. eapply edits_QR, step_event_ed_all.
Qed.

(* the poll loops.  g = true needs the ids handed to Read to be non-zero *)
Lemma poll_once_QR g c s s' o :
  (g = true -> forall k ids, nget c (b_conns s) = Some k -> k_held k = Some ids -> ~ In 0 ids) ->
  poll_once c s = Some (s', o) -> QR g anym s s'.
Proof.
  intros Hnz Hp.
  destruct (poll_once_turn c s s' o Hp)
    as (k & q & Hk & _ & Hq & [q' Hd Hr|q' rs k' o' Hd Hrs Hr Hf|l' ids Hd Hh Hl|ids q' rs evs k' o' Hd Hh Hr Hf]).
  1,2: pose proof (q_read_inflight_lrel g (b_now s) (N.to_nat (k_max_inflight k)) q) as Hl; rewrite Hr in Hl.
  - eapply QR_then; [exact (QR_set_queue g anym _ q q' s Hq Hl)| |]; reflexivity.
  - set (s1 := set_queues (aset (k_cid k) q' (b_queues s)) s).
    apply (QR_trans _ _ _ s1); [exact (QR_set_queue g anym _ q q' s Hq Hl)|].
    eapply QR_then; [eapply (QR_set_queue g anym (k_cid k) q' _ s1); [apply aget_aset_same|]| |]; [|reflexivity..].
    cbn [q_set q_l]. apply lrel_map. intros e _. apply dupmark_evo.
  - apply QR_same; reflexivity.
  - eapply QR_then; [eapply (QR_set_queue g anym (k_cid k) q q' s Hq)| |]; try reflexivity.
    eapply q_read_lrel; [|exact Hr]. intros Hg. eapply Hnz; eauto.
Qed.

Lemma poll_all_QR_weak s : QR false anym s (fst (poll_all s)).
Proof.
  apply poll_all_rel; [apply QR_refl|apply QR_trans|].
  intros c s0 s' o Hp. eapply poll_once_QR; [|exact Hp]. discriminate.
Qed.

(* the ids a poll loop holds are locked in its limiter, hence non-zero *)
Lemma PollInv_held_nz w s c k ids :
  PollInv w s c -> nget c (b_conns s) = Some k -> k_held k = Some ids -> ~ In 0 ids.
Proof.
  intros (k0 & q & inf & que & Hk0 & _ & _ & _ & _ & HCQ) Hk Hh Hin.
  rewrite Hk in Hk0. injection Hk0 as <-.
  destruct (cq_lim _ _ _ _ _ _ HCQ) as (_ & Hz & _). apply Hz.
  apply (cq_locked _ _ _ _ _ _ HCQ). apply in_or_app. right. unfold held_ids. now rewrite Hh.
Qed.

Lemma poll_once_PQ w b c s s' o : PQ w b s -> poll_once c s = Some (s', o) -> PQ w b s' /\ QR true anym s s'.
Proof.
  intros (HI & HA & HQ & Ht) Hp.
  destruct (poll_once_QS w c s s' o HI HA HQ Hp) as (HI' & HQ' & Ht').
  split; [split; [exact HI'|split; [eapply poll_once_AllPoll; eauto|split; [exact HQ'|congruence]]]|].
  eapply poll_once_QR; [|exact Hp]. intros _ k ids Hk Hh.
  destruct (poll_once_turn c s s' o Hp) as (k0 & _ & Hk0 & Hat & _). rewrite Hk in Hk0. injection Hk0 as <-.
  eapply PollInv_held_nz; eauto.
Qed.

Lemma poll_all_QR_strong w s : BInv s -> J w s -> QR true anym s (fst (poll_all s)).
Proof.
  intros HI HJ.
  apply (poll_all_rel (fun a a' => PQ w (b_tag s) a -> PQ w (b_tag s) a' /\ QR true anym a a')).
  - intros a Ha. split; [exact Ha|apply QR_refl].
  - intros a b c Hab Hbc Ha. destruct (Hab Ha) as [Hb Q1]. destruct (Hbc Hb) as [Hc Q2]. split; [exact Hc|eapply QR_trans; eauto].
  - intros c a a' o Hp Ha. now apply (poll_once_PQ w _ c a a' o).
  - split; [exact HI|]. split; [apply (j_poll w s HJ)|]. split; [apply (j_qs w s HJ)|reflexivity].
Qed.

Lemma step_fst s e : fst (step s e) = fst (poll_all (fst (step_event s e))).
Proof. unfold step. destruct (step_event s e) as [s1 o1]. cbn [fst]. now destruct (poll_all s1). Qed.

Theorem step_QR s e : QR false anym s (fst (step s e)).
Proof. rewrite step_fst. eapply QR_trans; [apply step_event_QR|apply poll_all_QR_weak]. Qed.

Theorem step_QR_strong w s e : GInv w s -> wb w s e = true -> QR true anym s (fst (step s e)).
Proof.
  intros [HI HJ] Hwb. rewrite step_fst. eapply QR_trans; [apply step_event_QR|].
  apply (poll_all_QR_strong w); [now apply step_event_inv|now apply step_event_J].
Qed.

Theorem run_QR : forall es s, QR false anym s (fst (run s es)).
Proof.
  intros es s. apply (run_invariant (QR false anym s)); [|apply QR_refl].
  intros s' e H. eapply QR_trans; [exact H|apply step_QR].
Qed.

Theorem run_QR_strong w : forall es s, GInv w s -> run_wb w s es = true -> QR true anym s (fst (run s es)).
Proof.
  induction es as [|e r IH]; intros s HG Hwb; [apply QR_refl|].
  cbn [run_wb] in Hwb. apply andb_true_iff in Hwb as [H1 H2]. rewrite run_cons.
  eapply QR_trans; [exact (step_QR_strong w s e HG H1)|]. apply IH; [now apply step_GInv|exact H2].
Qed.

(* the PUBLISH entries carry strictly increasing tags along the queue, all non-zero and below the counter;
   the PUBREL entries (which replace a PUBLISH entry when its PUBREC arrives) carry tag 0 *)
Definition tags_sorted (b : N) (l : list elem) : Prop :=
  StronglySorted N.lt (pub_tags l) /\ Forall (fun t => 0 < t < b) (pub_tags l) /\
  Forall (fun e => is_pub e = false -> e_tag e = 0) l.

Definition TS (s : st) : Prop :=
  1 <= b_tag s /\ forall cid q, In (cid, q) (b_queues s) -> tags_sorted (b_tag s) (q_l q).

Lemma tags_sorted_nil b : tags_sorted b [].
Proof. unfold tags_sorted, pub_tags. cbn. repeat split; constructor. Qed.

Lemma tags_sorted_mono b b' l : b <= b' -> tags_sorted b l -> tags_sorted b' l.
Proof.
  intros Hb (H1 & H2 & H3). split; [exact H1|]. split; [|exact H3].
  eapply Forall_impl; [|exact H2]. cbv beta. intros t Ht. lia.
Qed.

Lemma tags_sorted_lrel g b l l' : lrel g l l' -> tags_sorted b l -> tags_sorted b l'.
Proof.
  intros Hl (H1 & H2 & H3). pose proof (lrel_pub_tags g l l' Hl) as Hs. split; [|split].
  - eapply DeliverP.subseq_sorted; eauto.
  - eapply Forall_subseq; eauto.
  - apply Forall_forall. intros e' He' Hp. destruct (lrel_in g l l' Hl e' He') as (e & He & Hev).
    unfold evo in Hev. unfold is_pub in Hp. destruct (e_body e'); [discriminate|].
    destruct Hev as [H0|[Hpe Ht]]; [exact H0|]. rewrite Ht. rewrite Forall_forall in H3. now apply H3.
Qed.

Lemma tags_sorted_snoc b l e m : 1 <= b -> tags_sorted b l -> e_tag e = b -> e_body e = QPub m -> tags_sorted (b + 1) (l ++ [e]).
Proof.
  intros Hb (H1 & H2 & H3) Ht He.
  assert (Hp : is_pub e = true) by (unfold is_pub; now rewrite He).
  assert (Htags : pub_tags (l ++ [e]) = pub_tags l ++ [b]).
  { rewrite pub_tags_app. unfold pub_tags at 2. cbn [filter]. rewrite Hp. cbn [map]. now rewrite Ht. }
  split; [|split].
  - rewrite Htags. apply DeliverP.sorted_app; [exact H1|repeat constructor|].
    intros x y Hx [<-|[]]. rewrite Forall_forall in H2. apply H2 in Hx. lia.
  - rewrite Htags. apply Forall_app. split.
    + eapply Forall_impl; [|exact H2]. cbv beta. intros t Ht'. lia.
    + constructor; [lia|constructor].
  - apply Forall_app. split; [exact H3|]. constructor; [|constructor]. intros Hn. congruence.
Qed.

Theorem TS_qstep g P x y : qstep g P x y ->
  Holds 1 (fun b _ l => tags_sorted b l) x -> Holds 1 (fun b _ l => tags_sorted b l) y.
Proof.
  apply (qstep_closed g P 1 (fun b _ l => tags_sorted b l)).
  - intros b _. apply tags_sorted_nil.
  - intros b _ l _. apply tags_sorted_mono. lia.
  - intros b _ l l'. apply tags_sorted_lrel.
  - intros b _ l e m Hb Hl Ht He _. eapply tags_sorted_snoc; eauto.
Qed.

Theorem TS_QR g P s s' : QR g P s s' -> TS s -> TS s'.
Proof. intros H. exact (TS_qstep g P _ _ H). Qed.

Lemma TS_init c h p : TS (st_init c h p).
Proof. split; [cbn; lia|]. intros cid q []. Qed.

Theorem TS_step_event s e : TS s -> TS (fst (step_event s e)).
Proof. apply (TS_QR false anym), step_event_QR. Qed.
Theorem TS_step s e : TS s -> TS (fst (step s e)).
Proof. apply (TS_QR false anym), step_QR. Qed.
Theorem TS_run es s : TS s -> TS (fst (run s es)).
Proof. apply (TS_QR false anym), run_QR. Qed.
Theorem TS_deliver src m s : TS s -> TS (fst (fst (deliver src m s))).
Proof. apply (TS_QR false (same_msg m)), deliver_QR. Qed.

Theorem tags_sorted_all_runs c h p es : TS (fst (run (st_init c h p) es)).
Proof. apply TS_run, TS_init. Qed.

Theorem run_tag_mono es s : b_tag s <= b_tag (fst (run s es)).
Proof. apply (QR_tag_mono false anym), run_QR. Qed.
Theorem step_tag_mono s e : b_tag s <= b_tag (fst (step s e)).
Proof. apply (QR_tag_mono false anym), step_QR. Qed.

Definition precedes (e1 e2 : elem) (l : list elem) : Prop := exists l1 l2 l3, l = l1 ++ e1 :: l2 ++ e2 :: l3.

Lemma sorted_mid_lt (x y : list N) t : StronglySorted N.lt (x ++ t :: y) -> forall u, In u x -> u < t.
Proof. intros Hs u Hu. apply (sorted_app_lt x (t :: y) Hs); [exact Hu|now left]. Qed.

Lemma sorted_precedes l e1 e2 :
  StronglySorted N.lt (pub_tags l) -> In e1 l -> In e2 l -> is_pub e1 = true -> is_pub e2 = true ->
  e_tag e1 < e_tag e2 -> precedes e1 e2 l.
Proof.
  intros Hs H1 H2 Hp1 Hp2 Hlt. apply in_split in H1 as (a & b & ->).
  assert (Htags : pub_tags (a ++ e1 :: b) = pub_tags a ++ e_tag e1 :: pub_tags b).
  { rewrite pub_tags_app. f_equal. unfold pub_tags. cbn [filter]. rewrite Hp1. reflexivity. }
  rewrite Htags in Hs. apply in_app_or in H2 as [H2|[H2|H2]].
  - exfalso. pose proof (sorted_mid_lt _ _ _ Hs (e_tag e2) (pub_tags_In _ _ H2 Hp2)). lia.
  - subst e2. lia.
  - apply in_split in H2 as (b1 & b2 & ->). now exists a, b1, b2.
Qed.

(* in every queue of a state with sorted tags, PUBLISH entries are ordered by their tags *)
Theorem order_by_tag s cid q e1 e2 :
  TS s -> In (cid, q) (b_queues s) -> In e1 (q_l q) -> In e2 (q_l q) -> is_pub e1 = true -> is_pub e2 = true ->
  e_tag e1 < e_tag e2 -> precedes e1 e2 (q_l q).
Proof. intros [_ HT] Hq. destruct (HT cid q Hq) as (Hs & _). now apply sorted_precedes. Qed.

(* a publication = one call of deliver (an accepted PUBLISH, an API publish, a will).  Its copies are the PUBLISH
   entries that carry the tags it drew from the counter *)
Definition copy_of_pub (s : st) (src : str) (m : msg) (e : elem) : Prop :=
  is_pub e = true /\ b_tag s <= e_tag e < b_tag (fst (fst (deliver src m s))).

(* while nothing but copies of m is appended under a tag in R, every entry with a tag in R is a copy of m *)
Lemma copies_closed g (P : msg -> Prop) b0 (R : N -> Prop) m x y :
  (forall b m0, b0 <= b -> R b -> P m0 -> same_msg m m0) -> qstep g P x y ->
  Holds b0 (fun _ _ l => forall e m', In e l -> e_body e = QPub m' -> R (e_tag e) -> same_msg m m') x ->
  Holds b0 (fun _ _ l => forall e m', In e l -> e_body e = QPub m' -> R (e_tag e) -> same_msg m m') y.
Proof.
  intros HP. apply (qstep_closed g P b0).
  - intros _ _ e0 m0 [].
  - auto.
  - intros _ _ l l' Hl Hphi e0 m0 Hin Hb0 Hr. destruct (lrel_in _ _ _ Hl e0 Hin) as (e1 & He1 & Hev).
    unfold evo in Hev. rewrite Hb0 in Hev. destruct Hev as (m1 & Hb1 & Ht & Hs & _).
    eapply same_msg_trans; [|exact Hs]. eapply Hphi; eauto. now rewrite <- Ht.
  - intros b _ l e0 m0 Hb Hphi Ht Hb0 Hm e1 m1 Hin Hb1 Hr. apply in_app_or in Hin as [Hin|[<-|[]]]; [eauto|].
    rewrite Hb0 in Hb1. injection Hb1 as <-. rewrite Ht in Hr. eauto.
Qed.

(* ... and they are copies: every entry that ever carries one of these tags has the topic and payload of m *)
Theorem copies_are_copies s src m s2 cid q e m' :
  TS s -> QR false anym (fst (fst (deliver src m s))) s2 ->
  In (cid, q) (b_queues s2) -> In e (q_l q) -> e_body e = QPub m' ->
  b_tag s <= e_tag e < b_tag (fst (fst (deliver src m s))) -> same_msg m m'.
Proof.
  intros [_ HT] HQ Hq He Hb Hr. set (lo := b_tag s) in *. set (s1 := fst (fst (deliver src m s))) in *. set (hi := b_tag s1) in *.
  (* during the delivery everything tagged from lo on is a copy *)
  assert (H1 : Holds lo (fun _ _ l => forall e m', In e l -> e_body e = QPub m' -> lo <= e_tag e -> same_msg m m')
                     (b_tag s1, b_queues s1)).
  { apply (copies_closed false (same_msg m) lo (fun t => lo <= t) m (b_tag s, b_queues s)); [auto|apply deliver_QR|].
    split; [apply N.le_refl|]. cbn [fst snd]. intros cid0 q0 Hq0 e0 m0 Hin Hb0 Hlo. exfalso.
    destruct (HT cid0 q0 Hq0) as (_ & Hlt & _). rewrite Forall_forall in Hlt.
    assert (Hp : is_pub e0 = true) by (unfold is_pub; now rewrite Hb0).
    specialize (Hlt _ (pub_tags_In _ _ Hin Hp)). unfold lo in Hlo. lia. }
  (* afterwards the tags below hi are not handed out again *)
  assert (H2 : Holds hi (fun _ _ l => forall e m', In e l -> e_body e = QPub m' -> lo <= e_tag e < hi -> same_msg m m')
                     (b_tag s2, b_queues s2)).
  { apply (copies_closed false anym hi (fun t => lo <= t < hi) m (b_tag s1, b_queues s1)); [intros; lia|exact HQ|].
    split; [apply N.le_refl|]. destruct H1 as [_ H1]. intros cid0 q0 Hq0 e0 m0 Hin Hb0 [Hlo _]. eapply H1; eauto. }
  destruct H2 as [_ H2]. exact (H2 cid q Hq e m' He Hb Hr).
Qed.

(* publication 1 is delivered in state s1, anything may happen, publication 2 is delivered in state s2,
   anything may happen: in every queue every copy of publication 1 still present sits before every copy of
   publication 2, and carries a smaller tag *)
Theorem queue_order_is_publication_order s1 src1 m1 s2 src2 m2 s3 cid q e1 e2 :
  TS s1 ->
  QR false anym (fst (fst (deliver src1 m1 s1))) s2 ->
  QR false anym (fst (fst (deliver src2 m2 s2))) s3 ->
  In (cid, q) (b_queues s3) -> In e1 (q_l q) -> In e2 (q_l q) ->
  copy_of_pub s1 src1 m1 e1 -> copy_of_pub s2 src2 m2 e2 ->
  e_tag e1 < e_tag e2 /\ precedes e1 e2 (q_l q).
Proof.
  intros HT H12 H23 Hq He1 He2 [Hp1 Hr1] [Hp2 Hr2].
  pose proof (QR_tag_mono _ _ _ _ H12) as Hm.
  assert (Hlt : e_tag e1 < e_tag e2) by lia. split; [exact Hlt|].
  assert (HT3 : TS s3).
  { eapply TS_QR; [exact H23|]. apply TS_deliver. eapply TS_QR; [exact H12|]. now apply TS_deliver. }
  eapply order_by_tag; eauto.
Qed.

(* the same at the granularity of steps of a run: what is queued (stamped) in an earlier step precedes what is
   queued in a later step, in every queue, in every later state *)
Theorem queue_order_steps sa ev1 es2 ev2 es3 cid q e1 e2 :
  TS sa ->
  let sb := fst (step sa ev1) in
  let sc := fst (run sb es2) in
  let sd := fst (step sc ev2) in
  let sf := fst (run sd es3) in
  In (cid, q) (b_queues sf) -> In e1 (q_l q) -> In e2 (q_l q) -> is_pub e1 = true -> is_pub e2 = true ->
  b_tag sa <= e_tag e1 < b_tag sb -> b_tag sc <= e_tag e2 < b_tag sd ->
  e_tag e1 < e_tag e2 /\ precedes e1 e2 (q_l q).
Proof.
  intros HT sb sc sd sf Hq He1 He2 Hp1 Hp2 Hr1 Hr2.
  pose proof (run_tag_mono es2 sb) as Hm. fold sc in Hm.
  assert (Hlt : e_tag e1 < e_tag e2) by lia. split; [exact Hlt|].
  assert (HTf : TS sf) by (unfold sf, sd, sc, sb; auto using TS_run, TS_step).
  eapply order_by_tag; eauto.
Qed.

(* the ghost trace: the elements that Read hands to the poll loop (its first transmissions) *)
Record rd := { r_sock : N; r_cid : str; r_live : bool; r_elem : elem }.

Definition live_phase (ph : phase) : bool := match ph with PhConnected => true | _ => false end.

Definition mk_rd (c : N) (k : conn) (e : elem) : rd :=
  {| r_sock := c; r_cid := k_cid k; r_live := live_phase (k_phase k); r_elem := e |}.

(* one turn of the poll loop of socket c *)
Definition rd_once (c : N) (s : st) : list rd :=
  match nget c (b_conns s) with
  | Some k =>
      match k_phase k with
      | PhConnected | PhZombie =>
          match aget (k_cid k) (b_queues s) with
          | Some q =>
              if k_drained k then
                match k_held k with
                | Some ids =>
                    match q_read (b_now s) ids q with
                    | QOk (_, rs, _) =>
                        map (mk_rd c k) rs
                    | _ => []
                    end
                | None => []
                end
              else []
          | None => []
          end
      | _ => []
      end
  | None => []
  end.

Fixpoint rd_conn (fuel : nat) (c : N) (s : st) : list rd :=
  match fuel with
  | O => []
  | S f => match poll_once c s with
           | Some (s', _) => rd_once c s ++ rd_conn f c s'
           | None => []
           end
  end.

Fixpoint rd_list (l : list (N * conn)) (s : st) : list rd :=
  match l with
  | [] => []
  | ck :: r => rd_conn 400 (fst ck) s ++ rd_list r (fst (poll_conn 400 (fst ck) s))
  end.

Fixpoint pl_st (l : list (N * conn)) (s : st) : st :=
  match l with
  | [] => s
  | ck :: r => pl_st r (fst (poll_conn 400 (fst ck) s))
  end.

Definition rd_all (s : st) : list rd := rd_list (b_conns s) s.
Definition rd_step (s : st) (e : event) : list rd := rd_all (fst (step_event s e)).
Fixpoint rd_run (s : st) (es : list event) : list (list rd) :=
  match es with
  | [] => []
  | e :: r => rd_step s e :: rd_run (fst (step s e)) r
  end.

Lemma poll_all_st s : fst (poll_all s) = pl_st (b_conns s) s.
Proof.
  unfold poll_all. generalize (b_conns s) as l. generalize (@nil out) as o0. generalize s as s0.
  intros s0 o0 l. revert s0 o0. induction l as [|ck r IH]; intros s0 o0; cbn [fold_left pl_st]; [reflexivity|].
  destruct (poll_conn 400 (fst ck) s0) as [s1 o1]. cbn [fst]. apply IH.
Qed.

(* the tags handed out for the session of client cid0 *)
Definition tg (cid0 : str) (tr : list rd) : list N :=
  map (fun r => e_tag (r_elem r)) (filter (fun r => str_eqb (r_cid r) cid0) tr).

Lemma tg_app cid0 a b : tg cid0 (a ++ b) = tg cid0 a ++ tg cid0 b.
Proof. unfold tg. now rewrite filter_app, map_app. Qed.

(* the invariant: every entry of the session that was never sent carries a tag above h *)
Definition unsent_above (cid0 : str) (h : N) (s : st) : Prop :=
  forall q e, In (cid0, q) (b_queues s) -> In e (q_l q) -> is_pub0 e = true -> h < e_tag e.

Theorem unsent_above_QR P cid0 h s s' :
  QR true P s s' -> h < b_tag s -> unsent_above cid0 h s -> unsent_above cid0 h s'.
Proof.
  intros HQ Hh HU.
  assert (H : Holds (h + 1) (fun _ cid l => cid = cid0 -> forall e, In e l -> is_pub0 e = true -> h < e_tag e)
                    (b_tag s', b_queues s')).
  { apply (qstep_closed true P (h + 1) _) with (x := (b_tag s, b_queues s)).
    - intros _ _ _ e [].
    - auto.
    - intros _ cid l l' Hl Hphi Hc e' Hin Hp0. destruct (lrel_in _ _ _ Hl e' Hin) as (e & He & Hev).
      destruct (pub0_inv e' Hp0) as (m' & Hb' & Hpid'). unfold evo in Hev. rewrite Hb' in Hev.
      destruct Hev as (m & Hb & Ht & _ & Hg). rewrite Ht. apply (Hphi Hc e He).
      unfold is_pub0. rewrite Hb. apply N.eqb_eq. now apply Hg.
    - intros b cid l e m Hb Hphi Ht _ _ Hc e' Hin Hp0. apply in_app_or in Hin as [Hin|[<-|[]]]; [now apply Hphi|]. lia.
    - exact HQ.
    - split; [cbn [fst]; lia|]. cbn [fst snd]. intros cid q Hq -> e He Hp0. eapply HU; eauto. }
  destruct H as [_ H]. cbn [fst snd] in H. intros q e Hq He Hp0. eapply H; eauto.
Qed.

Lemma unsent_above_le cid0 h h' s : h' <= h -> unsent_above cid0 h s -> unsent_above cid0 h' s.
Proof. intros Hle HU q e Hq He Hp. specialize (HU q e Hq He Hp). lia. Qed.

(* Read: what it hands out sits in a prefix of the unread part; the rest is untouched *)
Lemma pub_tags_cons_in v l t : In t (pub_tags l) -> In t (pub_tags (v :: l)).
Proof. unfold pub_tags. cbn [filter]. destruct (is_pub v); cbn [map In]; auto. Qed.

Lemma pub_tags_cons_hd v l : is_pub v = true -> In (e_tag v) (pub_tags (v :: l)).
Proof. unfold pub_tags. cbn [filter]. intros ->. now left. Qed.

Lemma reads_tags now limit v5 ifexp pids pre inf drops rs :
  reads now limit v5 ifexp pids pre inf drops rs -> forall r, In r rs -> In (e_tag r) (pub_tags pre).
Proof.
  induction 1 as [pids| | |pids v m pre inf drops rs _ Eb _ _ _ IH|p pids v m pre inf drops rs _ Eb _ _ _ IH]; intros r Hr;
    [destruct Hr|apply pub_tags_cons_in; auto..| |];
    (destruct Hr as [<-|Hr]; [|apply pub_tags_cons_in; auto]).
  - apply pub_tags_cons_hd. unfold is_pub. now rewrite Eb.
  - replace (e_tag (hand now ifexp p m v)) with (e_tag v) by (unfold hand; now destruct (ifexp =? 0)).
    apply pub_tags_cons_hd. unfold is_pub. now rewrite Eb.
Qed.

Lemma q_read_suffix now pids q q' rs evs :
  q_read now pids q = QOk (q', rs, evs) ->
  exists pre, skipn (q_cur q) (q_l q) = pre ++ skipn (q_cur q') (q_l q') /\
              forall r, In r rs -> In (e_tag r) (pub_tags pre).
Proof.
  intros Hr. destruct (q_read_reads _ _ _ _ _ _ Hr) as (pre & rest & inf & drops & Hs & Hrd & _ & ->).
  exists pre. split; [exact Hs|eapply reads_tags; eauto].
Qed.

Lemma sorted_app_r (x y : list N) : StronglySorted N.lt (x ++ y) -> StronglySorted N.lt y.
Proof. apply DeliverP.subseq_sorted, subseq_app_r. Qed.

Lemma last_default_irrel (b : N) T d d' : last (b :: T) d = last (b :: T) d'.
Proof. now rewrite !last_cons. Qed.

Lemma last_app_cons (a : list N) b T d : last (a ++ b :: T) d = last (b :: T) d.
Proof.
  induction a as [|x a IH]; [reflexivity|]. cbn [app]. rewrite <- IH.
  destruct (a ++ b :: T) eqn:E; [destruct a; discriminate|reflexivity].
Qed.

Lemma sorted_le_last (T : list N) : forall h x, StronglySorted N.lt (h :: T) -> In x (h :: T) -> x <= last T h.
Proof.
  induction T as [|a T IH]; intros h x Hs Hx; [destruct Hx as [<-|[]]; apply N.le_refl|].
  rewrite last_cons. inversion Hs as [|? ? Hs' Ha]; subst. apply Forall_inv in Ha.
  destruct Hx as [<-|Hx]; [|now apply IH]. specialize (IH a a Hs' (or_introl eq_refl)). lia.
Qed.

Lemma chain_app h T1 T2 :
  StronglySorted N.lt (h :: T1) -> StronglySorted N.lt (last T1 h :: T2) ->
  StronglySorted N.lt (h :: T1 ++ T2) /\ last (T1 ++ T2) h = last T2 (last T1 h).
Proof.
  intros H1 H2. pose proof (sorted_le_last T1 h) as Hle.
  inversion H1 as [|? ? S1 F1]; subst. inversion H2 as [|? ? S2 F2]; subst. rewrite Forall_forall in F2. split.
  - constructor.
    + apply DeliverP.sorted_app; [exact S1|exact S2|]. intros x y Hx Hy.
      specialize (F2 y Hy). specialize (Hle x H1 (or_intror Hx)). lia.
    + apply Forall_app. split; [exact F1|]. apply Forall_forall. intros y Hy.
      specialize (F2 y Hy). specialize (Hle h H1 (or_introl eq_refl)). lia.
  - destruct T2 as [|b T2]; [now rewrite app_nil_r|]. rewrite last_app_cons. apply last_default_irrel.
Qed.

Lemma sorted_above h b (T : list N) :
  StronglySorted N.lt T -> Forall (fun t => h < t < b) T -> h < b ->
  StronglySorted N.lt (h :: T) /\ last T h < b.
Proof.
  intros Hs Hf Hb. split.
  - constructor; [exact Hs|]. eapply Forall_impl; [|exact Hf]. cbv beta. intros t Ht. lia.
  - destruct T as [|a T]; [exact Hb|]. rewrite Forall_forall in Hf.
    assert (h < last (a :: T) h < b) by (apply Hf, last_in; discriminate). lia.
Qed.

Lemma rd_once_send c s k q ids q' rs evs :
  nget c (b_conns s) = Some k -> attached k -> aget (k_cid k) (b_queues s) = Some q ->
  k_drained k = true -> k_held k = Some ids -> q_read (b_now s) ids q = QOk (q', rs, evs) ->
  rd_once c s = map (mk_rd c k) rs.
Proof.
  intros Hk Hat Hq Hd Hh Hr. unfold rd_once. rewrite Hk, Hq, Hd, Hh, Hr. destruct Hat as [-> | ->]; reflexivity.
Qed.

Lemma rd_once_nosend c s k :
  nget c (b_conns s) = Some k -> k_drained k = false \/ k_held k = None -> rd_once c s = [].
Proof.
  intros Hk H. unfold rd_once. rewrite Hk. destruct (k_phase k); try reflexivity;
    (destruct (aget (k_cid k) (b_queues s)); [|reflexivity]); destruct H as [-> | ->]; try reflexivity;
    destruct (k_drained k); reflexivity.
Qed.

Lemma tg_mk cid0 c k rs : tg cid0 (map (mk_rd c k) rs) = if str_eqb (k_cid k) cid0 then map e_tag rs else [].
Proof.
  unfold tg. induction rs as [|r rs IH]; cbn [map filter]; [now destruct (str_eqb (k_cid k) cid0)|].
  cbn [mk_rd r_cid]. destruct (str_eqb (k_cid k) cid0); cbn [map r_elem mk_rd]; [now rewrite IH|exact IH].
Qed.

(* one Read of a queue whose unread part carries sorted tags between h and b: the tags handed out continue the
   sorted sequence that ended with h, and what stays unread lies above the last of them *)
Lemma q_read_order h b now ids q q' rs evs :
  StronglySorted N.lt (map e_tag (skipn (q_cur q) (q_l q))) ->
  Forall (fun v => h < e_tag v < b) (skipn (q_cur q) (q_l q)) -> h < b ->
  q_read now ids q = QOk (q', rs, evs) ->
  StronglySorted N.lt (h :: map e_tag rs) /\ last (map e_tag rs) h < b /\
  Forall (fun v => last (map e_tag rs) h < e_tag v) (skipn (q_cur q') (q_l q')).
Proof.
  intros Hs Hf Hb Hr. destruct (q_read_suffix _ _ _ _ _ _ Hr) as (pre & Hsuf & Hpre).
  assert (Hin : forall r, In r rs -> exists v, In v pre /\ e_tag v = e_tag r).
  { intros r Hr0. apply Hpre, in_map_iff in Hr0 as (v & Hv & Hin). apply filter_In in Hin. exists v. tauto. }
  pose proof (DeliverP.q_read_sorted _ _ _ _ _ _ Hs Hr) as Hsrs. rewrite Hsuf in Hs, Hf. apply Forall_app in Hf as [Hf1 Hf2].
  assert (Hrange : Forall (fun t => h < t < b) (map e_tag rs)).
  { apply Forall_forall. intros t Ht. apply in_map_iff in Ht as (r & <- & Hr0). destruct (Hin r Hr0) as (v & Hv & <-).
    rewrite Forall_forall in Hf1. now apply Hf1. }
  destruct (sorted_above h b _ Hsrs Hrange Hb) as [G1 G3]. split; [exact G1|]. split; [exact G3|].
  destruct (map e_tag rs) as [|t0 T0] eqn:ET; [eapply Forall_impl; [|exact Hf2]; cbv beta; intros v Hv; apply Hv|].
  assert (Hlast : In (last (t0 :: T0) h) (map e_tag rs)) by (rewrite ET; apply last_in; discriminate).
  apply in_map_iff in Hlast as (r & <- & Hr0). destruct (Hin r Hr0) as (v & Hv & <-).
  apply Forall_forall. intros u Hu. rewrite map_app in Hs. eapply sorted_app_lt; [exact Hs| |]; now apply in_map.
Qed.

Lemma QInv_unread q b inf que : QInv q b inf que -> q_cur q = length inf -> skipn (q_cur q) (q_l q) = que.
Proof. intros HQ Hc. rewrite (qi_l _ _ _ _ HQ), Hc, skipn_app, skipn_all, Nat.sub_diag. reflexivity. Qed.

(* retransmissions: the in-flight part of a queue (what a resumed connection replays with DUP=1, in queue order:
   C03_replay_first) is sorted by tag too, and lies below everything that is still to be sent for the first time *)
Theorem inflight_before_queued s cid q inf que :
  TS s -> In (cid, q) (b_queues s) -> QInv q (b_tag s) inf que ->
  StronglySorted N.lt (pub_tags inf) /\ StronglySorted N.lt (map e_tag que) /\
  forall t u, In t (pub_tags inf) -> In u (map e_tag que) -> t < u.
Proof.
  intros [_ HT] Hq HQ. destruct (HT cid q Hq) as (Hs & _). rewrite (qi_l _ _ _ _ HQ), pub_tags_app in Hs.
  rewrite <- (pub_tags_que que) by (apply Forall_quedok_pub0, (qi_que _ _ _ _ HQ)).
  split; [eapply DeliverP.subseq_sorted; [apply subseq_app_l|exact Hs]|].
  split; [eapply sorted_app_r; exact Hs|]. now apply sorted_app_lt.
Qed.

Lemma poll_once_order w b cid0 h c s s' o :
  PQ w b s -> TS s -> unsent_above cid0 h s -> h < b -> poll_once c s = Some (s', o) ->
  StronglySorted N.lt (h :: tg cid0 (rd_once c s)) /\
  unsent_above cid0 (last (tg cid0 (rd_once c s)) h) s' /\ last (tg cid0 (rd_once c s)) h < b.
Proof.
  intros HPQ HT HU Hh Hp. pose proof HPQ as (HI & HA & HQS & Hb).
  destruct (poll_once_PQ w b c s s' o HPQ Hp) as [(HI' & _) HQR].
  assert (HU' : unsent_above cid0 h s') by (eapply unsent_above_QR; eauto; lia).
  assert (Hnil : tg cid0 (rd_once c s) = [] ->
                 StronglySorted N.lt (h :: tg cid0 (rd_once c s)) /\
                 unsent_above cid0 (last (tg cid0 (rd_once c s)) h) s' /\ last (tg cid0 (rd_once c s)) h < b).
  { intros ->. cbn. split; [repeat constructor|]. split; [exact HU'|exact Hh]. }
  destruct (poll_once_turn c s s' o Hp) as (k & _ & Hk & Hat & _).
  destruct (HA c k Hk Hat) as (k0 & q & inf & que & Hk0 & Hq & Hon & Hun & Htag & HCQ).
  rewrite Hk in Hk0. injection Hk0 as <-.
  destruct (poll_once_cases w c s s' o k q inf que Hk Hq HCQ Hp) as (_ & Ht' & _ & _ & _ & Hcase).
  destruct Hcase as [Hd _ _ _|rs Hd _ _ _ _|ids Hd Hh0 _ _ _ _ _
                    |ids rs evs pubs q' Hd Hh0 Hr _ _ _ _ Hc (k' & inf2 & que2 & _ & _ & _ & _ & Hq' & Hc' & _ & _ & HCQ')];
    [apply Hnil; now rewrite (rd_once_nosend c s k) by eauto..|].
  pose proof (rd_once_send c s k q ids q' rs evs Hk Hat Hq Hd Hh0 Hr) as Hrd.
  destruct (str_eqb (k_cid k) cid0) eqn:Ec; [|apply Hnil; now rewrite Hrd, tg_mk, Ec].
  rewrite Hrd, tg_mk, Ec. apply str_eqb_eq in Ec. clear Hnil Hrd. rewrite Ec in *.
  pose proof (cq_q _ _ _ _ _ _ HCQ) as HQ. pose proof (cq_q _ _ _ _ _ _ HCQ') as HQ'.
  assert (Hin : In (cid0, q) (b_queues s)) by now apply aget_In.
  (* the unread entries of q: sorted, never sent, below the counter *)
  destruct (inflight_before_queued s cid0 q inf que HT Hin HQ) as (_ & Hsq & _).
  assert (Hf : Forall (fun v => h < e_tag v < b) que).
  { pose proof (qi_que _ _ _ _ HQ) as Hque. rewrite Forall_forall in Hque |- *. intros v Hv.
    assert (Hvl : In v (q_l q)) by (rewrite (qi_l _ _ _ _ HQ); apply in_or_app; now right).
    split; [eapply HU; eauto using quedok_pub0|].
    destruct HT as [_ HT]. destruct (HT cid0 q Hin) as (_ & Hlt & _). rewrite Forall_forall in Hlt. rewrite <- Hb.
    apply Hlt, pub_tags_In; [exact Hvl|now apply quedok_is_pub, Hque]. }
  rewrite <- (QInv_unread _ _ _ _ HQ Hc) in Hsq, Hf.
  destruct (q_read_order h b _ _ _ _ _ _ Hsq Hf Hh Hr) as (G1 & G3 & G2). split; [exact G1|]. split; [|exact G3].
  (* what is still unsent in q' lies behind everything that was handed out *)
  rewrite (QInv_unread _ _ _ _ HQ' Hc'), Forall_forall in G2. intros q'' e' Hq'' He' Hp0.
  apply In_aget in Hq''; [|apply (bi_nd_q _ _ HI')]. rewrite Hq' in Hq''. injection Hq'' as <-.
  rewrite (qi_l _ _ _ _ HQ') in He'. apply in_app_or in He' as [He'|He']; [exfalso|now apply G2].
  pose proof (qi_inf _ _ _ _ HQ') as Hinf'. rewrite Forall_forall in Hinf'.
  apply Hinf', idok_nz in He'. apply He'. now apply is_pub0_id.
Qed.

Definition OK3 (w : bool) (b : N) (cid0 : str) (h : N) (s : st) : Prop :=
  PQ w b s /\ TS s /\ unsent_above cid0 h s /\ h < b.

Lemma poll_conn_order w b cid0 c : forall fuel h s, OK3 w b cid0 h s ->
  StronglySorted N.lt (h :: tg cid0 (rd_conn fuel c s)) /\
  OK3 w b cid0 (last (tg cid0 (rd_conn fuel c s)) h) (fst (poll_conn fuel c s)).
Proof.
  induction fuel as [|f IH]; intros h s HOK; cbn [rd_conn poll_conn].
  - cbn [tg filter map last fst]. split; [repeat constructor|exact HOK].
  - destruct (poll_once c s) as [[s' o]|] eqn:Hp.
    + destruct HOK as (HPQ & HT & HU & Hh).
      destruct (poll_once_order w b cid0 h c s s' o HPQ HT HU Hh Hp) as (G1 & G2 & G3).
      destruct (poll_once_PQ w b c s s' o HPQ Hp) as [HPQ' HQR].
      assert (HT' : TS s') by (eapply TS_QR; eauto).
      set (T1 := tg cid0 (rd_once c s)) in *.
      destruct (IH (last T1 h) s' (conj HPQ' (conj HT' (conj G2 G3)))) as [I1 I2].
      rewrite tg_app. fold T1. destruct (chain_app h T1 _ G1 I1) as [C1 C2]. rewrite C2.
      destruct (poll_conn f c s') as [s'' o']. cbn [fst] in *. split; [exact C1|exact I2].
    + cbn [tg filter map last fst]. split; [repeat constructor|exact HOK].
Qed.

Lemma rd_list_order w b cid0 : forall l h s, OK3 w b cid0 h s ->
  StronglySorted N.lt (h :: tg cid0 (rd_list l s)) /\ OK3 w b cid0 (last (tg cid0 (rd_list l s)) h) (pl_st l s).
Proof.
  induction l as [|ck r IH]; intros h s HOK; cbn [rd_list pl_st].
  - cbn [tg filter map last]. split; [repeat constructor|exact HOK].
  - destruct (poll_conn_order w b cid0 (fst ck) 400 h s HOK) as [G1 G2].
    set (T1 := tg cid0 (rd_conn 400 (fst ck) s)) in *.
    destruct (IH (last T1 h) _ G2) as [I1 I2].
    rewrite tg_app. fold T1. destruct (chain_app h T1 _ G1 I1) as [C1 C2]. rewrite C2. split; [exact C1|exact I2].
Qed.

Definition G3 (cid0 : str) (h : N) (s : st) : Prop :=
  GInv false s /\ TS s /\ unsent_above cid0 h s /\ h < b_tag s.

Lemma step_order cid0 h s e : G3 cid0 h s -> wb false s e = true ->
  StronglySorted N.lt (h :: tg cid0 (rd_step s e)) /\ G3 cid0 (last (tg cid0 (rd_step s e)) h) (fst (step s e)).
Proof.
  intros (HG & HT & HU & Hh) Hwb. pose proof HG as [HI HJ].
  pose proof (step_GInv false s e HG Hwb) as HG2.
  set (s1 := fst (step_event s e)).
  assert (HI1 : BInv s1) by (apply step_event_inv; exact HI).
  assert (HJ1 : J false s1) by (apply step_event_J; assumption).
  assert (HT1 : TS s1) by (apply TS_step_event; exact HT).
  pose proof (step_event_QR true s e) as HQ1. fold s1 in HQ1.
  assert (HU1 : unsent_above cid0 h s1) by (eapply unsent_above_QR; eauto).
  pose proof (QR_tag_mono _ _ _ _ HQ1) as Hm.
  assert (HOK : OK3 false (b_tag s1) cid0 h s1).
  { split; [|split; [exact HT1|split; [exact HU1|lia]]].
    split; [exact HI1|]. split; [apply (j_poll _ _ HJ1)|]. split; [apply (j_qs _ _ HJ1)|reflexivity]. }
  destruct (rd_list_order false (b_tag s1) cid0 (b_conns s1) h s1 HOK) as [R1 ((_ & _ & _ & Hb2) & HT2 & HU2 & Hh2)].
  unfold rd_step, rd_all. fold s1. split; [exact R1|].
  rewrite step_fst, poll_all_st in *. fold s1 in HG2 |- *.
  split; [exact HG2|]. split; [exact HT2|]. split; [exact HU2|]. rewrite Hb2. exact Hh2.
Qed.

Theorem run_order cid0 : forall es h s, G3 cid0 h s -> run_wb false s es = true ->
  StronglySorted N.lt (h :: tg cid0 (concat (rd_run s es))).
Proof.
  induction es as [|e r IH]; intros h s HG Hwb; cbn [rd_run concat].
  - cbn [tg filter map]. repeat constructor.
  - cbn [run_wb] in Hwb. apply andb_true_iff in Hwb as [H1 H2].
    destruct (step_order cid0 h s e HG H1) as [R1 HG1].
    specialize (IH _ _ HG1 H2). rewrite tg_app.
    destruct (chain_app h _ _ R1 IH) as [C1 _]. exact C1.
Qed.

Lemma TS_unsent_above_0 cid0 s : TS s -> unsent_above cid0 0 s.
Proof.
  intros [_ HT] q e Hq He Hp0. destruct (HT cid0 q Hq) as (_ & Hlt & _). rewrite Forall_forall in Hlt.
  destruct (pub0_inv e Hp0) as (m & Hb & _).
  assert (Hp : is_pub e = true) by (unfold is_pub; now rewrite Hb).
  apply (Hlt _ (pub_tags_In _ _ He Hp)).
Qed.

Lemma G3_reachable cid0 c h p es :
  c_max_inflight c <= MAXPID -> run_wb false (st_init c h p) es = true -> G3 cid0 0 (fst (run (st_init c h p) es)).
Proof.
  intros Hc Hwb. pose proof (tags_sorted_all_runs c h p es) as HT.
  split; [now apply reachable_GInv|]. split; [exact HT|]. split; [now apply TS_unsent_above_0|].
  destruct HT as [H1 _]. lia.
Qed.

(* along a well-behaved run from any reachable state, the entries of one session are handed to the
   writer (first transmissions) in strictly increasing tag order *)
Theorem first_transmissions_sorted cid0 c h p pre post :
  c_max_inflight c <= MAXPID -> run_wb false (st_init c h p) (pre ++ post) = true ->
  StronglySorted N.lt (tg cid0 (concat (rd_run (fst (run (st_init c h p) pre)) post))).
Proof.
  intros Hc Hwb. rewrite run_wb_app in Hwb. apply andb_true_iff in Hwb as [H1 H2].
  pose proof (run_order cid0 post 0 _ (G3_reachable cid0 c h p pre Hc H1) H2) as H.
  now inversion H.
Qed.

Lemma sorted_nth_lt (T : list N) : StronglySorted N.lt T ->
  forall i j t1 t2, nth_error T i = Some t1 -> nth_error T j = Some t2 -> t1 < t2 -> (i < j)%nat.
Proof.
  induction 1 as [|a T HS IH Ha]; intros i j t1 t2 H1 H2 Hlt; [destruct i; discriminate|].
  rewrite Forall_forall in Ha. destruct i as [|i], j as [|j]; cbn [nth_error] in *.
  - injection H1 as <-. injection H2 as <-. lia.
  - lia.
  - injection H2 as <-. apply nth_error_In, Ha in H1. lia.
  - apply -> Nat.succ_lt_mono. eapply IH; eauto.
Qed.

(* a PUBLISH packet with DUP=0 *)
Definition is_first_pub (x : out) : bool :=
  match x with OSend _ (KPublish false _ _ _ _ _ _) => true | _ => false end.

(* x is the first transmission, on socket c, of the element e as Read handed it out (with its packet id):
   DUP=0, the element's QoS, RETAIN, payload and id, its topic or the topic's alias *)
Definition wire_of (c : N) (e : elem) (x : out) : Prop :=
  exists m topic props, e_body e = QPub m /\
    x = OSend c (KPublish false (m_qos m) (m_retained m) topic (m_payload m) (m_pid m) props) /\
    (topic = m_topic m \/ topic = []).

Definition wire_rd (r : rd) (x : out) : Prop := wire_of (r_sock r) (r_elem r) x.

Lemma filter_first_drops cid evs : filter is_first_pub (drops_of cid evs) = [].
Proof. apply filter_none. intros x Hx. apply In_drops_of in Hx as (m & r & ->). reflexivity. Qed.

Lemma filter_first_retrans c rs o : Forall2 (is_retrans c) rs o -> filter is_first_pub o = [].
Proof.
  induction 1 as [|e x rs o He H IH]; [reflexivity|]. cbn [filter]. rewrite IH.
  unfold is_retrans in He. destruct (e_body e) as [m|p]; [destruct He as (t & ps & -> & _)|subst x]; reflexivity.
Qed.

Lemma rd_once_entries c s k r : nget c (b_conns s) = Some k -> In r (rd_once c s) ->
  r_live r = live_phase (k_phase k) /\ r_sock r = c /\ r_cid r = k_cid k.
Proof.
  intros Hk. unfold rd_once. rewrite Hk.
  assert (G : forall rs, In r (map (mk_rd c k) rs) -> r_live r = live_phase (k_phase k) /\ r_sock r = c /\ r_cid r = k_cid k).
  { intros rs Hin. apply in_map_iff in Hin as (e & <- & _). cbn. auto. }
  destruct (k_phase k); try (intros []); destruct (aget (k_cid k) (b_queues s)); try (intros []);
    destruct (k_drained k); try (intros []); destruct (k_held k) as [ids|]; try (intros []);
    destruct (q_read (b_now s) ids q) as [[[q' rs] evs]| | |]; try (intros []); apply G.
Qed.

(* one turn: the DUP=0 PUBLISH packets it writes are the first transmissions of what Read handed out, in order *)
Lemma poll_once_wire w c s s' o :
  PollInv w s c -> poll_once c s = Some (s', o) -> Forall2 wire_rd (rd_once c s) (filter is_first_pub o).
Proof.
  intros (k & q & inf & que & Hk & Hq & _ & _ & _ & HCQ) Hp.
  assert (Hat : attached k).
  { destruct (poll_once_turn c s s' o Hp) as (k0 & _ & Hk0 & Hat & _). congruence. }
  destruct (poll_once_cases w c s s' o k q inf que Hk Hq HCQ Hp) as (_ & _ & _ & _ & _ & Hcase).
  destruct Hcase as [Hd Ho _ _|rs Hd _ Hret _ _|ids Hd Hh0 Ho _ _ _ _
                    |ids rs evs pubs q' Hd Hh0 Hr Ho Hrs Hpubs _ _ _].
  - subst o. rewrite (rd_once_nosend c s k Hk (or_introl Hd)). constructor.
  - rewrite (rd_once_nosend c s k Hk (or_introl Hd)), (filter_first_retrans c rs o Hret). constructor.
  - subst o. rewrite (rd_once_nosend c s k Hk (or_intror Hh0)). constructor.
  - subst o. rewrite (rd_once_send c s k q ids q' rs evs Hk Hat Hq Hd Hh0 Hr), filter_app, filter_first_drops. cbn [app].
    pose proof (qi_que _ _ _ _ (cq_q _ _ _ _ _ _ HCQ)) as Hque. rewrite Forall_forall in Hque, Hrs.
    assert (HW : Forall2 (wire_of c) rs pubs).
    { eapply Forall2_impl_in; [|exact Hpubs]. intros r x Hr0 (m & Hb & (t & ps & -> & Htp) & _).
      destruct (aged_fields (k_v k =? 5) (b_now s) r m) as (A1 & A2 & A3 & A4 & A5 & A6).
      assert (Hdup : m_dup m = false).
      { destruct (Hrs r Hr0) as (v & m0 & Hv & Hbv & _ & _ & _ & Hcs). specialize (Hque v Hv). unfold quedok in Hque.
        rewrite Hbv in Hque. destruct Hque as [_ Hdv].
        destruct Hcs as [[_ ->]|(_ & p & _ & Hbr)]; [congruence|]. rewrite Hbr in Hb. injection Hb as <-. exact Hdv. }
      exists m, t, ps. rewrite A1, A2, A3, A5, A6, Hdup. rewrite A4 in Htp. auto. }
    clear - HW. induction HW as [|r x rs pubs Hrx H IH]; cbn [map filter]; [constructor|].
    assert (Hf : is_first_pub x = true) by (destruct Hrx as (m & t & ps & _ & -> & _); reflexivity).
    rewrite Hf. constructor; [exact Hrx|exact IH].
Qed.

Lemma filter_first_nosend o :
  filter is_first_pub (filter (fun x => match x with OSend _ _ => false | _ => true end) o) = [].
Proof. induction o as [|x o IH]; [reflexivity|]. cbn [filter]. destruct x; cbn [filter is_first_pub]; exact IH. Qed.

Lemma filter_live_all (l : list rd) b : (forall r, In r l -> r_live r = b) -> filter r_live l = if b then l else [].
Proof.
  induction l as [|r l IH]; intros H; cbn [filter]; [now destruct b|].
  rewrite (H r) by now left. rewrite IH by (intros y Hy; apply H; now right). now destruct b.
Qed.

Lemma poll_conn_wire w c : forall fuel s, AllPoll w s ->
  Forall2 wire_rd (filter r_live (rd_conn fuel c s)) (filter is_first_pub (snd (poll_conn fuel c s))).
Proof.
  induction fuel as [|f IH]; intros s HA; cbn [rd_conn poll_conn]; [constructor|].
  destruct (poll_once c s) as [[s' o]|] eqn:Hp; [|constructor].
  destruct (poll_once_turn c s s' o Hp) as (k & _ & Hk & Hat & _). rewrite Hk.
  pose proof (poll_once_wire w c s s' o (HA c k Hk Hat) Hp) as H1.
  specialize (IH s' (poll_once_AllPoll w c s s' o HA Hp)).
  destruct (poll_conn f c s') as [s'' o']. cbn [snd] in *.
  rewrite !filter_app. apply Forall2_app; [|exact IH].
  rewrite (filter_live_all (rd_once c s) (live_phase (k_phase k))) by (intros r Hr; eapply rd_once_entries; eauto).
  destruct Hat as [E|E]; rewrite E; cbn [live_phase]; [exact H1|]. rewrite filter_first_nosend. constructor.
Qed.

Fixpoint pl_out (l : list (N * conn)) (s : st) : list out :=
  match l with
  | [] => []
  | ck :: r => snd (poll_conn 400 (fst ck) s) ++ pl_out r (fst (poll_conn 400 (fst ck) s))
  end.

Lemma poll_all_out s : snd (poll_all s) = pl_out (b_conns s) s.
Proof.
  unfold poll_all.
  assert (G : forall l s0 o0, snd (fold_left (fun (acc : st * list out) (ck : N * conn) =>
                                                let '(s0, o0) := acc in
                                                let '(s', o') := poll_conn 400 (fst ck) s0 in (s', o0 ++ o')) l (s0, o0))
                              = o0 ++ pl_out l s0).
  { induction l as [|ck r IH]; intros s0 o0; cbn [fold_left pl_out]; [now rewrite app_nil_r|].
    destruct (poll_conn 400 (fst ck) s0) as [s1 o1]. cbn [fst snd]. now rewrite IH, app_assoc. }
  apply (G (b_conns s) s []).
Qed.

Lemma rd_list_wire w : forall l s, AllPoll w s ->
  Forall2 wire_rd (filter r_live (rd_list l s)) (filter is_first_pub (pl_out l s)).
Proof.
  induction l as [|ck r IH]; intros s HA; cbn [rd_list pl_out]; [constructor|].
  rewrite !filter_app. apply Forall2_app; [now apply (poll_conn_wire w)|].
  apply IH. now apply poll_conn_AllPoll.
Qed.

(* what the poll loops write in the step of event e *)
Definition polled (s : st) (e : event) : list out := snd (poll_all (fst (step_event s e))).

Lemma step_polled s e : snd (step s e) = snd (step_event s e) ++ polled s e.
Proof. apply step_outputs. Qed.

(* in every step of a well-behaved run, the DUP=0 PUBLISH packets written by the poll
   loops are, one for one and in order, the first transmissions of the live entries of the ghost trace *)
Theorem step_wire w s e : GInv w s -> wb w s e = true ->
  Forall2 wire_rd (filter r_live (rd_step s e)) (filter is_first_pub (polled s e)).
Proof.
  intros [HI HJ] Hwb. pose proof (step_event_J w s e HI HJ Hwb) as HJ1.
  unfold rd_step, rd_all, polled. rewrite poll_all_out. apply (rd_list_wire w). apply (j_poll _ _ HJ1).
Qed.

Fixpoint polled_run (s : st) (es : list event) : list (list out) :=
  match es with
  | [] => []
  | e :: r => polled s e :: polled_run (fst (step s e)) r
  end.

Theorem run_wire w : forall es s, GInv w s -> run_wb w s es = true ->
  Forall2 (fun tr o => Forall2 wire_rd (filter r_live tr) (filter is_first_pub o)) (rd_run s es) (polled_run s es).
Proof.
  induction es as [|e r IH]; intros s HG Hwb; cbn [rd_run polled_run]; [constructor|].
  cbn [run_wb] in Hwb. apply andb_true_iff in Hwb as [H1 H2].
  constructor; [now apply (step_wire w)|]. apply IH; [now apply step_GInv|exact H2].
Qed.

Section Lex.
  Context {A : Type}.

  Definition off (L : list (list A)) (i : nat) : nat := length (concat (firstn i L)).

  Lemma off_mono : forall (L : list (list A)) j i lj, (j < i)%nat -> nth_error L j = Some lj -> (off L j + length lj <= off L i)%nat.
  Proof.
    induction L as [|l0 L IH]; intros [|j] [|i] lj Hlt Hj; cbn [nth_error] in Hj; try discriminate; try lia.
    - injection Hj as <-. unfold off. cbn [firstn concat length]. rewrite app_length. lia.
    - unfold off in *. cbn [firstn concat]. rewrite !app_length. specialize (IH j i lj ltac:(lia) Hj). lia.
  Qed.

  Lemma sorted_filter_pair (f : A -> N) (keep : A -> bool) (M : list A) :
    StronglySorted N.lt (map f (filter keep M)) ->
    forall p q x y, nth_error M p = Some x -> nth_error M q = Some y -> (p < q)%nat ->
                    keep x = true -> keep y = true -> f x < f y.
  Proof.
    intros Hs p q x y Hp Hq Hlt Kx Ky. destruct (nth_split2 M p q x y Hp Hq Hlt) as (l1 & l2 & l3 & ->).
    rewrite filter_app in Hs. cbn [filter] in Hs. rewrite Kx, filter_app in Hs. cbn [filter] in Hs. rewrite Ky in Hs.
    rewrite map_app in Hs. cbn [map] in Hs. rewrite map_app in Hs. cbn [map] in Hs.
    apply sorted_app_r in Hs. inversion Hs as [|? ? _ Hf]; subst. rewrite Forall_forall in Hf. apply Hf.
    apply in_or_app. right. now left.
  Qed.

  (* positions in a list of lists, ordered lexicographically *)
  Lemma lex_of_sorted (f : A -> N) (keep : A -> bool) (L : list (list A)) :
    StronglySorted N.lt (map f (filter keep (concat L))) ->
    forall i j a b li lj x y,
      nth_error L i = Some li -> nth_error li a = Some x -> nth_error L j = Some lj -> nth_error lj b = Some y ->
      keep x = true -> keep y = true -> f x < f y -> (i < j)%nat \/ (i = j /\ (a < b)%nat).
  Proof.
    intros Hs i j a b li lj x y Hi Ha Hj Hb Kx Ky Hlt.
    pose proof (nth_concat L i li a x Hi Ha) as Px. pose proof (nth_concat L j lj b y Hj Hb) as Py.
    assert (Hla : (a < length li)%nat) by (apply nth_error_Some; congruence).
    assert (Hlb : (b < length lj)%nat) by (apply nth_error_Some; congruence).
    destruct (Nat.lt_trichotomy i j) as [H|[H|H]]; [now left| |].
    - subst j. rewrite Hi in Hj. injection Hj as <-. right. split; [reflexivity|].
      destruct (Nat.lt_trichotomy a b) as [H|[H|H]]; [exact H| |].
      + subst b. rewrite Ha in Hb. injection Hb as <-. lia.
      + assert (f y < f x) by (eapply (sorted_filter_pair f keep _ Hs (off L i + b) (off L i + a)); eauto; lia). lia.
    - pose proof (off_mono L j i lj H Hj).
      assert (f y < f x) by (eapply (sorted_filter_pair f keep _ Hs (off L j + b) (off L i + a)); eauto; lia). lia.
  Qed.
End Lex.

(* the live part of the trace, step by step *)
Definition live_run (s : st) (es : list event) : list (list rd) := map (filter r_live) (rd_run s es).

(* of two live first transmissions of one session, the one with the smaller tag is handed out
   in an earlier step, or earlier in the same step *)
Theorem first_transmissions_lex cid0 c h p pre post i j a b tri trj r1 r2 :
  c_max_inflight c <= MAXPID -> run_wb false (st_init c h p) (pre ++ post) = true ->
  let tr := live_run (fst (run (st_init c h p) pre)) post in
  nth_error tr i = Some tri -> nth_error tri a = Some r1 ->
  nth_error tr j = Some trj -> nth_error trj b = Some r2 ->
  r_cid r1 = cid0 -> r_cid r2 = cid0 -> e_tag (r_elem r1) < e_tag (r_elem r2) ->
  (i < j)%nat \/ (i = j /\ (a < b)%nat).
Proof.
  intros Hc Hwb tr Hi Ha Hj Hb C1 C2 Hlt.
  pose proof (first_transmissions_sorted cid0 c h p pre post Hc Hwb) as Hs. unfold tg in Hs.
  apply (lex_of_sorted (fun r => e_tag (r_elem r)) (fun r => str_eqb (r_cid r) cid0) tr) with (li := tri) (lj := trj) (x := r1) (y := r2); auto.
  - unfold tr, live_run. rewrite concat_map_filter.
    eapply DeliverP.subseq_sorted; [|exact Hs]. apply subseq_map, subseq_filter_mono, subseq_filter.
  - rewrite C1. apply str_eqb_refl.
  - rewrite C2. apply str_eqb_refl.
Qed.

(* ... and on the wire: the a-th DUP=0 PUBLISH written by the poll loops in step i is the first transmission of the
   a-th live entry of step i of the trace.  So: of two DUP=0 PUBLISH packets of one session written by the poll loops
   in a run, the one that transmits the entry with the smaller tag is written in an earlier step, or earlier in the
   output of the same step *)
Theorem first_transmissions_wire_order c h p pre post i j a b oi oj x1 x2 :
  c_max_inflight c <= MAXPID -> run_wb false (st_init c h p) (pre ++ post) = true ->
  let s := fst (run (st_init c h p) pre) in
  nth_error (polled_run s post) i = Some oi -> nth_error (filter is_first_pub oi) a = Some x1 ->
  nth_error (polled_run s post) j = Some oj -> nth_error (filter is_first_pub oj) b = Some x2 ->
  exists r1 r2,
    wire_rd r1 x1 /\ wire_rd r2 x2 /\
    (exists tri, nth_error (live_run s post) i = Some tri /\ nth_error tri a = Some r1) /\
    (exists trj, nth_error (live_run s post) j = Some trj /\ nth_error trj b = Some r2) /\
    (r_cid r1 = r_cid r2 -> e_tag (r_elem r1) < e_tag (r_elem r2) -> (i < j)%nat \/ (i = j /\ (a < b)%nat)).
Proof.
  intros Hc Hwb s Hi Ha Hj Hb. pose proof Hwb as Hwb0.
  rewrite run_wb_app in Hwb. apply andb_true_iff in Hwb as [W1 W2].
  pose proof (run_wire false post s (reachable_GInv false c h p pre Hc W1) W2) as HW.
  destruct (Forall2_nth_r _ _ _ HW i oi Hi) as (tri0 & Hti & Fi).
  destruct (Forall2_nth_r _ _ _ HW j oj Hj) as (trj0 & Htj & Fj).
  destruct (Forall2_nth_r _ _ _ Fi a x1 Ha) as (r1 & Hr1 & Wr1).
  destruct (Forall2_nth_r _ _ _ Fj b x2 Hb) as (r2 & Hr2 & Wr2).
  assert (Li : nth_error (live_run s post) i = Some (filter r_live tri0)) by (unfold live_run; now apply map_nth_error).
  assert (Lj : nth_error (live_run s post) j = Some (filter r_live trj0)) by (unfold live_run; now apply map_nth_error).
  exists r1, r2. split; [exact Wr1|]. split; [exact Wr2|]. split; [eauto|]. split; [eauto|].
  intros Hcid Hlt. eapply (first_transmissions_lex (r_cid r2) c h p pre post i j a b); eauto.
Qed.

(* tags_sorted_all_runs spelled out *)
Theorem tags_sorted_reachable c h p es cid q :
  let s := fst (run (st_init c h p) es) in
  In (cid, q) (b_queues s) ->
  StronglySorted N.lt (pub_tags (q_l q)) /\ Forall (fun t => 0 < t < b_tag s) (pub_tags (q_l q)) /\
  Forall (fun e => is_pub e = false -> e_tag e = 0) (q_l q).
Proof. intros s Hq. destruct (tags_sorted_all_runs c h p es) as [_ H]. exact (H cid q Hq). Qed.

(* tags tell when an entry was queued: after anything the broker does, a PUBLISH entry either carries a tag drawn
   from the counter meanwhile, or is a later form (same tag, topic, payload) of an entry the same client id's
   queue held before *)
Theorem old_or_new g P s s' cid q' e' :
  QR g P s s' -> In (cid, q') (b_queues s') -> In e' (q_l q') -> is_pub e' = true ->
  b_tag s <= e_tag e' < b_tag s' \/
  exists q e, In (cid, q) (b_queues s) /\ In e (q_l q) /\ evo g e e'.
Proof.
  intros HQ Hq' He' Hp'. set (lo := b_tag s).
  assert (H : Holds lo (fun b cid l => forall e', In e' l -> is_pub e' = true ->
                                     lo <= e_tag e' < b \/ exists q e, In (cid, q) (b_queues s) /\ In e (q_l q) /\ evo g e e')
                    (b_tag s', b_queues s')).
  { apply (qstep_closed g P lo _) with (x := (b_tag s, b_queues s)).
    - intros _ _ e0 [].
    - intros b c0 l Hb Hphi e0 Hin Hp. destruct (Hphi e0 Hin Hp) as [H|H]; [left; lia|now right].
    - intros b c0 l l' Hl Hphi e0 Hin Hp. destruct (lrel_in _ _ _ Hl e0 Hin) as (e1 & He1 & Hev).
      destruct (evo_pub _ _ _ Hev Hp) as [Hp1 Ht]. destruct (Hphi e1 He1 Hp1) as [H|(q & e & H1 & H2 & H3)].
      + left. lia.
      + right. exists q, e. split; [exact H1|]. split; [exact H2|]. eapply evo_trans; eauto.
    - intros b c0 l e0 m Hb Hphi Ht _ _ e1 Hin Hp. apply in_app_or in Hin as [Hin|[<-|[]]].
      + destruct (Hphi e1 Hin Hp) as [H|H]; [left; lia|now right].
      + left. lia.
    - exact HQ.
    - split; [cbn [fst]; unfold lo; lia|]. cbn [fst snd]. intros c0 q0 Hq0 e0 Hin Hp. right. exists q0, e0. auto using evo_refl. }
  destruct H as [_ H]. cbn [fst snd] in H. exact (H cid q' Hq' e' He' Hp').
Qed.

Definition ox_R : str := [114].     (* "r": a second publisher, socket 3 *)
Definition ox_B : str := [98].      (* "b": a second subscriber *)
Definition ox_pubfrom (c q pid : N) (pl : str) : event := ESend c (KPublish false q false wx_T pl pid []).
Definition ox_subon (c q : N) : event :=
  ESend c (KSubscribe 1 [] [{| tq_name := wx_T; tq_qos := q; tq_nl := false; tq_rap := false; tq_rh := 0 |}]).

(* subscriber "s" (socket 1, v5, Receive Maximum 1) on "t" with QoS 1; publishers "p" (socket 2) and "r" (socket 3)
   interleave four messages (payloads 1..4; the third with QoS 0); then "s" acknowledges one packet at a time *)
Definition ox_run : list event :=
  [EConnect 1 (wx_connect 5 wx_S false [PSei 100; PRecvMax 1]); ox_subon 1 1;
   EConnect 2 (wx_connect 4 wx_P true []); EConnect 3 (wx_connect 4 ox_R true []);
   ox_pubfrom 2 1 11 [1]; ox_pubfrom 3 1 21 [2]; ox_pubfrom 2 0 0 [3]; ox_pubfrom 3 1 22 [4];
   ESend 1 (KPuback 1 0 []); ESend 1 (KPuback 2 0 []); ESend 1 (KPuback 4 0 [])].

(* the PUBLISH packets written to socket c, step by step *)
Definition pubs_to (c : N) (o : list out) : list out :=
  filter (fun x => match x with OSend c' (KPublish _ _ _ _ _ _ _) => c' =? c | _ => false end) o.

(* the ghost trace in readable form: socket, client id, live, tag *)
Definition rd_view (tr : list (list rd)) : list (list (N * str * bool * N)) :=
  map (map (fun r => (r_sock r, r_cid r, r_live r, e_tag (r_elem r)))) tr.

(* two subscribers "s" (socket 1) and "b" (socket 3), window 1 each; three messages; "b" goes offline, "s" receives all
   three and leaves; then "b" comes back ON SOCKET 1: the socket number is reused by another client *)
Definition ox_reuse : list event :=
  [EConnect 1 (wx_connect 5 wx_S false [PSei 100; PRecvMax 1]); ox_subon 1 1;
   EConnect 3 (wx_connect 5 ox_B false [PSei 100; PRecvMax 1]); ox_subon 3 1;
   EConnect 2 (wx_connect 4 wx_P true []);
   ox_pubfrom 2 1 11 [1]; ox_pubfrom 2 1 12 [2]; ox_pubfrom 2 1 13 [3];
   EClose 3;
   ESend 1 (KPuback 1 0 []); ESend 1 (KPuback 2 0 []);
   EClose 1;
   EConnect 1 (wx_connect 5 ox_B false [PSei 100; PRecvMax 1]);
   ESend 1 (KPuback 1 0 [])].

Lemma nopub_filter o : Forall nopub o -> filter is_first_pub o = [].
Proof.
  induction 1 as [|x o Hx H IH]; [reflexivity|]. cbn [filter]. rewrite IH.
  destruct x as [c' p|c'|cid m r]; try reflexivity. destruct p; try reflexivity. destruct Hx.
Qed.

Theorem step_event_nopub s e : Forall nopub (snd (step_event s e)).
Proof.
  eapply edits_nopub, step_event_ed_all.
Qed.

(* so the DUP=0 PUBLISH packets in the output of a step are those of its poll loops *)
Theorem step_first_pubs s e : filter is_first_pub (snd (step s e)) = filter is_first_pub (polled s e).
Proof. rewrite step_polled, filter_app, (nopub_filter _ (step_event_nopub s e)). reflexivity. Qed.

Theorem run_first_pubs : forall es s,
  map (filter is_first_pub) (snd (run s es)) = map (filter is_first_pub) (polled_run s es).
Proof.
  induction es as [|e r IH]; intros s; cbn [run polled_run]; [reflexivity|].
  pose proof (step_first_pubs s e) as H1. destruct (step s e) as [s' o]. cbn [fst snd] in *.
  specialize (IH s'). destruct (run s' r) as [s'' os]. cbn [snd map] in *. now rewrite H1, IH.
Qed.

(* on the observable output of the run: step i of the run writes, among others, the DUP=0 PUBLISH packets
   `filter is_first_pub oi`; each is the first transmission of the entry at the same position of the live ghost
   trace, and for entries of one session a smaller tag means: earlier step, or earlier in the same step *)
Theorem first_transmissions_output_order c h p pre post i j a b oi oj x1 x2 :
  c_max_inflight c <= MAXPID -> run_wb false (st_init c h p) (pre ++ post) = true ->
  let s := fst (run (st_init c h p) pre) in
  nth_error (snd (run s post)) i = Some oi -> nth_error (filter is_first_pub oi) a = Some x1 ->
  nth_error (snd (run s post)) j = Some oj -> nth_error (filter is_first_pub oj) b = Some x2 ->
  exists r1 r2,
    wire_rd r1 x1 /\ wire_rd r2 x2 /\
    (exists tri, nth_error (live_run s post) i = Some tri /\ nth_error tri a = Some r1) /\
    (exists trj, nth_error (live_run s post) j = Some trj /\ nth_error trj b = Some r2) /\
    (r_cid r1 = r_cid r2 -> e_tag (r_elem r1) < e_tag (r_elem r2) -> (i < j)%nat \/ (i = j /\ (a < b)%nat)).
Proof.
  intros Hc Hwb s Hi Ha Hj Hb.
  pose proof (run_first_pubs post s) as HE.
  assert (Hi' : nth_error (map (filter is_first_pub) (polled_run s post)) i = Some (filter is_first_pub oi))
    by (rewrite <- HE; now apply map_nth_error).
  assert (Hj' : nth_error (map (filter is_first_pub) (polled_run s post)) j = Some (filter is_first_pub oj))
    by (rewrite <- HE; now apply map_nth_error).
  rewrite nth_error_map in Hi', Hj'.
  destruct (nth_error (polled_run s post) i) as [pi|] eqn:Pi; [|discriminate].
  destruct (nth_error (polled_run s post) j) as [pj|] eqn:Pj; [|discriminate].
  cbn [option_map] in Hi', Hj'. injection Hi' as Ei. injection Hj' as Ej.
  rewrite <- Ei in Ha. rewrite <- Ej in Hb.
  exact (first_transmissions_wire_order c h p pre post i j a b pi pj x1 x2 Hc Hwb Pi Ha Pj Hb).
Qed.

Lemma step_event_api s m : fst (step_event s (EApiPublish m)) = fst (fst (deliver [] m s)).
Proof. cbn [step_event]. destruct (deliver [] m s) as [[s' o] b]. reflexivity. Qed.

Lemma QR_api_then_run s m es : QR false anym (fst (fst (deliver [] m s))) (fst (run (fst (step s (EApiPublish m))) es)).
Proof.
  eapply QR_trans; [|apply run_QR]. rewrite step_fst, step_event_api. apply poll_all_QR_weak.
Qed.

Theorem api_publish_order s m1 es2 m2 es3 cid q e1 e2 :
  TS s ->
  let s2 := fst (run (fst (step s (EApiPublish m1))) es2) in
  let s3 := fst (run (fst (step s2 (EApiPublish m2))) es3) in
  In (cid, q) (b_queues s3) -> In e1 (q_l q) -> In e2 (q_l q) ->
  copy_of_pub s [] m1 e1 -> copy_of_pub s2 [] m2 e2 ->
  e_tag e1 < e_tag e2 /\ precedes e1 e2 (q_l q).
Proof.
  intros HT s2 s3. apply (queue_order_is_publication_order s [] m1 s2 [] m2 s3); [exact HT| |]; apply QR_api_then_run.
Qed.

(* API publishes 7 and 8 interleaved with client publishes 1 and 2 (the subscriber "s" and both publishers connected) *)
Definition ox_api (pl : str) : msg := msg_of_publish false false 1 false wx_T pl 0 [].
Definition ox_s4 : st := fst (run wx_init (firstn 4 ox_run)).
Definition ox_a2 : st := fst (run (fst (step ox_s4 (EApiPublish (ox_api [7])))) [ox_pubfrom 2 1 11 [1]]).
Definition ox_a3 : st := fst (run (fst (step ox_a2 (EApiPublish (ox_api [8])))) [ox_pubfrom 3 1 21 [2]]).
