(* Pack / ReadPacket round trip for SUBSCRIBE and UNSUBSCRIBE, and what their Unpack establishes. *)
From Coq Require Import List NArith ZArith Bool Lia ZifyN ZifyNat ZifyBool Sorted.
Import ListNotations.
From GM Require Import Base.Topic Base.Msg Model.CodecBase Model.CodecProps Model.CodecPackets
  Proofs.CodecBaseP Proofs.CodecStrP Proofs.CodecTotalP Proofs.CodecPropsP Proofs.CodecPropsInvP Proofs.CodecRoundP
  Proofs.CodecReencP.
Open Scope N_scope.

Definition impl_filter (s : str) : bool := match valid_topic_filter_impl true s with Ok true => true | _ => false end.
Definition impl_v5 (s : str) : bool := match valid_v5_topic_impl s with Ok true => true | _ => false end.

(* the filter check of Subscribe.Unpack and Unsubscribe.Unpack *)
Definition filter_ok (v : N) (s : str) : bool := if v =? 5 then impl_v5 s else impl_filter s.
Lemma filter_ok_iff : forall v s,
  filter_ok v s = true <-> (if v =? 5 then valid_v5_topic_impl s else valid_topic_filter_impl true s) = Ok true.
Proof. intros. unfold filter_ok. destruct (v =? 5); apply ok_true_iff. Qed.

(* the loops stop when the buffer is empty: after the last entry, and not before *)
Lemma loop_tail : forall A (enc : A -> list N) ts (acc : list A) (X : res (list A)),
  (forall t, enc t <> []) -> (ts <> [] -> X = Ok (acc ++ ts)) ->
  match flat_map enc ts with [] => Ok acc | _ :: _ => X end = Ok (acc ++ ts).
Proof.
  intros A enc [|t ts] acc X Hne HX; [cbn; now rewrite app_nil_r|].
  rewrite HX by discriminate. cbn [flat_map]. destruct (enc t) eqn:E; [elim (Hne t E)|reflexivity].
Qed.

Definition subtopic_inv (v : N) (t : subtopic) : Prop :=
  istr_ok (st_name t) = true /\ st_qos t <= 2 /\
  if v =? 5 then impl_v5 (st_name t) = true /\ st_rh t <= 2
                 /\ (st_nl t && has_prefix SHARE_PREFIX (st_name t)) = false
  else impl_filter (st_name t) = true /\ st_rh t = 0 /\ st_nl t = false /\ st_rap t = false.

Definition sub_opts5 (t : subtopic) : N :=
  N.lor (N.lor (N.lor (st_qos t) (b2n (st_nl t) 4)) (b2n (st_rap t) 8)) ((st_rh t * 16) mod 256).
Definition enc_sub (v : N) (t : subtopic) : list N :=
  put_bin (st_name t) ++ [if v =? 5 then sub_opts5 t else st_qos t].

Lemma sub_opts5_rt : forall q rh nl rap, q <= 2 -> rh <= 3 ->
  let o := N.lor (N.lor (N.lor q (b2n nl 4)) (b2n rap 8)) ((rh * 16) mod 256) in
  N.land o 3 = q /\ N.land 3 (N.shiftr o 4) = rh /\ bit o 2 = nl /\ bit o 3 = rap /\ N.land 3 (N.shiftr o 6) = 0.
Proof.
  intros q rh nl rap Hq Hr.
  assert (Hq' : q = 0 \/ q = 1 \/ q = 2) by lia. assert (Hr' : rh = 0 \/ rh = 1 \/ rh = 2 \/ rh = 3) by lia.
  destruct Hq' as [ -> | [ -> | -> ] ]; destruct Hr' as [ -> | [ -> | [ -> | -> ] ] ]; destruct nl, rap;
    vm_compute; repeat split.
Qed.

Lemma enc_sub_nonnil : forall v t, enc_sub v t <> [].
Proof. intros. unfold enc_sub, put_bin, put16. discriminate. Qed.

Lemma sub_loop_rt : forall v topics fuel acc,
  topics <> [] -> (forall t, In t topics -> subtopic_inv v t) ->
  (length (flat_map (enc_sub v) topics) < fuel)%nat ->
  sub_topics_loop fuel v acc (flat_map (enc_sub v) topics) = Ok (acc ++ topics).
Proof.
  induction topics as [|t ts IH]; intros fuel acc Hne Hinv Hf; [congruence|].
  destruct fuel; [lia|]. cbn [sub_topics_loop flat_map]. unfold enc_sub at 1. rewrite <- app_assoc.
  destruct (Hinv t (or_introl eq_refl)) as (Hname & Hq & Hrest).
  rewrite istr_ok_rt by assumption. cbn [bind app].
  replace (if v =? 5 then valid_v5_topic_impl (st_name t) else _) with (@Ok bool true)
    by (symmetry; apply filter_ok_iff; unfold filter_ok; destruct (v =? 5); tauto).
  cbn [bind negb read_byte remap].
  (* what the decoder rebuilds from the options byte is t, the checks on it pass, and the rest is the loop on ts *)
  assert (Hrec : forall acc', ts <> [] -> sub_topics_loop fuel v acc' (flat_map (enc_sub v) ts) = Ok (acc' ++ ts)).
  { intros acc' Hts. apply IH; [assumption|intros; apply Hinv; right; assumption|].
    cbn [flat_map] in Hf. rewrite app_length in Hf.
    destruct (enc_sub v t) eqn:E; [elim (enc_sub_nonnil v t E)|]. cbn [length] in Hf. lia. }
  destruct (N.eqb_spec v 5) as [->|Hv]; cbn [N.eqb Pos.eqb negb andb] in *.
  - destruct Hrest as (_ & Hrh & Hnls).
    destruct (sub_opts5_rt (st_qos t) (st_rh t) (st_nl t) (st_rap t) Hq ltac:(lia)) as (E1 & E2 & E3 & E4 & E5).
    unfold sub_opts5. rewrite E1, E2, E3, E4, E5. cbn [st_qos st_rh st_nl N.eqb negb].
    replace (2 <? st_rh t) with false by (clear - Hrh; lia).
    replace (2 <? st_qos t) with false by (clear - Hq; lia). rewrite Hnls.
    replace {| st_name := st_name t; st_qos := st_qos t; st_rh := st_rh t; st_nl := st_nl t; st_rap := st_rap t |}
      with t by (destruct t; reflexivity).
    rewrite loop_tail, <- app_assoc by auto using enc_sub_nonnil. reflexivity.
  - destruct Hrest as (_ & Hrh & Hnl & Hrap). replace (v =? 5) with false by lia. cbn [st_qos st_nl negb andb].
    replace (2 <? st_qos t) with false by (clear - Hq; lia).
    replace (N.land 3 (N.shiftr (st_qos t) 6)) with 0
      by (assert (Hq' : st_qos t = 0 \/ st_qos t = 1 \/ st_qos t = 2) by lia; destruct Hq' as [ -> | [ -> | -> ] ]; reflexivity).
    cbn [N.eqb negb].
    replace {| st_name := st_name t; st_qos := st_qos t; st_rh := 0; st_nl := false; st_rap := false |}
      with t by (destruct t; cbn in *; subst; reflexivity).
    rewrite loop_tail, <- app_assoc by auto using enc_sub_nonnil. reflexivity.
Qed.

Definition subscribe_inv (v : N) (b : body) : Prop :=
  match b with
  | BSubscribe ver pid topics pr =>
      ver = v /\ 0 < pid < 65536 /\ topics <> [] /\ (forall t, In t topics -> subtopic_inv v t) /\ oprops_inv v SUBSCRIBE pr
  | _ => False
  end.

Lemma pack_body_subscribe : forall v pid topics pr,
  pack_body (BSubscribe v pid topics pr)
  = Ok (SUBSCRIBE, 2, put16 pid ++ (if v =? 5 then props_pack pr else []) ++ flat_map (enc_sub v) topics).
Proof. intros. unfold enc_sub, sub_opts5. cbn [pack_body]. destruct (v =? 5); reflexivity. Qed.

Lemma rt_subscribe : forall v pid topics pr ty fl bytes,
  subscribe_inv v (BSubscribe v pid topics pr) ->
  pack_body (BSubscribe v pid topics pr) = Ok (ty, fl, bytes) -> len bytes < BIG ->
  ty = SUBSCRIBE /\ fl = 2 /\ parse_subscribe v bytes = Ok (BSubscribe v pid topics pr).
Proof.
  intros v pid topics pr ty fl bytes (_ & Hp & Hne & Hts & Hpr) Hpack Hlen.
  rewrite pack_body_subscribe in Hpack. apply ok3_inj in Hpack. destruct Hpack as (<- & <- & <-).
  split; [reflexivity|]. split; [reflexivity|].
  unfold parse_subscribe. rewrite read_uint16_put16 by lia. cbn [bind]. replace (pid =? 0) with false by lia.
  rewrite oprops_rt by eauto using len_lt_app_r.
  cbn [bind]. rewrite sub_loop_rt; [reflexivity|assumption|assumption|lia].
Qed.

(* what Subscribe.Unpack establishes *)
Lemma land3_le : forall x, N.land 3 x <= 3.
Proof. intros. rewrite N.land_comm. change 3 with (N.ones 2). rewrite N.land_ones. cbn. lia. Qed.

Lemma sub_loop_inv : forall fuel v acc b ts,
  sub_topics_loop fuel v acc b = Ok ts -> bytes_ok b ->
  exists new, ts = acc ++ new /\ new <> [] /\ (forall t, In t new -> subtopic_inv v t).
Proof.
  induction fuel; intros v acc b ts H Hb; [discriminate|]. cbn [sub_topics_loop] in H.
  apply (bind_reads (read_str_inv b)) in H as (tf & b1 & Hname & Hb1 & H); [|assumption].
  apply bind_ok_inv in H. destruct H as [[|] [Evalid H]]; [|discriminate]. apply filter_ok_iff in Evalid. cbn [negb] in H.
  apply (bind_reads (reads_remap (read_byte_inv b1))) in H as (opts & b2 & Ho & Hb2 & H); [|assumption].
  set (t := if v =? 5 then _ else _) in H.
  destruct ((v =? 5) && (2 <? st_rh t)) eqn:C0; [discriminate|].
  destruct (negb (v =? 5) && (2 <? st_qos t)) eqn:C1; [discriminate|].
  destruct (negb (N.land 3 (N.shiftr opts 6) =? 0)) eqn:C2; [discriminate|].
  destruct (2 <? st_qos t) eqn:C3; [discriminate|].
  destruct (st_nl t && has_prefix SHARE_PREFIX tf) eqn:C4; [discriminate|].
  assert (Ht : subtopic_inv v t).
  { unfold subtopic_inv, filter_ok in *. subst t.
    destruct (v =? 5); cbn [st_name st_qos st_rh st_nl st_rap andb] in *; repeat split; auto; lia. }
  destruct b2 as [|x b2'].
  - injection H as <-. exists [t]. split; [reflexivity|]. split; [discriminate|]. intros t' [<-|[]]. exact Ht.
  - apply IHfuel in H; [|assumption]. destruct H as [new (-> & Hne & Hnew)].
    exists (t :: new). split; [rewrite <- app_assoc; reflexivity|]. split; [discriminate|].
    intros t' [<-|Hin]; [exact Ht|now apply Hnew].
Qed.

Lemma parse_subscribe_inv : forall v b body,
  parse_subscribe v b = Ok body -> bytes_ok b -> subscribe_inv v body.
Proof.
  intros v b body H Hb. unfold parse_subscribe in H.
  apply (bind_reads (read_uint16_inv b)) in H as (pid & b1 & Hp & Hb1 & H); [|assumption].
  destruct (N.eqb_spec pid 0) as [Hz|Hz]; [discriminate|].
  apply (bind_reads (oprops_dec v SUBSCRIBE b1)) in H as (pr & b3 & Hpr & Hb3 & H); [|assumption].
  apply bind_ok_inv in H. destruct H as [ts [El H]].
  apply sub_loop_inv in El; [|assumption]. destruct El as [new (-> & Hne & Hnew)].
  injection H as <-. cbn [subscribe_inv app]. split; [reflexivity|]. split; [lia|]. auto.
Qed.

Definition unsub_inv (v : N) (t : str) : Prop :=
  istr_ok t = true /\ (if v =? 5 then impl_v5 t else impl_filter t) = true.

Lemma put_bin_nonnil : forall s, put_bin s <> [].
Proof. intros. unfold put_bin, put16. discriminate. Qed.

Lemma unsub_loop_rt : forall v topics fuel acc,
  topics <> [] -> (forall t, In t topics -> unsub_inv v t) ->
  (length (flat_map put_bin topics) < fuel)%nat ->
  unsub_topics_loop fuel v acc (flat_map put_bin topics) = Ok (acc ++ topics).
Proof.
  induction topics as [|t ts IH]; intros fuel acc Hne Hinv Hf; [congruence|].
  destruct fuel; [lia|]. cbn [unsub_topics_loop flat_map].
  destruct (Hinv t (or_introl eq_refl)) as (Hname & Hfil).
  rewrite istr_ok_rt by assumption. cbn [bind].
  apply filter_ok_iff in Hfil. rewrite Hfil. cbn [bind negb].
  rewrite loop_tail, <- app_assoc; [reflexivity|apply put_bin_nonnil|].
  intros Hts. apply IH; [assumption|intros; apply Hinv; right; assumption|].
  cbn [flat_map] in Hf. rewrite app_length in Hf.
  destruct (put_bin t) eqn:E; [elim (put_bin_nonnil t E)|]. cbn [length] in Hf. lia.
Qed.

Definition unsubscribe_inv (v : N) (b : body) : Prop :=
  match b with
  | BUnsubscribe ver pid topics pr =>
      ver = v /\ 0 < pid < 65536 /\ topics <> [] /\ (forall t, In t topics -> unsub_inv v t) /\ oprops_inv v UNSUBSCRIBE pr
  | _ => False
  end.

Lemma rt_unsubscribe : forall v pid topics pr ty fl bytes,
  unsubscribe_inv v (BUnsubscribe v pid topics pr) ->
  pack_body (BUnsubscribe v pid topics pr) = Ok (ty, fl, bytes) -> len bytes < BIG ->
  ty = UNSUBSCRIBE /\ fl = 2 /\ parse_unsubscribe v bytes = Ok (BUnsubscribe v pid topics pr).
Proof.
  intros v pid topics pr ty fl bytes (_ & Hp & Hne & Hts & Hpr) Hpack Hlen.
  cbn [pack_body] in Hpack. apply ok3_inj in Hpack. destruct Hpack as (<- & <- & <-).
  split; [reflexivity|]. split; [reflexivity|].
  unfold parse_unsubscribe. rewrite read_uint16_put16 by lia. cbn [bind]. replace (pid =? 0) with false by lia.
  rewrite oprops_rt by eauto using len_lt_app_r.
  cbn [bind]. rewrite unsub_loop_rt; [reflexivity|assumption|assumption|lia].
Qed.

Lemma unsub_loop_inv : forall fuel v acc b ts,
  unsub_topics_loop fuel v acc b = Ok ts -> bytes_ok b ->
  exists new, ts = acc ++ new /\ new <> [] /\ (forall t, In t new -> unsub_inv v t).
Proof.
  induction fuel; intros v acc b ts H Hb; [discriminate|]. cbn [unsub_topics_loop] in H.
  apply (bind_reads (read_str_inv b)) in H as (tf & b1 & Hname & Hb1 & H); [|assumption].
  apply bind_ok_inv in H. destruct H as [[|] [Evalid H]]; [|discriminate]. apply filter_ok_iff in Evalid. cbn [negb] in H.
  assert (Ht : unsub_inv v tf) by (split; assumption).
  destruct b1 as [|x b1'].
  - injection H as <-. exists [tf]. split; [reflexivity|]. split; [discriminate|]. intros t' [<-|[]]. exact Ht.
  - apply IHfuel in H; [|assumption]. destruct H as [new (-> & Hne & Hnew)].
    exists (tf :: new). split; [rewrite <- app_assoc; reflexivity|]. split; [discriminate|].
    intros t' [<-|Hin]; [exact Ht|now apply Hnew].
Qed.

Lemma parse_unsubscribe_inv : forall v b body,
  parse_unsubscribe v b = Ok body -> bytes_ok b -> unsubscribe_inv v body.
Proof.
  intros v b body H Hb. unfold parse_unsubscribe in H.
  apply (bind_reads (read_uint16_inv b)) in H as (pid & b1 & Hp & Hb1 & H); [|assumption].
  destruct (N.eqb_spec pid 0) as [Hz|Hz]; [discriminate|].
  apply (bind_reads (oprops_dec v UNSUBSCRIBE b1)) in H as (pr & b3 & Hpr & Hb3 & H); [|assumption].
  apply bind_ok_inv in H. destruct H as [ts [El H]].
  apply unsub_loop_inv in El; [|assumption]. destruct El as [new (-> & Hne & Hnew)].
  injection H as <-. cbn [unsubscribe_inv app]. split; [reflexivity|]. split; [lia|]. auto.
Qed.
