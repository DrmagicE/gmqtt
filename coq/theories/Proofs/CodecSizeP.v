(* Bytes consumed by ReadPacket, allocation, and TotalBytes = length of the encoding. *)
From Coq Require Import List NArith ZArith Bool Lia ZifyN ZifyNat ZifyBool.
Import ListNotations.
From GM Require Import Base.Topic Base.Msg Model.CodecBase Model.CodecProps Model.CodecPackets Oracle.C06O
  Proofs.CodecBaseP Proofs.CodecStrP Proofs.CodecTotalP.
Open Scope N_scope.

Lemma land_128_zero_or_big : forall d, N.land d 128 = 0 \/ 128 <= d.
Proof. intros. destruct (N.lt_ge_cases d 128); [left; now apply land_128_small|right; assumption]. Qed.

Lemma read_vbi_span : forall b vbi mult v r,
  read_vbi b vbi mult = Ok (v, r) -> len b - len r <= varint_span b /\ len r <= len b.
Proof.
  induction b; intros vbi mult v r H; cbn [read_vbi] in H; [discriminate|].
  - destruct (21 <? mult); [discriminate|]. destruct (_ <? _); [discriminate|].
    cbn [varint_span]. rewrite len_cons.
    destruct (N.eqb_spec (N.land a 128) 0) as [E|E].
    + destruct (_ && _); [discriminate|]. inversion H; subst. destruct (a <? 128); lia.
    + apply IHb in H. destruct (land_128_zero_or_big a); [congruence|].
      replace (a <? 128) with false by lia. lia.
Qed.

(* no body is read for PINGREQ, PINGRESP and an AUTH of Remaining Length 0 only *)
Lemma precheck_nobody : forall fh b, precheck fh = Ok (PreNoBody b) ->
  fh_rl fh = 0 /\ (b = BPingreq \/ b = BPingresp \/ b = BAuth 0 None).
Proof.
  intros fh b H. unfold precheck in H. destruct (N.eqb_spec (fh_rl fh) 0) as [R|R];
  repeat match type of H with
         | (if ?c then _ else _) = _ => destruct c; try discriminate
         | bind ?r _ = _ => destruct r; try discriminate
         end; injection H as <-; auto.
Qed.

(* C06_consumes: an accepted packet is a prefix of the input; the bytes taken are the first
   byte, the Remaining Length field and exactly the declared Remaining Length *)
Theorem read_packet_consumes : forall v bs p rest,
  read_packet v bs = Ok (p, rest) ->
  exists h pre, p_fh p = Some h /\ bs = pre ++ rest
    /\ len pre <= 1 + varint_span (tl bs) + fh_rl h
    /\ fh_rl h <= len bs.
Proof.
  intros v bs p rest H. unfold read_packet, read_packet_full in H.
  destruct bs as [|first r]; [discriminate|].
  destruct (read_varint r) as [[rl r1]| | |] eqn:Ev; try discriminate.
  destruct (read_vbi_span _ _ _ _ _ Ev) as [Hsp Hle].
  destruct (read_vbi_suffix _ _ _ _ _ Ev) as [vpre Hvp].
  destruct (precheck _) as [[|b]| | |] eqn:Ep; try discriminate.
  - (* a body of rl bytes is read *)
    rewrite shorter_spec in H. destruct (N.ltb_spec (len r1) rl); [discriminate|].
    unfold buf_next in H. cbn [fst] in H.
    destruct (parse_body _ _ _) as [b| | |]; try discriminate. cbn [bind] in H.
    inversion H; subst p rest; clear H. cbn [p_fh].
    eexists. exists (first :: vpre ++ takeN rl r1). split; [reflexivity|].
    split; [| split].
    + cbn [app]. f_equal. rewrite <- app_assoc, take_drop. assumption.
    + cbn [tl fh_rl]. rewrite len_cons, len_app, takeN_len.
      assert (Hlen : len r = len vpre + len r1) by (rewrite Hvp, len_app; reflexivity). lia.
    + cbn [fh_rl]. rewrite len_cons. lia.
  - (* no body: PINGREQ, PINGRESP, AUTH with remaining length 0 *)
    cbn [fst] in H. inversion H; subst p rest; clear H. cbn [p_fh].
    eexists. exists (first :: vpre). split; [reflexivity|].
    split; [| split].
    + cbn [app]. f_equal. assumption.
    + cbn [tl fh_rl]. rewrite len_cons.
      assert (Hlen : len r = len vpre + len r1) by (rewrite Hvp, len_app; reflexivity). lia.
    + apply precheck_nobody in Ep. cbn [fh_rl] in *. lia.
Qed.

(* what readRemaining asks for before the bytes have arrived: at most 4096 bytes, or no more
   than the input holds *)
Theorem read_alloc_bounded : forall v bs, read_alloc v bs <= 4096 \/ read_alloc v bs <= len bs.
Proof.
  intros. unfold read_alloc, read_packet_full.
  destruct bs as [|first r]; [left; cbn; lia|].
  destruct (read_varint r) as [[rl r1]| | |] eqn:Ev; try (left; cbn; lia).
  destruct (read_vbi_span _ _ _ _ _ Ev) as [_ Hle].
  destruct (precheck _) as [[|b]| | |]; try (left; cbn; lia).
  assert (Ha : (if rl <=? 4096 then rl else N.min rl (len r1)) <= 4096
               \/ (if rl <=? 4096 then rl else N.min rl (len r1)) <= len (first :: r)).
  { rewrite len_cons. destruct (N.leb_spec rl 4096); [left; lia|right; lia]. }
  destruct (shorter r1 rl); [exact Ha|]. unfold buf_next. exact Ha.
Qed.

(* an accepted packet never made the decoder allocate more than the input holds *)
Theorem read_alloc_accepted : forall v bs p rest,
  read_packet v bs = Ok (p, rest) -> read_alloc v bs <= len bs.
Proof.
  intros v bs p rest H. unfold read_packet, read_alloc in *. unfold read_packet_full in *.
  destruct bs as [|first r]; [discriminate|].
  destruct (read_varint r) as [[rl r1]| | |] eqn:Ev; try discriminate.
  destruct (read_vbi_span _ _ _ _ _ Ev) as [Hsp Hle].
  destruct (precheck _) as [[|b]| | |]; try discriminate.
  rewrite shorter_spec in *. destruct (N.ltb_spec (len r1) rl); [discriminate|].
  unfold buf_next. cbn [snd]. rewrite len_cons. destruct (rl <=? 4096); lia.
Qed.

(* allocation in proportion to the bytes supplied *)
Definition alloc_proportional (v : N) (bs : list N) : Prop := read_alloc v bs <= 64 * len bs + 4096.
Theorem alloc_proportional_all : forall v bs, alloc_proportional v bs.
Proof. intros v bs. unfold alloc_proportional. destruct (read_alloc_bounded v bs); lia. Qed.
(* the former counterexample: five bytes declaring 268435455 *)
Lemma alloc_witness_repaired : read_alloc 4 [48; 255; 255; 255; 127] = 0.
Proof. vm_compute. reflexivity. Qed.

Lemma pack_fixhdr_len : forall fh l, pack_fixhdr fh = Ok l ->
  fh_rl fh < 268435456 /\
  len l = (if fh_rl fh <? 128 then 2 else if fh_rl fh <? 16384 then 3 else if fh_rl fh <? 2097152 then 4 else 5).
Proof.
  intros fh l H. unfold pack_fixhdr in H.
  destruct (N.ltb_spec (fh_rl fh) 268435456) as [Hlt|Hge]; [|rewrite encode_varint_big in H by assumption; discriminate].
  rewrite encode_varint_bytes in H by assumption. injection H as <-. split; [assumption|].
  rewrite len_cons, varint_bytes_len by assumption.
  destruct (_ <? 128); [reflexivity|]. destruct (_ <? 16384); [reflexivity|]. destruct (_ <? 2097152); reflexivity.
Qed.

(* Pack: a fixed header declaring the length of the body that follows it *)
Lemma pack_full_inv : forall b bs fh, pack_full b = Ok (bs, fh) ->
  exists t fl bytes h, pack_body b = Ok (t, fl, bytes) /\ fh = {| fh_type := t; fh_flags := fl; fh_rl := len bytes |}
                       /\ pack_fixhdr fh = Ok h /\ bs = h ++ bytes.
Proof.
  intros b bs fh H. unfold pack_full in H.
  apply bind_ok_inv in H. destruct H as [[[t fl] bytes] [Eb H]].
  apply bind_ok_inv in H. destruct H as [h [Eh H]]. injection H as <- <-. eauto 8.
Qed.

(* C06_size: after Pack, TotalBytes reports the number of bytes written *)
Theorem total_bytes_pack : forall b bs fh,
  pack_full b = Ok (bs, fh) -> total_bytes {| p_fh := Some fh; p_body := b |} = len bs.
Proof.
  intros b bs fh H. apply pack_full_inv in H. destruct H as (t & fl & bytes & h & _ & -> & Eh & ->).
  apply pack_fixhdr_len in Eh. cbn [fh_rl] in Eh. destruct Eh as [Hlt Hl].
  unfold total_bytes. cbn [p_fh fh_rl]. rewrite len_app, Hl.
  replace (len bytes <=? 127) with (len bytes <? 128) by lia. replace (len bytes <=? 16383) with (len bytes <? 16384) by lia.
  replace (len bytes <=? 2097151) with (len bytes <? 2097152) by lia. replace (len bytes <=? 268435455) with true by lia.
  destruct (_ <? 128); [lia|]. destruct (_ <? 16384); [lia|]. destruct (_ <? 2097152); lia.
Qed.
