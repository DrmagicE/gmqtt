(* Lemmas about Model/PersistEnc.v: every reader reads back what its writer wrote and stops there;
   DecodeMessage (EncodeMessage m) = m, Elem.Decode (Elem.Encode e) = e (up to the ghost tag),
   DecodeSubscription (EncodeSubscription s) = s, for every value the broker can store; hence the
   encodings are injective (the bytes LREM compares are equal iff the decoded values are);
   no decoder panics or runs out of fuel on any byte string. *)
From Coq Require Import List NArith ZArith Bool Lia ZifyN ZifyNat ZifyBool.
Import ListNotations.
From GM Require Import Base.Topic Base.Msg Model.CodecBase Model.SubTrie Model.Queue Model.Redis Gen.Consts
  Model.PersistEnc Proofs.CodecBaseP.
From GM Require Proofs.TopicP.
Open Scope N_scope.

(* the readers and writers of persistence/encoding/binary.go *)
Lemma rd_bool_wr : forall b rest, rd_bool (wr_bool b ++ rest) = Ok (b, rest).
Proof. intros [|] rest; reflexivity. Qed.

Lemma rd_string_wr : forall s rest, len s < 65536 -> rd_string (wr_string s ++ rest) = Ok (s, rest).
Proof.
  intros s rest H. unfold rd_string, wr_string.
  rewrite <- app_assoc, N.mod_small, read_uint16_put16 by assumption. cbn [perr remap bind].
  rewrite shorter_app_false, takeN_app_exact, dropN_app_exact. reflexivity.
Qed.

Lemma rd_bytes_wr : forall s rest, len s < 4294967296 -> rd_bytes (wr_bytes s ++ rest) = Ok (s, rest).
Proof.
  intros s rest H. unfold rd_bytes, wr_bytes.
  destruct (N.ltb_spec (len s) 65535) as [Hs|Hs].
  - unfold wr_string. rewrite <- app_assoc, N.mod_small, read_uint16_put16 by lia. cbn [perr remap bind].
    replace (len s =? 65535) with false by lia.
    cbn [bind]. rewrite shorter_app_false, takeN_app_exact, dropN_app_exact. reflexivity.
  - rewrite <- !app_assoc. rewrite read_uint16_put16 by lia. cbn [perr remap bind].
    rewrite N.eqb_refl, N.mod_small, read_uint32_put32 by assumption. cbn [perr remap bind].
    rewrite shorter_app_false, takeN_app_exact, dropN_app_exact. reflexivity.
Qed.

(* the property block, entry by entry *)
Inductive pentry :=
| PCtype (v : str) | PCorr (v : str) | PExp (v : N) | PFmt (v : N) | PResp (v : str) | PSubid (v : N) | PUser (k v : str).

Definition enc_entry (e : pentry) : list N :=
  match e with
  | PCtype v => pk_PropContentType :: wr_string v
  | PCorr v => pk_PropCorrelationData :: wr_string v
  | PExp v => pk_PropMessageExpiry :: put32 v
  | PFmt v => [pk_PropPayloadFormat; v]
  | PResp v => pk_PropResponseTopic :: wr_string v
  | PSubid v => pk_PropSubscriptionIdentifier :: encode_varint_or_nil v
  | PUser k v => pk_PropUser :: wr_string k ++ wr_string v
  end.

Definition apply_entry (m : msg) (e : pentry) : msg :=
  match e with
  | PCtype v => set_ctype v m
  | PCorr v => set_corr v m
  | PExp v => set_expiry v m
  | PFmt v => set_pfmt v m
  | PResp v => set_resp v m
  | PSubid v => add_subid v m
  | PUser k v => add_uprop k v m
  end.

Definition wf_entry (e : pentry) : Prop :=
  match e with
  | PCtype v | PCorr v | PResp v => len v < 65536
  | PExp v => v < 4294967296
  | PFmt v => True
  | PSubid v => v < 268435456
  | PUser k v => len k < 65536 /\ len v < 65536
  end.

Lemma dec_props_entry : forall e k rest m, wf_entry e ->
  dec_props (S k) (enc_entry e ++ rest) m = dec_props k rest (apply_entry m e).
Proof.
  intros e k rest m H. destruct e; cbn [enc_entry app apply_entry wf_entry dec_props] in *;
    (* the seven identifiers are distinct numerals: the switch computes *)
    unfold pk_PropPayloadFormat, pk_PropMessageExpiry, pk_PropContentType, pk_PropResponseTopic,
      pk_PropCorrelationData, pk_PropSubscriptionIdentifier, pk_PropUser; cbn [N.eqb Pos.eqb].
  - rewrite rd_string_wr by assumption. reflexivity.
  - rewrite rd_string_wr by assumption. reflexivity.
  - rewrite read_uint32_put32 by assumption. reflexivity.
  - reflexivity.
  - rewrite rd_string_wr by assumption. reflexivity.
  - rewrite encode_varint_or_nil_bytes, varint_roundtrip by assumption. reflexivity.
  - destruct H as [Hk Hv]. rewrite <- app_assoc, rd_string_wr by assumption. cbn [bind].
    rewrite rd_string_wr by assumption. reflexivity.
Qed.

Lemma dec_props_entries : forall es k rest m, Forall wf_entry es ->
  dec_props (length es + k) (flat_map enc_entry es ++ rest) m = dec_props k rest (fold_left apply_entry es m).
Proof.
  induction es as [|e es IH]; intros k rest m H.
  - reflexivity.
  - inversion H as [|? ? He Hes]; subst. cbn [length flat_map fold_left plus].
    rewrite <- app_assoc. rewrite dec_props_entry by assumption. apply IH. assumption.
Qed.

Lemma enc_entry_nonempty : forall e, (1 <= length (enc_entry e))%nat.
Proof. destruct e; cbn; lia. Qed.

Lemma flat_map_entries_length : forall es, (length es <= length (flat_map enc_entry es))%nat.
Proof.
  induction es as [|e es IH]; cbn [flat_map length]; [lia|].
  rewrite app_length. pose proof (enc_entry_nonempty e). lia.
Qed.

Lemma dec_props_block : forall es m, Forall wf_entry es ->
  dec_props (S (length (flat_map enc_entry es))) (flat_map enc_entry es) m = Ok (fold_left apply_entry es m).
Proof.
  intros es m H. pose proof (flat_map_entries_length es) as Hl.
  replace (S (length (flat_map enc_entry es)))
    with (length es + S (length (flat_map enc_entry es) - length es))%nat by lia.
  rewrite <- (app_nil_r (flat_map enc_entry es)) at 2.
  rewrite dec_props_entries by assumption. reflexivity.
Qed.

Definition entries_of (m : msg) : list pentry :=
  (if len (m_ctype m) =? 0 then [] else [PCtype (m_ctype m)]) ++
  (if len (m_corr m) =? 0 then [] else [PCorr (m_corr m)]) ++
  (if m_expiry m =? 0 then [] else [PExp (m_expiry m)]) ++
  [PFmt (m_pfmt m)] ++
  (if len (m_resp m) =? 0 then [] else [PResp (m_resp m)]) ++
  map PSubid (m_subids m) ++ map (fun kv => PUser (fst kv) (snd kv)) (m_uprops m).

Lemma flat_map_map : forall A B C (f : A -> B) (g : B -> list C) l, flat_map g (map f l) = flat_map (fun x => g (f x)) l.
Proof. induction l as [|x l IH]; cbn; [reflexivity|]. now rewrite IH. Qed.

Lemma enc_msg_entries : forall m,
  enc_msg m = wr_bool (m_dup m) ++ [m_qos m] ++ wr_bool (m_retained m) ++ wr_string (m_topic m) ++
              wr_bytes (m_payload m) ++ put16 (m_pid m) ++ flat_map enc_entry (entries_of m).
Proof.
  intros m. unfold enc_msg, entries_of. repeat (f_equal; []).
  rewrite !flat_map_app, !flat_map_map. unfold enc_subids, enc_uprops.
  destruct (len (m_ctype m) =? 0), (len (m_corr m) =? 0), (m_expiry m =? 0), (len (m_resp m) =? 0);
    cbn [flat_map enc_entry app]; rewrite ?app_nil_r; reflexivity.
Qed.

Lemma len_zero_nil : forall (s : str), len s = 0 -> s = [].
Proof. destruct s; [reflexivity|]. rewrite len_cons. lia. Qed.

Lemma fold_subids : forall l m,
  fold_left apply_entry (map PSubid l) m =
  {| m_dup := m_dup m; m_qos := m_qos m; m_retained := m_retained m; m_topic := m_topic m; m_payload := m_payload m;
     m_pid := m_pid m; m_ctype := m_ctype m; m_corr := m_corr m; m_expiry := m_expiry m; m_pfmt := m_pfmt m;
     m_resp := m_resp m; m_subids := m_subids m ++ l; m_uprops := m_uprops m |}.
Proof.
  induction l as [|x l IH]; intros m.
  - cbn. rewrite app_nil_r. destruct m; reflexivity.
  - cbn [map fold_left apply_entry]. rewrite IH. unfold add_subid. cbn. now rewrite <- app_assoc.
Qed.

Lemma fold_uprops : forall l m,
  fold_left apply_entry (map (fun kv => PUser (fst kv) (snd kv)) l) m =
  {| m_dup := m_dup m; m_qos := m_qos m; m_retained := m_retained m; m_topic := m_topic m; m_payload := m_payload m;
     m_pid := m_pid m; m_ctype := m_ctype m; m_corr := m_corr m; m_expiry := m_expiry m; m_pfmt := m_pfmt m;
     m_resp := m_resp m; m_subids := m_subids m; m_uprops := m_uprops m ++ l |}.
Proof.
  induction l as [|[k v] l IH]; intros m.
  - cbn. rewrite app_nil_r. destruct m; reflexivity.
  - cbn [map fold_left apply_entry fst snd]. rewrite IH. unfold add_uprop. cbn. now rewrite <- app_assoc.
Qed.

Lemma fold_entries_of : forall m,
  fold_left apply_entry (entries_of m)
    {| m_dup := m_dup m; m_qos := m_qos m; m_retained := m_retained m; m_topic := m_topic m; m_payload := m_payload m;
       m_pid := m_pid m; m_ctype := []; m_corr := []; m_expiry := 0; m_pfmt := 0; m_resp := []; m_subids := [];
       m_uprops := [] |} = m.
Proof.
  intros m. unfold entries_of. rewrite !fold_left_app. rewrite fold_uprops, fold_subids.
  destruct m as [dup qos ret topic payload pid ctype corr expiry pfmt resp subids uprops]. cbn [m_dup m_qos m_retained m_topic m_payload m_pid m_ctype m_corr m_expiry m_pfmt m_resp m_subids m_uprops].
  destruct (N.eqb_spec (len ctype) 0) as [E1|E1]; [apply len_zero_nil in E1; subst ctype|];
  destruct (N.eqb_spec (len corr) 0) as [E2|E2]; [apply len_zero_nil in E2; subst corr| |apply len_zero_nil in E2; subst corr|];
  destruct (N.eqb_spec expiry 0) as [E3|E3]; try subst expiry;
  destruct (N.eqb_spec (len resp) 0) as [E4|E4]; try (apply len_zero_nil in E4; subst resp);
  cbn; reflexivity.
Qed.

Lemma wf_str16_len : forall s, wf_str16 s = true -> len s < 65536.
Proof. unfold wf_str16. intros s H. apply andb_prop in H. lia. Qed.

(* what the round trip needs of a well-formed message *)
Lemma wf_pmsg_inv : forall m, wf_pmsg m = true ->
  len (m_topic m) < 65536 /\ len (m_payload m) < 4294967296 /\ m_pid m < 65536 /\ Forall wf_entry (entries_of m).
Proof.
  intros m H. unfold wf_pmsg in H. rewrite !andb_true_iff in H.
  destruct H as (((((((((((_ & Ht) & _) & Hpl) & Hpid) & Hct) & Hco) & Hex) & _) & Hre) & Hsi) & Hup).
  apply wf_str16_len in Ht, Hct, Hco, Hre.
  split; [assumption|]. split; [lia|]. split; [lia|].
  unfold entries_of. repeat (apply Forall_app; split).
  - destruct (len (m_ctype m) =? 0); constructor; [assumption|constructor].
  - destruct (len (m_corr m) =? 0); constructor; [assumption|constructor].
  - destruct (m_expiry m =? 0); constructor; [cbn; lia|constructor].
  - constructor; [exact I|constructor].
  - destruct (len (m_resp m) =? 0); constructor; [assumption|constructor].
  - apply Forall_map, Forall_forall. intros v Hv. rewrite forallb_forall in Hsi. specialize (Hsi v Hv). cbn. lia.
  - apply Forall_map, Forall_forall. intros [k v] Hv. rewrite forallb_forall in Hup. specialize (Hup _ Hv).
    cbn [fst snd] in Hup. apply andb_prop in Hup. split; apply wf_str16_len; tauto.
Qed.

Lemma dec_enc_msg : forall m, wf_pmsg m = true -> dec_msg (enc_msg m) = Ok m.
Proof.
  intros m H. destruct (wf_pmsg_inv m H) as (Ht & Hpl & Hpid & He).
  rewrite enc_msg_entries. unfold dec_msg.
  rewrite rd_bool_wr. cbn [bind app perr remap read_byte].
  rewrite rd_bool_wr. cbn [bind].
  rewrite rd_string_wr by assumption. cbn [bind].
  rewrite rd_bytes_wr by assumption. cbn [bind].
  rewrite read_uint16_put16 by assumption. cbn [bind perr remap].
  rewrite dec_props_block by assumption. f_equal. apply fold_entries_of.
Qed.

Lemma put64_be : forall x, put64 x = be_bytes 8 x.
Proof. intros. cbn [be_bytes app]. rewrite !N.div_div by discriminate. reflexivity. Qed.

Lemma be64_put64 : forall x rest, x < 18446744073709551616 -> be64 (put64 x ++ rest) = Ok x.
Proof.
  intros x rest H. rewrite put64_be. transitivity (Ok (be_val (be_bytes 8 x))); [reflexivity|].
  f_equal. exact (be_val_bytes 8 x H).
Qed.

Lemma elem_hdr : forall a x k body, a < 18446744073709551616 -> x < 18446744073709551616 ->
  let b := put64 a ++ [0] ++ put64 x ++ [0] ++ [k] ++ body in
  shorter b 19 = false /\ be64 (takeN 9 b) = Ok a /\ be64 (takeN 10 (dropN 9 b)) = Ok x /\ idx b 18 = Ok k /\ dropN 19 b = body.
Proof.
  intros a x k body Ha Hx b. subst b.
  split; [|split; [|split; [|split]]].
  - rewrite shorter_spec. repeat rewrite len_app. change (len (put64 a)) with 8. change (len (put64 x)) with 8. change (len [0]) with 1. change (len [k]) with 1. lia.
  - transitivity (be64 (put64 a ++ [0])); [unfold put64; reflexivity|]. now apply be64_put64.
  - transitivity (be64 (put64 x ++ [0; k])); [unfold put64; reflexivity|]. now apply be64_put64.
  - unfold put64. reflexivity.
  - destruct body; unfold put64; reflexivity.
Qed.

Lemma len_put64 : forall x, len (put64 x) = 8. Proof. reflexivity. Qed.

Lemma u64_expiry_roundtrip : forall x, match x with None => True | Some v => v < 9223372036854775808 end ->
  u64_expiry (expiry_u64 x) = x.
Proof.
  intros [v|] H; unfold u64_expiry, expiry_u64, ZERO_TIME_U64; [|reflexivity].
  replace (v mod 18446744073709551616) with v by lia.
  replace (v =? 18446744011573954816) with false by lia. reflexivity.
Qed.

Definition untag (e : elem) : elem := {| e_tag := 0; e_at := e_at e; e_expiry := e_expiry e; e_body := e_body e |}.

Lemma dec_enc_elem : forall e, wf_pelem e = true -> dec_elem (enc_elem e) = Ok (untag e).
Proof.
  intros e H. unfold wf_pelem in H.
  apply andb_prop in H; destruct H as [H Hb]. apply andb_prop in H; destruct H as [Hat Hex].
  assert (HX : expiry_u64 (e_expiry e) < 18446744073709551616)
    by (unfold expiry_u64, ZERO_TIME_U64; destruct (e_expiry e); lia).
  assert (HA : e_at e mod 18446744073709551616 < 18446744073709551616) by lia.
  assert (HE : u64_expiry (expiry_u64 (e_expiry e)) = e_expiry e)
    by (apply u64_expiry_roundtrip; destruct (e_expiry e); [lia|exact I]).
  unfold dec_elem, enc_elem.
  destruct (e_body e) as [m|p] eqn:Eb.
  - destruct (elem_hdr _ _ 0 (enc_msg m) HA HX) as (h1 & h2 & h3 & h4 & h5). cbv zeta in h1, h2, h3, h4, h5.
    rewrite h1, h2, h3, h4, h5. cbn [bind]. rewrite N.eqb_refl.
    rewrite dec_enc_msg by assumption. cbn [bind]. unfold untag. rewrite Eb, HE. f_equal. f_equal. lia.
  - destruct (elem_hdr _ _ 1 (put16 p) HA HX) as (h1 & h2 & h3 & h4 & h5). cbv zeta in h1, h2, h3, h4, h5.
    rewrite h1, h2, h3, h4, h5. cbn [bind]. replace (1 =? 0) with false by reflexivity. rewrite N.eqb_refl.
    rewrite <- (app_nil_r (put16 p)). rewrite read_uint16_put16 by lia. cbn [bind perr remap].
    unfold untag. rewrite Eb, HE. f_equal. f_equal. lia.
Qed.

Lemma dec_enc_sub : forall s, wf_psub s = true -> dec_sub (enc_sub s) = Ok s.
Proof.
  intros s H. unfold wf_psub in H. rewrite !andb_true_iff in H. destruct H as ((((Hsh & Hf) & Hid) & _) & _).
  apply wf_str16_len in Hsh, Hf. unfold dec_sub, enc_sub.
  rewrite rd_string_wr by assumption. cbn [bind].
  rewrite rd_string_wr by assumption. cbn [bind].
  rewrite read_uint32_put32 by lia. cbn [bind perr remap app read_byte].
  rewrite rd_bool_wr. cbn [bind]. rewrite rd_bool_wr. cbn [bind app perr remap read_byte].
  destruct s; reflexivity.
Qed.

Lemma Ok_inj : forall A (x y : A), @Ok A x = Ok y -> x = y.
Proof. intros A x y H. now injection H. Qed.

Lemma enc_msg_inj : forall a b, wf_pmsg a = true -> wf_pmsg b = true -> enc_msg a = enc_msg b -> a = b.
Proof.
  intros a b Ha Hb E. apply (f_equal dec_msg) in E. rewrite !dec_enc_msg in E by assumption. now apply Ok_inj in E.
Qed.

Lemma enc_elem_inj : forall a b, wf_pelem a = true -> wf_pelem b = true -> enc_elem a = enc_elem b -> untag a = untag b.
Proof.
  intros a b Ha Hb E. apply (f_equal dec_elem) in E. rewrite !dec_enc_elem in E by assumption. now apply Ok_inj in E.
Qed.

Lemma enc_sub_inj : forall a b, wf_psub a = true -> wf_psub b = true -> enc_sub a = enc_sub b -> a = b.
Proof.
  intros a b Ha Hb E. apply (f_equal dec_sub) in E. rewrite !dec_enc_sub in E by assumption. now apply Ok_inj in E.
Qed.

Lemma list_eqb_iff {A} (eqb : A -> A -> bool) : (forall x y, eqb x y = true <-> x = y) ->
  forall a b, list_eqb eqb a b = true <-> a = b.
Proof.
  intros H. induction a as [|x a IH]; destruct b as [|y b]; cbn [list_eqb]; try (split; [discriminate|congruence]).
  - tauto.
  - rewrite andb_true_iff, H, IH. split; [intros [-> ->]; reflexivity|intros E; inversion E; auto].
Qed.

Lemma msg_eqb_iff : forall a b, msg_eqb a b = true <-> a = b.
Proof.
  intros a b. unfold msg_eqb. rewrite !andb_true_iff, !Bool.eqb_true_iff, !N.eqb_eq, !TopicP.str_eqb_eq.
  rewrite (list_eqb_iff N.eqb N.eqb_eq).
  rewrite (list_eqb_iff (fun x y => str_eqb (fst x) (fst y) && str_eqb (snd x) (snd y))).
  - destruct a, b; cbn.
    split; [intros H; decompose [and] H; subst; reflexivity|intros E; injection E; intros; subst; repeat split; reflexivity].
  - intros [x1 x2] [y1 y2]. cbn [fst snd]. rewrite andb_true_iff, !TopicP.str_eqb_eq.
    split; [intros [-> ->]; reflexivity|intros E; inversion E; auto].
Qed.

(* elem_eqb (Model/Redis.v: what the model's LREM compares) is equality up to the tag *)
Lemma elem_eqb_iff : forall a b, elem_eqb a b = true <-> untag a = untag b.
Proof.
  intros [ta aa xa ba] [tb ab xb bb]. unfold elem_eqb, untag. cbn.
  assert (Hx : optN_eqb xa xb = true <-> xa = xb)
    by (destruct xa, xb; cbn; rewrite ?N.eqb_eq; split; congruence).
  assert (Hb : qbody_eqb ba bb = true <-> ba = bb)
    by (destruct ba, bb; cbn; rewrite ?msg_eqb_iff, ?N.eqb_eq; split; congruence).
  rewrite !andb_true_iff, N.eqb_eq, Hx, Hb. split; [intros [[-> ->] ->]; reflexivity|intros E; injection E; auto].
Qed.

Lemma stored_bytes_equal_elem_eqb : forall a b, wf_pelem a = true -> wf_pelem b = true ->
  enc_elem a = enc_elem b -> elem_eqb a b = true.
Proof. intros. apply elem_eqb_iff. now apply enc_elem_inj. Qed.

(* the converse: what the store model treats as equal is stored as the same bytes (the tag is not stored) *)
Lemma elem_eqb_same_bytes a b : elem_eqb a b = true -> enc_elem a = enc_elem b.
Proof. intros E. apply elem_eqb_iff in E. change (enc_elem (untag a) = enc_elem (untag b)). now rewrite E. Qed.

Lemma rd_string_safe : forall b, safe_rd1 b (rd_string b).
Proof.
  intros b. unfold rd_string. pose proof (read_uint16_safe b) as H.
  destruct (read_uint16 b) as [[n r]| | |]; cbn in *; try exact I; try contradiction.
  destruct (shorter r n); cbn; [exact I|]. pose proof (dropN_length _ r n). lia.
Qed.

Lemma rd_bytes_safe : forall b, safe_rd1 b (rd_bytes b).
Proof.
  intros b. unfold rd_bytes. pose proof (read_uint16_safe b) as H.
  destruct (read_uint16 b) as [[l r]| | |]; cbn in *; try exact I; try contradiction.
  destruct (l =? 65535).
  - pose proof (read_uint32_safe r) as H2.
    destruct (read_uint32 r) as [[n r1]| | |]; cbn in *; try exact I; try contradiction.
    destruct (shorter r1 n); cbn; [exact I|]. pose proof (dropN_length _ r1 n). lia.
  - cbn. destruct (shorter r l); cbn; [exact I|]. pose proof (dropN_length _ r l). lia.
Qed.

Lemma rd_bool_safe : forall b, safe_rd1 b (rd_bool b).
Proof. intros [|x r]; cbn; [exact I|lia]. Qed.

Create HintDb rdsafe.
#[local] Hint Resolve safe_rd1_rd safe_rd_remap read_byte_safe read_uint16_safe read_uint32_safe read_varint_safe
  rd_string_safe rd_bytes_safe rd_bool_safe : rdsafe.

Lemma dec_props_safe : forall fuel b m, (length b < fuel)%nat -> safe (dec_props fuel b m).
Proof.
  induction fuel as [|k IH]; intros b m Hf; [lia|].
  destruct b as [|pt r]; [exact I|]. cbn [dec_props]. cbn [length] in Hf.
  (* every case reads one value (a user property: two) and goes on with what is left *)
  repeat match goal with |- safe (if ?c then _ else _) => destruct c end;
    try (apply (safe_rd_then _ _ r); [unfold perr; auto with rdsafe|intros v r1 H1]);
    try (apply (safe_rd_then _ _ r1); [auto with rdsafe|intros v' r2 H2]); apply IH; lia.
Qed.

Lemma dec_msg_safe : forall b, safe (dec_msg b).
Proof.
  intros b. unfold dec_msg, perr.
  apply (safe_rd_then _ _ b); [auto with rdsafe|intros dup r1 _].
  apply (safe_rd_then _ _ r1); [auto with rdsafe|intros qos r2 _].
  apply (safe_rd_then _ _ r2); [auto with rdsafe|intros ret r3 _].
  apply (safe_rd_then _ _ r3); [auto with rdsafe|intros topic r4 _].
  apply (safe_rd_then _ _ r4); [auto with rdsafe|intros payload r5 _].
  apply (safe_rd_then _ _ r5); [auto with rdsafe|intros pid r6 _].
  apply dec_props_safe. lia.
Qed.

Lemma takeN_length_ge : forall (b : list N) n, shorter b n = false -> len (takeN n b) = n.
Proof. intros b n H. rewrite shorter_spec in H. rewrite takeN_len. lia. Qed.

Lemma be64_safe_len : forall l, 8 <= len l -> safe (be64 l).
Proof.
  intros l H. do 8 (destruct l as [|? l]; [rewrite ?len_cons, len_nil in H; lia|]). exact I.
Qed.

Lemma dec_elem_safe : forall b, safe (dec_elem b).
Proof.
  intros b. unfold dec_elem, perr. destruct (shorter b 19) eqn:Es; [exact I|]. rewrite shorter_spec in Es.
  apply safe_bind; [apply be64_safe_len; rewrite takeN_len; lia|intros at_ _].
  apply safe_bind; [apply be64_safe_len; rewrite takeN_len, dropN_len; lia|intros ex _].
  apply safe_bind; [|intros kind _].
  { unfold idx. destruct (dropN 18 b) eqn:Ed; [|exact I].
    apply (f_equal len) in Ed. rewrite dropN_len in Ed. cbn in Ed. lia. }
  destruct (kind =? 0); [apply safe_bind; [apply dec_msg_safe|intros; exact I]|].
  destruct (kind =? 1); [|exact I].
  apply (safe_rd_then _ _ (dropN 19 b)); [auto with rdsafe|intros p r _; exact I].
Qed.

Lemma dec_sub_safe : forall b, safe (dec_sub b).
Proof.
  intros b. unfold dec_sub, perr.
  apply (safe_rd_then _ _ b); [auto with rdsafe|intros share r1 _].
  apply (safe_rd_then _ _ r1); [auto with rdsafe|intros filter r2 _].
  apply (safe_rd_then _ _ r2); [auto with rdsafe|intros id r3 _].
  apply (safe_rd_then _ _ r3); [auto with rdsafe|intros qos r4 _].
  apply (safe_rd_then _ _ r4); [auto with rdsafe|intros nl r5 _].
  apply (safe_rd_then _ _ r5); [auto with rdsafe|intros rap r6 _].
  apply (safe_rd_then _ _ r6); [auto with rdsafe|intros rh r7 _]. exact I.
Qed.

(* the pre-repair code wrote the payload with WriteString: for every payload of 65536 bytes or more the
   reader does not give the payload back (it stops after len mod 65536 bytes, or fails) *)
Lemma old_payload_writer_refuted : forall s rest, 65536 <= len s -> rd_string (wr_string s ++ rest) <> Ok (s, rest).
Proof.
  intros s rest H. unfold rd_string, wr_string. rewrite <- app_assoc.
  rewrite read_uint16_put16 by lia. cbn [perr remap bind].
  destruct (shorter (s ++ rest) (len s mod 65536)); [discriminate|].
  intros E. apply Ok_inj in E. apply (f_equal fst) in E. cbn [fst] in E.
  apply (f_equal len) in E. rewrite takeN_len in E. lia.
Qed.
