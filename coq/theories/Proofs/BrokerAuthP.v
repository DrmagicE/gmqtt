(* C19 (broker half): "No broker state is reachable without passing authentication" - proved of the
   broker model Model/Broker.v for all states and event lists.  The authentication plugin is the table
   h_auth of the hooks record (the scripted OnBasicAuth hook), consulted by auth_code / hc_code in
   handle_connect.
     1. a socket without a successful CONNECT (no record, PhFresh, PhDead, PhClosed): whatever it sends
        changes no table, queues nothing, and is answered by a failing CONNACK, a close, or nothing;
     2. a CONNECT the hook refuses: one failing CONNACK, no table changes; the verdict against the table;
        CONNACK code 0 iff the table lets the (user, password) pair in;
     3. history form: a client id that has a session / registration / subscription / queue / pending will
        in a reachable state was let in by an earlier CONNECT that passed hc_code = 0;
     4. the retained store changes and a message is queued only by packets on sockets that passed CONNECT,
        by wills of existing sessions, or by the administrative API.
   Built on Proofs/BrokerInvP.v (invariant, frames, CONNECT stages) and Proofs/BrokerHooksP.v. *)
From Coq Require Import List NArith ZArith Bool Arith Lia ZifyN ZifyNat ZifyBool.
Import ListNotations.
From GM Require Import Base.Topic Base.Msg Model.SubTrie Model.SubSpec Model.RetTrie Model.Queue Model.Limiter
  Model.TopicMatch Model.Broker Proofs.TopicP Proofs.SubTrieP Proofs.LimiterP Proofs.BrokerBasicP
  Proofs.BrokerQos2P Proofs.BrokerWillP Proofs.BrokerInvP Proofs.BrokerHooksP.
From GM Require Proofs.DeliverP Proofs.BrokerPollP Proofs.BrokerLimitsP Proofs.BrokerEditsP.
Open Scope N_scope.

(* Names defined both in BrokerQos2P / BrokerWillP and in BrokerInvP (wframe, att, hres_st, poll_all_frame ...)
   refer to the BrokerInvP version here; the others are written qualified. *)

(* `unattached s c` (Proofs/BrokerHooksP.v): socket c has no record, or its record is not attached.  In terms
   of phases: PhFresh (opened, no CONNECT yet), PhDead (CONNECT refused), PhClosed *)
Lemma unattached_phases s c :
  unattached s c <->
  forall k, nget c (b_conns s) = Some k -> k_phase k = PhFresh \/ k_phase k = PhDead \/ k_phase k = PhClosed.
Proof.
  unfold unattached. split; intros H k Hk; specialize (H k Hk).
  - destruct (k_phase k); try discriminate; auto.
  - destruct H as [-> | [-> | ->]]; reflexivity.
Qed.

(* what send_unconnected does, per phase: before CONNECT (PhFresh) any packet - it is not a CONNECT, which is a
   separate event - is malformed: CONNACK 129 in the 3.x form and the socket is dead; on a dead socket only a
   QoS>0 PUBLISH of a v5 client has an effect: the read loop ends on the (never granted) receive quota and the
   socket is closed; a closed or unknown socket: nothing *)
Definition unconnected_reply (s : st) (c : N) (p : pkt) : st * list out :=
  match nget c (b_conns s) with
  | None => (s, [])
  | Some k =>
      match k_phase k with
      | PhFresh => (upd_conn c (set_phase PhDead k) s, [OSend c (KConnack false 129 [])])
      | PhDead => if closes_dead k p then (upd_conn c (set_phase PhClosed k) s, [OClose c]) else (s, [])
      | _ => (s, [])
      end
  end.

(* everything but the connection records *)
Definition nonconn (s : st) :=
  (tables s, b_cfg s, b_hooks s, (b_now s, b_rt s, b_picks s), (b_tag s, b_auto s, b_npick s)).

Section NonconnFields.
  Variables s s' : st.
  Hypothesis H : nonconn s' = nonconn s.
  Lemma nc_tables : tables s' = tables s. Proof. unfold nonconn in H. congruence. Qed.
  Lemma nc_cfg : b_cfg s' = b_cfg s. Proof. unfold nonconn in H. congruence. Qed.
  Lemma nc_hooks : b_hooks s' = b_hooks s. Proof. unfold nonconn in H. congruence. Qed.
  Lemma nc_tag : b_tag s' = b_tag s. Proof. unfold nonconn in H. congruence. Qed.
  Lemma nc_auto : b_auto s' = b_auto s. Proof. unfold nonconn in H. congruence. Qed.
  Lemma nc_npick : b_npick s' = b_npick s. Proof. unfold nonconn in H. congruence. Qed.
  Lemma nc_now : b_now s' = b_now s. Proof. unfold nonconn in H. congruence. Qed.
End NonconnFields.

Lemma idle_upd_nonconn c s s' : idle_upd c s s' -> nonconn s' = nonconn s.
Proof. intros [->|(k & _ & ->)]; reflexivity. Qed.

Lemma unconnected_reply_idle s c p : idle_upd c s (fst (unconnected_reply s c p)).
Proof.
  unfold unconnected_reply. destruct (nget c (b_conns s)) as [k|]; [|now left].
  destruct (k_phase k); try (now left).
  - right. now exists (set_phase PhDead k).
  - destruct (closes_dead k p); [right; now exists (set_phase PhClosed k)|now left].
Qed.

Lemma send_unattached_event s c p e :
  unattached s c -> e = ESend c p \/ (exists n, e = ESendSz c p n) -> step_event s e = unconnected_reply s c p.
Proof.
  intros Hu He. unfold unconnected_reply. destruct (nget c (b_conns s)) as [k|] eqn:Hk.
  - specialize (Hu k Hk). destruct (k_phase k) eqn:Hp; try discriminate.
    + destruct He as [->|[n ->]]; cbn [step_event]; rewrite Hk, Hp; unfold send_unconnected; now rewrite Hp.
    + destruct (dead_socket_send c k p s Hk Hp) as (E1 & E2 & _). destruct He as [->|[n ->]]; [|rewrite E2]; exact E1.
    + destruct He as [->|[n ->]]; cbn [step_event]; rewrite Hk, Hp; unfold send_unconnected; now rewrite Hp.
  - destruct He as [->|[n ->]]; cbn [step_event]; now rewrite Hk.
Qed.

Lemma unconnected_reply_spec s c p :
  unattached s c ->
  let r := unconnected_reply s c p in
  nonconn (fst r) = nonconn s /\
  (snd r = [] \/ snd r = [OSend c (KConnack false 129 [])] \/ snd r = [OClose c]) /\
  (forall c', c' <> c -> nget c' (b_conns (fst r)) = nget c' (b_conns s)) /\
  unattached (fst r) c.
Proof.
  intros Hu. pose proof (unconnected_reply_idle s c p) as Hi. cbv zeta.
  split; [now apply (idle_upd_nonconn c)|].
  split; [|split; [intros c'; now apply idle_upd_other|now apply (idle_upd_unattached c s)]].
  unfold unconnected_reply. destruct (nget c (b_conns s)) as [k|]; [|auto].
  destruct (k_phase k); cbn [snd]; auto. destruct (closes_dead k p); auto.
Qed.

Theorem no_state_without_connect s c p s' o :
  unattached s c ->
  step_event s (ESend c p) = (s', o) \/ (exists n, step_event s (ESendSz c p n) = (s', o)) ->
  (s', o) = unconnected_reply s c p /\
  b_sessions s' = b_sessions s /\ b_subs s' = b_subs s /\ b_ret s' = b_ret s /\ b_wills s' = b_wills s /\
  b_queues s' = b_queues s /\ b_unacks s' = b_unacks s /\ b_online s' = b_online s /\ b_offline s' = b_offline s /\
  b_tag s' = b_tag s /\ b_npick s' = b_npick s /\ b_auto s' = b_auto s /\
  (o = [] \/ o = [OSend c (KConnack false 129 [])] \/ o = [OClose c]) /\
  (forall c', c' <> c -> nget c' (b_conns s') = nget c' (b_conns s)) /\
  unattached s' c.
Proof.
  intros Hu H.
  assert (E : (s', o) = unconnected_reply s c p).
  { destruct H as [H|[n H]]; rewrite <- H; eapply send_unattached_event; eauto. }
  destruct (unconnected_reply_spec s c p Hu) as (Hn & Ho & Hc & Hu').
  rewrite <- E in Hn, Ho, Hc, Hu'. cbn [fst snd] in *.
  destruct (tables_fields _ _ (nc_tables _ _ Hn)) as (T1 & T2 & T3 & T4 & T5 & T6 & T7 & T8).
  pose proof (nc_tag _ _ Hn). pose proof (nc_npick _ _ Hn). pose proof (nc_auto _ _ Hn).
  repeat (split; [assumption|]). exact Hu'.
Qed.

(* the whole step: the poll loops that follow write nothing to socket c and leave every table but the queues
   alone (what they do to the queues they do for attached connections, from the queues as they were) *)
Theorem no_state_without_connect_step s c p e :
  unattached s c -> e = ESend c p \/ (exists n, e = ESendSz c p n) ->
  tables_nq (fst (step s e)) = tables_nq s /\
  sent_to c (snd (step s e)) = sent_to c (snd (unconnected_reply s c p)) /\
  unattached (fst (step s e)) c.
Proof.
  intros Hu He. pose proof (send_unattached_event s c p e Hu He) as E.
  destruct (unconnected_reply_spec s c p Hu) as (Hn & _ & _ & Hu'). rewrite <- E in Hn, Hu'.
  rewrite step_tables_nq, (step_sent_unattached s e c Hu'), E.
  split; [rewrite <- E; now apply tables_tables_nq, nc_tables|]. split; [reflexivity|].
  exact (unattached_phase _ _ c (step_phase s e c) Hu').
Qed.

(* ... and for a quiescent broker (every poll loop parked: the state the harness observes) the step is the event *)
Theorem no_state_without_connect_quiescent s c p e :
  quiescent s = true -> unattached s c -> e = ESend c p \/ (exists n, e = ESendSz c p n) ->
  step s e = unconnected_reply s c p /\ tables (fst (step s e)) = tables s /\ quiescent (fst (step s e)) = true.
Proof.
  intros Hq Hu He. pose proof (send_unattached_event s c p e Hu He) as E.
  pose proof (unconnected_reply_idle s c p) as Hi.
  pose proof (idle_upd_quiescent _ _ _ Hi Hq) as Hq1.
  assert (Es : step s e = unconnected_reply s c p).
  { unfold step. rewrite E. destruct (unconnected_reply s c p) as [s1 o1]. cbn [fst] in Hq1.
    rewrite (poll_all_quiescent s1 Hq1). now rewrite app_nil_r. }
  rewrite Es. split; [reflexivity|]. split; [now apply (idle_upd_tables c)|exact Hq1].
Qed.

(* a CONNECT that hc_code refuses - exactly one failing CONNACK, no table changes, the socket is dead
   (connect_rejected_explicit of Proofs/BrokerHooksP.v, with the queue tag and the id counter added) *)
Theorem rejected_connect_no_state c cn s s' o :
  unattached s c -> cid_allowed cn s = true -> hc_code cn s <> 0 ->
  step_event s (EConnect c cn) = (s', o) ->
  o = [OSend c (KConnack false (connack_code (cn_ver cn) (hc_code cn s)) [])] /\
  connack_code (cn_ver cn) (hc_code cn s) <> 0 /\
  b_sessions s' = b_sessions s /\ b_subs s' = b_subs s /\ b_ret s' = b_ret s /\ b_wills s' = b_wills s /\
  b_queues s' = b_queues s /\ b_unacks s' = b_unacks s /\ b_online s' = b_online s /\ b_offline s' = b_offline s /\
  (exists k, nget c (b_conns s') = Some k /\ k_phase k = PhDead) /\
  (forall c', c' <> c -> nget c' (b_conns s') = nget c' (b_conns s)) /\
  unattached s' c.
Proof.
  intros Hu Hz Hc E.
  destruct (connect_rejected_explicit c cn s s' o Hu Hz Hc E)
    as (Ho & H1 & H2 & H3 & H4 & H5 & H6 & H7 & H8 & (k & Hk & Hp) & Hn).
  split; [exact Ho|]. split; [now apply connack_code_fails|].
  repeat (split; [assumption|]). split; [now exists k|]. split; [exact Hn|].
  intros k' Hk'. rewrite Hk in Hk'. injection Hk' as <-. now rewrite Hp.
Qed.

(* the verdict of the table: the first entry for (user, password) decides, the default when there is none.
   An absent user name / password counts as the empty string. *)
Definition cn_user_s (cn : connect) : str := opt_or (cn_user cn) [].
Definition cn_pass_s (cn : connect) : str := opt_or (cn_pass cn) [].

Definition table_code (tbl : list (str * str * N)) (dflt : N) (u p : str) : N :=
  match find (fun e => str_eqb (fst (fst e)) u && str_eqb (snd (fst e)) p) tbl with
  | Some e => snd e
  | None => dflt
  end.

(* a v5 CONNECT with an Authentication Method asks for enhanced authentication, which is not configured *)
Definition enhanced_auth (cn : connect) : bool :=
  (cn_ver cn =? 5) && match p_authmethod (cn_props cn) with Some _ => true | None => false end.

Lemma hc_code_table cn s tbl dflt :
  h_auth (b_hooks s) = Some (tbl, dflt) ->
  hc_code cn s = if enhanced_auth cn then 128 else table_code tbl dflt (cn_user_s cn) (cn_pass_s cn).
Proof. intros H. unfold hc_code, auth_code, enhanced_auth, table_code, cn_user_s, cn_pass_s. now rewrite H. Qed.

Lemma hc_code_no_table cn s :
  h_auth (b_hooks s) = None -> hc_code cn s = if enhanced_auth cn then 128 else 0.
Proof. intros H. unfold hc_code, auth_code, enhanced_auth. now rewrite H. Qed.

(* what "the table maps the pair to 0" means, without `find` *)
Lemma table_code_zero tbl dflt u p :
  table_code tbl dflt u p = 0 <->
  (exists pre post, tbl = pre ++ (u, p, 0) :: post /\ forall c, ~ In (u, p, c) pre) \/
  ((forall c, ~ In (u, p, c) tbl) /\ dflt = 0).
Proof.
  unfold table_code. induction tbl as [|[[u0 p0] c0] r IH]; cbn [find fst snd].
  - split.
    + intros ->. right. split; [intros c []|reflexivity].
    + intros [(pre & post & E & _)|[_ E]]; [destruct pre; discriminate|exact E].
  - destruct (str_eqb u0 u && str_eqb p0 p) eqn:Eb; cbn [snd].
    + apply andb_true_iff in Eb as [Eu Ep]. apply str_eqb_eq in Eu, Ep. subst u0 p0. split.
      * intros ->. left. exists [], r. split; [reflexivity|intros c []].
      * intros [(pre & post & E & Hpre)|[Hno _]].
        -- destruct pre as [|x pre]; cbn [app] in E; [now injection E as ->|].
           injection E as <- _. exfalso. apply (Hpre c0). now left.
        -- exfalso. apply (Hno c0). now left.
    + (* the head is an entry for another pair *)
      assert (Hne : forall c, (u0, p0, c0) <> (u, p, c)).
      { intros c [= -> -> _]. now rewrite !str_eqb_refl in Eb. }
      rewrite IH. split.
      * intros [(pre & post & E & Hpre)|[Hno E]].
        -- left. exists ((u0, p0, c0) :: pre), post. split; [cbn [app]; now rewrite E|].
           intros c [H|H]; [now apply (Hne c)|now apply (Hpre c)].
        -- right. split; [|exact E]. intros c [H|H]; [now apply (Hne c)|now apply (Hno c)].
      * intros [(pre & post & E & Hpre)|[Hno E]].
        -- destruct pre as [|x pre]; cbn [app] in E; [exfalso; apply (Hne 0); congruence|]. injection E as _ E.
           left. exists pre, post. split; [exact E|]. intros c H. apply (Hpre c). now right.
        -- right. split; [|exact E]. intros c H. apply (Hno c). now right.
Qed.

(* the code is 0 iff the table maps the pair to 0 (or does not know it and the default is 0) and the CONNECT
   asks for no enhanced authentication *)
Theorem hc_code_zero_iff cn s tbl dflt :
  h_auth (b_hooks s) = Some (tbl, dflt) ->
  (hc_code cn s = 0 <-> enhanced_auth cn = false /\ table_code tbl dflt (cn_user_s cn) (cn_pass_s cn) = 0).
Proof.
  intros H. rewrite (hc_code_table cn s tbl dflt H). destruct (enhanced_auth cn); split.
  - discriminate.
  - intros [E _]. discriminate.
  - auto.
  - now intros [_ E].
Qed.

Lemma hc_rejected_iff cn s : hc_rejected cn s = false <-> cid_allowed cn s = true /\ hc_code cn s = 0.
Proof.
  unfold hc_rejected, cid_allowed. rewrite orb_false_iff, !negb_false_iff, negb_true_iff, N.eqb_eq. reflexivity.
Qed.

Definition is_connack_ok (c : N) (x : out) : Prop := exists sp props, x = OSend c (KConnack sp 0 props).
Definition connack_ok (c : N) (o : list out) : Prop := exists sp props, In (OSend c (KConnack sp 0 props)) o.

Lemma poll_out_no_connack o c sp code props : Forall is_poll_out o -> ~ In (OSend c (KConnack sp code props)) o.
Proof. intros H Hin. rewrite Forall_forall in H. exact (H _ Hin). Qed.

(* the CONNECT event is answered with a successful CONNACK iff handle_connect accepts in the state the socket's
   previous connection (if any) leaves - and cfg, hooks and the id counter are those of s *)
Lemma connect_event_connack s c cn :
  connack_ok c (snd (step_event s (EConnect c cn))) <-> hc_rejected cn s = false.
Proof.
  cbn [step_event]. pose proof (conn_gone_nosend c s) as Hn. pose proof (conn_gone_misc c s) as (Hcfg & Hhooks & _).
  destruct (conn_gone c s) as [s0 o0]. cbn [fst snd] in *.
  rewrite <- (hc_rejected_ext cn s s0 Hhooks Hcfg), (connack_success_iff c cn s0).
  destruct (handle_connect c cn s0) as [s1 o1]. cbn [snd]. unfold connack_ok.
  split; intros (sp & props & Hin); exists sp, props.
  - apply in_app_or in Hin as [Hin|Hin]; [|exact Hin].
    apply filter_In in Hin as [Hin _]. now apply nosend_not_in in Hin.
  - apply in_or_app. now right.
Qed.

Lemma connect_step_connack s c cn :
  connack_ok c (snd (step s (EConnect c cn))) <-> hc_rejected cn s = false.
Proof.
  rewrite <- connect_event_connack. rewrite step_outputs. unfold connack_ok.
  split; intros (sp & props & Hin); exists sp, props.
  - apply in_app_or in Hin as [Hin|Hin]; [exact Hin|].
    exfalso. revert Hin. apply poll_out_no_connack, BrokerQos2P.poll_all_frame.
  - apply in_or_app. now left.
Qed.

(* with the authentication hook loaded, the CONNECT is answered with CONNACK code 0 iff the table
   lets the (user, password) pair in, no enhanced authentication is asked for, and the client id passes the
   zero-length check *)
Theorem accept_iff_table s c cn tbl dflt :
  h_auth (b_hooks s) = Some (tbl, dflt) ->
  (connack_ok c (snd (step s (EConnect c cn))) <->
   cid_allowed cn s = true /\ enhanced_auth cn = false /\
   table_code tbl dflt (cn_user_s cn) (cn_pass_s cn) = 0).
Proof.
  intros H. rewrite connect_step_connack, hc_rejected_iff, (hc_code_zero_iff cn s tbl dflt H). reflexivity.
Qed.

Theorem accept_iff_table_event s c cn tbl dflt :
  h_auth (b_hooks s) = Some (tbl, dflt) ->
  (connack_ok c (snd (step_event s (EConnect c cn))) <->
   cid_allowed cn s = true /\ enhanced_auth cn = false /\
   table_code tbl dflt (cn_user_s cn) (cn_pass_s cn) = 0).
Proof.
  intros H. rewrite connect_event_connack, hc_rejected_iff, (hc_code_zero_iff cn s tbl dflt H). reflexivity.
Qed.

(* without a hook everybody who asks for no enhanced authentication is let in *)
Theorem accept_iff_no_table s c cn :
  h_auth (b_hooks s) = None ->
  (connack_ok c (snd (step s (EConnect c cn))) <-> cid_allowed cn s = true /\ enhanced_auth cn = false).
Proof.
  intros H. rewrite connect_step_connack, hc_rejected_iff, (hc_code_no_table cn s H).
  destruct (enhanced_auth cn); split; try tauto; intros [A B]; try discriminate; auto.
Qed.

Lemma ahas_aset_sub {V} (k k' : str) (v : V) l : ahas k (aset k' v l) = true -> ahas k l = true \/ k = k'.
Proof. rewrite ahas_aset. destruct (str_eqb_spec k k') as [->|E]; auto. Qed.

Lemma ahas_aset_in {V} (k k' : str) (v : V) l : ahas k' l = true -> ahas k (aset k' v l) = true -> ahas k l = true.
Proof. intros Hk H. apply ahas_aset_sub in H as [H| ->]; assumption. Qed.

(* no NoDup needed in this direction *)
Lemma ahas_adel_sub {V} (k k' : str) (l : list (str * V)) : ahas k (adel k' l) = true -> ahas k l = true.
Proof. rewrite !ahas_in_keys. apply in_keys_adel. Qed.

Definition qsub (s s' : st) : Prop := forall k, ahas k (b_queues s') = true -> ahas k (b_queues s) = true.

Lemma qsub_refl s : qsub s s. Proof. intros k H. exact H. Qed.
Lemma qsub_trans a b c : qsub a b -> qsub b c -> qsub a c. Proof. intros H1 H2 k H. auto. Qed.
Lemma qsub_eq s s' : b_queues s' = b_queues s -> qsub s s'. Proof. intros E k. now rewrite E. Qed.
Lemma qsub_aset s s' cid0 q :
  ahas cid0 (b_queues s) = true -> b_queues s' = aset cid0 q (b_queues s) -> qsub s s'.
Proof. intros Hk E k. rewrite E. now apply ahas_aset_in. Qed.

(* the poll loops: no queue is created, no message queued *)
Definition pstep (s s' : st) : Prop := b_tag s' = b_tag s /\ qsub s s'.

Lemma pstep_refl s : pstep s s. Proof. split; [reflexivity|apply qsub_refl]. Qed.
Lemma pstep_trans a b c : pstep a b -> pstep b c -> pstep a c.
Proof. intros [A1 A2] [B1 B2]. split; [congruence|eapply qsub_trans; eauto]. Qed.

Lemma poll_once_pstep c s s' o : poll_once c s = Some (s', o) -> pstep s s'.
Proof.
  intros H. apply BrokerPollP.poll_once_turn in H as (k & q & _ & _ & Hq & T). apply ahas_some in Hq.
  destruct T; (split; [reflexivity|]).
  - eapply qsub_aset; [exact Hq|reflexivity].
  - intros k0 Hk0. proj_in Hk0. apply ahas_aset_in in Hk0; [now apply ahas_aset_in in Hk0|].
    rewrite ahas_aset, str_eqb_refl. reflexivity.
  - apply qsub_eq. reflexivity.
  - eapply qsub_aset; [exact Hq|reflexivity].
Qed.

Lemma poll_all_pstep s : pstep s (fst (poll_all s)).
Proof. apply (BrokerPollP.poll_all_rel pstep); [apply pstep_refl|apply pstep_trans|apply poll_once_pstep]. Qed.

(* the monotone relation: which client ids can appear in the session, queue and will tables *)
Record mono (X : str -> Prop) (s s' : st) : Prop := {
  mo_cfg : b_cfg s' = b_cfg s;
  mo_hooks : b_hooks s' = b_hooks s;
  mo_sess : forall k, ahas k (b_sessions s') = true -> ahas k (b_sessions s) = true \/ X k;
  mo_q : forall k, ahas k (b_queues s') = true -> ahas k (b_queues s) = true \/ X k;
  mo_w : forall k, ahas k (b_wills s') = true -> ahas k (b_wills s) = true \/ ahas k (b_sessions s) = true \/ X k }.

Lemma mono_trans X a b c : mono X a b -> mono X b c -> mono X a c.
Proof.
  intros [A1 A2 A3 A4 A5] [B1 B2 B3 B4 B5]. constructor; try congruence.
  - intros k H. destruct (B3 k H) as [H1|H1]; auto.
  - intros k H. destruct (B4 k H) as [H1|H1]; auto.
  - intros k H. destruct (B5 k H) as [H1|[H1|H1]]; auto.
Qed.

(* the tables are the same except for the queues, which get no new key *)
Lemma mono_same X s s' :
  b_cfg s' = b_cfg s -> b_hooks s' = b_hooks s -> b_sessions s' = b_sessions s -> b_wills s' = b_wills s ->
  qsub s s' -> mono X s s'.
Proof. intros E1 E2 E3 E4 Q. constructor; auto; intros k; rewrite ?E3, ?E4; auto. Qed.

Lemma mono_dframe X s s' : dframe s s' -> qsub s s' -> mono X s s'.
Proof. intros F. apply mono_same; [apply (df_cfg _ _ F)|apply (df_hooks _ _ F)|apply (df_sessions _ _ F)|apply (df_wills _ _ F)]. Qed.

(* across an edit: a queue or a session record appears only for a fresh id, a will only for an id that has a session *)
Lemma edits_mono P X acks s o s' : BrokerEditsP.edits P X acks s o s' -> mono X s s'.
Proof.
  induction 1 as [s o s' E _|s s1 s2 o1 o2 _ IH1 _ IH2|s cid q q' Hq _|s cid q e m q' evs Hq _ _ _ _|s cid q pid _ Hq
                 |s cid q e p _ Hq _ _|s cid q' u Hf _|s cid|s m _|s cid se on off Hc|s cid w Hs|s cid];
    try (apply mono_same; try reflexivity; eapply qsub_aset; [eapply ahas_some; exact Hq|reflexivity]).
  - destruct (BrokerEditsP.tracked_inv _ _ E) as (E1 & E2 & _ & E3 & E4 & _ & E5 & _). now apply mono_same; [..|apply qsub_eq].
  - eapply mono_trans; eauto.
  - constructor; proj; auto. intros k H. apply ahas_aset_sub in H as [H| ->]; auto.
  - constructor; proj; auto; intros k H; left; eapply ahas_adel_sub; eauto.
  - apply mono_same; try reflexivity. now apply qsub_eq.
  - constructor; proj; auto. intros k H. apply ahas_aset_sub in H as [H| ->]; [now left|]. destruct Hc; auto.
  - constructor; proj; auto. intros k H. apply ahas_aset_sub in H as [H| ->]; auto.
  - constructor; proj; auto. intros k H. left. eapply ahas_adel_sub; eauto.
Qed.

(* the CONNECT event e lets client id k in, in state s *)
Definition lets_in (s : st) (e : event) (k : str) : Prop :=
  exists c cn, e = EConnect c cn /\ hc_rejected cn s = false /\ hc_cid cn s = k.

Lemma step_event_mono s e : mono (lets_in s e) s (fst (step_event s e)).
Proof.
  apply (mono_trans _ _ (BrokerEditsP.clocked s e)); [destruct e; apply mono_same; try reflexivity; now apply qsub_eq|].
  eapply (edits_mono (fun _ => True) _ true), BrokerEditsP.step_event_ed; [auto|].
  destruct e as [c cn| |c p|c p n| | | | | | |]; try exact I; try now left.
  (* the state CONNECT finds differs from s in nothing hc_rejected and hc_cid read *)
  cbv zeta. intros Hr _. pose proof (conn_gone_misc c s) as (Hcfg & Hhooks & _ & Hauto). exists c, cn. split; [reflexivity|]. split.
  - now rewrite <- (hc_rejected_ext cn s _ Hhooks Hcfg).
  - unfold hc_cid. now rewrite Hauto.
Qed.

Lemma poll_all_mono X s : mono X s (fst (poll_all s)).
Proof. apply mono_dframe; [apply BrokerQos2P.poll_all_frame|apply poll_all_pstep]. Qed.

Theorem step_mono s e : mono (lets_in s e) s (fst (step s e)).
Proof.
  unfold step. pose proof (step_event_mono s e) as M. destruct (step_event s e) as [s1 o1].
  pose proof (poll_all_mono (lets_in s e) s1) as M2. destruct (poll_all s1) as [s2 o2]. cbn [fst] in *.
  eapply mono_trans; eauto.
Qed.

(* the event e, arriving in state s, is a CONNECT that passes authentication (hc_code = 0: see hc_code_zero_iff for
   what that means against the table) and the zero-length check, is registered under client id cid0 (its own, or the
   one the broker assigns: hc_cid) and is answered with a successful CONNACK *)
Definition accepts (s : st) (e : event) (cid0 : str) : Prop :=
  exists c cn, e = EConnect c cn /\ cid_allowed cn s = true /\ hc_code cn s = 0 /\ hc_cid cn s = cid0 /\
               connack_ok c (snd (step s e)).

Lemma lets_in_accepts s e k : lets_in s e k <-> accepts s e k.
Proof.
  unfold lets_in, accepts. split.
  - intros (c & cn & -> & Hr & Hc). exists c, cn. pose proof Hr as Hr'. apply hc_rejected_iff in Hr' as [H1 H2].
    repeat (split; [assumption || reflexivity|]). now apply connect_step_connack.
  - intros (c & cn & -> & H1 & H2 & H3 & _). exists c, cn. split; [reflexivity|]. split; [|exact H3].
    apply hc_rejected_iff. now split.
Qed.

(* some prefix of es (run from init) ends with an accepted CONNECT of cid0 *)
Definition accepted (init : st) (cid0 : str) (es : list event) : Prop :=
  exists pre e post, es = pre ++ e :: post /\ accepts (fst (run init pre)) e cid0.

Lemma accepted_cons s e r k : accepted (fst (step s e)) k r -> accepted s k (e :: r).
Proof.
  intros (pre & e0 & post & -> & H). exists (e :: pre), e0, post. split; [reflexivity|]. now rewrite run_cons.
Qed.

Lemma accepted_here s e r k : accepts s e k -> accepted s k (e :: r).
Proof. intros H. exists [], e, r. split; [reflexivity|exact H]. Qed.

Lemma accepted_app init k es es' : accepted init k es -> accepted init k (es ++ es').
Proof.
  intros (pre & e & post & -> & H). exists pre, e, (post ++ es'). split; [|exact H].
  now rewrite <- app_assoc.
Qed.

(* client id k is known to the broker: it has a session, a queue or a pending will *)
Definition known (k : str) (s : st) : Prop :=
  ahas k (b_sessions s) = true \/ ahas k (b_queues s) = true \/ ahas k (b_wills s) = true.

Lemma step_known s e k : known k (fst (step s e)) -> known k s \/ accepts s e k.
Proof.
  pose proof (step_mono s e) as [_ _ M1 M2 M3]. rewrite <- lets_in_accepts. unfold known.
  intros [H|[H|H]].
  - destruct (M1 k H); auto.
  - destruct (M2 k H); auto.
  - destruct (M3 k H) as [H1|[H1|H1]]; auto.
Qed.

Theorem run_known : forall es s k, known k (fst (run s es)) -> known k s \/ accepted s k es.
Proof.
  induction es as [|e r IH]; intros s k H; [now left|].
  rewrite run_cons in H. destruct (IH _ _ H) as [H1|H1].
  - destruct (step_known s e k H1) as [H2|H2]; [now left|right; now apply accepted_here].
  - right. now apply accepted_cons.
Qed.

Lemma init_unknown cf h p k : ~ known k (st_init cf h p).
Proof. intros [H|[H|H]]; discriminate. Qed.

(* state_only_after_accept for the tables the monotone relation covers *)
Theorem state_only_after_accept_known cf h p es k :
  known k (fst (run (st_init cf h p) es)) -> accepted (st_init cf h p) k es.
Proof. intros H. destruct (run_known es _ k H) as [H1|H1]; [now apply init_unknown in H1|exact H1]. Qed.

(* a client with a subscription entry - one that `deliver` would find for some topic - has a session *)
Lemma subscriber_has_session s topic l c x :
  SubsInv s -> db_iterate (deliver_opts topic) (b_subs s) = IOk l -> In (c, x) l -> ahas c (b_sessions s) = true.
Proof.
  intros (ops & Hwf & Hd & Hc) Hl Hin. rewrite Hd in Hl.
  destruct (deliver_ents_clients topic _ _ l (Inv_run ops Hwf) Hl c x Hin) as (sb & _ & Hk).
  exact (Hc _ _ _ Hk).
Qed.

(* ... and so has one found by the per-client lookups (plain and shared subscriptions of client c) *)
Lemma client_subs_have_session s c e l :
  SubsInv s -> c <> [] ->
  db_iterate (q_client c) (b_subs s) = IOk l \/ db_iterate (q_sh_client c) (b_subs s) = IOk l ->
  In e l -> ahas c (b_sessions s) = true.
Proof.
  intros (ops & Hwf & Hd & Hc) Hne Hl Hin. rewrite Hd in Hl. destruct Hl as [Hl|Hl].
  - destruct (lookup_client_exact ops c Hwf Hne) as (l0 & E & _ & Hl0). rewrite E in Hl. injection Hl as <-.
    unfold some_ents in Hin. apply in_map_iff in Hin as ([c' sb] & _ & Hin). apply Hl0 in Hin as [-> Hget].
    apply sp_get_some_in in Hget. exact (Hc _ _ _ Hget).
  - destruct (sh_lookup_client_exact ops c Hwf Hne) as (l0 & E & _ & Hl0). rewrite E in Hl. injection Hl as <-.
    unfold some_ents in Hin. apply in_map_iff in Hin as ([c' sb] & _ & Hin). apply Hl0 in Hin as (-> & _ & Hget).
    apply sp_get_some_in in Hget. exact (Hc _ _ _ Hget).
Qed.

(* what "client id k has state in the broker" covers: session, online / offline registration, queue, pending will,
   a subscription that `deliver` finds, a subscription the per-client lookups find *)
Inductive has_state (k : str) (s : st) : Prop :=
| hs_session : ahas k (b_sessions s) = true -> has_state k s
| hs_online : ahas k (b_online s) = true -> has_state k s
| hs_offline : ahas k (b_offline s) = true -> has_state k s
| hs_queue : ahas k (b_queues s) = true -> has_state k s
| hs_will : ahas k (b_wills s) = true -> has_state k s
| hs_sub topic l x : db_iterate (deliver_opts topic) (b_subs s) = IOk l -> In (k, x) l -> has_state k s
| hs_sub_client e l : k <> [] -> db_iterate (q_client k) (b_subs s) = IOk l \/ db_iterate (q_sh_client k) (b_subs s) = IOk l ->
                      In e l -> has_state k s.

Lemma has_state_known k s : BInv s -> SubsInv s -> has_state k s -> known k s.
Proof.
  intros HI HS [H|H|H|H|H|topic l x Hl Hin|e l Hne Hl Hin].
  - now left.
  - left. apply (bi_has _ _ HI). now rewrite H.
  - left. apply (bi_has _ _ HI). rewrite H. apply orb_true_r.
  - right. now left.
  - right. now right.
  - left. eapply subscriber_has_session; eauto.
  - left. eapply client_subs_have_session; eauto.
Qed.

(* along any event list from the initial state, a client id with any state in the broker was let in by
   an earlier CONNECT that passed authentication *)
Theorem state_only_after_accept cf h p es k :
  has_state k (fst (run (st_init cf h p) es)) -> accepted (st_init cf h p) k es.
Proof.
  intros H. apply state_only_after_accept_known. apply has_state_known; [apply reachable_inv|apply reachable_subsinv|exact H].
Qed.

(* ... and that CONNECT carried a (user, password) pair the table of the initial hooks record maps to 0 *)
Theorem state_only_after_table_accept cf h p es k tbl dflt :
  h_auth h = Some (tbl, dflt) ->
  has_state k (fst (run (st_init cf h p) es)) ->
  exists pre c cn post,
    es = pre ++ EConnect c cn :: post /\
    table_code tbl dflt (cn_user_s cn) (cn_pass_s cn) = 0 /\ enhanced_auth cn = false /\
    hc_cid cn (fst (run (st_init cf h p) pre)) = k /\
    connack_ok c (snd (step (fst (run (st_init cf h p) pre)) (EConnect c cn))).
Proof.
  intros Hh H. destruct (state_only_after_accept cf h p es k H) as (pre & e & post & -> & c & cn & -> & H1 & H2 & H3 & H4).
  exists pre, c, cn, post. split; [reflexivity|].
  destruct (run_cfg_hooks pre (st_init cf h p)) as [_ Eh].
  assert (Hh' : h_auth (b_hooks (fst (run (st_init cf h p) pre))) = Some (tbl, dflt)) by (rewrite Eh; exact Hh).
  apply (hc_code_zero_iff cn _ tbl dflt Hh') in H2 as [A B]. auto.
Qed.

(* Every message that is queued takes a tag (b_tag counts them: add_to_queue and replay_retained), and the
   retained store changes only in retain_update.  So "b_ret or b_tag changed" is "a retained message was stored
   or removed, or a message was queued for somebody". *)

(* no will anywhere: no stored session has one, none is pending *)
Definition NW (s : st) : Prop :=
  (forall k se, In (k, se) (b_sessions s) -> se_will se = None) /\ b_wills s = [].

(* from a state without wills: NW is kept, the retained store and the tag are as before *)
Definition still (s s' : st) : Prop := NW s -> NW s' /\ b_ret s' = b_ret s /\ b_tag s' = b_tag s.

Lemma still_refl s : still s s.
Proof. intros H. now split. Qed.
Lemma still_trans a b c : still a b -> still b c -> still a c.
Proof. intros A B HN. destruct (A HN) as (A1 & A2 & A3). destruct (B A1) as (B1 & B2 & B3). split; [exact B1|]. split; congruence. Qed.

Lemma still_same s s' :
  b_sessions s' = b_sessions s -> b_wills s' = b_wills s -> b_ret s' = b_ret s -> b_tag s' = b_tag s -> still s s'.
Proof. intros E1 E2 E3 E4 [H1 H2]. split; [split; rewrite ?E1, ?E2; assumption|now split]. Qed.

Lemma remove_session_still cid0 s : still s (remove_session cid0 s).
Proof.
  intros [H1 H2]. split; [|split; reflexivity]. split; proj; [|exact H2].
  intros k se Hin. apply in_adel in Hin. eauto.
Qed.

Lemma unregister_still c k s : still s (fst (unregister c k s)).
Proof.
  intros HN. rewrite unregister_eq. cbv zeta. destruct (aget (k_cid k) (b_sessions s)) as [se|] eqn:Es.
  - assert (Hw : se_will se = None) by (apply (proj1 HN (k_cid k)); now apply aget_In).
    unfold ur_will. rewrite Hw.
    destruct (negb (k_force_remove k) && negb (ur_expiry k se (b_cfg s) =? 0)); cbn [fst].
    + destruct HN as [H1 H2]. split; [|split; reflexivity]. unfold store_tables. split; proj; [|exact H2].
      intros k0 se0 Hin. apply in_aset in Hin as [Hin|Hin]; [|eauto]. injection Hin as _ ->. exact Hw.
    + now apply remove_session_still.
  - cbn [fst]. now apply remove_session_still.
Qed.

Lemma conn_gone_still c s : still s (fst (conn_gone c s)).
Proof.
  destruct (cv s c) as [[cid0 f]|] eqn:Ec.
  - apply cv_some in Ec as (k & Hk & _ & Ha & _). rewrite (conn_gone_att c k s Hk Ha). cbn [fst].
    eapply still_trans; [|apply unregister_still].
    apply still_same; proj; unfold closed_q; destruct (aget (k_cid k) (b_queues s)); reflexivity.
  - destruct (conn_gone_unatt c s Ec) as [->|(k & Hk & ->)]; cbn [fst]; [apply still_refl|now apply still_same].
Qed.

Lemma fail_conn_still c code br s : still s (fst (fail_conn c code br s)).
Proof.
  unfold fail_conn. destruct (nget c (b_conns s)) as [k|]; [|apply still_refl].
  destruct (k_phase k); try apply still_refl.
  match goal with |- context [if ?b then _ else _] => destruct b end; [|now apply still_same].
  pose proof (conn_gone_still c s) as H. destruct (conn_gone c s) as [s' o]. exact H.
Qed.

(* without a pending will nothing is released, nothing fires *)
Lemma release_will_still cid0 s : still s (fst (release_will cid0 s)).
Proof. intros HN. unfold release_will. rewrite (proj2 HN). now apply still_refl. Qed.

Lemma fire_wills_still s : still s (fst (fire_wills s)).
Proof. intros HN. unfold fire_wills. rewrite (proj2 HN). now apply still_refl. Qed.

Lemma hc_old_nw cid0 v5 cmax r0 s :
  NW s -> still s (fst (fst (hc_old cid0 v5 cmax r0 s))) /\ snd (fst (hc_old cid0 v5 cmax r0 s)) = [].
Proof.
  intros HN. unfold hc_old. destruct (aget cid0 (b_sessions s)) as [se|]; [|split; [apply still_refl|reflexivity]].
  destruct r0.
  - destruct (aget cid0 (b_queues s)) as [q|]; [|split; [apply still_refl|reflexivity]].
    destruct (aget cid0 (b_unacks s)) as [u|]; [|split; [apply still_refl|reflexivity]].
    cbn [fst snd]. split; [|reflexivity]. apply still_same; try reflexivity. proj.
    destruct HN as [_ ->]. reflexivity.
  - cbv zeta. assert (E : b_wills (remove_session cid0 s) = []) by (proj; apply (proj2 HN)).
    rewrite E. cbn [aget fst snd]. split; [apply remove_session_still|reflexivity].
Qed.

Definition rt_same (s s' : st) : Prop := b_ret s' = b_ret s /\ b_tag s' = b_tag s.

Lemma still_rt s s' : still s s' -> NW s -> rt_same s s'.
Proof. intros H HN. destruct (H HN) as (_ & A & B). now split. Qed.

(* a CONNECT may bring a will: NW can end here *)
Lemma hc_accept_rt c cn s : NW s -> rt_same s (fst (hc_accept c cn s)).
Proof.
  intros HN. unfold hc_accept. cbv zeta. set (cid0 := hc_cid cn s).
  assert (S0 : still s (hc_auto cn s)).
  { unfold hc_auto. destruct (is_empty (cn_cid cn)); [|apply still_refl]. now apply still_same. }
  assert (S1 : still (hc_auto cn s) (fst (hc_takeover cid0 (hc_auto cn s)))).
  { unfold hc_takeover. destruct (aget cid0 (b_online (hc_auto cn s))); [apply conn_gone_still|apply still_refl]. }
  destruct (still_trans _ _ _ S0 S1 HN) as (N1 & A1 & B1).
  destruct (hc_takeover cid0 (hc_auto cn s)) as [s1 o_dup]. cbn [fst] in N1, A1, B1.
  destruct (hc_old_nw cid0 (cn_ver cn =? 5) (hc_cmax cn) (hc_resume0 cid0 cn s1) s1 N1) as [S2 Ew].
  destruct (S2 N1) as (_ & A2 & B2).
  destruct (hc_old cid0 (cn_ver cn =? 5) (hc_cmax cn) (hc_resume0 cid0 cn s1) s1) as [[s2 o_will] resume].
  cbn [fst snd] in A2, B2, Ew. subst o_will.
  set (s3 := hc_fresh cid0 (cn_ver cn =? 5) (hc_cmax cn) (b_cfg s) resume s2).
  assert (S3 : b_ret s3 = b_ret s2 /\ b_tag s3 = b_tag s2).
  { unfold s3, hc_fresh. destruct resume; split; reflexivity. }
  destruct (hc_wd_exp cn (b_cfg s)) as [wd ex]. unfold hc_wills, hc_register. cbn [fold_left fst]. proj.
  destruct S3 as (D1 & D2). split; proj; congruence.
Qed.

Lemma handle_connect_rt c cn s : NW s -> rt_same s (fst (handle_connect c cn s)).
Proof.
  intros HN. rewrite handle_connect_eq.
  destruct (negb (c_allow_zero_len (b_cfg s)) && is_empty (cn_cid cn)); [split; reflexivity|].
  destruct (negb (hc_code cn s =? 0)); [split; reflexivity|]. now apply hc_accept_rt.
Qed.

(* the event is a packet on a socket that passed CONNECT (connected, or a zombie whose read loop still runs) *)
Definition on_attached (s : st) (e : event) : Prop :=
  exists c p, (e = ESend c p \/ exists n, e = ESendSz c p n) /\ att s c.

Definition is_api (e : event) : Prop := exists m, e = EApiPublish m.

Lemma not_att_unattached s c : ~ att s c -> unattached s c.
Proof.
  intros H k Hk. destruct (attached (k_phase k)) eqn:E; [|reflexivity]. exfalso. apply H. now exists k.
Qed.

Lemma step_event_still s e :
  (forall c cn, e <> EConnect c cn) -> ~ on_attached s e -> ~ is_api e -> still s (fst (step_event s e)).
Proof.
  intros Hnc Hna Hapi.
  assert (Hatt : forall c p k, sends e c p -> nget c (b_conns s) = Some k -> attached (k_phase k) = false).
  { intros c p k He Hk. destruct (attached (k_phase k)) eqn:Ha; [|reflexivity].
    elim Hna. exists c, p. split; [exact He|now exists k]. }
  apply (step_event_preserves (fun a r => still a (fst r))). constructor; cbn [fst snd].
  - intros a. apply still_refl.
  - intros a r1 r2. apply still_trans.
  - auto.
  - intros c a _. apply conn_gone_still.
  - intros c cn Ee _. now elim (Hnc c cn).
  - intros c _ _. now apply still_same.
  - intros c p k He Hk Hp _. specialize (Hatt c p k He Hk). now rewrite Hp in Hatt.
  - intros c p code br a _ _. apply fail_conn_still.
  - intros c p k He Hk _ _. specialize (Hatt c p k He Hk). unfold send_unconnected.
    destruct (k_phase k); try discriminate; try apply still_refl.
    + now apply still_same.
    + destruct p; try apply still_refl. destruct (_ && _); [apply conn_gone_still|apply still_refl].
  - intros c p k q _ _ _ _. now apply still_same.
  - intros m Ee _. elim Hapi. now exists m.
  - intros cid0 c k _ _ _ _. eapply still_trans; [|apply conn_gone_still]. now apply still_same.
  - intros cid0 _ _ _ _. apply remove_session_still.
  - intros cid0 a _. apply release_will_still.
  - intros now rt _. now apply still_same.
  - intros _. apply (fold_left_inv (still s)); [|apply still_refl].
    intros s1 cd H. eapply still_trans; [exact H|apply remove_session_still].
  - intros a _. apply fire_wills_still.
Qed.

(* a CONNECT may bring a will, so it is not `still`; the retained store and the tag it leaves alone *)
Lemma step_event_nw s e : NW s -> ~ on_attached s e -> ~ is_api e -> rt_same s (fst (step_event s e)).
Proof.
  intros HN Hna Hapi.
  assert (Hc : (exists c cn, e = EConnect c cn) \/ forall c cn, e <> EConnect c cn)
    by (destruct e; eauto; right; discriminate).
  destruct Hc as [(c & cn & ->)|Hnc]; [|apply still_rt; [now apply step_event_still|exact HN]].
  cbn [step_event]. destruct (conn_gone_still c s HN) as (N0 & A0 & B0). destruct (conn_gone c s) as [s0 o0].
  cbn [fst] in *. pose proof (handle_connect_rt c cn s0 N0) as [A1 B1].
  destruct (handle_connect c cn s0) as [s1 o1]. cbn [fst] in *. split; congruence.
Qed.

Lemma poll_all_rt s : rt_same s (fst (poll_all s)).
Proof.
  split; [apply df_ret, BrokerQos2P.poll_all_frame|apply poll_all_pstep].
Qed.

Lemma step_rt_of_event s e : rt_same s (fst (step_event s e)) -> rt_same s (fst (step s e)).
Proof.
  intros [A B]. unfold step.
  destruct (step_event s e) as [s1 o1]. pose proof (poll_all_rt s1) as [A2 B2].
  destruct (poll_all s1) as [s2 o2]. cbn [fst] in *. split; congruence.
Qed.

Lemma step_nw s e : NW s -> ~ on_attached s e -> ~ is_api e -> rt_same s (fst (step s e)).
Proof. intros HN H1 H2. now apply step_rt_of_event, step_event_nw. Qed.

(* a packet on a socket that has not passed CONNECT: no will is needed for that *)
Lemma send_unattached_rt s c p e :
  unattached s c -> e = ESend c p \/ (exists n, e = ESendSz c p n) -> rt_same s (fst (step s e)).
Proof.
  intros Hu He. apply step_rt_of_event. rewrite (send_unattached_event s c p e Hu He).
  pose proof (idle_upd_nonconn _ _ _ (unconnected_reply_idle s c p)) as Hn.
  split; [apply (tables_fields _ _ (nc_tables _ _ Hn))|apply (nc_tag _ _ Hn)].
Qed.

(* some stored session has a will, or a will is pending *)
Definition has_will (s : st) : Prop :=
  (exists k se w, In (k, se) (b_sessions s) /\ se_will se = Some w) \/ (exists k w t, In (k, (w, t)) (b_wills s)).

Lemma nw_or_has_will s : NW s \/ has_will s.
Proof.
  destruct (b_wills s) as [|[k [w t]] r] eqn:Ew.
  - assert (H : (forall k se, In (k, se) (b_sessions s) -> se_will se = None) \/
                (exists k se w, In (k, se) (b_sessions s) /\ se_will se = Some w)).
    { induction (b_sessions s) as [|[k0 se0] l IH]; [left; intros k se []|].
      destruct (se_will se0) as [w|] eqn:E0.
      - right. exists k0, se0, w. split; [now left|exact E0].
      - destruct IH as [IH|(k & se & w & Hin & E)].
        + left. intros k se [Hin|Hin]; [now injection Hin as <- <-|eauto].
        + right. exists k, se, w. split; [now right|exact E]. }
    destruct H as [H|H]; [left; now split|right; now left].
  - right. right. exists k, w, t. rewrite Ew. now left.
Qed.

(* the events that end connections, end sessions or let timers fire *)
Definition lifecycle_event (e : event) : Prop :=
  match e with
  | EConnect _ _ | EOpen _ | EClose _ | ETerminate _ | EExpireCheck | ESleep _ => True
  | _ => False
  end.

(* apart from the administrative API, the retained store changes or a message is queued only in a
   step whose event is a packet on a socket that passed CONNECT, or a connection / session / timer event in a
   broker that holds the will of some session *)
Theorem retained_and_publish_need_session s e :
  ~ is_api e ->
  b_ret (fst (step s e)) <> b_ret s \/ b_tag (fst (step s e)) <> b_tag s ->
  on_attached s e \/ (lifecycle_event e /\ has_will s).
Proof.
  intros Hapi Hch.
  assert (Hrt : ~ rt_same s (fst (step s e))) by (intros [A B]; destruct Hch; contradiction).
  assert (Hlife : lifecycle_event e -> on_attached s e \/ (lifecycle_event e /\ has_will s)).
  { intros Hl. right. split; [exact Hl|]. destruct (nw_or_has_will s) as [HN|HW]; [|exact HW].
    elim Hrt. apply step_nw; [exact HN| |exact Hapi]. intros (c & p & [->|[n ->]] & _); exact Hl. }
  (* a packet: on a socket that passed CONNECT, or without effect on the retained store and the tag *)
  assert (Hsend : forall c p, e = ESend c p \/ (exists n, e = ESendSz c p n) ->
                              on_attached s e \/ (lifecycle_event e /\ has_will s)).
  { intros c p He. destruct (cv s c) as [[cid0 f]|] eqn:Ec.
    - left. exists c, p. split; [exact He|]. apply cv_att. eauto.
    - elim Hrt. apply (send_unattached_rt s c p); [|exact He].
      apply not_att_unattached. intros Ha. apply cv_att in Ha as (cid0 & f & Ha). congruence. }
  destruct e as [c cn|c|c p|c p n|c|m|cid0|ms| |ms|]; try (apply Hlife; exact I).
  - apply (Hsend c p). now left.
  - apply (Hsend c p). eauto.
  - elim Hapi. now exists m.
  - elim Hrt. apply step_rt_of_event. split; reflexivity.
  - elim Hrt. apply step_rt_of_event. split; reflexivity.
Qed.

(* ... and both alternatives presuppose an accepted CONNECT: along a run from the initial state, before anybody
   has passed authentication only the administrative API can store a retained message or queue anything *)
Lemma has_will_known s : has_will s -> exists k, known k s.
Proof.
  intros [(k & se & w & Hin & _)|(k & w & t & Hin)]; exists k.
  - left. apply ahas_in_keys. apply in_map_iff. now exists (k, se).
  - right. right. apply ahas_in_keys. apply in_map_iff. now exists (k, (w, t)).
Qed.

Theorem retained_and_publish_need_accept cf h p es e :
  let s := fst (run (st_init cf h p) es) in
  ~ is_api e ->
  b_ret (fst (step s e)) <> b_ret s \/ b_tag (fst (step s e)) <> b_tag s ->
  exists k, accepted (st_init cf h p) k es.
Proof.
  intros s Hapi Hch. destruct (retained_and_publish_need_session s e Hapi Hch) as [(c & q & _ & Ha)|[_ HW]].
  - apply cv_att in Ha as (k & f & Hc). exists k. apply state_only_after_accept. apply hs_online.
    eapply ahas_some. eapply (bi_conn _ _ (reachable_inv cf h p es)). exact Hc.
  - destruct (has_will_known s HW) as [k Hk]. exists k. now apply state_only_after_accept_known.
Qed.

(* a socket that is attached belongs to a client that was let in *)
Theorem attached_socket_was_accepted cf h p es c :
  att (fst (run (st_init cf h p) es)) c ->
  exists k f, cv (fst (run (st_init cf h p) es)) c = Some (k, f) /\ accepted (st_init cf h p) k es.
Proof.
  intros Ha. apply cv_att in Ha as (k & f & Hc). exists k, f. split; [exact Hc|].
  apply state_only_after_accept. apply hs_online.
  eapply ahas_some. eapply (bi_conn _ _ (reachable_inv cf h p es)). exact Hc.
Qed.

(* the administrative API queues messages but never touches the retained store: for the retained store the
   exception is not needed *)
Lemma api_keeps_ret s m : b_ret (fst (step s (EApiPublish m))) = b_ret s.
Proof.
  unfold step. cbn [step_event]. pose proof (deliver_frame [] m s) as [F _].
  destruct (deliver [] m s) as [[s1 o1] b]. cbn [fst] in F.
  pose proof (poll_all_rt s1) as [A _]. destruct (poll_all s1) as [s2 o2]. cbn [fst] in *.
  rewrite A. apply (df_ret _ _ F).
Qed.

Theorem retained_needs_session s e :
  b_ret (fst (step s e)) <> b_ret s -> on_attached s e \/ (lifecycle_event e /\ has_will s).
Proof.
  intros H. destruct e as [c cn|c|c p|c p n|c|m|cid0|ms| |ms|];
    try (apply retained_and_publish_need_session; [intros [m0 E]; discriminate|now left]).
  exfalso. apply H, api_keeps_ret.
Qed.

Definition ax_U : str := [117].   (* "u" *)
Definition ax_P : str := [112].   (* "p" *)
Definition ax_A : str := [97].    (* client id "a" *)
Definition ax_B : str := [98].    (* client id "b" *)
Definition ax_T : str := [116].   (* topic "t" *)

Definition ax_hooks : hooks :=
  {| h_auth := Some ([(ax_U, ax_P, 0)], 134); h_sub_all := None; h_sub := []; h_msg := []; h_msg_on := false;
     h_will := []; h_will_on := false |}.

Definition ax_init : st := st_init BrokerQos2P.ex_cfg ax_hooks [].

Definition ax_cn (v : N) (cid0 : str) (user pass : option str) (will : option willspec) (props : list prop) : connect :=
  {| cn_ver := v; cn_cid := cid0; cn_clean := true; cn_keepalive := 0; cn_user := user; cn_pass := pass;
     cn_will := will; cn_props := props |}.

Definition ax_good : connect := ax_cn 5 ax_A (Some ax_U) (Some ax_P) None [].
Definition ax_wrong_pw : connect := ax_cn 5 ax_B (Some ax_U) (Some [120]) None [].
Definition ax_anonymous : connect := ax_cn 4 ax_B None None None [].
Definition ax_enhanced : connect := ax_cn 5 ax_B (Some ax_U) (Some ax_P) None [PAuthMethod [109]].

Definition ax_sub : pkt := KSubscribe 1 [] [{| tq_name := ax_T; tq_qos := 1; tq_nl := false; tq_rap := false; tq_rh := 0 |}].
Definition ax_pub (qos : N) : pkt := KPublish false qos true ax_T [1] 7 [].

(* a stranger opens socket 1 and sends SUBSCRIBE / PUBLISH without CONNECT *)
Definition ax_opened : st := fst (run ax_init [EOpen 1]).

Example ax_stranger_hyps : unattached ax_opened 1 /\ quiescent ax_opened = true /\ unattached ax_init 1.
Proof.
  split; [intros k H; vm_compute in H; injection H as <-; reflexivity|].
  split; [vm_compute; reflexivity|]. intros k H. vm_compute in H. discriminate.
Qed.

Example ax_stranger_subscribe :
  snd (run ax_opened [ESend 1 ax_sub; ESend 1 (ax_pub 1)]) = [[OSend 1 (KConnack false 129 [])]; []] /\
  tables (fst (run ax_opened [ESend 1 ax_sub; ESend 1 (ax_pub 1)])) = tables ax_init /\
  b_tag (fst (run ax_opened [ESend 1 ax_sub; ESend 1 (ax_pub 1)])) = b_tag ax_init.
Proof. vm_compute. repeat split. Qed.

Example ax_stranger_publish :
  snd (run ax_opened [ESend 1 (ax_pub 1)]) = [[OSend 1 (KConnack false 129 [])]] /\
  snd (run ax_init [ESend 1 (ax_pub 1)]) = [[]] /\
  tables (fst (run ax_opened [ESend 1 (ax_pub 1)])) = tables ax_init /\
  rdb_matched ax_T (b_ret (fst (run ax_opened [ESend 1 (ax_pub 1)]))) = [].
Proof. vm_compute. repeat split. Qed.

(* a refused CONNECT (wrong password; no credentials; enhanced authentication) followed by PUBLISH *)
Example ax_refused_hyps :
  unattached ax_init 2 /\ cid_allowed ax_wrong_pw ax_init = true /\
  hc_code ax_wrong_pw ax_init = 134 /\ hc_code ax_anonymous ax_init = 134 /\ hc_code ax_enhanced ax_init = 128 /\
  table_code [(ax_U, ax_P, 0)] 134 (cn_user_s ax_wrong_pw) (cn_pass_s ax_wrong_pw) = 134 /\
  table_code [(ax_U, ax_P, 0)] 134 (cn_user_s ax_enhanced) (cn_pass_s ax_enhanced) = 0 /\
  enhanced_auth ax_enhanced = true.
Proof. split; [intros k H; vm_compute in H; discriminate|]. vm_compute. repeat split. Qed.

Example ax_refused_then_publish :
  snd (run ax_init [EConnect 2 ax_wrong_pw; ESend 2 (ax_pub 0); ESend 2 ax_sub; ESend 2 (ax_pub 1)]) =
    [[OSend 2 (KConnack false 134 [])]; []; []; [OClose 2]] /\
  snd (run ax_init [EConnect 2 ax_anonymous; ESend 2 (ax_pub 1)]) = [[OSend 2 (KConnack false 135 [])]; []] /\
  snd (run ax_init [EConnect 2 ax_enhanced]) = [[OSend 2 (KConnack false 128 [])]] /\
  tables (fst (run ax_init [EConnect 2 ax_wrong_pw; ESend 2 (ax_pub 0); ESend 2 ax_sub; ESend 2 (ax_pub 1)])) = tables ax_init /\
  b_tag (fst (run ax_init [EConnect 2 ax_wrong_pw; ESend 2 (ax_pub 0); ESend 2 ax_sub; ESend 2 (ax_pub 1)])) = b_tag ax_init.
Proof. vm_compute. repeat split. Qed.

(* an accepted CONNECT: the client gets its session, can subscribe, publish and store a retained message *)
Definition ax_in : st := fst (run ax_init [EConnect 3 ax_good]).

Example ax_accepted :
  hc_code ax_good ax_init = 0 /\ cid_allowed ax_good ax_init = true /\ enhanced_auth ax_good = false /\
  table_code [(ax_U, ax_P, 0)] 134 (cn_user_s ax_good) (cn_pass_s ax_good) = 0 /\
  connack_ok 3 (snd (step ax_init (EConnect 3 ax_good))) /\
  ahas ax_A (b_sessions ax_in) = true /\ ahas ax_A (b_online ax_in) = true /\ ahas ax_A (b_queues ax_in) = true /\
  snd (run ax_in [ESend 3 ax_sub; ESend 3 (ax_pub 1)]) =
    [[OSend 3 (KSuback 1 [1] [])]; [OSend 3 (KPuback 7 0 []); OSend 3 (KPublish false 1 false ax_T [1] 1 [])]] /\
  map m_payload (rdb_matched ax_T (b_ret (fst (run ax_in [ESend 3 ax_sub; ESend 3 (ax_pub 1)])))) = [[1]].
Proof.
  repeat (split; [vm_compute; reflexivity|]).
  split; [eexists _, _; vm_compute; left; reflexivity|]. vm_compute. repeat split.
Qed.

Example ax_accepted_history :
  accepted ax_init ax_A [EConnect 2 ax_wrong_pw; EConnect 3 ax_good; ESend 3 ax_sub] /\
  has_state ax_A (fst (run ax_init [EConnect 2 ax_wrong_pw; EConnect 3 ax_good; ESend 3 ax_sub])) /\
  ~ known ax_B (fst (run ax_init [EConnect 2 ax_wrong_pw; EConnect 3 ax_good; ESend 3 ax_sub])).
Proof.
  split; [|split].
  - exists [EConnect 2 ax_wrong_pw], (EConnect 3 ax_good), [ESend 3 ax_sub]. split; [reflexivity|].
    exists 3, ax_good. split; [reflexivity|]. repeat (split; [vm_compute; reflexivity|]).
    eexists _, _. vm_compute. left. reflexivity.
  - apply hs_session. vm_compute. reflexivity.
  - intros [H|[H|H]]; vm_compute in H; discriminate.
Qed.

(* the step that changes the retained store is a packet on an attached socket; a will of an accepted
   client that fires at EClose changes it too (has_will) *)
Definition ax_will : willspec := {| w_topic := ax_T; w_payload := [9]; w_qos := 0; w_retain := true; w_props := [] |}.
Definition ax_good_will : connect := ax_cn 4 ax_A (Some ax_U) (Some ax_P) (Some ax_will) [].
Definition ax_in_w : st := fst (run ax_init [EConnect 3 ax_good_will]).

Example ax_retained_changes :
  b_ret (fst (step ax_in (ESend 3 (ax_pub 1)))) <> b_ret ax_in /\ att ax_in 3 /\
  b_ret (fst (step ax_in_w (EClose 3))) <> b_ret ax_in_w /\ lifecycle_event (EClose 3) /\ has_will ax_in_w /\
  (* the administrative API queues for the subscriber; it does not touch the retained store *)
  b_tag (fst (step (fst (run ax_in [ESend 3 ax_sub])) (EApiPublish (will_msg ax_will)))) <> b_tag (fst (run ax_in [ESend 3 ax_sub])) /\
  b_ret (fst (step ax_init (EApiPublish (will_msg ax_will)))) = b_ret ax_init.
Proof.
  split; [vm_compute; discriminate|]. split; [eexists; split; vm_compute; reflexivity|].
  split; [vm_compute; discriminate|]. split; [exact I|].
  split; [left; eexists _, _, _; split; [vm_compute; left; reflexivity|reflexivity]|].
  split; [vm_compute; discriminate|vm_compute; reflexivity].
Qed.

(* the hypotheses of step_nw: the accepted client "a" has no will; its connection is closed - nothing is published *)
Example ax_no_will_hyps :
  NW ax_in /\ ~ on_attached ax_in (EClose 3) /\ ~ is_api (EClose 3) /\
  b_ret (fst (step ax_in (EClose 3))) = b_ret ax_in /\ b_tag (fst (step ax_in (EClose 3))) = b_tag ax_in.
Proof.
  split; [split|].
  - intros k se H. vm_compute in H. destruct H as [H|[]]. injection H as _ <-. reflexivity.
  - vm_compute. reflexivity.
  - split; [intros (c & p & [E|[n E]] & _); discriminate|]. split; [intros [m E]; discriminate|].
    vm_compute. split; reflexivity.
Qed.
