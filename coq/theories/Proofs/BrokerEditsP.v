(* The event part of a step (Model/Broker.v, step_event), walked once.

   Before the poll loops run, a step moves the clock (EAdvance, ESleep) and then does only this to the configuration,
   the hooks, the clock, the session table, the pending wills, the retained store, the queue table and the tag
   counter, while it writes outputs:
     - a queue is closed or re-opened with its entries; an entry is appended by Add (which may report drops); an
       acknowledgement removes or replaces an entry; a client id gets a new empty queue; a session goes, with its queue;
     - a RETAIN=1 publication is applied to the retained store;
     - a session record is written (for a client id that has one, or for the one that connects);
     - a will is armed for a client id that has a session, or disarmed;
   the other outputs are neither PUBLISH packets nor drop reports.  `edits` is the closure of these under
   sequencing; every handler is shown to be a composition of edits, once.  A relation on states that is a preorder
   and holds across each kind of edit therefore holds across the event part of every step: one induction on `edits`
   per relation, no walk of the handlers. *)
From Coq Require Import List NArith Bool Arith.
Import ListNotations.
From GM Require Import Base.Topic Base.Msg Model.SubTrie Model.RetTrie Model.Queue Model.Limiter
                       Model.TopicMatch Model.Broker Proofs.ListP Proofs.AssocP Proofs.BrokerBasicP Proofs.BrokerInvP.
From GM Require Proofs.DeliverP Proofs.BrokerPollP.
Open Scope N_scope.

(* what the edits speak about; a stage that changes none of it only writes outputs *)
Definition tracked (s : st) :=
  (b_cfg s, b_hooks s, b_now s, b_sessions s, b_wills s, b_ret s, b_queues s, b_tag s).

Lemma tracked_inv s s' :
  tracked s' = tracked s ->
  b_cfg s' = b_cfg s /\ b_hooks s' = b_hooks s /\ b_now s' = b_now s /\ b_sessions s' = b_sessions s /\
  b_wills s' = b_wills s /\ b_ret s' = b_ret s /\ b_queues s' = b_queues s /\ b_tag s' = b_tag s.
Proof. unfold tracked. intros [= ]. repeat split; assumption. Qed.

Definition ctl (x : out) : Prop :=
  match x with OSend _ (KPublish _ _ _ _ _ _ _) | ODropped _ _ _ => False | _ => True end.

(* P describes the messages that are queued, `fresh` the client ids that may get a new queue and a new session,
   `acks` says whether acknowledgements are among the edits. *)
Section Edits.
  Variables (P : msg -> Prop) (fresh : str -> Prop) (acks : bool).

  Inductive edits : st -> list out -> st -> Prop :=
  | ed_emit s o s' : tracked s' = tracked s -> Forall ctl o -> edits s o s'
  | ed_trans s s1 s2 o1 o2 : edits s o1 s1 -> edits s1 o2 s2 -> edits s (o1 ++ o2) s2
  | ed_set s cid q q' :
      aget cid (b_queues s) = Some q -> q_l q' = q_l q -> edits s [] (set_queues (aset cid q' (b_queues s)) s)
  | ed_add s cid q e m q' evs :
      aget cid (b_queues s) = Some q -> q_add (b_now s) e q = QOk (q', evs) -> e_tag e = b_tag s -> e_body e = QPub m ->
      P m -> edits s (drops_of cid evs) (DeliverP.enq cid q' s)
  | ed_remove s cid q pid :
      acks = true -> aget cid (b_queues s) = Some q ->
      edits s [] (set_queues (aset cid (fst (q_remove pid q)) (b_queues s)) s)
  | ed_replace s cid q e p :
      acks = true -> aget cid (b_queues s) = Some q -> e_body e = QRel p -> e_tag e = 0 ->
      edits s [] (set_queues (aset cid (fst (q_replace e q)) (b_queues s)) s)
  | ed_new s cid q' u :
      fresh cid -> q_l q' = [] ->
      edits s [] (set_tables (b_sessions s) (b_online s) (b_offline s) (b_wills s) (aset cid q' (b_queues s)) u s)
  | ed_gone s cid : edits s [] (remove_session cid s)
  | ed_retain s m : m_retained m = true -> edits s [] (set_ret (rdb_step (b_ret s) (retain_op m)) s)
  | ed_sess s cid se on off :
      fresh cid \/ ahas cid (b_sessions s) = true ->
      edits s [] (set_tables (aset cid se (b_sessions s)) on off (b_wills s) (b_queues s) (b_unacks s) s)
  | ed_arm s cid w :
      ahas cid (b_sessions s) = true ->
      edits s [] (set_tables (b_sessions s) (b_online s) (b_offline s) (aset cid w (b_wills s)) (b_queues s) (b_unacks s) s)
  | ed_disarm s cid :
      edits s [] (set_tables (b_sessions s) (b_online s) (b_offline s) (adel cid (b_wills s)) (b_queues s) (b_unacks s) s).

  Lemma edits_out s s' o : tracked s' = tracked s -> Forall ctl o -> edits s o s'.
  Proof. apply ed_emit. Qed.
  Lemma edits_same s s' : tracked s' = tracked s -> edits s [] s'.
  Proof. intros H. apply ed_emit; [exact H|constructor]. Qed.
  Lemma edits_refl s : edits s [] s.
  Proof. now apply edits_same. Qed.
  Lemma edits_first s s1 s2 o : tracked s1 = tracked s -> edits s1 o s2 -> edits s o s2.
  Proof. intros E H. apply (ed_trans s s1 s2 [] o); [now apply edits_same|exact H]. Qed.
  Lemma edits_silent s s1 s2 o : edits s o s1 -> edits s1 [] s2 -> edits s o s2.
  Proof. intros H1 H2. rewrite <- (app_nil_r o). now apply (ed_trans s s1 s2). Qed.
  Lemma edits_then s s1 s2 o : edits s o s1 -> tracked s2 = tracked s1 -> edits s o s2.
  Proof. intros H E. apply (edits_silent s s1); [exact H|now apply edits_same]. Qed.

  (* a stage whose outputs are appended: the shape `let '(s', o') := f s0 in (s', o0 ++ o')` *)
  Lemma edits_snoc s s0 o0 (r : st * list out) :
    edits s o0 s0 -> edits s0 (snd r) (fst r) ->
    edits s (snd (let '(s', o') := r in (s', o0 ++ o'))) (fst (let '(s', o') := r in (s', o0 ++ o'))).
  Proof. destruct r. apply ed_trans. Qed.

  (* the two places where outputs are filtered (EConnect, EClose) keep the drop reports *)
  Lemma edits_filter (f : out -> bool) s o s' :
    (forall cid m r, f (ODropped cid m r) = true) -> edits s o s' -> edits s (filter f o) s'.
  Proof.
    intros Hf. induction 1; cbn [filter]; try (econstructor; eassumption).
    - apply ed_emit; [assumption|now apply Forall_filter].
    - rewrite filter_app. eapply ed_trans; eauto.
    - replace (filter f (drops_of cid evs)) with (drops_of cid evs); [eapply ed_add; eauto|].
      symmetry. apply filter_all. intros z Hz. apply BrokerPollP.In_drops_of in Hz as (m0 & r & ->). apply Hf.
  Qed.
End Edits.

(* the state in which the handlers of the event run *)
Definition clocked (s : st) (e : event) : st :=
  match e with
  | EAdvance ms => set_time (b_now s + ms) (b_rt s) s
  | ESleep ms => set_time (b_now s + ms) (b_rt s + ms) s
  | _ => s
  end.

(* the Session Present flag of the CONNACK *)
Definition hc_resumed (cn : connect) (s : st) : bool :=
  let cid := hc_cid cn s in
  let s1 := fst (hc_takeover cid (hc_auto cn s)) in
  snd (hc_old cid (cn_ver cn =? 5) (hc_cmax cn) (hc_resume0 cid cn s1) s1).

Lemma bump_quota_tracked c s (b : conn -> bool) :
  tracked (match nget c (b_conns s) with
           | Some k1 => if b k1 then upd_conn c (set_quota (k_quota k1 + 1) k1) s else s
           | None => s
           end) = tracked s.
Proof. destruct (nget c (b_conns s)) as [k1|]; [|reflexivity]. now destruct (b k1). Qed.

Lemma release_id_tracked c pid s : tracked (release_id c pid s) = tracked s.
Proof. unfold release_id. now destruct (nget c (b_conns s)). Qed.

Section Walk.
  Variables (P : msg -> Prop) (fresh : str -> Prop) (acks : bool).
  Notation ED := (edits P fresh acks).

  (* delivery: every copy has the topic and the payload of the message *)
  Section Deliver.
    Variable m : msg.
    Hypothesis P_copy : forall m', m_topic m' = m_topic m -> m_payload m' = m_payload m -> P m'.

    Lemma add_to_queue_ed cid sb ids s : ED s (snd (add_to_queue cid m sb ids s)) (fst (add_to_queue cid m sb ids s)).
    Proof.
      rewrite DeliverP.add_to_queue_unfold. destruct (aget cid (b_queues s)) as [q|] eqn:Hq; [|apply edits_refl].
      destruct (DeliverP.aq_skip cid m s); [apply edits_refl|].
      destruct (q_add (b_now s) _ q) as [[q' evs]| | |] eqn:Hqa; try apply edits_refl. cbn [fst snd].
      eapply edits_then; [eapply (ed_add _ _ _ _ cid q _ _ q' evs Hq Hqa); [reflexivity|reflexivity|now apply P_copy]|].
      now apply BrokerPollP.release_dropped_field.
    Qed.

    Lemma deliver_ed src s : ED s (snd (fst (deliver src m s))) (fst (fst (deliver src m s))).
    Proof.
      apply (BrokerPollP.deliver_acc_inv (fun acc => ED s (snd acc) (fst acc))); cbn [fst snd].
      - intros cid sb ids s0 o0 H0. eapply ed_trans; [exact H0|apply add_to_queue_ed].
      - intros s0 o0 H0. now apply (edits_then _ _ _ _ s0).
      - intros r s0 o0 H0. now apply (edits_then _ _ _ _ s0).
      - apply edits_refl.
    Qed.
  End Deliver.

  Hypothesis P_any : forall m, P m.

  (* what an accepted PUBLISH and a will have in common *)
  Lemma publish_ed src m s :
    ED s (snd (fst (deliver src m (retain_update m s)))) (fst (fst (deliver src m (retain_update m s)))).
  Proof.
    apply (ed_trans _ _ _ s (retain_update m s) _ []); [|apply deliver_ed; auto].
    unfold retain_update. destruct (m_retained m) eqn:E; [now apply ed_retain|apply edits_refl].
  Qed.

  Lemma send_will_ed cid m s : ED s (snd (send_will cid m s)) (fst (send_will cid m s)).
  Proof.
    unfold send_will. destruct (will_action cid s) as [|code| |t p q]; try apply edits_refl; cbv zeta;
      match goal with |- context [deliver cid ?M (retain_update ?M s)] =>
        pose proof (publish_ed cid M s) as H; now destruct (deliver cid M (retain_update M s)) as [[s' o] b] end.
  Qed.

  Lemma release_will_ed cid s : ED s (snd (release_will cid s)) (fst (release_will cid s)).
  Proof.
    unfold release_will. destruct (aget cid (b_wills s)) as [[w t]|]; [|apply edits_refl].
    eapply (ed_trans _ _ _ s _ _ []); [apply ed_disarm|apply send_will_ed].
  Qed.

  Lemma fire_wills_ed s : ED s (snd (fire_wills s)) (fst (fire_wills s)).
  Proof.
    unfold fire_wills. apply (fold_left_inv (fun acc => ED s (snd acc) (fst acc))); [|apply edits_refl].
    intros [s0 o0] [cid [m at_]] H0. cbv beta iota zeta. cbn [fst snd] in H0.
    destruct (at_ <=? b_rt s0); [|exact H0]. destruct (aget cid (b_wills s0)); [|exact H0].
    eapply edits_snoc; [eapply edits_silent; [exact H0|apply ed_disarm]|apply send_will_ed].
  Qed.

  Lemma ur_will_ed cid k se expiry store s :
    ahas cid (b_sessions s) = true -> ED s (snd (ur_will cid k se expiry store s)) (fst (ur_will cid k se expiry store s)).
  Proof.
    intros Hs. unfold ur_will. destruct (se_will se) as [w|]; [|apply edits_refl].
    destruct (k_clean_will k); [apply edits_refl|]. cbv zeta.
    match goal with |- context [if ?b then (set_tables _ _ _ _ _ _ _, []) else _] => destruct b end;
      [now apply ed_arm|apply send_will_ed].
  Qed.

  Lemma unregister_ed c k s : ED s (snd (unregister c k s)) (fst (unregister c k s)).
  Proof.
    rewrite unregister_eq. cbv zeta. destruct (aget (k_cid k) (b_sessions s)) as [se|] eqn:Es; [|apply ed_gone].
    apply ahas_some in Es.
    match goal with |- context [ur_will ?a ?b ?c0 ?d ?e0 s] =>
      pose proof (ur_will_ed a b c0 d e0 s Es) as H; pose proof (proj1 (ur_will_quiet a b c0 d e0 s)) as F;
      destruct (ur_will a b c0 d e0 s) as [s1 o1] end.
    cbn [fst snd] in H, F.
    match goal with |- context [if ?b then _ else _] => destruct b end; cbn [fst snd];
      (eapply edits_silent; [exact H|]); [|apply ed_gone].
    apply ed_sess. right. now rewrite (fr_sess _ _ F).
  Qed.

  Lemma closed_q_ed cid s : ED s [] (closed_q cid s).
  Proof. unfold closed_q. destruct (aget cid (b_queues s)) as [q|] eqn:E; [|apply edits_refl]. now apply (ed_set _ _ _ _ cid q). Qed.

  Lemma conn_gone_ed c s : ED s (snd (conn_gone c s)) (fst (conn_gone c s)).
  Proof.
    destruct (nget c (b_conns s)) as [k|] eqn:Hk; [|unfold conn_gone; rewrite Hk; apply edits_refl].
    destruct (attached (k_phase k)) eqn:Ha.
    - rewrite (conn_gone_att c k s Hk Ha). cbn [fst snd].
      apply (ed_trans _ _ _ s s _ [OClose c]); [apply edits_out; [reflexivity|repeat constructor]|].
      apply (ed_trans _ _ _ s (closed_q (k_cid k) s) _ []); [apply closed_q_ed|].
      eapply edits_first; [|apply unregister_ed]. reflexivity.
    - unfold conn_gone. rewrite Hk. destruct (k_phase k); try discriminate; apply edits_out; try reflexivity; repeat constructor.
  Qed.

  Lemma fail_conn_ed c code br s : ED s (snd (fail_conn c code br s)) (fst (fail_conn c code br s)).
  Proof.
    unfold fail_conn. destruct (nget c (b_conns s)) as [k|]; [|apply edits_refl].
    destruct (k_phase k); try apply edits_refl.
    match goal with |- context [if ?b then _ else _] => destruct b end; [|now apply edits_same].
    eapply edits_snoc; [|apply conn_gone_ed]. apply edits_out; [reflexivity|].
    destruct code as [cd|]; [destruct (k_v k =? 5)|]; repeat constructor.
  Qed.

  Lemma hc_takeover_ed cid s : ED s (snd (hc_takeover cid s)) (fst (hc_takeover cid s)).
  Proof. unfold hc_takeover. destruct (aget cid (b_online s)); [apply conn_gone_ed|apply edits_refl]. Qed.

  (* resuming keeps the session record and the entries of the queue (Init(cleanStart = false)); discarding the
     session removes both *)
  Lemma hc_old_ed cid v5 cmax r0 s :
    ED s [] (fst (fst (hc_old cid v5 cmax r0 s))) /\
    (snd (hc_old cid v5 cmax r0 s) = true -> ahas cid (b_sessions (fst (fst (hc_old cid v5 cmax r0 s)))) = true).
  Proof.
    unfold hc_old. destruct (aget cid (b_sessions s)) as [se|] eqn:Es; [|split; [apply edits_refl|discriminate]].
    apply ahas_some in Es. destruct r0.
    - destruct (aget cid (b_queues s)) as [q|] eqn:Eq; [|split; [apply edits_refl|discriminate]].
      destruct (aget cid (b_unacks s)); [|split; [apply edits_refl|discriminate]]. cbn [fst snd]. split; [|intros _; exact Es].
      set (s1 := set_tables (b_sessions s) (b_online s) (b_offline s) (adel cid (b_wills s)) (b_queues s) (b_unacks s) s).
      apply (ed_trans _ _ _ s s1 _ [] []); [apply ed_disarm|].
      exact (ed_set _ _ _ s1 cid q (q_init false v5 cmax q) Eq eq_refl).
    - cbv zeta. split; [|now destruct (aget cid (b_wills (remove_session cid s))) as [[w t]|]].
      destruct (aget cid (b_wills (remove_session cid s))) as [[w t]|]; cbn [fst]; [|apply ed_gone].
      eapply (ed_trans _ _ _ s _ _ [] []); [apply ed_gone|apply ed_disarm].
  Qed.

  Lemma hc_fresh_ed cid v5 cmax cf resume s : (resume = false -> fresh cid) -> ED s [] (hc_fresh cid v5 cmax cf resume s).
  Proof. intros H. unfold hc_fresh. destruct resume; [apply edits_refl|]. apply ed_new; auto. Qed.

  Lemma hc_wills_ed l s : ED s (snd (hc_wills l s)) (fst (hc_wills l s)).
  Proof.
    unfold hc_wills. apply (fold_left_inv (fun acc => ED s (snd acc) (fst acc))); [|apply edits_refl].
    intros [s0 o0] cw H0. eapply edits_snoc; [exact H0|apply send_will_ed].
  Qed.

  Lemma hc_accept_ed c cn s :
    (hc_resumed cn s = false -> fresh (hc_cid cn s)) -> ED s (snd (hc_accept c cn s)) (fst (hc_accept c cn s)).
  Proof.
    unfold hc_accept, hc_resumed. cbv zeta. set (cid := hc_cid cn s). intros Hf.
    pose proof (hc_takeover_ed cid (hc_auto cn s)) as K1. destruct (hc_takeover cid (hc_auto cn s)) as [s1 o_dup].
    cbn [fst snd] in *.
    pose proof (hc_old_ed cid (cn_ver cn =? 5) (hc_cmax cn) (hc_resume0 cid cn s1) s1) as [K2 Hs].
    destruct (hc_old cid (cn_ver cn =? 5) (hc_cmax cn) (hc_resume0 cid cn s1) s1) as [[s2 o_will] resume].
    cbn [fst snd] in *. destruct (hc_wd_exp cn (b_cfg s)) as [wd ex].
    set (s3 := hc_fresh cid (cn_ver cn =? 5) (hc_cmax cn) (b_cfg s) resume s2).
    match goal with |- context [hc_wills o_will ?S] =>
      pose proof (hc_wills_ed o_will S) as K5; set (s4 := S) in *; destruct (hc_wills o_will s4) as [s5 o_w] end.
    cbn [fst snd] in *.
    apply (edits_first _ _ _ s (hc_auto cn s)); [unfold hc_auto; now destruct (is_empty (cn_cid cn))|].
    eapply ed_trans; [exact K1|].
    apply (ed_trans _ _ _ s1 s2 _ []); [exact K2|].
    apply (ed_trans _ _ _ s2 s3 _ []); [apply hc_fresh_ed, Hf|].
    apply (ed_trans _ _ _ s3 s4 _ [_] o_w); [|exact K5].
    apply (ed_trans _ _ _ s3 s4 _ [] [_]); [|apply edits_out; [reflexivity|repeat constructor]].
    apply (edits_first _ _ _ s3 (upd_conn c (hc_conn cid cn (b_cfg s)) s3)); [reflexivity|].
    refine (ed_sess _ _ _ (upd_conn c _ s3) cid _ _ _ _).
    unfold s3, hc_fresh. destruct resume; [right; now apply Hs|left; now apply Hf].
  Qed.

  Lemma handle_connect_ed c cn s :
    (hc_rejected cn s = false -> hc_resumed cn s = false -> fresh (hc_cid cn s)) ->
    ED s (snd (handle_connect c cn s)) (fst (handle_connect c cn s)).
  Proof.
    intros Hf. destruct (hc_rejected cn s) eqn:Er; [|rewrite (handle_connect_accepted c cn s Er); now apply hc_accept_ed, Hf].
    rewrite handle_connect_eq. unfold hc_rejected in Er.
    destruct (negb (c_allow_zero_len (b_cfg s)) && is_empty (cn_cid cn)); [apply edits_out; [reflexivity|repeat constructor]|].
    destruct (negb (hc_code cn s =? 0)); [apply edits_out; [reflexivity|repeat constructor]|discriminate].
  Qed.

  Lemma hp_dupcheck_tracked c k v5 qos pid s : tracked (fst (hp_dupcheck c k v5 qos pid s)) = tracked s.
  Proof.
    unfold hp_dupcheck. destruct (qos =? 2); [|reflexivity]. cbv zeta.
    destruct (unack_set pid (opt_or (aget (k_cid k) (b_unacks s)) [])) as [u' ex]. cbn [fst].
    destruct (ex && v5); [|reflexivity]. now rewrite (bump_quota_tracked c _ (fun k1 => k_quota k1 <? k_recv_max k1)).
  Qed.

  Lemma hp_finish_tracked c k v5 qos pid o matched err s : tracked (hres_st (hp_finish c k v5 qos pid o matched err s)) = tracked s.
  Proof.
    unfold hp_finish. cbv zeta. cbn [hres_st].
    match goal with |- context [if ?v && ?x && _ then _ else _] =>
      rewrite (bump_quota_tracked c _ (fun k1 => v && x && (k_quota k1 <? k_recv_max k1))) end.
    match goal with |- context [if ?b then set_unacks _ s else s] => now destruct b end.
  Qed.

  Lemma hp_deliver_ed k m isdup action s :
    ED s (snd (fst (fst (hp_deliver k m isdup action s)))) (fst (fst (fst (hp_deliver k m isdup action s)))).
  Proof.
    unfold hp_deliver. destruct isdup; [apply edits_refl|].
    destruct action as [|code| |t p q]; try apply edits_refl; cbv zeta;
      match goal with |- context [deliver (k_cid k) ?M (retain_update ?M s)] =>
        pose proof (publish_ed (k_cid k) M s) as H; now destruct (deliver (k_cid k) M (retain_update M s)) as [[s' o] b] end.
  Qed.

  Lemma handle_publish_ed c k dup qos retain topic payload pid props s :
    ED s (hres_out (handle_publish c k dup qos retain topic payload pid props s))
         (hres_st (handle_publish c k dup qos retain topic payload pid props s)).
  Proof.
    rewrite handle_publish_eq. cbv zeta.
    destruct (negb (k_retain_avail k) && retain); [apply edits_refl|].
    destruct (hp_alias k (k_v k =? 5) topic props _) as [[[k2 m]|]|code]; try apply edits_refl.
    pose proof (hp_dupcheck_tracked c k2 (k_v k =? 5) qos pid (upd_conn c k2 s)) as H2.
    destruct (hp_dupcheck c k2 (k_v k =? 5) qos pid (upd_conn c k2 s)) as [s1 isdup]. cbn [fst] in H2.
    pose proof (hp_deliver_ed k2 m isdup (hp_action m s1) s1) as H3.
    destruct (hp_deliver k2 m isdup (hp_action m s1) s1) as [[[s2 o] matched] err]. cbn [fst snd] in H3.
    eapply edits_first; [exact H2|]. eapply edits_then; [|apply hp_finish_tracked].
    unfold hp_finish. cbn [hres_out]. eapply ed_trans; [exact H3|]. apply edits_out; [reflexivity|].
    destruct (qos =? 1); [|destruct (qos =? 2)]; repeat constructor.
  Qed.

  Lemma replay_retained_ed c k sb s : ED s (snd (replay_retained c k sb s)) (fst (replay_retained c k sb s)).
  Proof.
    unfold replay_retained. apply (fold_left_inv (fun acc => ED s (snd acc) (fst acc))); [|apply edits_refl].
    intros [s0 o0] m H0. cbv beta iota zeta.
    destruct (aget (k_cid k) (b_queues s0)) as [q|] eqn:Eq; [|exact H0].
    destruct (q_add (b_now s0) _ q) as [[q' evs]| | |] eqn:Hqa; try exact H0. cbn [fst snd].
    eapply ed_trans; [exact H0|]. eapply edits_then; [|now apply BrokerPollP.release_dropped_field].
    eapply (ed_add _ _ _ _ (k_cid k) q _ _ q' evs Eq Hqa); [reflexivity|reflexivity|apply P_any].
  Qed.

  Lemma hs_body_ed c k v5 subid all acc t s :
    ED s (snd (fst acc)) (fst (fst acc)) ->
    ED s (snd (fst (hs_body c k v5 subid all acc t))) (fst (fst (hs_body c k v5 subid all acc t))).
  Proof.
    destruct acc as [[s0 o0] cs]. cbn [fst snd]. intros H0. unfold hs_body. cbv zeta.
    match goal with |- context [if ?b <? 128 then _ else _] => destruct (b <? 128) end; [|exact H0].
    match goal with |- context [db_subscribe ?a ?b ?d] => destruct (db_subscribe a b d) as [d' existed]; set (sb := b) in * end.
    match goal with |- context [if ?b then replay_retained c k sb ?S else _] =>
      destruct b; [pose proof (replay_retained_ed c k sb S) as H1; destruct (replay_retained c k sb S) as [s2 o2]|] end;
      cbn [fst snd] in *.
    - eapply ed_trans; [exact H0|]. eapply edits_first; [|exact H1]. reflexivity.
    - rewrite app_nil_r. now apply (edits_then _ _ _ _ s0).
  Qed.

  Lemma handle_subscribe_ed c k pid props topics s :
    ED s (hres_out (handle_subscribe c k pid props topics s)) (hres_st (handle_subscribe c k pid props topics s)).
  Proof.
    rewrite handle_subscribe_eq. cbv zeta.
    match goal with |- context [if ?b then HErr s [] (Some 161) else _] => destruct b end; [apply edits_refl|].
    destruct (h_sub_all (b_hooks s)); [apply edits_out; [reflexivity|repeat constructor]|].
    match goal with |- context [fold_left ?f topics ?a] =>
      pose proof (fold_left_inv (fun acc => ED s (snd (fst acc)) (fst (fst acc))) f topics
                    (fun acc t => hs_body_ed c k _ _ topics acc t s) a (edits_refl _ _ _ s)) as H;
      destruct (fold_left f topics a) as [[s' o] codes] end.
    cbn [hres_st hres_out fst snd] in *. eapply ed_trans; [exact H|]. apply edits_out; [reflexivity|repeat constructor].
  Qed.

  (* PUBACK, PUBCOMP, PUBREC >= 128 *)
  Lemma ack_remove_ed c cid pid s :
    acks = true -> ED s [] (release_id c pid (queue_op cid (fun q => fst (q_remove pid q)) s)).
  Proof.
    intros Ha. eapply edits_then; [|apply release_id_tracked]. unfold queue_op.
    destruct (aget cid (b_queues s)) as [q|] eqn:E; [|apply edits_refl]. now apply (ed_remove _ _ _ _ cid q).
  Qed.

  Lemma handle_packet_ed c k p s :
    acks = true \/ BrokerPollP.is_ack p = None -> ED s (hres_out (handle_packet c k p s)) (hres_st (handle_packet c k p s)).
  Proof.
    intros Ha.
    assert (Hack : forall pid, BrokerPollP.is_ack p = Some pid -> acks = true) by (intros pid E; destruct Ha; congruence).
    destruct p; try apply edits_refl.
    - (* PUBLISH: the read loop's checks, then the handler *)
      cbn [handle_packet]. destruct (has_wild topic); [apply edits_refl|].
      match goal with |- context [if ?b then HErrRead s (Some 148) else _] => destruct b end; [apply edits_refl|].
      match goal with |- context [if ?b then HErrRead s (Some 130) else _] => destruct b end; [apply edits_refl|].
      match goal with |- context [if ?b then HErrRead s (Some 147) else _] => destruct b end; [apply edits_refl|].
      eapply edits_first; [|apply handle_publish_ed]. reflexivity.
    - (* PUBACK *)
      now apply ack_remove_ed, (Hack pid).
    - (* PUBREC *)
      cbn [handle_packet]. destruct ((k_v k =? 5) && (128 <=? code)); cbn [hres_st hres_out]; [now apply ack_remove_ed, (Hack pid)|].
      eapply (ed_trans _ _ _ s _ _ []); [|apply edits_out; [reflexivity|repeat constructor]].
      unfold queue_op. destruct (aget (k_cid k) (b_queues s)) as [q|] eqn:E; [|apply edits_refl].
      apply (ed_replace _ _ _ _ (k_cid k) q _ pid); [now apply (Hack pid)|exact E|reflexivity|reflexivity].
    - (* PUBREL *)
      cbn [handle_packet]. cbv zeta. apply edits_out; [|repeat constructor]. cbn [hres_st].
      match goal with |- tracked (match nget c (b_conns ?S) with _ => _ end) = _ =>
        apply (bump_quota_tracked c S (fun k1 => (k_v k =? 5) && (k_quota k1 <? k_recv_max k1))) end.
    - (* PUBCOMP *)
      now apply ack_remove_ed, (Hack pid).
    - (* SUBSCRIBE *)
      cbn [handle_packet].
      match goal with |- context [if ?b then handle_subscribe _ _ _ _ _ _ else _] => destruct b end; [|apply edits_refl].
      apply handle_subscribe_ed.
    - (* UNSUBSCRIBE *)
      apply edits_out; [reflexivity|repeat constructor].
    - (* PINGREQ *)
      apply edits_out; [reflexivity|repeat constructor].
    - (* DISCONNECT: SetSessionExpiry on the stored session *)
      cbn [handle_packet]. destruct (k_v k =? 5); [|now apply edits_same]. cbv zeta.
      destruct (aget (k_cid k) (b_sessions s)) as [se|] eqn:Es; [|apply edits_refl].
      match goal with |- context [if ?b then HErr s [] None else _] => destruct b end; [apply edits_refl|].
      cbn [hres_st hres_out].
      match goal with |- edits _ _ _ s [] (upd_conn c ?K ?S) => apply (edits_then _ _ _ s S (upd_conn c K S)); [|reflexivity] end.
      destruct (p_sei props) as [x|]; [destruct (x =? 0)|]; try apply edits_refl.
      apply ed_sess. right. now apply ahas_some in Es.
  Qed.

  Lemma send_unconnected_ed c k p s : ED s (snd (send_unconnected c k p s)) (fst (send_unconnected c k p s)).
  Proof.
    unfold send_unconnected. destruct (k_phase k); try apply edits_refl.
    - apply edits_out; [reflexivity|repeat constructor].
    - destruct p; try apply edits_refl. destruct ((k_v k =? 5) && (0 <? qos)); [|apply edits_refl].
      destruct (k_quota k =? 0); [apply conn_gone_ed|now apply edits_same].
    - destruct p; try apply edits_refl. destruct ((k_v k =? 5) && (0 <? qos)); [apply conn_gone_ed|apply edits_refl].
  Qed.

  (* readHandle: a handler's error ends the connection *)
  Lemma dispatch_ed c s (r : hres) :
    ED s (hres_out r) (hres_st r) ->
    ED s (snd (match r with
               | HOk s' o => (s', o)
               | HErr s' o code => let '(s'', o') := fail_conn c code false s' in (s'', o ++ o')
               | HErrRead s' code => fail_conn c code true s'
               end))
         (fst (match r with
               | HOk s' o => (s', o)
               | HErr s' o code => let '(s'', o') := fail_conn c code false s' in (s'', o ++ o')
               | HErrRead s' code => fail_conn c code true s'
               end)).
  Proof.
    destruct r as [s' o|s' o code|s' code]; cbn [hres_st hres_out]; intros H; [exact H|eapply edits_snoc; [exact H|apply fail_conn_ed]|].
    apply (ed_trans _ _ _ s s' _ []); [exact H|apply fail_conn_ed].
  Qed.

  (* no acknowledgement arrives on a connected socket *)
  Definition ack_free (s : st) (c : N) (p : pkt) : Prop :=
    acks = true \/ forall k, nget c (b_conns s) = Some k -> k_phase k = PhConnected -> BrokerPollP.is_ack p = None.

  Lemma step_send_ed c p s : ack_free s c p -> ED s (snd (step_event s (ESend c p))) (fst (step_event s (ESend c p))).
  Proof.
    intros Ha. cbn [step_event]. destruct (nget c (b_conns s)) as [k|] eqn:Hk; [|apply edits_refl].
    destruct (k_phase k) eqn:Ep; try apply send_unconnected_ed.
    apply dispatch_ed, handle_packet_ed. destruct Ha as [Ha|Ha]; [now left|right; now apply (Ha k)].
  Qed.

  Theorem step_event_ed s e :
    match e with
    | EConnect c cn => let s0 := fst (conn_gone c s) in
                       hc_rejected cn s0 = false -> hc_resumed cn s0 = false -> fresh (hc_cid cn s0)
    | ESend c p | ESendSz c p _ => ack_free s c p
    | _ => True
    end -> ED (clocked s e) (snd (step_event s e)) (fst (step_event s e)).
  Proof.
    destruct e as [c cn|c|c p|c p n|c|m|cid|ms| |ms|]; intros He; cbn [clocked].
    - (* EConnect *)
      cbn [step_event]. pose proof (conn_gone_ed c s) as H0. destruct (conn_gone c s) as [s0 o0]. cbn [fst snd] in *.
      pose proof (handle_connect_ed c cn s0 He) as H1. destruct (handle_connect c cn s0) as [s1 o1]. cbn [fst snd] in *.
      eapply ed_trans; [|exact H1]. apply edits_filter; [reflexivity|exact H0].
    - (* EOpen *)
      cbn [step_event]. pose proof (conn_gone_ed c s) as H0. destruct (conn_gone c s) as [s0 o0]. now apply (edits_then _ _ _ _ s0).
    - now apply step_send_ed.
    - (* ESendSz *)
      destruct (step_event_sz s c p n) as [E|(k & Hk & Hp & _ & [[code E]|[E|[q E]]])]; rewrite E.
      + now apply step_send_ed.
      + apply fail_conn_ed.
      + apply fail_conn_ed.
      + eapply edits_first; [|apply fail_conn_ed]. reflexivity.
    - (* EClose *)
      cbn [step_event]. pose proof (conn_gone_ed c s) as H0. destruct (conn_gone c s) as [s0 o0].
      apply edits_filter; [reflexivity|exact H0].
    - (* EApiPublish *)
      cbn [step_event]. pose proof (deliver_ed m (fun m' _ _ => P_any m') [] s) as H. now destruct (deliver [] m s) as [[s' o] b].
    - (* ETerminate *)
      cbn [step_event]. destruct (aget cid (b_online s)) as [c|].
      + destruct (nget c (b_conns s)) as [k|]; [|apply edits_refl]. eapply edits_first; [|apply conn_gone_ed]. reflexivity.
      + destruct (ahas cid (b_offline s)); [|apply edits_refl].
        eapply (ed_trans _ _ _ s _ _ []); [apply ed_gone|apply release_will_ed].
    - (* EAdvance *)
      apply edits_refl.
    - (* EExpireCheck *)
      cbn [step_event]. set (l := filter _ (b_offline s)).
      apply (fold_left_inv (fun acc => ED s (snd acc) (fst acc))).
      + intros [s0 o0] cd H0. eapply edits_snoc; [exact H0|apply release_will_ed].
      + apply (fold_left_inv (fun s0 => ED s [] s0)); [|apply edits_refl].
        intros s0 cd H0. eapply edits_silent; [exact H0|apply ed_gone].
    - (* ESleep *)
      cbn [step_event]. set (s0 := set_time (b_now s + ms) (b_rt s + ms) s).
      match goal with |- context [fold_left ?f (b_conns s0) (s0, [])] =>
        assert (H1 : ED s0 (snd (fold_left f (b_conns s0) (s0, []))) (fst (fold_left f (b_conns s0) (s0, []))));
        [|destruct (fold_left f (b_conns s0) (s0, [])) as [s1 o1]] end.
      { apply (fold_left_inv (fun acc => ED s0 (snd acc) (fst acc))); [|apply edits_refl].
        intros [sa oa] ck Ha. cbv beta iota zeta.
        destruct (k_phase (snd ck)); try exact Ha;
          (match goal with |- context [if ?b then _ else _] => destruct b end; [|exact Ha]);
          (eapply edits_snoc; [exact Ha|apply conn_gone_ed]). }
      eapply edits_snoc; [exact H1|apply fire_wills_ed].
    - (* EInspect *)
      apply edits_refl.
  Qed.
End Walk.

(* without side conditions *)
Lemma step_event_ed_all s e :
  edits (fun _ => True) (fun _ => True) true (clocked s e) (snd (step_event s e)) (fst (step_event s e)).
Proof. apply step_event_ed; [auto|]. destruct e; try exact I; [intros _ _ _; exact I|now left|now left]. Qed.
