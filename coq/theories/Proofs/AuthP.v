(* Proofs about Model/Auth.v and Oracle/C19O.v (property C19).
   The digests H / bverify are universally quantified (Section variables): nothing below
   depends on what they compute. *)
From Coq Require Import List NArith Bool Arith Lia.
Import ListNotations.
From GM Require Import Model.SubTrie Proofs.ListP Proofs.AssocP Base.Topic Proofs.TopicP Model.Auth Oracle.C19O.
Open Scope N_scope.

Definition keys (t : list account) : list str := map fst t.
Definition wf_tab (t : list account) : Prop := NoDup (keys t) /\ ~ In [] (keys t).
Definition lookup_eq (t1 t2 : list account) : Prop := forall u, t_get u t1 = t_get u t2.

Lemma is_empty_eq (s : str) : is_empty s = true <-> s = [].
Proof. destruct s; simpl; split; congruence. Qed.

Lemma lookup_eq_trans (a b c : list account) : lookup_eq a b -> lookup_eq b c -> lookup_eq a c.
Proof. intros X Y u. now rewrite X. Qed.
Lemma lookup_eq_sym (a b : list account) : lookup_eq a b -> lookup_eq b a.
Proof. intros X u. now rewrite X. Qed.

(* t_get and t_remove are, by conversion, aget and adel of Model/SubTrie.v at string values; t_set is aset except
   that it keeps the old (equal) key of a row it overwrites.  So the lemmas of Proofs/AssocP.v apply. *)
Lemma t_set_aset (u h : str) (t : acctab) : t_set u h t = aset u h t.
Proof.
  induction t as [|[k h'] r IH]; simpl; [reflexivity|].
  destruct (str_eqb_spec u k) as [->|_]; [reflexivity|now rewrite IH].
Qed.

Lemma t_get_none (u : str) (t : acctab) : t_get u t = None <-> ~ In u (keys t).
Proof. exact (aget_none u t). Qed.

Lemma t_get_some_in (u h : str) (t : acctab) : t_get u t = Some h -> In (u, h) t.
Proof. exact (aget_In u h t). Qed.

Lemma in_t_get (u h : str) (t : acctab) : NoDup (keys t) -> In (u, h) t -> t_get u t = Some h.
Proof. exact (In_aget u h t). Qed.

Lemma t_get_set (k u h : str) (t : acctab) : t_get k (t_set u h t) = if str_eqb k u then Some h else t_get k t.
Proof. rewrite t_set_aset. exact (aget_aset k u h t). Qed.

Lemma t_get_remove (k u : str) (t : acctab) :
  NoDup (keys t) -> t_get k (t_remove u t) = if str_eqb k u then None else t_get k t.
Proof. exact (aget_adel k u t). Qed.

Lemma wf_tab_set (u h : str) (t : acctab) : u <> [] -> wf_tab t -> wf_tab (t_set u h t).
Proof.
  intros NE [ND NI]. rewrite t_set_aset. split; [exact (NoDup_aset u h t ND)|].
  intros I. apply in_keys_aset in I as [E|I]; [congruence|tauto].
Qed.

Lemma wf_tab_remove (u : str) (t : acctab) : wf_tab t -> wf_tab (t_remove u t).
Proof.
  intros [ND NI]. split; [exact (NoDup_adel u t ND)|].
  intros I. exact (NI (in_keys_adel _ _ _ I)).
Qed.

(* A failed save is rolled back.  Removing the row Update appended, or writing the old value back over the one it
   overwrote, restores the table itself; the row Delete removed is appended again at the back, which restores
   every lookup. *)
Lemma rollback_new (u h : str) (t : acctab) : t_get u t = None -> t_remove u (t_set u h t) = t.
Proof.
  induction t as [|[k h'] r IH]; simpl; [now rewrite str_eqb_refl|].
  destruct (str_eqb u k) eqn:E; [discriminate|]. simpl. rewrite E. intros G. now rewrite IH.
Qed.

Lemma rollback_old (u h ho : str) (t : acctab) : t_get u t = Some ho -> t_set u ho (t_set u h t) = t.
Proof.
  induction t as [|[k h'] r IH]; simpl; [discriminate|].
  destruct (str_eqb u k) eqn:E; simpl; rewrite E; [intros [= ->]; reflexivity|intros G; now rewrite IH].
Qed.

Lemma rollback_delete (u ho : str) (t : acctab) :
  t_get u t = Some ho -> lookup_eq (t_set u ho (t_remove u t)) t.
Proof.
  intros G k. rewrite t_get_set. destruct (str_eqb_spec k u) as [->|N]; [now rewrite G|].
  exact (aget_adel_other k u t N).
Qed.

Lemma path_eqb_refl (p : pwpath) : path_eqb p p = true.
Proof. destruct p. unfold path_eqb. simpl. now rewrite N.eqb_refl, str_eqb_refl. Qed.

Lemma path_eqb_eq (p q : pwpath) : path_eqb p q = true <-> p = q.
Proof.
  destruct p, q. unfold path_eqb. simpl. rewrite andb_true_iff, N.eqb_eq, str_eqb_eq.
  split; [intros [-> ->]; reflexivity|intros [= -> ->]; auto].
Qed.

Lemma fs_get_put_same (p : pwpath) (d : pwfile) (f : fsys) : fs_get p (fs_put p d f) = Some d.
Proof.
  induction f as [|[q d'] r IH]; simpl.
  - now rewrite path_eqb_refl.
  - destruct (path_eqb p q) eqn:E; simpl; rewrite E; auto.
Qed.

Lemma au_mem_in (u : str) (l : list str) : au_mem u l = true <-> In u l.
Proof.
  induction l as [|x r IH]; simpl; [split; [discriminate|tauto]|].
  rewrite orb_true_iff, IH, str_eqb_eq. split; intros [|]; auto.
Qed.

Lemma load_check_spec (seen : list str) (d : pwfile) :
  load_check seen d = true <->
  NoDup (keys d) /\ ~ In [] (keys d) /\ (forall k, In k (keys d) -> ~ In k seen).
Proof.
  revert seen. induction d as [|[u h] r IH]; intros seen; simpl.
  - split; [intros _; repeat split; [constructor|tauto|tauto]|reflexivity].
  - rewrite !andb_true_iff, !negb_true_iff, <- !not_true_iff_false, is_empty_eq, au_mem_in, IH, NoDup_cons_iff.
    cbn [In]. split.
    + intros [[Hu Hs] (ND & NE & D)]. repeat split; [|exact ND| |].
      * intros I. apply (D u I). now left.
      * intros [E|E]; [now apply Hu|now apply NE].
      * intros k [<-|I] S; [now apply Hs|]. apply (D k I). now right.
    + intros ((Hur & ND) & NE & D). repeat split; [| |exact ND| |].
      * intros ->. apply NE. now left.
      * apply D. now left.
      * intros E. apply NE. now right.
      * intros k I [<-|S]; [now apply Hur|]. apply (D k); [now right|exact S].
Qed.

Lemma load_check_wf (d : pwfile) : load_check [] d = true <-> wf_tab d.
Proof. rewrite load_check_spec. unfold wf_tab. split; [tauto|intros [? ?]; repeat split; auto]. Qed.

Lemma t_set_absent (u h : str) (t : acctab) : t_get u t = None -> t_set u h t = t ++ [(u, h)].
Proof.
  induction t as [|[k h'] r IH]; simpl; [reflexivity|].
  destruct (str_eqb u k); [discriminate|]. intros G. now rewrite IH.
Qed.

Lemma load_rows_app (t : acctab) (d : pwfile) : NoDup (keys (t ++ d)) -> load_rows t d = t ++ d.
Proof.
  revert t. induction d as [|[u h] r IH]; intros t ND; simpl.
  - now rewrite app_nil_r.
  - unfold load_rows in *. simpl. rewrite t_set_absent.
    + rewrite IH; rewrite <- app_assoc; simpl; auto.
    + apply t_get_none. unfold keys in ND. rewrite map_app in ND. simpl in ND.
      apply NoDup_remove_2 in ND. rewrite in_app_iff in ND. tauto.
Qed.

Lemma load_rows_id (d : pwfile) : NoDup (keys d) -> load_rows [] d = d.
Proof. intros. now rewrite load_rows_app. Qed.

(* the client-id check of connectHandler lets the CONNECT through *)
Lemma cid_check_passes (allow0 : bool) (c : aconnect) :
  allow0 || negb (is_empty (ac_cid c)) = true -> negb allow0 && is_empty (ac_cid c) = false.
Proof. destruct allow0, (is_empty (ac_cid c)); simpl; congruence. Qed.

Section AuthProofs.
  Variable H : halg -> str -> str.
  Variable bverify : str -> str -> bool.

  Notation matches := (au_matches H bverify).
  Notation validate := (au_validate H bverify).
  Notation wrapper := (au_wrapper H bverify).
  Notation step := (au_step H bverify).
  Notation run := (au_run H bverify).

  (* the statement's condition: the user name is a stored account and the password matches
     that account's stored hash under the configured algorithm *)
  Definition valid_creds (a : halg) (t : acctab) (u p : str) : Prop :=
    exists h, t_get u t = Some h /\ matches a h p = true.

  Lemma validate_iff (a : halg) (t : acctab) (u p : str) :
    validate a t u p = true <-> valid_creds a t u p.
  Proof.
    unfold au_validate, valid_creds. destruct (t_get u t) as [h|].
    - split; [intros M; exists h; auto|intros [h' [[= ->] M]]; exact M].
    - split; [discriminate|intros [h' [[=] _]]].
  Qed.

  Lemma cred_ok_validate (a : halg) (t : acctab) (u p : str) :
    cred_ok H bverify a t u p = validate a t u p.
  Proof. reflexivity. Qed.

  (* OnBasicAuthWrapper, whatever client.Version() is *)
  Lemma wrapper_accept_iff (a : halg) (t : acctab) (pre : aconnect -> authres) (v : N) (c : aconnect) :
    wrapper a t pre v c = HkOk <->
    pre c = HkOk /\ valid_creds a t (ac_username c) (ac_password c).
  Proof.
    unfold au_wrapper. rewrite <- validate_iff.
    destruct (pre c) as [|e]; [|split; [discriminate|intros [[=] _]]].
    destruct (validate a t (ac_username c) (ac_password c)); [tauto|].
    destruct (au_v3x v); split; try discriminate; intros [_ [=]].
  Qed.

  Lemma wrapper_reject_code (a : halg) (t : acctab) (v : N) (c : aconnect) (e : N) :
    wrapper a t (fun _ => HkOk) v c = HkErr e ->
    e = if au_v3x v then V3_NOT_AUTHORIZED else NOT_AUTHORIZED.
  Proof.
    unfold au_wrapper. destruct (validate a t (ac_username c) (ac_password c)); [discriminate|].
    destruct (au_v3x v); intros [= <-]; reflexivity.
  Qed.

  Lemma connack_code_none (v : N) (r : authres) : connack_code v r = None <-> r = HkOk.
  Proof. destruct r; simpl; split; congruence. Qed.

  (* the broker with this plugin: every accepted CONNECT carries the credentials of an
     account - for every flag combination, AuthMethod/AuthData presence, client id *)
  Lemma broker_accept_sound (allow0 : bool) (a : halg) (t : acctab) (c : aconnect) :
    known_version (ac_version c) = true ->
    broker_connect H bverify allow0 a t c = None ->
    valid_creds a t (ac_username c) (ac_password c).
  Proof.
    intros KV. unfold broker_connect. rewrite connack_code_none. unfold connect_handler.
    destruct (negb allow0 && is_empty (ac_cid c)); [discriminate|].
    unfold known_version in KV.
    destruct (ac_authmethod c) as [am|].
    - rewrite andb_false_r, orb_false_r, andb_true_r.
      destruct (au_v5 (ac_version c)) eqn:V5; [discriminate|].
      simpl in KV. rewrite orb_false_r in KV. rewrite KV.
      intros W. apply wrapper_accept_iff in W. tauto.
    - rewrite andb_true_r, andb_false_r. rewrite KV.
      intros W. apply wrapper_accept_iff in W. tauto.
  Qed.

  (* ... and, outside the Authentication-Method class, every servable CONNECT that carries
     them is accepted *)
  Lemma broker_accept_iff (allow0 : bool) (a : halg) (t : acctab) (c : aconnect) :
    connect_servable allow0 c = true ->
    kf_authmethod_present c = false ->
    (broker_connect H bverify allow0 a t c = None <->
     valid_creds a t (ac_username c) (ac_password c)).
  Proof.
    intros SV KF. unfold connect_servable in SV. apply andb_true_iff in SV. destruct SV as [KV CID].
    split; [now apply broker_accept_sound|].
    intros VC. unfold broker_connect. rewrite connack_code_none. unfold connect_handler.
    rewrite cid_check_passes by assumption.
    unfold kf_authmethod_present in KF.
    destruct (ac_authmethod c) as [am|].
    - rewrite andb_true_r in KF. rewrite KF in *. simpl. rewrite orb_false_r in *.
      rewrite KV. apply wrapper_accept_iff. split; auto.
    - rewrite !andb_false_r, andb_true_r. rewrite KV.
      apply wrapper_accept_iff. split; auto.
  Qed.

  (* enhanced authentication fails closed: with no OnEnhancedAuth hook a v5 CONNECT with an
     Authentication Method is refused whatever the basic hook, the accounts, the credentials *)
  Lemma enhanced_fail_closed (allow0 : bool) (basic : option (N -> aconnect -> authres)) (c : aconnect) (am : str) :
    ac_version c = 5 -> ac_authmethod c = Some am ->
    allow0 || negb (is_empty (ac_cid c)) = true ->
    connect_handler allow0 basic None c = HkErr UNSPECIFIED_ERROR.
  Proof.
    intros V AM CID. unfold connect_handler. rewrite V, AM. simpl.
    rewrite cid_check_passes by assumption. reflexivity.
  Qed.

  Lemma enhanced_never_accepted (allow0 : bool) (basic : option (N -> aconnect -> authres)) (c : aconnect) :
    kf_authmethod_present c = true -> connect_handler allow0 basic None c <> HkOk.
  Proof.
    unfold kf_authmethod_present, connect_handler. intros KF.
    destruct (negb allow0 && is_empty (ac_cid c)); [discriminate|].
    apply andb_true_iff in KF. destruct KF as [V AM]. rewrite V.
    destruct (ac_authmethod c); [simpl; discriminate|discriminate].
  Qed.

  (* the basic hook is not even consulted for such a CONNECT *)
  Lemma enhanced_skips_basic (allow0 : bool) (b1 b2 : option (N -> aconnect -> authres))
        (enh : option (aconnect -> enhres)) (c : aconnect) :
    kf_authmethod_present c = true -> connect_handler allow0 b1 enh c = connect_handler allow0 b2 enh c.
  Proof.
    unfold kf_authmethod_present, connect_handler. intros KF.
    apply andb_true_iff in KF. destruct KF as [V AM].
    assert (au_v3x (ac_version c) = false) as V3.
    { unfold au_v5, au_v3x in *. apply N.eqb_eq in V. rewrite V. reflexivity. }
    rewrite V, V3.
    destruct (ac_authmethod c); [|discriminate]. reflexivity.
  Qed.

  (* a reachable table has no empty user name: a CONNECT without the user-name flag (or with
     an empty user name) is refused *)
  Lemma no_username_rejected (allow0 : bool) (a : halg) (t : acctab) (c : aconnect) :
    wf_tab t -> known_version (ac_version c) = true -> ac_username c = [] ->
    broker_connect H bverify allow0 a t c <> None.
  Proof.
    intros [_ NE] KV U B. apply broker_accept_sound in B; [|assumption].
    destruct B as [h [G _]]. rewrite U in G. apply t_get_some_in, (in_map fst) in G. tauto.
  Qed.

  (* table and password file (at the path Load reads) hold the same accounts, and both are
     loadable: distinct, non-empty user names *)
  Definition inv (cfg : acfg) (s : austate) : Prop :=
    wf_tab (s_tab s) /\
    exists d, fs_get (load_path cfg) (s_fs s) = Some d /\ wf_tab d /\ lookup_eq (s_tab s) d.

  (* the file is untouched and the table answers every lookup as before *)
  Lemma inv_keep (cfg : acfg) (s s' : austate) :
    inv cfg s -> s_fs s' = s_fs s -> wf_tab (s_tab s') -> lookup_eq (s_tab s') (s_tab s) -> inv cfg s'.
  Proof.
    intros [_ [d [G [WD LE]]]] EF W L. split; [exact W|]. exists d. rewrite EF.
    split; [exact G|]. split; [exact WD|]. exact (lookup_eq_trans _ _ _ L LE).
  Qed.

  (* the table has just been saved *)
  Lemma inv_saved (cfg : acfg) (s' : austate) (t : acctab) (f : fsys) :
    wf_tab t -> s_tab s' = t -> s_fs s' = fs_put (load_path cfg) t f -> inv cfg s'.
  Proof.
    intros W ET EF. subst t. split; [exact W|]. exists (s_tab s'). rewrite EF, fs_get_put_same.
    split; [reflexivity|]. split; [exact W|]. intros k; reflexivity.
  Qed.

  Lemma au_load_some (cfg : acfg) (f : fsys) (d : pwfile) :
    fs_get (load_path cfg) f = Some d ->
    au_load cfg f = (f, if load_check [] d then Some (load_rows [] d) else None).
  Proof. intros G. unfold au_load. now rewrite G. Qed.

  Lemma au_load_wf (cfg : acfg) (f : fsys) (d : pwfile) :
    fs_get (load_path cfg) f = Some d -> wf_tab d -> au_load cfg f = (f, Some d).
  Proof.
    intros G W. rewrite (au_load_some _ _ _ G).
    assert (load_check [] d = true) as -> by now apply load_check_wf.
    rewrite load_rows_id; [reflexivity|apply W].
  Qed.

  (* Update, with the roll-backs of a failed save carried out *)
  Lemma au_update_eq (cfg : acfg) (u p : str) (g : option str) (s : austate) :
    au_update H cfg u p g s =
    if is_empty u then (s, XInvalid)
    else match gen_password H (a_alg cfg) p g with
         | None => (s, XErr)
         | Some h =>
             if s_dir_ok s
             then (with_tab_fs s (t_set u h (s_tab s)) (fs_put (load_path cfg) (t_set u h (s_tab s)) (s_fs s)), XOk)
             else (with_tab s (s_tab s), XErr)
         end.
  Proof.
    unfold au_update, au_save. destruct (is_empty u); [reflexivity|].
    destruct (gen_password H (a_alg cfg) p g) as [h|]; [|reflexivity].
    destruct (s_dir_ok s); [reflexivity|]. cbv zeta.
    destruct (t_get u (s_tab s)) as [ho|] eqn:G; [rewrite (rollback_old _ _ _ _ G)|rewrite (rollback_new _ _ _ G)]; reflexivity.
  Qed.

  Lemma step_inv (cfg : acfg) (s : austate) (o : aop) :
    inv cfg s -> inv cfg (fst (step cfg s o)).
  Proof.
    intros I. pose proof I as [WT [d [G [WD LE]]]].
    assert (K : forall s', s_tab s' = s_tab s -> s_fs s' = s_fs s -> inv cfg s').
    { intros s' ET EF. apply (inv_keep cfg s); auto; rewrite ET; [exact WT|intros k; reflexivity]. }
    destruct o as [u p g|u|u|pg sz|dd|b|u p|pre v c| |]; simpl; try exact I; try (apply K; reflexivity).
    - (* Update *)
      rewrite au_update_eq. destruct (is_empty u) eqn:EU; [exact I|].
      destruct (gen_password H (a_alg cfg) p g) as [h|]; [|exact I].
      destruct (s_dir_ok s); simpl; [|apply K; reflexivity].
      apply (inv_saved cfg _ (t_set u h (s_tab s)) (s_fs s)); [|reflexivity..].
      apply wf_tab_set; [intros ->; discriminate|exact WT].
    - (* Delete *)
      unfold au_delete, au_save. destruct (is_empty u) eqn:EU; [exact I|].
      destruct (t_get u (s_tab s)) as [ho|] eqn:GO; [|exact I].
      destruct (s_dir_ok s); simpl.
      + apply (inv_saved cfg _ (t_remove u (s_tab s)) (s_fs s)); [|reflexivity..]. apply wf_tab_remove, WT.
      + apply (inv_keep cfg s); [exact I|reflexivity| |apply rollback_delete, GO].
        apply wf_tab_set; [intros ->; discriminate|apply wf_tab_remove, WT].
    - (* Get *)
      destruct (is_empty u); exact I.
    - (* Reload: the file exists, Load does not touch it *)
      destruct (s_dir_ok s); [|exact I]. rewrite (au_load_wf _ _ _ G WD). apply K; reflexivity.
  Qed.

  Lemma run_cons (cfg : acfg) (s : austate) (o : aop) (r : list aop) :
    run cfg s (o :: r) =
    (fst (run cfg (fst (step cfg s o)) r), snd (step cfg s o) :: snd (run cfg (fst (step cfg s o)) r)).
  Proof.
    simpl. destruct (step cfg s o) as [s' x]. simpl.
    destruct (run cfg s' r) as [s'' xs]. reflexivity.
  Qed.

  Lemma run_inv (cfg : acfg) (ops : list aop) : forall s,
    inv cfg s -> inv cfg (fst (run cfg s ops)).
  Proof.
    induction ops as [|o r IH]; intros s I; [exact I|].
    rewrite run_cons. simpl. apply IH. now apply step_inv.
  Qed.

  Lemma start_inv (cfg : acfg) (init : option pwfile) (cwd : N) (s0 : austate) :
    au_start cfg init cwd = Some s0 -> inv cfg s0.
  Proof.
    unfold au_start, init_fs. destruct init as [d|].
    - rewrite (au_load_some cfg [(load_path cfg, d)] d) by (simpl; now rewrite path_eqb_refl).
      destruct (load_check [] d) eqn:LC; [|discriminate].
      apply load_check_wf in LC. rewrite load_rows_id by apply LC.
      intros [= <-]. apply (inv_saved cfg _ d []); [exact LC|reflexivity..].
    - unfold au_load. simpl. intros [= <-]. apply (inv_saved cfg _ [] []); [|reflexivity..].
      split; [constructor|tauto].
  Qed.

  (* after any history whatsoever (updates, deletions, failing saves with their roll-backs,
     changes of the working directory): table = file = what a restarted plugin loads *)
  Theorem accounts_consistent (cfg : acfg) (init : option pwfile) (cwd : N) (ops : list aop) (s0 : austate) :
    au_start cfg init cwd = Some s0 ->
    let s := fst (run cfg s0 ops) in
    exists d, fs_get (load_path cfg) (s_fs s) = Some d
              /\ lookup_eq (s_tab s) d
              /\ snd (au_load cfg (s_fs s)) = Some d
              /\ wf_tab (s_tab s).
  Proof.
    intros ST s. subst s. destruct (run_inv cfg ops s0 (start_inv _ _ _ _ ST)) as [WT [d [G [WD LE]]]].
    exists d. repeat split; try apply WT; auto.
    now rewrite (au_load_wf _ _ _ G WD).
  Qed.

  (* the witness of the repaired defect F16 (relative password file, working directory not
     the configuration directory): the restarted plugin now sees the new account *)
  Definition f16_cfg : acfg := {| a_alg := Plain; a_pf := [112]; a_pfdir := None; a_cfgdir := 0 |}.
  Lemma f16_repaired :
    exists s0, au_start f16_cfg None 1 = Some s0 /\
      let s := fst (run f16_cfg s0 [OUpdate [117] [112] None]) in
      snd (step f16_cfg s0 (OUpdate [117] [112] None)) = XOk /\
      t_get [117] (s_tab s) = Some [112] /\
      snd (au_load f16_cfg (s_fs s)) = Some [([117], [112])].
  Proof. eexists. split; [reflexivity|]. repeat split; reflexivity. Qed.

  Lemma matches_generated (a : halg) (p h : str) (g : option str) :
    gen_password H a p g = Some h ->
    (a = Bcrypt -> bverify h p = true) ->
    matches a h p = true.
  Proof.
    destruct a; simpl; intros E B; try (injection E as <-; apply str_eqb_refl). now apply B.
  Qed.

  Lemma update_effective (cfg : acfg) (u p : str) (g : option str) (s s' : austate) :
    au_update H cfg u p g s = (s', XOk) ->
    (forall h, a_alg cfg = Bcrypt -> g = Some h -> bverify h p = true) ->
    validate (a_alg cfg) (s_tab s') u p = true.
  Proof.
    rewrite au_update_eq. destruct (is_empty u); [discriminate|].
    destruct (gen_password H (a_alg cfg) p g) as [h|] eqn:GP; [|discriminate].
    destruct (s_dir_ok s); [|discriminate].
    intros [= <-] B. simpl. unfold au_validate. rewrite t_get_set, str_eqb_refl.
    eapply matches_generated; [eassumption|]. intros A. apply B; [assumption|].
    destruct (a_alg cfg); try discriminate. exact GP.
  Qed.

  (* the other accounts are not touched *)
  Lemma update_frame (cfg : acfg) (u p u' p' : str) (g : option str) (s : austate) :
    u <> u' -> wf_tab (s_tab s) ->
    validate (a_alg cfg) (s_tab (fst (au_update H cfg u p g s))) u' p' = validate (a_alg cfg) (s_tab s) u' p'.
  Proof.
    intros N W. rewrite au_update_eq. destruct (is_empty u); [reflexivity|].
    destruct (gen_password H (a_alg cfg) p g) as [h|]; [|reflexivity].
    destruct (s_dir_ok s); [|reflexivity]. simpl. unfold au_validate. rewrite t_get_set.
    destruct (str_eqb_spec u' u); [congruence|reflexivity].
  Qed.

  Lemma delete_effective (cfg : acfg) (u : str) (s s' : austate) :
    wf_tab (s_tab s) -> au_delete cfg u s = (s', XOk) ->
    forall p, validate (a_alg cfg) (s_tab s') u p = false.
  Proof.
    intros [ND _]. unfold au_delete. destruct (is_empty u); [discriminate|].
    destruct (t_get u (s_tab s)) as [ho|] eqn:G.
    - destruct (au_save cfg (t_remove u (s_tab s)) s); [|discriminate].
      intros [= <-] p. simpl. unfold au_validate. now rewrite t_get_remove, str_eqb_refl.
    - intros [= <-] p. unfold au_validate. now rewrite G.
  Qed.

  Lemma validate_lookup_eq (a : halg) (t1 t2 : list account) (u p : str) :
    lookup_eq t1 t2 -> validate a t1 u p = validate a t2 u p.
  Proof. intros L. unfold au_validate. now rewrite L. Qed.

  Lemma acc_eqb_eq (x y : account) : acc_eqb x y = true <-> x = y.
  Proof.
    destruct x, y. unfold acc_eqb. simpl. rewrite andb_true_iff, !str_eqb_eq.
    split; [intros [-> ->]; reflexivity|intros [= -> ->]; auto].
  Qed.

  Lemma acc_in_in (x : account) (l : list account) : acc_in x l = true <-> In x l.
  Proof.
    unfold acc_in. rewrite existsb_exists. split.
    - intros [y [I E]]. apply acc_eqb_eq in E. now subst.
    - intros I. exists x. split; [assumption|now apply acc_eqb_eq].
  Qed.

  Lemma nodup_keys_spec (l : list account) : nodup_keys l = true <-> NoDup (keys l).
  Proof.
    unfold keys. induction l as [|[u h] r IH]; simpl; [split; [constructor|reflexivity]|].
    now rewrite andb_true_iff, negb_true_iff, <- not_true_iff_false, au_mem_in, IH, NoDup_cons_iff.
  Qed.

  Lemma no_empty_key_spec (l : list account) : no_empty_key l = true <-> ~ In [] (keys l).
  Proof.
    unfold no_empty_key. induction l as [|[u h] r IH]; simpl; [split; [tauto|reflexivity]|].
    rewrite andb_true_iff, negb_true_iff, <- not_true_iff_false, is_empty_eq, IH. intuition congruence.
  Qed.

  Lemma file_wf_spec (d : pwfile) : file_wf d = true <-> wf_tab d.
  Proof. unfold file_wf, wf_tab. now rewrite andb_true_iff, nodup_keys_spec, no_empty_key_spec. Qed.

  (* rows of a table that answers lookups as m does are accounts of m *)
  Lemma incl_lookup (l' l m : list account) :
    incl l' l -> NoDup (keys l) -> lookup_eq l m -> forallb (fun x => acc_in x m) l' = true.
  Proof.
    intros IN ND LE. apply forallb_forall. intros [u h] I. apply acc_in_in.
    apply t_get_some_in. rewrite <- LE. apply in_t_get, IN; assumption.
  Qed.

  Lemma same_accounts_ok (l m : list account) :
    NoDup (keys l) -> NoDup (keys m) -> lookup_eq l m -> same_accounts l m = true.
  Proof.
    intros NL NM LE. unfold same_accounts. rewrite !andb_true_iff. repeat split.
    - now apply nodup_keys_spec.
    - apply (incl_lookup l l); [apply incl_refl|assumption..].
    - apply (incl_lookup m m); [apply incl_refl|assumption|apply lookup_eq_sym, LE].
  Qed.

  Lemma am_del_get (k u : str) (m : amap) : t_get k (am_del u m) = if str_eqb k u then None else t_get k m.
  Proof.
    unfold am_del. induction m as [|[k' h] r IH]; simpl; [now destruct (str_eqb k u)|].
    destruct (str_eqb_spec u k') as [<-|N]; simpl; rewrite IH; [destruct (str_eqb k u); reflexivity|].
    destruct (str_eqb_spec k k') as [->|_]; [|reflexivity]. destruct (str_eqb_spec k' u); [congruence|reflexivity].
  Qed.

  (* simulation between the table of the model and the abstract accounts of the statement *)
  Definition R (t : acctab) (m : amap) : Prop := NoDup (keys m) /\ lookup_eq t m.

  Lemma R_lookup (t t' : acctab) (m : amap) : lookup_eq t' t -> R t m -> R t' m.
  Proof. intros L [NM LE]. split; [exact NM|exact (lookup_eq_trans _ _ _ L LE)]. Qed.

  Lemma R_del_absent (u : str) (t : acctab) (m : amap) : t_get u t = None -> R t m -> R t (am_del u m).
  Proof.
    intros G [NM LE]. split; [exact (NoDup_map_filter fst _ m NM)|].
    intros k. rewrite am_del_get. destruct (str_eqb_spec k u) as [->|_]; [exact G|apply LE].
  Qed.

  Lemma R_del (u : str) (t : acctab) (m : amap) : NoDup (keys t) -> R t m -> R (t_remove u t) (am_del u m).
  Proof.
    intros ND [NM LE]. split; [exact (NoDup_map_filter fst _ m NM)|].
    intros k. now rewrite t_get_remove, am_del_get, LE.
  Qed.

  Lemma R_set (u h : str) (t : acctab) (m : amap) : R t m -> R (t_set u h t) (am_set u h m).
  Proof.
    intros [NM LE]. split.
    - constructor; [|exact (NoDup_map_filter fst _ m NM)].
      apply (t_get_none u (am_del u m)). now rewrite am_del_get, str_eqb_refl.
    - intros k. unfold am_set. simpl. rewrite t_get_set, am_del_get. destruct (str_eqb k u); [reflexivity|apply LE].
  Qed.

  Lemma list_page_ok (pg sz : N) (t : acctab) (m : amap) :
    NoDup (keys t) -> NoDup (keys m) -> lookup_eq t m ->
    nodup_keys (list_page pg sz t) &&
    forallb (fun acc : account => acc_in acc m) (list_page pg sz t) &&
    (N.of_nat (length (list_page pg sz t)) <=? (if sz =? 0 then 20 else sz)) &&
    (if (pg <=? 1) && (N.of_nat (length (list_page pg sz t)) <? (if sz =? 0 then 20 else sz))
     then forallb (fun acc : account => acc_in acc (list_page pg sz t)) m else true) = true.
  Proof.
    intros NT NM LE. unfold list_page.
    set (sz' := if sz =? 0 then 20 else sz). set (pg' := if pg =? 0 then 1 else pg).
    rewrite !andb_true_iff. repeat split.
    - apply nodup_keys_spec. unfold keys. rewrite <- firstn_map, <- skipn_map. now apply NoDup_firstn, NoDup_skipn.
    - apply (incl_lookup _ t); [|assumption..]. intros x I. now apply In_firstn, In_skipn in I.
    - apply N.leb_le. pose proof (firstn_le_length (N.to_nat sz') (skipn (N.to_nat ((pg' - 1) * sz')) t)). lia.
    - destruct (pg <=? 1) eqn:P; simpl; [|reflexivity].
      destruct (N.of_nat (length (firstn (N.to_nat sz') (skipn (N.to_nat ((pg' - 1) * sz')) t))) <? sz') eqn:L; [|reflexivity].
      apply N.leb_le in P. apply N.ltb_lt in L.
      assert (pg' = 1) as E1.
      { unfold pg'. destruct (pg =? 0) eqn:Z; [reflexivity|]. apply N.eqb_neq in Z. lia. }
      rewrite E1 in *. replace ((1 - 1) * sz') with 0 in * by lia. simpl in *.
      rewrite firstn_length in L.
      rewrite firstn_all2 by lia.
      apply (incl_lookup m m); [apply incl_refl|assumption|now apply lookup_eq_sym].
  Qed.

  Definition op_gen (a : halg) (o : aop) : Prop :=
    match o with OUpdate _ p (Some h) => a = Bcrypt -> bverify h p = true | _ => True end.

  Lemma step_avail (cfg : acfg) (s : austate) (o : aop) :
    s_dir_ok (fst (step cfg s o)) = o_avail (s_dir_ok s) o.
  Proof.
    destruct o as [u p g|u|u|pg sz|dd|b|u p|pre v c| |]; simpl; try reflexivity.
    - rewrite au_update_eq. destruct (is_empty u), (gen_password H (a_alg cfg) p g), (s_dir_ok s) eqn:DK; simpl; congruence.
    - unfold au_delete, au_save. destruct (is_empty u), (t_get u (s_tab s)), (s_dir_ok s) eqn:DK; simpl; congruence.
    - destruct (is_empty u); reflexivity.
    - destruct (s_dir_ok s) eqn:DK; [destruct (au_load cfg (s_fs s))|]; simpl; congruence.
  Qed.

  (* every answer of a step is one the statement allows, and the accounts it then speaks of are those of the table *)
  Lemma step_refines (cfg : acfg) (s : austate) (m : amap) (o : aop) :
    inv cfg s -> R (s_tab s) m -> op_gen (a_alg cfg) o ->
    match o_step H bverify (a_alg cfg) (s_dir_ok s) m o (snd (step cfg s o)) with
    | Some m' => R (s_tab (fst (step cfg s o))) m'
    | None => False
    end.
  Proof.
    intros [WT [d [G [WD LD]]]] RR GS. pose proof RR as [NM LE].
    assert (V : forall u p, cred_ok H bverify (a_alg cfg) m u p = validate (a_alg cfg) (s_tab s) u p).
    { intros. symmetry. apply (validate_lookup_eq _ _ _ _ _ LE). }
    assert (SA : same_accounts d m = true).
    { apply same_accounts_ok; [apply WD|exact NM|]. exact (lookup_eq_trans _ _ _ (lookup_eq_sym _ _ LD) LE). }
    destruct o as [u p g|u|u|pg sz|dd|b|u p|pre v c| |]; simpl.
    - (* Update *)
      rewrite au_update_eq. destruct (is_empty u) eqn:EU; simpl; [exact RR|].
      destruct (gen_password H (a_alg cfg) p g) as [h|] eqn:GP; [|exact RR].
      destruct (s_dir_ok s); simpl; [|exact RR].
      assert (matches (a_alg cfg) h p = true) as ->; [|apply R_set, RR].
      eapply matches_generated; [exact GP|]. intros A. rewrite A in GP. simpl in GP. subst g. now apply GS.
    - (* Delete *)
      unfold au_delete, au_save. destruct (is_empty u) eqn:EU; simpl; [exact RR|].
      destruct (t_get u (s_tab s)) as [ho|] eqn:GO; simpl; [|apply R_del_absent; assumption].
      destruct (s_dir_ok s); simpl; [apply R_del; [apply WT|exact RR]|].
      apply (R_lookup (s_tab s)); [apply rollback_delete, GO|exact RR].
    - (* Get *)
      destruct (is_empty u) eqn:EU; simpl; [exact RR|].
      rewrite <- LE. destruct (t_get u (s_tab s)) as [h|]; simpl; rewrite ?str_eqb_refl; exact RR.
    - (* List *)
      rewrite list_page_ok by (try apply WT; assumption). exact RR.
    - exact RR.
    - exact RR.
    - (* Validate *)
      rewrite V, eqb_reflx. exact RR.
    - (* Auth *)
      rewrite V.
      assert (eqb (is_ok (wrapper (a_alg cfg) (s_tab s) (fun _ : aconnect => pre) v c))
                  (is_ok pre && validate (a_alg cfg) (s_tab s) (ac_username c) (ac_password c)) = true) as ->; [|exact RR].
      unfold au_wrapper. destruct pre; simpl; [|reflexivity].
      destruct (validate (a_alg cfg) (s_tab s) (ac_username c) (ac_password c)); [reflexivity|].
      destruct (au_v3x v); reflexivity.
    - (* Reload *)
      destruct (s_dir_ok s); simpl; [|exact RR]. rewrite (au_load_wf _ _ _ G WD). simpl. rewrite SA. exact RR.
    - (* File *)
      destruct (s_dir_ok s); simpl; [|exact RR]. rewrite G, SA. exact RR.
  Qed.

  Lemma gen_sound_cons (a : halg) (o : aop) (r : list aop) :
    gen_sound bverify a (o :: r) = true -> op_gen a o /\ gen_sound bverify a r = true.
  Proof.
    unfold gen_sound, op_gen. destruct a; simpl.
    1-3: (intros _; split; [|reflexivity]; destruct o as [? ? [?|]| | | | | | | | |]; try exact I; discriminate).
    intros E. apply andb_true_iff in E. destruct E as [E1 E2]. split; [|exact E2].
    destruct o as [? ? [?|]| | | | | | | | |]; try exact I. intros _. exact E1.
  Qed.

  Lemma run_refines (cfg : acfg) (ops : list aop) : forall (s : austate) (m : amap),
    inv cfg s -> R (s_tab s) m ->
    gen_sound bverify (a_alg cfg) ops = true ->
    o_run H bverify (a_alg cfg) (s_dir_ok s) m ops (snd (run cfg s ops)) = true.
  Proof.
    induction ops as [|o r IH]; intros s m I RR GS; [reflexivity|].
    rewrite run_cons. simpl.
    apply gen_sound_cons in GS. destruct GS as [G1 G2].
    pose proof (step_refines cfg s m o I RR G1) as R'.
    destruct (o_step H bverify (a_alg cfg) (s_dir_ok s) m o (snd (step cfg s o))) as [m'|]; [|contradiction].
    rewrite <- (step_avail cfg s o). apply IH; [apply step_inv, I|exact R'|exact G2].
  Qed.

  Lemma start_some_wf (cfg : acfg) (d : pwfile) (cwd : N) :
    wf_tab d ->
    au_start cfg (Some d) cwd =
    Some {| s_tab := d; s_fs := [(load_path cfg, d)]; s_cwd := cwd; s_dir_ok := true |}.
  Proof.
    intros W. unfold au_start, init_fs. rewrite (au_load_wf cfg [(load_path cfg, d)] d); auto.
    simpl. now rewrite path_eqb_refl.
  Qed.

  Lemma start_some_not_wf (cfg : acfg) (d : pwfile) (cwd : N) :
    ~ wf_tab d -> au_start cfg (Some d) cwd = None.
  Proof.
    intros W. unfold au_start, init_fs.
    rewrite (au_load_some cfg [(load_path cfg, d)] d) by (simpl; now rewrite path_eqb_refl).
    destruct (load_check [] d) eqn:LC; [|reflexivity]. apply load_check_wf in LC. tauto.
  Qed.

  (* every answer of the model, at every step of every history, is one the statement allows *)
  Theorem model_refines_oracle (cfg : acfg) (init : option pwfile) (cwd : N) (ops : list aop) :
    gen_sound bverify (a_alg cfg) ops = true ->
    c19_ok H bverify cfg init ops (au_model_outs H bverify cfg init cwd ops) = true.
  Proof.
    intros GS. unfold c19_ok, au_model_outs in *.
    destruct init as [d|].
    - destruct (file_wf d) eqn:FW.
      + apply file_wf_spec in FW. rewrite (start_some_wf cfg d cwd FW) in *.
        apply (run_refines cfg ops {| s_tab := d; s_fs := [(load_path cfg, d)]; s_cwd := cwd; s_dir_ok := true |}); auto.
        * eapply start_inv; apply (start_some_wf cfg d cwd FW).
        * split; [apply FW|]. intros k; reflexivity.
      + rewrite start_some_not_wf; [reflexivity|]. intros W. apply file_wf_spec in W. congruence.
    - destruct (au_start cfg None cwd) as [s0|] eqn:ST; [|discriminate ST].
      pose proof (start_inv _ _ _ _ ST) as I0. injection ST as <-.
      apply (run_refines cfg ops _ [] I0); [|exact GS]. split; [constructor|]. intros k; reflexivity.
  Qed.

  (* the witness of the repaired hole of the hook: wrong credentials, client version 6 *)
  Lemma unknown_version_repaired :
    exists v c, known_version v = false /\
      wrapper Plain [] (fun _ => HkOk) v c = HkErr NOT_AUTHORIZED /\
      validate Plain [] (ac_username c) (ac_password c) = false.
  Proof.
    exists 6, {| ac_version := 6; ac_cid := [99]; ac_uflag := true; ac_pflag := true; ac_user := [117];
                 ac_pass := [112]; ac_authmethod := None; ac_authdata := None |}.
    repeat split; reflexivity.
  Qed.

  (* a v5 CONNECT with the right credentials and an Authentication Method is refused *)
  Lemma accept_iff_full_refuted :
    exists (t : acctab) (c : aconnect),
      connect_servable false c = true /\
      validate Plain t (ac_username c) (ac_password c) = true /\
      broker_connect H bverify false Plain t c = Some UNSPECIFIED_ERROR.
  Proof.
    exists [([117], [112])],
      {| ac_version := 5; ac_cid := [99]; ac_uflag := true; ac_pflag := true; ac_user := [117];
         ac_pass := [112]; ac_authmethod := Some [120]; ac_authdata := None |}.
    repeat split; reflexivity.
  Qed.
End AuthProofs.
