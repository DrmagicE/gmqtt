From Coq Require Import List NArith Bool Arith Lia ZifyN ZifyNat ZifyBool.
Import ListNotations.
From GM Require Import Base.Topic Base.Msg Model.SubTrie Model.SubSpec Model.RetTrie Model.FedQueue Model.FedRoute
  Oracle.C02O Oracle.C17O Proofs.TopicP Proofs.SubTrieP Proofs.RetTrieP Proofs.FedRouteP Proofs.FedSharedP.
Open Scope N_scope.

(* The plain part of the statement holds for every federation, with share groups present. *)

Lemma has_member_any t G l : has_member t G l = true -> has_any t l = true.
Proof.
  intros H. apply has_member_iff in H as (cl & g & f & Hin & _ & Hm & _). apply existsb_exists. now exists (cl, g, f).
Qed.

Lemma has_plain_any t l : has_plain t l = true -> has_any t l = true.
Proof. intros H. apply has_plain_iff in H as (cl & f & Hin & Hm). apply existsb_exists. now exists (cl, [], f). Qed.

Lemma in_emsgs n q n' m' : In (n', m') (emsgs n q) -> n' = n /\ In (EMsg m') q.
Proof.
  unfold emsgs. intros H. apply in_flat_map in H as (e & He & H). destruct e as [g f|t|m0]; [destruct H|destruct H|].
  destruct H as [E|[]]. injection E as <- <-. now split.
Qed.

(* the plain part of the oracle holds of the model for every federation in its stable
   state, whatever share groups and round-robin counters there are *)
Lemma fr_plain_ok_general c cnt m :
  wf_case c = true -> NoDup (rc_peers c) ->
  m_retained m = false -> m_topic m <> [] -> no_wild_levels (split (m_topic m)) = true ->
  plain_ok c m (case_obs c cnt m) = true.
Proof.
  intros Hwf Hnd Hr Ht Hnw. set (t := m_topic m) in *. set (st := case_state c cnt). set (a1 := shared_acc st m).
  destruct (case_SI c cnt m Hwf Ht Hnw) as (_ & H2 & H3). fold t st a1 in H2, H3.
  pose proof (case_queue c cnt m Hwf Hr Ht Hnw) as HQ. pose proof (case_count c cnt m Hwf Hnd Hr Ht Hnw) as Hcount.
  fold t st a1 in HQ, Hcount.
  unfold plain_ok. fold t. apply andb_true_iff. split; [apply andb_true_iff; split|].
  - (* integrity *)
    unfold integrity_ok. apply forallb_forall. intros [n' m'] Hin. rewrite (case_obs_eq c cnt m Hr) in Hin. cbn [po_sent] in Hin.
    apply in_flat_map in Hin as ([n q] & Hp & Hin). cbn [fst snd] in Hin. apply in_emsgs in Hin as [-> Hq].
    pose proof (case_keys c cnt m Hr) as Hkeys.
    assert (Hn : In n (rc_peers c)) by (rewrite <- Hkeys; apply in_map_iff; now exists (n, q)).
    cbn [fst snd]. apply mem_str_In in Hn as Hn'. rewrite Hn'. cbn [andb].
    apply In_aget in Hp; [|rewrite Hkeys; exact Hnd]. fold st in Hp. rewrite (HQ n Hn) in Hp. injection Hp as <-.
    destruct (mem_str n (sa_sent a1) || mem_str n (fr_nonshared st t)); [|destruct Hq].
    destruct Hq as [E|[]]. injection E as <-. apply msg_eqb_refl.
  - (* the peers *)
    apply forallb_forall. intros p Hp. rewrite (Hcount p Hp).
    assert (HNS : mem_str p (fr_nonshared st t) = has_plain t (subs_of p c)).
    { apply eq_true_iff_eq. rewrite mem_str_In. unfold st. rewrite (nonshared_case c cnt t Hwf Ht Hnw). tauto. }
    rewrite HNS. destruct (mem_str p (sa_sent a1)) eqn:Hs; cbn [orb].
    + apply mem_str_In in Hs. destruct (H2 p Hs Hp) as [G HG]. rewrite (has_member_any t G _ HG).
      cbn [orb andb N.leb N.eqb]. now rewrite orb_true_r.
    + destruct (has_plain t (subs_of p c)) eqn:Hpl; [now rewrite (has_plain_any t _ Hpl)|].
      cbn [negb orb andb]. now rewrite orb_true_r.
  - (* the origin's own non-shared subscribers *)
    apply forallb_forall. intros [[cl g] f] Hin. cbn [fst snd].
    destruct (is_empty g && lsub_match t (cl, g, f)) eqn:Hm; [|reflexivity]. cbn [negb orb].
    assert (Hlp : fr_local_plain st t = true).
    { apply (local_plain_true c cnt t Hwf Ht Hnw). unfold has_plain. apply existsb_exists. exists (cl, g, f). split; [exact Hin|exact Hm]. }
    unfold origin_serves_plain. rewrite (case_obs_eq c cnt m Hr). cbn [po_drop po_opts]. fold t st a1. rewrite Hlp in H3.
    destruct (sa_sent a1); destruct H3 as [-> ->]; [reflexivity|].
    cbn [negb andb]. unfold opts_wf, q_match. cbn [io_topic io_client io_mt io_sys io_nonshared is_empty].
    rewrite str_eqb_refl. cbn [andb]. now destruct (starts_dollar f).
Qed.
