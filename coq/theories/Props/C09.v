(* C09 - durable (redis) sessions survive a broker crash at any point.
   Statements only; proofs in Proofs/CrashP.v and Proofs/CrashQueueP.v.  Models: Model/Redis.v (the store and its
   commands), Model/RQueue.v (the redis queue), Model/Crash.v (for every client event the
   journal = storage commands interleaved with the packets the broker writes; `recover` =
   server.init).  `fixes` switches three behaviours that used to deviate from the statement;
   `cur_code` (= Crash.code_fixes) is /repo as it is, with all three repaired (41101f9, 9588927,
   892f3ad); `old_code` is the behaviour before, kept for the regression examples below.

   Proved for ALL histories h and ALL cut points k of the storage commands:
     - start-up succeeds on the store left by the first k commands
     - the stored subscription hashes are the replay of the first k commands; a fresh broker
       loads exactly these tables for every client with a stored session, under the same
       client id; for complete histories the replay is the live broker's index
     - a session whose CONNECT was answered by CONNACK is found again under the same client id
       after a cut anywhere in any continuation without a CONNECT / close of that client
     - a QoS 2 packet id whose PUBLISH was new to the broker is in the stored set after a cut
       anywhere in any continuation by other clients, and a broker restarted on such a store
       answers the retransmitted PUBLISH of the reconnected client with PUBREC and nothing else
     - unack store (Proofs/CrashQueueP.v): every operation is one command, so the store left
       by any prefix of the journal is the store after a whole number of operations, and the
       reloaded id set is the abstract set after them
     - session queue (Proofs/CrashQueueP.v), for the redis queue model as repaired: the list
       reloaded after any prefix is the list after the last completed operation with a prefix of
       the commands of the operation in progress applied; run level: every reloaded element is a
       supplied (Add / Replace) element up to packet id and expiry, the list has at most one slot
       per RPUSH and only Add pushes; per operation in progress: the exact intermediate lists of
       Add, ReadInflight and Read, no element missing but the reported victims, the in-flight
       entries in front of the queued ones in their order
   Not proved at run level: clauses (a) and (c) of the queue for arbitrary histories - they hold per
   operation on a consistent store; the induction would need that consistency (partition, cursor,
   length, read cache coherent with the list, distinct packet ids) is kept by every completed
   operation under the caller's discipline (see the end of this file). *)
From Coq Require Import List NArith ZArith.
Import ListNotations.
From GM Require Import Base.Topic Base.Msg Model.SubTrie Model.Queue Model.Redis Model.RQueue Model.Crash Proofs.CrashP Proofs.CrashQueueP.

(* start-up never fails on an intermediate store state *)
Theorem C09_startup_any_prefix :
  forall (fx : fixes) (h : list bevent) (k : nat),
    recover fx (exec_all [] (firstn k (jcmds (journal fx h)))) <> None.
Proof. exact startup_any_prefix. Qed.
Print Assumptions C09_startup_any_prefix.

(* ... also for the events that follow a restart (crash after crash) *)
Theorem C09_startup_after_restart :
  forall (fx : fixes) (s : rstore) (b : broker) (h : list bevent) (k : nat),
    wt_store s -> recover fx s = Some b ->
    recover fx (exec_all s (firstn k (jcmds (snd (brun fx b h))))) <> None.
Proof. exact startup_after_restart. Qed.
Print Assumptions C09_startup_after_restart.

(* C09, session clause.  After any history h1, a CONNECT of c answered by a CONNACK, and any
   continuation h2 that contains no CONNECT / connection close of c, cut after ANY number k of
   its storage commands: the broker started on what is left has the session of c, under the
   client id c (its queue and unack objects are created for it by server.init) *)
Theorem C09_any_prefix_sessions :
  forall (fx : fixes) (h1 h2 : list bevent) (c : cid) (clean : bool) (expiry : N) (pids : list N) (sp : bool) (k : nat),
    let b1 := fst (brun fx broker0 h1) in
    let ev := EConnect c clean expiry pids in
    let b2 := fst (bstep fx b1 ev) in
    In (JOut (OConnack c sp)) (snd (bstep fx b1 ev)) ->
    c <> [] -> Forall (spares c) h2 ->
    exists br, recover fx (exec_all (b_store b2) (firstn k (jcmds (snd (brun fx b2 h2))))) = Some br /\ b_get c br <> None.
Proof. exact session_recovered_any_prefix. Qed.
Print Assumptions C09_any_prefix_sessions.

(* the CONNACK is only written after the session hash (naming the client) is in the store *)
Theorem C09_connack_after_session_stored :
  forall (fx : fixes) (b : broker) (c : cid) (clean : bool) (expiry : N) (pids : list N) (sp : bool),
    binv b -> wt_store (b_store b) ->
    In (JOut (OConnack c sp)) (snd (bstep fx b (EConnect c clean expiry pids))) ->
    has_session c (b_store (fst (bstep fx b (EConnect c clean expiry pids)))).
Proof. exact connack_has_session. Qed.
Print Assumptions C09_connack_after_session_stored.

(* the store after any prefix holds exactly the subscription tables obtained by replaying the
   subscription effects (HSET / HDEL / DEL on sub:<id>) of the same prefix *)
Theorem C09_subs_store_any_prefix :
  forall (fx : fixes) (h : list bevent) (k : nat),
    let cmds := firstn k (jcmds (journal fx h)) in
    sub_rel (exec_all [] cmds) (fold_left mem_eff cmds []).
Proof. exact subs_any_prefix. Qed.
Print Assumptions C09_subs_store_any_prefix.

(* C09, subscription clause: cut anywhere, restart: every client with a stored session gets
   back, under its own client id, exactly the subscriptions the commands before the cut
   produced (acknowledged ones, plus/minus a part of the single request in flight) *)
Theorem C09_any_prefix_subscriptions :
  forall (fx : fixes) (h : list bevent) (k : nat),
    let cmds := firstn k (jcmds (journal fx h)) in
    let s := exec_all [] cmds in
    (fix_trim fx = true \/ Forall (fun c => trim_left c = c) (session_ids s)) ->
    exists b, recover fx s = Some b /\
      forall c t, bs_get c t (b_subs b) =
                  if mem_cid c (session_ids s) then bs_get c t (fold_left mem_eff cmds []) else None.
Proof. exact subs_recovered_any_prefix. Qed.
Print Assumptions C09_any_prefix_subscriptions.

(* the replay of a complete journal is the live broker's own subscription index: what its
   SUBACK / UNSUBACK packets acknowledged *)
Theorem C09_replay_is_acknowledged :
  forall (fx : fixes) (h : list bevent),
    fix_hdel fx = true \/ Forall no_unsub h ->
    b_subs (fst (brun fx broker0 h)) = fold_left mem_eff (jcmds (journal fx h)) [].
Proof. exact journal_subs. Qed.
Print Assumptions C09_replay_is_acknowledged.

(* the store the live broker holds is the execution of its journal *)
Theorem C09_journal_is_store :
  forall (fx : fixes) (h : list bevent),
    b_store (fst (brun fx broker0 h)) = exec_all [] (jcmds (journal fx h)).
Proof. exact journal_store. Qed.
Print Assumptions C09_journal_is_store.

(* the code as it is: no hypothesis left.  After ANY complete history, a restarted broker has,
   for every client with a stored session, exactly the subscriptions of the live broker's index *)
Theorem C09_subscriptions_recovered :
  forall (h : list bevent),
    let s := exec_all [] (jcmds (journal cur_code h)) in
    exists b, recover cur_code s = Some b /\
      forall c t, bs_get c t (b_subs b) =
                  if mem_cid c (session_ids s) then bs_get c t (b_subs (fst (brun cur_code broker0 h))) else None.
Proof.
  intros h s.
  destruct (subs_recovered_any_prefix cur_code h (length (jcmds (journal cur_code h))) (or_introl eq_refl))
    as (b & Hb & Hg).
  rewrite firstn_all in Hb, Hg. exists b. split; [exact Hb|].
  intros c t. rewrite Hg. rewrite (journal_subs cur_code h (or_introl eq_refl)). reflexivity.
Qed.
Print Assumptions C09_subscriptions_recovered.

(* ... and cut anywhere (the instance of C09_any_prefix_subscriptions for the code as it is) *)
Theorem C09_any_prefix_subscriptions_now :
  forall (h : list bevent) (k : nat),
    let cmds := firstn k (jcmds (journal cur_code h)) in
    let s := exec_all [] cmds in
    exists b, recover cur_code s = Some b /\
      forall c t, bs_get c t (b_subs b) =
                  if mem_cid c (session_ids s) then bs_get c t (fold_left mem_eff cmds []) else None.
Proof. intros h k. exact (subs_recovered_any_prefix cur_code h k (or_introl eq_refl)). Qed.
Print Assumptions C09_any_prefix_subscriptions_now.

(* C09, QoS 2 clause.  After any history h1, a QoS 2 PUBLISH of c with packet id pid that is new
   to the broker (its HSET precedes the PUBREC), and any continuation h2 by other clients cut
   after ANY number k of its storage commands: pid is in the stored set of c, and a broker
   started on that store, in which c has a persistent session, answers the PUBLISH that c
   retransmits after reconnecting without clean start with PUBREC and nothing else - no
   storage command, nothing appended to any queue *)
Theorem C09_qos2_duplicates_any_prefix :
  forall (h1 h2 : list bevent) (c : cid) (pid : N) (topic payload : str) (k : nat),
    let b1 := fst (brun cur_code broker0 h1) in
    let ev := EPublish c 2 pid topic payload in
    let b2 := fst (bstep cur_code b1 ev) in
    let s := exec_all (b_store b2) (firstn k (jcmds (snd (brun cur_code b2 h2)))) in
    In (CHSet (unack_key c) [(dec pid, BRaw ONE)]) (jcmds (snd (bstep cur_code b1 ev))) ->
    (pid < 65536)%N -> Forall (fun e => evc e <> c) h2 ->
    memN pid (stored_unack c s) = true /\
    forall (b : broker) (exp expiry : N) (pids : list N),
      recover cur_code s = Some b ->
      sess_get c s = Some (c, exp) -> exp <> 0%N -> c <> [] -> mem_cid c (session_ids s) = true ->
      snd (bstep cur_code (fst (bstep cur_code b (EConnect c false expiry pids))) ev) = [JOut (OPubrec c pid)].
Proof.
  intros h1 h2 c pid topic payload k b1 ev b2 s Hin Hp Hev.
  pose proof (qos2_id_stored_any_prefix cur_code h1 h2 c pid topic payload k Hin Hev) as Hst.
  split; [exact Hst|].
  intros b exp expiry pids Hr Hsg Hexp Hc Hm.
  exact (qos2_duplicate_recognised cur_code s b c exp expiry pid pids topic payload eq_refl Hr Hsg Hexp Hc Hm Hst).
Qed.
Print Assumptions C09_qos2_duplicates_any_prefix.

(* the two halves for any setting of the flags *)
Theorem C09_qos2_id_stored_any_prefix :
  forall (fx : fixes) (h1 h2 : list bevent) (c : cid) (pid : N) (topic payload : str) (k : nat),
    let b1 := fst (brun fx broker0 h1) in
    let ev := EPublish c 2 pid topic payload in
    let b2 := fst (bstep fx b1 ev) in
    In (CHSet (unack_key c) [(dec pid, BRaw ONE)]) (jcmds (snd (bstep fx b1 ev))) ->
    (pid < 65536)%N -> Forall (fun e => evc e <> c) h2 ->
    memN pid (stored_unack c (exec_all (b_store b2) (firstn k (jcmds (snd (brun fx b2 h2)))))) = true.
Proof. intros fx h1 h2 c pid topic payload k b1 ev b2 Hin _. now apply qos2_id_stored_any_prefix. Qed.
Print Assumptions C09_qos2_id_stored_any_prefix.

(* regression examples: the three histories that refuted the statement before the repairs now
   pass (the same three are corpus/C09/*.sx for the real broker); under `old_code` the model
   still shows what the defects did *)
Example C09_unsubscribe_history :
  recovered_subs cur_code h_unsub (length (jcmds (journal cur_code h_unsub))) = Some [] /\
  recovered_subs old_code h_unsub (length (jcmds (journal old_code h_unsub))) = Some [(C1, sub_a)].
Proof. split; [exact unsub_kept_now|exact (proj2 unsub_lost_old_code)]. Qed.

Example C09_client_id_history :
  recovered_subs cur_code h_trim (length (jcmds (journal cur_code h_trim))) = Some [(SUB1, sub_a)] /\
  recovered_subs old_code h_trim (length (jcmds (journal old_code h_trim))) = Some [([49]%N, sub_a)].
Proof. split; [exact clientid_kept_now|exact clientid_mangled_old_code]. Qed.

Example C09_qos2_duplicate_history :
  resend_appends cur_code = Some 0%nat /\ resend_appends old_code = Some 1%nat.
Proof. split; [exact qos2_duplicate_recognised_now|exact qos2_duplicate_accepted_old_code]. Qed.

(* non-vacuity: a history with two clients, (un)subscriptions, QoS 1/2 publishes to an online and
   an offline subscriber, acknowledgements and a reconnection produces an 18 command journal;
   cut after 13 commands the recovered broker has both sessions and the first subscription *)
Definition ex_hist : list bevent :=
  [EConnect C1 true 3600 []; EConnect C2 true 3600 []; ESubscribe C2 10 [sub_a];
   EPublish C1 1 20 TA PM; EPoll C2 [1%N]; EPuback C2 1;
   EClose C2; EPublish C1 2 21 TA PM; EPubrel C1 21; EConnect C2 false 3600 [2%N]; EPubrec C2 2; EPubcomp C2 2;
   EUnsubscribe C2 11 [TA]].
Example C09_nonvacuous :
  length (jcmds (journal cur_code ex_hist)) = 18%nat /\
  (match recover cur_code (exec_all [] (firstn 13 (jcmds (journal cur_code ex_hist)))) with
   | Some b => (map fst (b_clients b), bs_entries (b_subs b))
   | None => ([], [])
   end) = ([C1; C2], [(C2, sub_a)]).
Proof. vm_compute. split; reflexivity. Qed.

(* ==================================================================================== *)
(* C09, unack clause.  For ANY history of operations on the unack store of a client (16 bit packet
   ids) and ANY prefix of its command journal: the prefix is the journal of the first j operations
   for some j (an operation is a single command: a cut never falls inside one), and the id set a
   restarted broker reloads is the abstract set after those j operations *)
Theorem C09_unack_any_prefix :
  forall (fx : fixes) (c : cid) (ops : list ruop) (s : rstore) (cache : list N) (k : nat),
    ustore_ok c s -> ucache_ok c s cache -> Forall ruop_u16 ops ->
    exists j, (j <= length ops)%nat /\
      firstn k (snd (ru_run fx c s cache ops)) = snd (ru_run fx c s cache (firstn j ops)) /\
      seteq16 (stored_unack c (exec_all s (firstn k (snd (ru_run fx c s cache ops)))))
              (fold_left ua_spec (firstn j ops) (stored_unack c s)).
Proof. exact unack_any_prefix. Qed.
Print Assumptions C09_unack_any_prefix.

(* ... from the empty store *)
Theorem C09_unack_any_prefix_fresh :
  forall (fx : fixes) (c : cid) (ops : list ruop) (k : nat),
    Forall ruop_u16 ops ->
    exists j, (j <= length ops)%nat /\
      firstn k (snd (ru_run fx c [] [] ops)) = snd (ru_run fx c [] [] (firstn j ops)) /\
      seteq16 (stored_unack c (exec_all [] (firstn k (snd (ru_run fx c [] [] ops))))) (fold_left ua_spec (firstn j ops) []).
Proof. exact unack_any_prefix_fresh. Qed.
Print Assumptions C09_unack_any_prefix_fresh.

Example C09_unack_example :
  length (snd (ru_run cur_code [99%N] [] [] xu_ops)) = 4%nat /\
  map (fun k => stored_unack [99%N] (exec_all [] (firstn k (snd (ru_run cur_code [99%N] [] [] xu_ops))))) [0; 1; 2; 3; 4]%nat
  = [[]; []; [5%N]; [5%N; 7%N]; [7%N]].
Proof. exact unack_example. Qed.

(* ==================================================================================== *)
(* C09, queue clause.  `rq_journal` is the command journal of the queue model (Model/RQueue.v) *)
Theorem C09_queue_journal_is_model_journal :
  forall (ops : list rqop) (s : rstore) (q : rq), snd (rq_run s q ops) = rq_journal s q ops.
Proof. exact rq_journal_run. Qed.
Print Assumptions C09_queue_journal_is_model_journal.

(* after ANY prefix of the journal of ANY history: the stored list (what LRANGE returns to the restarted
   broker) is the list after the last completed operation with a prefix of the commands of the next
   operation applied to it *)
Theorem C09_queue_cut_decomposition :
  forall (ops : list rqop) (s : rstore) (q : rq) (k : nat),
    qstore_ok (rq_key q) s ->
    exists s' q' rest k',
      reach s q ops s' q' rest /\ rq_key q' = rq_key q /\ qstore_ok (rq_key q) s' /\
      lview (rq_key q) (exec_all s (firstn k (rq_journal s q ops))) =
        match rest with
        | [] => lview (rq_key q) s'
        | o :: _ => lexec_all (lview (rq_key q) s') (firstn k' (r_cmds (rq_step s' q' o)))
        end.
Proof. exact queue_cut_decomposition. Qed.
Print Assumptions C09_queue_cut_decomposition.

(* which operations can be cut at all: Remove, Replace, Init, Close and the restart issue at most one command *)
Theorem C09_queue_atomic_operations :
  forall (s : rstore) (q : rq) (o : rqop),
    match o with
    | ROp (OAdd _ _) | ROp (ORead _ _) | ROp (OReadInflight _ _) => True
    | _ => (length (r_cmds (rq_step s q o)) <= 1)%nat
    end.
Proof. exact atomic_ops. Qed.
Print Assumptions C09_queue_atomic_operations.

(* Add: nothing (the newcomer is the reported victim), RPUSH of the newcomer, or LREM of one victim - an
   element of the stored list, the one reported dropped - followed by that RPUSH *)
Theorem C09_queue_add_commands :
  forall (now : N) (e : elem) (s : rstore) (q : rq),
    let x := rq_add now e s q in
    (r_cmds x = [] /\ add_reports (r_out x) e) \/
    (r_cmds x = [CRPush (rq_key q) (BElem e)] /\ r_out x = RAdd [EvQueue 1]) \/
    (exists d, r_cmds x = [CLRem (rq_key q) (BElem d); CRPush (rq_key q) (BElem e)] /\
               add_reports (r_out x) d /\ In (BElem d) (lview (rq_key q) s)).
Proof. exact add_shape. Qed.
Print Assumptions C09_queue_add_commands.

(* (a) Add in progress: the list is the old one, possibly without the single reported victim, possibly with
   the newcomer appended *)
Theorem C09_queue_add_in_progress :
  forall (now : N) (e : elem) (s : rstore) (q : rq) (k' : nat),
    let L := lview (rq_key q) s in
    let x := rq_add now e s q in
    let L' := lexec_all L (firstn k' (r_cmds x)) in
    L' = L \/ L' = L ++ [BElem e] \/
    exists d, add_reports (r_out x) d /\ In (BElem d) L /\
              (L' = remove_first (BElem d) L \/ L' = remove_first (BElem d) L ++ [BElem e]).
Proof. exact add_cut_lists. Qed.
Print Assumptions C09_queue_add_in_progress.

(* (a, c) ReadInflight in progress: same elements, same order, some in-flight expiries rewritten *)
Theorem C09_queue_readinflight_in_progress :
  forall (now : N) (n : nat) (s : rstore) (q : rq) (E : list elem) (k' : nat),
    qstore_ok (rq_key q) s -> lview (rq_key q) s = map BElem E -> (0 <= rq_cur q)%Z ->
    exists E', lexec_all (lview (rq_key q) s) (firstn k' (r_cmds (rq_read_inflight now n s q))) = map BElem E' /\
               Forall2 upto_expiry E' E.
Proof. exact readinflight_cut. Qed.
Print Assumptions C09_queue_readinflight_in_progress.

(* (a, c) Read in progress on a consistent store: a prefix of the window was processed (`rd`): each of its
   elements was removed for a documented reason (D) or rewritten into an in-flight entry appended, in
   order, to the in-flight entries; the rest of the list is untouched *)
Theorem C09_queue_read_in_progress :
  forall (now : N) (pids : list N) (s : rstore) (q : rq) (infl qd : list elem) (k' : nat),
    qstore_ok (rq_key q) s -> lview (rq_key q) s = map BElem (infl ++ qd) ->
    Forall (fun e => e_id e <> 0%N) infl -> Forall (fun e => e_id e = 0%N) qd ->
    rq_cur q = Z.of_nat (length infl) -> Forall (fun p => p <> 0%N) pids ->
    exists D A' l',
      rd infl (firstn (length pids) qd) D A' l' /\ Forall (removable now (rq_limit q) (rq_v5 q)) D /\
      lexec_all (lview (rq_key q) s) (firstn k' (r_cmds (rq_read now pids s q))) =
        map BElem (A' ++ l' ++ skipn (length pids) qd).
Proof. exact read_cut. Qed.
Print Assumptions C09_queue_read_in_progress.

Theorem C09_queue_read_in_progress_order :
  forall (A l D A' l' : list elem), rd A l D A' l' ->
    Forall (fun e => e_id e <> 0%N) A -> Forall (fun e => e_id e = 0%N) l ->
    (exists H, A' = A ++ H) /\ (exists pre, l = pre ++ l') /\
    Forall (fun e => e_id e <> 0%N) A' /\ Forall (fun e => e_id e = 0%N) l'.
Proof. exact rd_front. Qed.
Print Assumptions C09_queue_read_in_progress_order.

Theorem C09_queue_read_in_progress_no_loss :
  forall (A l D A' l' : list elem), rd A l D A' l' ->
    (forall a, In a A -> In a A') /\
    (forall v, In v l -> In v D \/ (exists v', rewritten v v' /\ In v' A') \/ In v l').
Proof. exact rd_complete. Qed.
Print Assumptions C09_queue_read_in_progress_no_loss.

(* (c) for every operation in progress: in-flight entries in front before => in front after any part of
   the operation's commands *)
Theorem C09_queue_in_flight_first :
  forall (s : rstore) (q : rq) (o : rqop) (E : list elem) (k' : nat),
    qstore_ok (rq_key q) s -> lview (rq_key q) s = map BElem E -> fi E -> op_pre q E o ->
    exists E', lexec_all (lview (rq_key q) s) (firstn k' (r_cmds (rq_step s q o))) = map BElem E' /\ fi E'.
Proof. exact one_op_order. Qed.
Print Assumptions C09_queue_in_flight_first.

Theorem C09_queue_in_flight_first_means :
  forall (l : list elem), fi l ->
    exists a b, l = a ++ b /\ Forall (fun e => e_id e <> 0%N) a /\ Forall (fun e => e_id e = 0%N) b.
Proof. exact fi_split. Qed.
Print Assumptions C09_queue_in_flight_first_means.

(* (b) run level, ANY prefix of ANY history: every reloaded element is, up to packet id and expiry, an
   element supplied by an Add or a Replace of the history (or stored initially): nothing is invented *)
Theorem C09_queue_cut_provenance :
  forall (G : list elem) (ops : list rqop) (s : rstore) (q : rq) (k : nat),
    qstore_ok (rq_key q) s -> Forall (prov G) (lview (rq_key q) s) -> incl (supplied ops) G ->
    Forall (prov G) (lview (rq_key q) (exec_all s (firstn k (rq_journal s q ops)))).
Proof. exact queue_cut_provenance. Qed.
Print Assumptions C09_queue_cut_provenance.

(* (b) run level, no duplication: one list slot per executed RPUSH at most; only Add issues RPUSH, once *)
Theorem C09_queue_cut_length :
  forall (ops : list rqop) (s : rstore) (q : rq) (k : nat),
    qstore_ok (rq_key q) s ->
    (length (lview (rq_key q) (exec_all s (firstn k (rq_journal s q ops)))) <=
     length (lview (rq_key q) s) + length (filter is_rpush (firstn k (rq_journal s q ops))))%nat.
Proof. exact queue_cut_length. Qed.
Print Assumptions C09_queue_cut_length.

Theorem C09_queue_only_add_pushes :
  forall (s : rstore) (q : rq) (o : rqop),
    match o with
    | ROp (OAdd _ _) => (length (filter is_rpush (r_cmds (rq_step s q o))) <= 1)%nat
    | _ => filter is_rpush (r_cmds (rq_step s q o)) = []
    end.
Proof. exact only_add_pushes. Qed.
Print Assumptions C09_queue_only_add_pushes.

(* non-vacuity: bound 2; the third Add drops the queued QoS 0 message (LREM e2, RPUSH e3), then Read hands out
   e1 and e3 with packet ids 7 and 8 (two LSETs).  Tags, then packet ids, of the list reloaded after k commands *)
Example C09_queue_example :
  let q0 := rq_new 2 0 [99%N] in
  let J := rq_journal [] q0 xq_hist in
  J = snd (rq_run [] q0 xq_hist) /\ length J = 7%nat /\
  map (fun k => map e_tag (elems_of (lview (rq_key q0) (exec_all [] (firstn k J))))) [3; 4; 5; 6; 7]%nat
    = [[1; 2]; [1]; [1; 3]; [1; 3]; [1; 3]]%N /\
  map (fun k => map e_id (elems_of (lview (rq_key q0) (exec_all [] (firstn k J))))) [5; 6; 7]%nat
    = [[0; 0]; [7; 0]; [7; 8]]%N.
Proof. exact queue_example. Qed.

(* What the run level induction for (a) and (c) still needs: an invariant of (store, queue object) kept
   by every COMPLETED operation - the list is in-flight entries (distinct non-zero packet ids) followed by
   queued ones (packet id 0), 0 <= current <= number of in-flight entries with equality once drained,
   len = length of the list, readCache = exactly the in-flight entries in front of the cursor with their
   stored bytes - under the caller's discipline (Add of elements without packet id, Read with fresh
   non-zero distinct packet ids after the replay).  With it, `op_pre` holds at every reachable state and
   C09_queue_cut_decomposition + the per operation theorems above give (a) and (c) for any prefix. *)
